(* C12 — time-code arithmetic is exact, monotone and invertible.
   Only statements, `exact`, and Print Assumptions.  M = Model/TimeCode.v (transcription of
   ttconv/time_code.py), S = Spec/Smpte12M.v.  All statements are for unbounded n. *)
From TT Require Import Base.Prelude Model.TimeCode Spec.Smpte12M.
From TT Require Import Proofs.C12.Integer Proofs.C12.DropFrame Proofs.C12.Derived.
(* second tie: Gen/TimeCodeSrc.v is regenerated from ttconv/time_code.py by harness/pytrans.py on every run;
   its definitions src_* are written over Base/PyNum.v (exact Python numerics); see the last section *)
From TT Require Import Base.PyNum Gen.TimeCodeSrc Proofs.C12.SrcRefines.

(* frame count -> label -> frame count is the identity *)
Theorem C12_roundtrip_24 : forall n, 0 <= n -> to_frames r24 (from_frames r24 n) = n.  Proof. exact (rt_counts counts24). Qed.
Theorem C12_roundtrip_25 : forall n, 0 <= n -> to_frames r25 (from_frames r25 n) = n.  Proof. exact (rt_counts counts25). Qed.
Theorem C12_roundtrip_30 : forall n, 0 <= n -> to_frames r30 (from_frames r30 n) = n.  Proof. exact (rt_counts counts30). Qed.
Theorem C12_roundtrip_50 : forall n, 0 <= n -> to_frames r50 (from_frames r50 n) = n.  Proof. exact (rt_counts counts50). Qed.
Theorem C12_roundtrip_60 : forall n, 0 <= n -> to_frames r60 (from_frames r60 n) = n.  Proof. exact (rt_counts counts60). Qed.
Theorem C12_roundtrip_2997 : forall n, 0 <= n -> to_frames r2997 (from_frames r2997 n) = n.  Proof. exact (rt_counts counts2997). Qed.
Theorem C12_roundtrip_5994 : forall n, 0 <= n -> to_frames r5994 (from_frames r5994 n) = n.  Proof. exact (rt_counts counts5994). Qed.

(* labels are valid: fields in range, and the addresses SMPTE 12M skips are never produced *)
Theorem C12_valid_24 : forall n, 0 <= n -> valid 24 0 (from_frames r24 n).  Proof. exact (valid_counts counts24). Qed.
Theorem C12_valid_25 : forall n, 0 <= n -> valid 25 0 (from_frames r25 n).  Proof. exact (valid_counts counts25). Qed.
Theorem C12_valid_30 : forall n, 0 <= n -> valid 30 0 (from_frames r30 n).  Proof. exact (valid_counts counts30). Qed.
Theorem C12_valid_50 : forall n, 0 <= n -> valid 50 0 (from_frames r50 n).  Proof. exact (valid_counts counts50). Qed.
Theorem C12_valid_60 : forall n, 0 <= n -> valid 60 0 (from_frames r60 n).  Proof. exact (valid_counts counts60). Qed.
Theorem C12_valid_2997 : forall n, 0 <= n -> valid 30 2 (from_frames r2997 n).  Proof. exact (valid_counts counts2997). Qed.
Theorem C12_valid_5994 : forall n, 0 <= n -> valid 60 4 (from_frames r5994 n).  Proof. exact (valid_counts counts5994). Qed.

(* successive frame counts give exactly the SMPTE counting sequence ... *)
Theorem C12_succ_24 : forall n, 0 <= n -> from_frames r24 (n + 1) = succ 24 0 (from_frames r24 n).  Proof. exact (succ_counts counts24). Qed.
Theorem C12_succ_25 : forall n, 0 <= n -> from_frames r25 (n + 1) = succ 25 0 (from_frames r25 n).  Proof. exact (succ_counts counts25). Qed.
Theorem C12_succ_30 : forall n, 0 <= n -> from_frames r30 (n + 1) = succ 30 0 (from_frames r30 n).  Proof. exact (succ_counts counts30). Qed.
Theorem C12_succ_50 : forall n, 0 <= n -> from_frames r50 (n + 1) = succ 50 0 (from_frames r50 n).  Proof. exact (succ_counts counts50). Qed.
Theorem C12_succ_60 : forall n, 0 <= n -> from_frames r60 (n + 1) = succ 60 0 (from_frames r60 n).  Proof. exact (succ_counts counts60). Qed.
Theorem C12_succ_2997 : forall n, 0 <= n -> from_frames r2997 (n + 1) = succ 30 2 (from_frames r2997 n).  Proof. exact (succ_counts counts2997). Qed.
Theorem C12_succ_5994 : forall n, 0 <= n -> from_frames r5994 (n + 1) = succ 60 4 (from_frames r5994 n).  Proof. exact (succ_counts counts5994). Qed.
(* ... hence equal the n-th element of that sequence ... *)
Theorem C12_label_spec_2997 : forall n : nat, from_frames r2997 (Z.of_nat n) = label_spec 30 2 n.  Proof. exact (spec_counts counts2997). Qed.
Theorem C12_label_spec_5994 : forall n : nat, from_frames r5994 (Z.of_nat n) = label_spec 60 4 n.  Proof. exact (spec_counts counts5994). Qed.
Theorem C12_label_spec_25 : forall n : nat, from_frames r25 (Z.of_nat n) = label_spec 25 0 n.  Proof. exact (spec_counts counts25). Qed.
(* ... which is strictly increasing in display order on valid labels *)
Theorem C12_succ_increasing : forall F D l, 0 <= D < F -> valid F D l -> lt_label l (succ F D l).  Proof. exact succ_lt. Qed.

(* adding k frames equals k single additions; the rational offset is frames / rate exactly
   (stated under the round-trip hypothesis, which holds for the seven rates above) *)
Theorem C12_add_frames : forall r, (forall n, 0 <= n -> to_frames r (from_frames r n) = n) ->
  forall (k : nat) l, 0 <= to_frames r l ->
  iter_n k (add_frames r 1) l = (if (k =? 0)%nat then l else add_frames r (Z.of_nat k) l).
Proof. exact add_frames_iter_gen. Qed.
Theorem C12_offset : forall r, (forall n, 0 <= n -> to_frames r (from_frames r n) = n) ->
  forall n, 0 <= n -> to_temporal_offset r (from_frames r n) = (n * rd r, rn r).
Proof. exact offset_gen. Qed.

(* a time lying exactly on a frame boundary k/fps converts to frame k; in general floor(t*fps) *)
Theorem C12_boundary : forall r k, 0 < rn r -> 0 < rd r -> from_seconds r (k * rd r) (rn r) = from_frames r k.
Proof. exact boundary_gen. Qed.
Theorem C12_from_seconds_floor : forall r sn sd k, 0 < rn r -> 0 < rd r -> 0 < sd ->
  k * (sd * rd r) <= sn * rn r < (k + 1) * (sd * rd r) -> from_seconds r sn sd = from_frames r k.
Proof. exact from_seconds_floor. Qed.

(* parsing a printed time code returns it (hours below 100, the two-digit field of the pattern) *)
Theorem C12_parse_print : forall r F D l, 0 < rn r -> 0 < rd r -> valid F D l -> F <= 100 ->
  (let '(h, _, _, _) := l in h < 100) -> parse_tc (print_tc r l) r = Some (l, r).
Proof. exact parse_print_gen. Qed.

(* millisecond clock times: nearest millisecond, monotone, fields in range, exact on multiples *)
Theorem C12_clock_nearest : forall n d, 0 < d -> 2 * Z.abs (clock_ms n d * d - 1000 * n) <= d.
Proof. exact clock_nearest. Qed.
Theorem C12_clock_monotone : forall n1 d1 n2 d2, 0 < d1 -> 0 < d2 -> n1 * d2 <= n2 * d1 -> clock_ms n1 d1 <= clock_ms n2 d2.
Proof. exact clock_monotone. Qed.
Theorem C12_clock_fields : forall ms, 0 <= ms ->
  let '(h, m, s, f) := clock_fields ms in
  0 <= h /\ 0 <= m < 60 /\ 0 <= s < 60 /\ 0 <= f < 1000 /\ ((h * 60 + m) * 60 + s) * 1000 + f = ms.
Proof. exact clock_fields_range. Qed.
Theorem C12_clock_exact : forall k, clock_ms k 1000 = k.
Proof. exact clock_ms_exact. Qed.

(* the 24000/1001 round trip is a recorded finding: Findings/C12.v *)

(* non-vacuity: the hypotheses are met by concrete, non-trivial values *)
Example C12_example_skip : from_frames r2997 1800 = (0, 1, 0, 2) /\ from_frames r2997 17982 = (0, 10, 0, 0).
Proof. split; reflexivity. Qed.

Print Assumptions C12_roundtrip_24.  Print Assumptions C12_roundtrip_25.  Print Assumptions C12_roundtrip_30.
Print Assumptions C12_roundtrip_50.  Print Assumptions C12_roundtrip_60.  Print Assumptions C12_roundtrip_2997.
Print Assumptions C12_roundtrip_5994.
Print Assumptions C12_valid_24.  Print Assumptions C12_valid_25.  Print Assumptions C12_valid_30.
Print Assumptions C12_valid_50.  Print Assumptions C12_valid_60.  Print Assumptions C12_valid_2997.
Print Assumptions C12_valid_5994.
Print Assumptions C12_succ_24.  Print Assumptions C12_succ_25.  Print Assumptions C12_succ_30.
Print Assumptions C12_succ_50.  Print Assumptions C12_succ_60.  Print Assumptions C12_succ_2997.
Print Assumptions C12_succ_5994.
Print Assumptions C12_label_spec_2997.  Print Assumptions C12_label_spec_5994.  Print Assumptions C12_label_spec_25.
Print Assumptions C12_succ_increasing.
Print Assumptions C12_add_frames.  Print Assumptions C12_offset.
Print Assumptions C12_boundary.  Print Assumptions C12_from_seconds_floor.
Print Assumptions C12_parse_print.
Print Assumptions C12_clock_nearest.  Print Assumptions C12_clock_monotone.  Print Assumptions C12_clock_fields.
Print Assumptions C12_clock_exact.

(* ==================================================================================================
   The model regenerated from the current source refines to M.  inj / inj_frac / inj_rate / inj_tc /
   inj_clock inject M's integers, fractions, rates, labels into the Python values of Base/PyNum.v;
   rate_ok r: numerator and denominator positive and coprime (as fractions.Fraction holds a rate) -
   in particular the 8 rates of the property.  All for unbounded frame counts, labels and rationals.   *)
Theorem C12_source_refines_is_drop_frame : forall r l, rate_ok r -> src_is_drop_frame (inj_tc r l) = is_df r.
Proof. exact src_is_drop_frame_refines. Qed.
Theorem C12_source_refines_to_seconds : forall r h m s f,
  src_hhmmss_to_seconds (inj_tc r (h, m, s, f)) = inj (h * 3600 + m * 60 + s).
Proof. exact src_hhmmss_to_seconds_refines. Qed.
Theorem C12_source_refines_to_frames : forall r l, rate_ok r -> label_nonneg l ->
  src_to_frames (inj_tc r l) = inj (to_frames r l).
Proof. exact src_to_frames_refines. Qed.
Theorem C12_source_refines_to_temporal_offset : forall r l, rate_ok r -> label_nonneg l ->
  src_to_temporal_offset (inj_tc r l) = inj_frac (fst (to_temporal_offset r l)) (snd (to_temporal_offset r l)).
Proof. exact src_to_temporal_offset_refines. Qed.
Theorem C12_source_refines_from_frames : forall r n, rate_ok r ->
  src_from_frames (inj n) (Some (inj_rate r)) = Ok (inj_tc r (from_frames r n)).
Proof. exact src_from_frames_refines. Qed.
Theorem C12_source_refines_from_frames_none : forall x, src_from_frames x None = Raise ValueError.
Proof. exact src_from_frames_none. Qed.
Theorem C12_source_refines_add_frames : forall r k l, rate_ok r -> label_nonneg l ->
  src_add_frames (inj_tc r l) (inj k) = Ok (inj_tc r (add_frames r k l)).
Proof. exact src_add_frames_refines. Qed.
Theorem C12_source_refines_from_seconds : forall r sn sd, rate_ok r -> 0 <= sn -> 0 < sd ->
  src_from_seconds (Exact (inj_frac sn sd)) (Some (inj_rate r)) = Ok (inj_tc r (from_seconds r sn sd)).
Proof. exact src_from_seconds_refines. Qed.
(* a float argument leaves the exact model: the translator emits Unsupported, nothing is claimed *)
Theorem C12_source_refines_from_seconds_float : forall r, exists why, src_from_seconds Inexact (Some (inj_rate r)) = Unsupported why.
Proof. exact src_from_seconds_float. Qed.
Theorem C12_source_refines_clock_from_seconds : forall n d, 0 < d ->
  src_clock_from_seconds (inj_frac n d) =
  match clock_from_seconds n d with Some l => Ok (inj_clock l) | None => Raise ValueError end.
Proof. exact src_clock_from_seconds_refines. Qed.
(* the f-strings of the two __str__ methods are the text functions of M (fields below 10^20, the fuel of M's printer) *)
Theorem C12_source_refines_tc_str : forall r l, rate_ok r -> label_printable l -> src_tc_str (inj_tc r l) = print_tc r l.
Proof. exact src_tc_str_refines. Qed.
Theorem C12_source_refines_clock_str : forall sep l, label_printable l ->
  src_clock_str (ClockTime_set_ms_separator (inj_clock l) [sep]) = print_clock sep l.
Proof. exact src_clock_str_refines. Qed.

(* the headline theorems restated about the regenerated model; smpte_rates = the 7 rates with their (F, D);
   src_frames_label r n l := src_from_frames (inj n) (Some (inj_rate r)) = Ok (inj_tc r l) *)
Theorem C12_src_roundtrip : forall r F D n, In (r, F, D) smpte_rates -> 0 <= n ->
  exists tc, src_from_frames (inj n) (Some (inj_rate r)) = Ok tc /\ src_to_frames tc = inj n.
Proof. exact src_roundtrip. Qed.
Theorem C12_src_valid : forall r F D n, In (r, F, D) smpte_rates -> 0 <= n ->
  exists l, src_frames_label r n l /\ valid F D l.
Proof. exact src_valid. Qed.
Theorem C12_src_succ : forall r F D n, In (r, F, D) smpte_rates -> 0 <= n ->
  exists l, src_frames_label r n l /\ src_frames_label r (n + 1) (succ F D l).
Proof. exact src_succ. Qed.
Theorem C12_src_monotone : forall r F D n m, In (r, F, D) smpte_rates -> 0 <= n < m ->
  exists l l', src_frames_label r n l /\ src_frames_label r m l' /\ lt_label l l'.
Proof. exact src_monotone. Qed.
Theorem C12_src_boundary : forall r k, rate_ok r -> 0 <= k ->
  src_from_seconds (Exact (inj_frac (k * rd r) (rn r))) (Some (inj_rate r)) = src_from_frames (inj k) (Some (inj_rate r)).
Proof. exact src_boundary. Qed.
Theorem C12_src_clock_nearest : forall n d, 0 <= n -> 0 < d ->
  exists h m s ms, src_clock_from_seconds (inj_frac n d) = Ok (ClockTime_new (inj h) (inj m) (inj s) (inj ms)) /\
    0 <= h /\ 0 <= m < 60 /\ 0 <= s < 60 /\ 0 <= ms < 1000 /\
    2 * Z.abs ((((h * 60 + m) * 60 + s) * 1000 + ms) * d - 1000 * n) <= d.
Proof. exact src_clock_nearest. Qed.

(* non-vacuity: the 8 rates satisfy rate_ok; concrete values through the regenerated model *)
Example C12_src_rates_ok : rate_ok r24 /\ rate_ok r25 /\ rate_ok r30 /\ rate_ok r50 /\ rate_ok r60 /\
                           rate_ok r2997 /\ rate_ok r5994 /\ rate_ok r23976.
Proof. exact rate_ok_8. Qed.
Example C12_src_example_skip :
  src_frames_label r2997 1800 (0, 1, 0, 2) /\ src_frames_label r2997 17982 (0, 10, 0, 0) /\ In (r5994, 60, 4) smpte_rates.
Proof. exact src_example_skip. Qed.

Print Assumptions C12_source_refines_is_drop_frame.  Print Assumptions C12_source_refines_to_seconds.
Print Assumptions C12_source_refines_to_frames.  Print Assumptions C12_source_refines_to_temporal_offset.
Print Assumptions C12_source_refines_from_frames.  Print Assumptions C12_source_refines_from_frames_none.
Print Assumptions C12_source_refines_add_frames.  Print Assumptions C12_source_refines_from_seconds.
Print Assumptions C12_source_refines_from_seconds_float.  Print Assumptions C12_source_refines_clock_from_seconds.
Print Assumptions C12_source_refines_tc_str.  Print Assumptions C12_source_refines_clock_str.
Print Assumptions C12_src_roundtrip.  Print Assumptions C12_src_valid.  Print Assumptions C12_src_succ.
Print Assumptions C12_src_monotone.  Print Assumptions C12_src_boundary.  Print Assumptions C12_src_clock_nearest.
