(* C18 — readers fail only in documented ways: theorems about the guard models (Model/ReaderGuards.v) judged by
   Spec/RobustSpec.v.  Proofs: Proofs/C18/*.v.  Refutations of the unconditional statements that remain false: Findings/C18.v.

   Scope: these theorems establish totality OF THE TRANSCRIBED GUARDS ONLY.  SccLine.process, stl tf.to_model, html.parser
   (which turns SRT cue text into the callback sequence) and the WebVTT tokenizer are oracles (their observed results are fed to
   the models by the correspondence check); stack depth, memory, and termination of expat / html.parser are not modelled; that
   the transcription marks every Python failure point is enforced by the transcription rule and audited by the outcome-class
   correspondence, not proved.

   Full statement, one per reader guard:
     forall input oracle, (no answer of the oracle is an internal error) -> reader_ok (obs_of_outcome (guard oracle input)) = true
   It now holds for all four line-level guards (C18_srt_total, C18_vtt_total, C18_scc_total, C18_stl_total) and, with the oracle
   of the SRT reader replaced by the transcribed cue-text cursor, for the SRT reader as a whole modulo html.parser
   (C18_srt_composed_total).  The one executable trigger left is in the WebVTT cue-text cursor: a <ruby> start tag
   (finding vtt-ruby-structure).  The triggers of vtt-empty-file, vtt-cue-without-payload, stl-bad-tcp, stl-bad-mnr,
   srt-stray-end-tag, vtt-rt-outside-ruby, stl-zero-block-count, stl-cumulative-block-first, vtt-stray-end-tag,
   vtt-percentage-overflow, srt-font-color-without-value and stl-zero-row-count went with the repairs of the code. *)
From TT Require Import Base.Prelude Model.Outcome Gen.GuardTables Model.ReaderGuards Spec.RobustSpec Model.GuardCueCases.
From TT Require Import Proofs.C18.SpecLink Proofs.C18.Srt Proofs.C18.Vtt Proofs.C18.Scc Proofs.C18.Stl Proofs.C18.Statements Proofs.C18.CueText.

(* ---- 1. SRT --------------------------------------------------------------------------------------------------- *)
(* every internal error of the SRT reader guard is one the cue-text parser raised: the line machine itself (which
   variables are bound in COUNTER / TC / TEXT / TEXT_MORE, what the terminator does in each state) adds none *)
Theorem C18_srt_internal_origin : forall oracle content k,
  srt_run oracle content = Internal k -> In (SubInternal k) oracle.
Proof. exact srt_run_internal. Qed.
Print Assumptions C18_srt_internal_origin.

Theorem C18_srt_total : forall oracle content,
  (forall r, In r oracle -> sub_is_internal r = false) ->
  reader_ok (obs_of_outcome (srt_run oracle content)) = true.
Proof. exact srt_total_ok. Qed.
Print Assumptions C18_srt_total.

(* the same over every sequence of line classifications, i.e. independently of the regular expressions *)
Theorem C18_srt_total_any_classification : forall oracle items k,
  srt_views true oracle items = Internal k -> In (SubInternal k) oracle.
Proof. exact srt_views_internal. Qed.
Print Assumptions C18_srt_total_any_classification.

(* _TextParser on EVERY callback sequence — unmatched, mismatched and surplus end tags (repository commit 818e997), <font> with
   a color attribute that is absent, valueless (lab commit 02aa1c0), rejected or accepted: no internal error *)
Theorem C18_srt_cursor_total : forall attached events,
  reader_ok (obs_of_outcome (srt_cursor_run attached events)) = true.
Proof. exact srt_cursor_total_ok. Qed.
Print Assumptions C18_srt_cursor_total.

(* ... because the cursor never leaves the paragraph: after any callbacks that do not end the parse it is the paragraph or a
   span below it, as deep as there are open tags *)
Theorem C18_srt_cursor_below_paragraph : forall attached events c,
  srt_cursor_state attached {| sc_parent := CP; sc_open := [] |} events = Some c ->
  sc_parent c = match length (sc_open c) with O => CP | S d => CSpan d end.
Proof. exact srt_cursor_below_paragraph. Qed.
Print Assumptions C18_srt_cursor_below_paragraph.

(* line machine and cursor together: whatever the text and whatever callback sequences html.parser produces for the cues, the SRT
   reader guard does not end with an internal error.  Remaining oracle: html.parser itself (finding srt-markup-declaration is an
   AssertionError raised inside it) and the classification of a color value by utils.parse_color *)
Theorem C18_srt_composed_total : forall cues content,
  reader_ok (obs_of_outcome (srt_run (srt_cue_oracle cues) content)) = true.
Proof. exact srt_composed_total_ok. Qed.
Print Assumptions C18_srt_composed_total.

(* the time-code line after repository commit 4d63802: an hour field of ANY width of two or more ASCII digits is matched (the SRT writer
   prints as many digits as the hours need), whatever follows *)
Theorem C18_srt_hour_field_any_width : forall hh m1 m2 s1 s2 f1 f2 f3 rest,
  forallb ascii_digit hh = true -> (2 <= length hh)%nat -> forallb ascii_digit [m1; m2; s1; s2; f1; f2; f3] = true ->
  srt_ts (hh ++ 58 :: m1 :: m2 :: 58 :: s1 :: s2 :: 44 :: f1 :: f2 :: f3 :: rest) = Some (Z.of_nat (length hh), rest).
Proof. exact srt_ts_any_hours. Qed.
Print Assumptions C18_srt_hour_field_any_width.

(* ... and where a format error (a documented outcome) of the SRT guard comes from: the cue-text parser (a colour parse_color rejects), or
   int() of an hour field with more digits than the interpreter converts — which needs a line longer than that limit *)
Theorem C18_srt_format_error_origin : forall oracle content k,
  srt_run oracle content = FormatError k ->
  In (SubFormat k) oracle \/ (k = ValueErr /\ existsb (fun l => sv_tc_long (srt_classify l)) (readlines content) = true).
Proof. exact srt_run_format. Qed.
Print Assumptions C18_srt_format_error_origin.

Theorem C18_srt_format_error_short_lines : forall oracle content k,
  (forall l, In l (readlines content) -> Z.of_nat (length l) <= int_max_str_digits) ->
  srt_run oracle content = FormatError k -> In (SubFormat k) oracle.
Proof. exact srt_run_format_short. Qed.
Print Assumptions C18_srt_format_error_short_lines.

(* ---- 2. WebVTT ------------------------------------------------------------------------------------------------ *)
(* on every text, the empty one included, with any cue settings (lab commit cb365b8 removed the last trigger, a percentage
   that overflows a float) *)
Theorem C18_vtt_internal_origin : forall oracle content k,
  vtt_run oracle content = Internal k -> In (SubInternal k) oracle.
Proof. exact vtt_run_internal. Qed.
Print Assumptions C18_vtt_internal_origin.

Theorem C18_vtt_total : forall oracle content,
  (forall r, In r oracle -> sub_is_internal r = false) ->
  reader_ok (obs_of_outcome (vtt_run oracle content)) = true.
Proof. exact vtt_total_ok. Qed.
Print Assumptions C18_vtt_total.

Theorem C18_vtt_total_any_classification : forall oracle items k,
  vtt_views oracle items = Internal k -> In (SubInternal k) oracle.
Proof. exact vtt_views_internal. Qed.
Print Assumptions C18_vtt_total_any_classification.

(* _TextCueParser on every token sequence without a <ruby> start tag — unmatched, mismatched and surplus end tags (lab commit
   654d3f5), <rt> anywhere (commit 15db449), timestamp tags (commit 8eaaab8): no internal error.  With <ruby> the unconditional
   statement is false (finding vtt-ruby-structure, Findings/C18.v) *)
Theorem C18_vtt_cursor_partial : forall attached events,
  vtt_has_ruby events = false ->
  reader_ok (obs_of_outcome (vtt_cursor_run attached events)) = true.
Proof. exact vtt_cursor_partial_ok. Qed.
Print Assumptions C18_vtt_cursor_partial.

(* for EVERY token sequence, ruby included: while the parse goes on the cursor is the paragraph or below it — never None, the
   div or the body (what finding vtt-stray-end-tag was about) *)
Theorem C18_vtt_cursor_never_above_paragraph : forall (attached : bool) events c,
  let tail : list vkind := if attached then [KDiv; KBody] else [] in
  vtt_cursor_state {| c_path := KP :: tail; c_ruby := None; c_open := [] |} events = Some c ->
  exists pre, c_path c = pre ++ KP :: tail.
Proof. exact vtt_cursor_never_above_p. Qed.
Print Assumptions C18_vtt_cursor_never_above_paragraph.

(* the exact trigger of finding vtt-ruby-structure on a cue TEXT (tokenizer included) is C11's model of _parse_cue_text, which the check
   evaluates on every cue text of a run (Model/GuardCueCases.v cue_class): for every text it returns (0), raises TypeError (21) or raises
   RuntimeError (29) — C11_cue_text_exceptions in C18's codes.  Any other exception of the code, and a TypeError / RuntimeError on a text for
   which cue_class computes something else, is therefore a violation, ruby or not *)
Theorem C18_vtt_cue_text_classes : forall cue_text, cue_class cue_text = 0 \/ cue_class cue_text = 21 \/ cue_class cue_text = 29.
Proof. exact cue_class_values. Qed.
Print Assumptions C18_vtt_cue_text_classes.

(* line machine and cursor together, for files whose cues have no <ruby> tag; remaining oracle: the tokenizer *)
Theorem C18_vtt_composed_partial : forall cues content,
  (forall c, In c cues -> vtt_has_ruby (snd c) = false) ->
  reader_ok (obs_of_outcome (vtt_run (vtt_cue_oracle cues) content)) = true.
Proof. exact vtt_composed_partial_ok. Qed.
Print Assumptions C18_vtt_composed_partial.

(* ---- 3. SCC --------------------------------------------------------------------------------------------------- *)
(* SccLine.from_str / SccWord.from_str on every line of every text: None, a line, or ValueError — never IndexError,
   although SccWord.from_str alone can raise it (Findings/C18.v C18_scc_word_refuted).  Remaining oracle: SccLine.process *)
Theorem C18_scc_internal_origin : forall oracle content k,
  scc_run oracle content = Internal k -> In (SubInternal k) oracle.
Proof. exact scc_run_internal. Qed.
Print Assumptions C18_scc_internal_origin.

Theorem C18_scc_total : forall oracle content,
  (forall r, In r oracle -> sub_is_internal r = false) ->
  reader_ok (obs_of_outcome (scc_run oracle content)) = true.
Proof. exact scc_total_ok. Qed.
Print Assumptions C18_scc_total.

(* ---- 4. EBU STL ----------------------------------------------------------------------------------------------- *)
(* over byte lists of any length and every reader configuration: struct.error for wrong sizes, otherwise no internal error
   unless tf.to_model (the remaining oracle) raises one.  The three triggers went with repository commits c08d0ef, 8f4f9e5 and
   lab commit 7e042d3 *)
Theorem C18_stl_internal_origin : forall cfg oracle file k,
  stl_run cfg oracle file = Internal k -> In (SubInternal k) oracle.
Proof. exact stl_run_internal. Qed.
Print Assumptions C18_stl_internal_origin.

Theorem C18_stl_total : forall cfg oracle file,
  (forall r, In r oracle -> sub_is_internal r = false) ->
  reader_ok (obs_of_outcome (stl_run cfg oracle file)) = true.
Proof. exact stl_total_ok. Qed.
Print Assumptions C18_stl_total.

(* a file shorter than the GSI block is a struct.error under every configuration *)
Theorem C18_stl_short_file : forall cfg oracle file,
  (length file < 1024)%nat -> stl_run cfg oracle file = FormatError StructErr.
Proof. exact stl_short_header. Qed.
Print Assumptions C18_stl_short_file.

(* ---- S and the guard outcomes --------------------------------------------------------------------------------- *)
Theorem C18_spec_iff_not_internal : forall o, reader_ok (obs_of_outcome o) = negb (is_internal o).
Proof. exact reader_ok_obs. Qed.
Print Assumptions C18_spec_iff_not_internal.

(* ---- the hypotheses are satisfiable (and the conclusions are about real work) -------------------------------------- *)
(* "WEBVTT\n\nNOTE x\n\n1\n00:01.000 --> 00:02.000 size:50%\nhello\n\n" *)
Example C18_vtt_total_applies :
  let content := [87;69;66;86;84;84;10;10;78;79;84;69;32;120;10;10;49;10;48;48;58;48;49;46;48;48;48;32;45;45;62;32;48;48;58;48;50;46;48;48;48;32;115;105;122;101;58;53;48;37;10;104;101;108;108;111;10;10] in
  vtt_run [] content = OkDoc /\ vtt_calls [] content = [true] /\ vtt_run [] [] = OkDoc.
Proof. repeat split; vm_compute; reflexivity. Qed.

(* "1\n00:00:01,000 --> 00:00:02,000\nhello\n\n2\n" : one cue parsed, then the end of input in state TC; a file whose counter
   line is missing returns None *)
Example C18_srt_runs :
  srt_run [] [49;10;48;48;58;48;48;58;48;49;44;48;48;48;32;45;45;62;32;48;48;58;48;48;58;48;50;44;48;48;48;10;104;101;108;108;111;10;10;50;10] = OkDoc
  /\ srt_calls [] [49;10;48;48;58;48;48;58;48;49;44;48;48;48;32;45;45;62;32;48;48;58;48;48;58;48;50;44;48;48;48;10;104;101;108;108;111;10;10;50;10] = [true]
  /\ srt_run [] [104; 105; 10] = OkNone.
Proof. repeat split; vm_compute; reflexivity. Qed.

(* "1000:00:00,000 --> 12345:00:01,000\n" is a time-code line; with an hour field of 4301 digits the reader raises ValueError (int()), with
   4300 digits it does not *)
Definition C18_tc_line (h : text) : text :=
  h ++ [58;48;48;58;48;48;44;48;48;48;32;45;45;62;32;49;50;51;52;53;58;48;48;58;48;49;44;48;48;48;10].
Example C18_srt_hour_widths_classified :
  srt_classify (C18_tc_line [49;48;48;48]) = {| sv_blank := false; sv_counter := true; sv_tc := true; sv_tc_long := false |}.
Proof. vm_compute. reflexivity. Qed.
Example C18_srt_hour_4301_digits : srt_run [] ([49;10] ++ C18_tc_line (repeat 49 4301) ++ [120;10]) = FormatError ValueErr.
Proof. exact (srt_run_hour_width (repeat 49 4301) (forallb_repeat ascii_digit 49 4301 eq_refl) (le_n_S _ _ (le_n_S _ _ (Nat.le_0_l _)))). Qed.
Example C18_srt_hour_4300_digits : srt_run [] ([49;10] ++ C18_tc_line (repeat 49 4300) ++ [120;10]) = OkDoc.
Proof. exact (srt_run_hour_width (repeat 49 4300) (forallb_repeat ascii_digit 49 4300 eq_refl) (le_n_S _ _ (le_n_S _ _ (Nat.le_0_l _)))). Qed.
(* the hypothesis of C18_srt_format_error_short_lines is satisfiable *)
Example C18_srt_short_lines_applies :
  forall l, In l (readlines ([49;10] ++ C18_tc_line [49;48;48;48])) -> Z.of_nat (length l) <= int_max_str_digits.
Proof. intros l H. vm_compute in H. destruct H as [H|[H|[]]]; subst; vm_compute; discriminate. Qed.

(* the predicate of finding vtt-ruby-structure takes its three values: <b><ruby>, <ruby><b>, and a ruby whose annotation holds formatting
   nested two deep, followed by more base text and another annotation ("<ruby>a<rt><c><i>x</i></c></rt>b<rt>y</rt></ruby>") *)
Example C18_vtt_cue_text_classes_reached :
  cue_class [60;98;62;60;114;117;98;121;62] = 21
  /\ cue_class [60;114;117;98;121;62;60;98;62] = 29
  /\ cue_class [60;114;117;98;121;62;97;60;114;116;62;60;99;62;60;105;62;120;60;47;105;62;60;47;99;62;60;47;114;116;62;98;60;114;116;62;121;60;47;114;116;62;60;47;114;117;98;121;62] = 0.
Proof. exact cue_class_examples. Qed.

(* "Scenarist_SCC V1.0\n\n00:00:00:00\t9420 9470 c1c2\n" is read; "00:00:00:00\t94zz\n" is a ValueError *)
Example C18_scc_runs :
  scc_run [] [83;99;101;110;97;114;105;115;116;95;83;67;67;32;86;49;46;48;10;10;48;48;58;48;48;58;48;48;58;48;48;9;57;52;50;48;32;57;52;55;48;32;99;49;99;50;10] = OkDoc
  /\ scc_run [] [48;48;58;48;48;58;48;48;58;48;48;9;57;52;122;122;10] = FormatError ValueErr.
Proof. split; vm_compute; reflexivity. Qed.

(* a one-subtitle STL file under the default configuration; a file cut inside a TTI block is a struct.error; MNR = "00" under
   max_row_count = "MNR" is read with the default row count *)
Example C18_stl_total_applies :
  let gsi := repeat 32 3 ++ [83;84;76;50;53;46;48;49] ++ repeat 32 1013 in
  let block := [0; 1; 0; 255; 0; 0; 0; 5; 0; 0; 0; 6; 0; 20; 2; 0] ++ repeat 143 112 in
  let cfg := {| cfg_start := StartNone; cfg_rows := RowsNone |} in
  stl_run cfg [] (gsi ++ block) = OkDoc /\ stl_run cfg [] (gsi ++ firstn 100 block) = FormatError StructErr
  /\ stl_run {| cfg_start := StartNone; cfg_rows := RowsMNR |} [] (firstn 253 gsi ++ [48; 48] ++ skipn 255 gsi ++ block) = OkDoc.
Proof. repeat split; vm_compute; reflexivity. Qed.


(* the cursor theorems are about real work: "<b><i>x</b>y</i></i>" (mismatched, then surplus end tags) and "<font color>z" are parsed
   to the end; a WebVTT cue "a</b><c>b<rt>c</rt></c></v>d" too; the composed oracle of a cue with a bad colour is a ValueError *)
Example C18_cursor_theorems_apply :
  srt_cursor_run true [EvStart 0 None; EvStart 1 None; EvData; EvEnd 0; EvData; EvEnd 1; EvEnd 1; EvStart 2 (Some ColorNoValue); EvData] = OkDoc
  /\ vtt_has_ruby [TData 0; TEnd 0; TStartSpan 1; TData 0; TStartRt 2; TData 0; TEnd 2; TEnd 1; TEnd 3; TData 0] = false
  /\ vtt_cursor_run true [TData 0; TEnd 0; TStartSpan 1; TData 0; TStartRt 2; TData 0; TEnd 2; TEnd 1; TEnd 3; TData 0] = OkDoc
  /\ srt_cue_oracle [(true, [EvStart 0 (Some ColorBad)])] = [SubFormat ValueErr].
Proof. repeat split; reflexivity. Qed.

(* the hypothesis of C18_vtt_composed_partial is satisfiable, and the composed guard does real work: the cue of
   "WEBVTT\n\n00:01.000 --> 00:02.000\na</b>c\n" handed to the cursor as [text; </b>; text] *)
Example C18_vtt_composed_applies :
  let cues := [(true, [TData 0; TEnd 0; TData 0])] in
  let content := [87;69;66;86;84;84;10;10;48;48;58;48;49;46;48;48;48;32;45;45;62;32;48;48;58;48;50;46;48;48;48;10;97;60;47;98;62;99;10] in
  (forall c, In c cues -> vtt_has_ruby (snd c) = false) /\ vtt_cue_oracle cues = [SubOk]
  /\ vtt_run (vtt_cue_oracle cues) content = OkDoc /\ vtt_calls (vtt_cue_oracle cues) content = [true].
Proof. repeat split; try (vm_compute; reflexivity). intros c [E|[]]; subst; reflexivity. Qed.

(* ... and the premise of C18_vtt_cursor_never_above_paragraph too: after "<ruby>a<rt>b</ruby></i></ruby>" the cursor is the paragraph *)
Example C18_vtt_never_above_applies :
  exists c, vtt_cursor_state {| c_path := [KP; KDiv; KBody]; c_ruby := None; c_open := [] |}
              [TStartRuby 0; TData 0; TStartRt 1; TData 0; TEnd 0; TEnd 2; TEnd 0] = Some c /\ c_path c = [KP; KDiv; KBody].
Proof. eexists. split; reflexivity. Qed.

(* ---- 6. The complete reader and writer models of the other properties ------------------------------------------------------
   The guard models above treat the cue-text parsers, SccLine.process and tf.to_model as oracles.  The complete transcriptions built
   for C04, C05, C08, C09, C10 and C11 (each tied to the code by its own property's correspondence run) have no oracle; what their
   theorems say about failure is restated here (Proofs/C18/FullModels.v holds nothing but the references). *)
From TT Require Proofs.C18.FullModels.
From TT Require Base.SrtTypes Model.SrtReader Model.VttReader Model.StlDatafile Model.SccReader Base.SccDoc Base.ImscXml Model.ImscTiming Model.ImscWrite.

(* SRT: for every text, through a newline-translating file or a raw stream, nothing but ValueError is raised *)
Theorem C18_full_srt_reader : forall content,
  Proofs.C10.Outcomes.value_error_only (Model.SrtReader.to_model content) /\
  Proofs.C10.Outcomes.value_error_only (Model.SrtReader.to_model_file content) /\
  Proofs.C10.Outcomes.value_error_only (Model.SrtReader.read_cues content) /\
  Proofs.C10.Outcomes.value_error_only (Model.SrtReader.read_cues_file content).
Proof. exact Proofs.C18.FullModels.srt_reader_only_value_error. Qed.
Print Assumptions C18_full_srt_reader.

(* WebVTT: for every file text the only exceptions are TypeError and RuntimeError, i.e. the recorded finding vtt-ruby-structure *)
Theorem C18_full_vtt_reader : forall file e,
  Model.VttReader.to_model file = Model.VttReader.Raised e -> e = Model.VttReader.ExType \/ e = Model.VttReader.ExRuntime.
Proof. exact Proofs.C18.FullModels.vtt_reader_exceptions. Qed.
Print Assumptions C18_full_vtt_reader.

(* EBU STL: for every byte string and configuration the only errors are struct.error and ValueError *)
Theorem C18_full_stl_reader : forall file cfg e,
  Model.StlDatafile.reader_model file cfg = Model.StlDatafile.Err e -> e = Model.StlDatafile.EStruct \/ e = Model.StlDatafile.EValue.
Proof. exact Proofs.C18.FullModels.stl_reader_errors. Qed.
Print Assumptions C18_full_stl_reader.

(* SCC: to_model raises iff some line holds a malformed word *)
Theorem C18_full_scc_reader : forall talign lines,
  Model.SccReader.to_model talign lines = Base.SccDoc.DocErr <-> exists l, List.In l lines /\ Model.SccReader.from_str l = Model.SccReader.LErr.
Proof. exact Proofs.C18.FullModels.scc_reader_raises_iff. Qed.
Print Assumptions C18_full_scc_reader.

(* IMSC (from the ElementTree on): every tree is read into a document *)
Theorem C18_full_imsc_reader : forall tm vl x, exists d, Model.ImscTiming.read_tt tm vl x = Model.ImscTiming.DOk d.
Proof. exact Proofs.C18.FullModels.imsc_reader_total. Qed.
Print Assumptions C18_full_imsc_reader.
