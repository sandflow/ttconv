(* C08 — the SCC reader shows what a CEA-608 decoder displays, when it displays it.
   Only statements, `exact`, and Print Assumptions.  M = Model/SccReader.v (transcription of ttconv/scc/line.py,
   context.py, caption_paragraph.py, caption_line.py, caption_text.py, reader.py, utils.py over the C17 word decoder
   and the C12 time-code arithmetic), S = Spec/Cea608Screen.v (reference CEA-608 decoder).  All statements are for
   every list of lines / every state and word; none is restricted to the protocol grammars.

   What is proved here: the time side of the property (frame grid, not before the line, inside the line's
   transmission window, frames per word, no negative time), that no word raises (to_model raises exactly on a malformed
   word of a line; since the repair of backspace / tab offset / extended character without a caption being processed),
   the channel filter (full statement since the repair of previous_word) and the
   single action of doubled control codes; the protocol skeleton (pop-on loading invisible before EOC, EOC / EDM stamps,
   roll-up depth, text accumulation, backspace / extended characters on the model); and, for the pop-on protocol, the
   display half itself:
     C08_popon_word / C08_popon_memories   for every stream of the pop-on class (executable membership test `pop_word`,
         Proofs/C08/ScreenPopOn.v) the reader's buffered caption shows the reference decoder's non-displayed memory and
         its displayed caption the displayed memory, cell by cell (character, colour, italics, underline, row, column);
     C08_popon_display   for every file of that class without doubled codes, for every text_align, at every frame that is
         not the frame right after an EDM, `rows_of_doc (to_model ..)` at the instant the frame starts equals
         `screen .. f` of Spec/Cea608Screen.v (vrows_eqb: rows, characters, colour, italics, underline).
     C08_rollup_word / C08_rollup_memories   for roll-up streams with base row 15 and a fixed depth (class `ru_word`), after every
         word the displayed caption shows the decoder's displayed memory cell by cell (contents, not times).
   What is NOT proved: the times of roll-up streams and everything about paint-on streams (false at word granularity: recorded
   findings text-shown-from-paragraph-begin, rollup-base-row-forced-15, painton-pac-clears-row, region-above-attached), pop-on
   streams outside the class (PACs returning to a row that already holds text - recorded findings pac-left-of-row-content and
   overwrite-keeps-element-style -, BS, background attribute codes, CR in pop-on mode - recorded finding
   cr-erases-non-rollup-caption), and the timing of streams with doubled codes (recorded finding doubled-code-no-frame:
   C08_popon_memories still gives the contents).  Those are compared by the correspondence run only (harness/c08.py,
   oracle 2; the run also checks that every generated stream of the theorem's class is accepted by the strict oracle). *)
From Coq Require Import QArith.
From TT Require Import Base.Prelude Base.SccTypes Base.SccDoc Model.SccWord Model.TimeCode Model.SccReader.
From TT Require Import Spec.Cea608Screen.
From TT Require Import Proofs.C08.Stamps Proofs.C08.Words Proofs.C08.Protocol Proofs.C08.Text.
From TT Require Import Proofs.C08.ScreenMem Proofs.C08.ScreenLine Proofs.C08.ScreenPopOn Proofs.C08.ScreenFile Proofs.C08.ScreenFinal.
From TT Require Import Proofs.C08.ScreenRollUp Proofs.C08.ScreenRollStep.
Open Scope Z_scope.

(* every time code stored in a pushed paragraph (begin, end, span begins) is the time code of one of the file's
   lines after k additions of one frame, 1 <= k <= number of words + 1 *)
Theorem C08_stamps : forall talign lines, C_ok (line_stamp lines) (run_lines talign lines).
Proof. exact stamps_run. Qed.

(* in the document: begin and end of every paragraph are frame T+k of a line of the file at that line's rate
   (30 for ':' time codes, 30000/1001 for ';'), 1 <= k <= len+1; so is the absolute begin g of every span; a paint-on
   span begin is written relative to the paragraph's begin b as max(g - b, 0) (`span_ok`; since the repair of
   to_paragraph: text painted before its paragraph begins is shown from the beginning of the paragraph) *)
Theorem C08_times_on_line_grid : forall talign lines rs ps, to_model talign lines = Doc rs ps ->
  forall p, In p ps ->
    (forall b, q_begin p = Some b -> on_line_grid lines b) /\
    (forall e, q_end p = Some e -> on_line_grid lines e) /\
    exists paint, Forall (span_ok lines (q_begin p) paint) (q_children p).
Proof. exact doc_times. Qed.

(* no time of the document is negative: begin and end of every paragraph are positive, every span begin (absolute or
   relative to its paragraph) is >= 0 - full statement since the repair of the paint-on span begin (it was false: a
   paint-on caption flipped to the buffer and back by two EOCs got spans with a negative begin) *)
Theorem C08_times_never_negative : forall talign lines rs ps, to_model talign lines = Doc rs ps ->
  forall p, In p ps ->
    (forall b, q_begin p = Some b -> (0 < b)%Q) /\ (forall e, q_end p = Some e -> (0 < e)%Q) /\
    Forall span_nonneg (q_children p).
Proof. exact doc_times_nonneg. Qed.
(* the clamp is exact: max(x, 0) is x when x >= 0 and 0 otherwise *)
Theorem C08_relative_begin_clamped : forall x, ((0 <= x)%Q -> qmax0 x = x) /\ ((x < 0)%Q -> qmax0 x = 0%Q).
Proof. exact (fun x => conj (qmax0_pos x) (qmax0_neg x)). Qed.

(* no word raises: a word never changes the exception flag (backspace, tab offset and extended character are ignored /
   reduced to the character when no caption is being processed, since the repair of context.py) ... *)
Theorem C08_no_word_raises : forall c w, c_err (step c w) = c_err c.
Proof. exact noerr_step. Qed.
(* ... so to_model raises exactly when a line of the file holds a malformed word (SccWord.from_str ValueError) *)
Theorem C08_raises_iff_malformed_word : forall talign lines,
  to_model talign lines = DocErr <-> exists l, In l lines /\ from_str l = LErr.
Proof. exact to_model_raises_iff. Qed.
(* when no caption is being processed (roll-up or paint-on style and nothing displayed) backspace and tab offsets do nothing *)
Theorem C08_code_without_caption_ignored : forall c, cap_to_process c = None ->
  backspace c = c /\ (forall k, k = kTO1 \/ k = kTO2 \/ k = kTO3 -> process_control c k = c) /\ process_control c kBS = c.
Proof. exact no_caption_ignored. Qed.

(* ... hence an exact multiple of the frame duration ... *)
Theorem C08_times_on_grid : forall lines q, on_line_grid lines q -> exists n : Z, q = Qmake n 30 \/ q = Qmake (n * 1001) 30000.
Proof. exact grid_multiple. Qed.
(* ... later than the line's own time code and at most one frame after the line's last word *)
Theorem C08_not_before_line : forall lines q, on_line_grid lines q ->
  exists line lab r ws, In line lines /\ from_str line = LOk (lab, r) ws /\
    (tc_offset (lab, r) < q)%Q /\ (q <= Qmake ((to_frames r lab + zlen ws + 1) * rd r) (Z.to_pos (rn r)))%Q.
Proof. exact not_before_line. Qed.

(* frames per word: a word advances the line's time code by exactly one frame, except that a word dropped as the
   second copy of a doubled control code advances it by none (the recorded finding doubled-code-no-frame) *)
Theorem C08_frames_per_word : forall c w, c_tc (step c w) = if c_err c || is_dup c w then c_tc c else tc_next (c_tc c).
Proof. exact tc_step. Qed.
(* within the transmission window of the triggering word — partial: on a run without dropped copies (trigger
   `run_clean c ws = false`), the stamp available to the i-th word is exactly T+i+1, inside [T+i, T+i+2];
   the full statement (every run) is refuted in Findings/C08.v (C08_doubled_code_no_frame_refuted) *)
Theorem C08_within_word_window_partial : forall ws c, run_clean c ws = true ->
  c_tc (fold_left step ws c) = iter_n (length ws) tc_next (c_tc c).
Proof. exact frames_clean. Qed.
(* in every run the stamps are never late: at most one frame per word *)
Theorem C08_stamp_never_late : forall ws c, exists k, (k <= length ws)%nat /\ c_tc (fold_left step ws c) = iter_n k tc_next (c_tc c).
Proof. exact frames_at_most. Qed.

(* channel filter: a (non-empty) block of null padding, control-range words not attributed to channel 1 and characters
   received while another channel is addressed changes nothing but the elapsed frames and the channel being addressed,
   and makes the reader forget previous_word (only the first word of the block could itself be taken for a second copy) ... *)
Theorem C08_channel_block : forall w b c, c_err c = false -> is_dup c w = false -> block_ok (c_chan c) (w :: b) = true ->
  fold_left step (w :: b) c = skip_to c (iter_n (length (w :: b)) tc_next (c_tc c)) (chan_end (c_chan c) (w :: b)).
Proof. exact channel_block. Qed.
(* ... and the channel-1 code after it is processed as if only the frames had elapsed - full statement since the repair
   of previous-word-survives-padding (fix: previous_word reset by padding and other-channel words): whatever the code
   is, also when it repeats the code received before the block *)
Theorem C08_channel_filter : forall x b w c, c_err c = false -> is_dup c x = false ->
  block_ok (c_chan c) (x :: b) = true -> ch1_code w = true ->
  fold_left step ((x :: b) ++ [w]) c = step (with_prev (with_tc c (iter_n (length (x :: b)) tc_next (c_tc c))) None) w.
Proof. exact channel_filter. Qed.

(* doubled control codes act once: the second copy of a channel-1 control-range word only clears previous_word;
   it also consumes no frame (which is the recorded finding, Findings/C08.v C08_doubled_frame_refuted).  Full statement
   since the repair of backspace / tab offset: the hypothesis that the first copy raises no exception is gone *)
Theorem C08_doubled_once : forall c w, c_err c = false -> is_dup c w = false -> ch1_code w = true ->
  step (step c w) w = with_prev (step c w) None /\ c_tc (step (step c w) w) = c_tc (step c w).
Proof. exact doubled_once. Qed.

(* pop-on captions appear at the flip: in pop-on style the words that load the non-displayed memory (PACs, attribute and
   mid-row codes, characters, RCL, ENM, tab offsets, backspace) leave the displayed caption, the paragraphs written so
   far and the regions untouched ... *)
Theorem C08_popon_invisible_until_eoc : forall c w, c_style c = sPopOn -> loads_buffer w = true -> visible (step c w) = visible c.
Proof. exact popon_invisible. Qed.
(* ... EOC makes the buffered caption the displayed one, beginning at the EOC's stamp, and writes the caption displayed
   until then with that stamp as its end ("vanishes when replaced") ... *)
Theorem C08_popon_eoc_flip : forall c w, c_err c = false -> is_dup c w = false -> ctl w kEOC ->
  let t1 := tc_next (c_tc c) in
  (exists b, c_act (step c w) = Some b /\ p_begin b = Some t1 /\ p_lines b = p_lines (c_buf c)) /\
  match c_act c with
  | None => c_out (step c w) = c_out c
  | Some a => if para_is_empty a then c_out (step c w) = c_out c
              else exists o, c_out (step c w) = o :: c_out c /\ o_begin o = p_begin a /\ o_end o = Some t1
  end.
Proof. exact popon_eoc. Qed.
(* ... and EDM leaves nothing displayed, writing the displayed caption with the frame after its stamp as exclusive end *)
Theorem C08_edm_erases : forall c w, c_err c = false -> is_dup c w = false -> ctl w kEDM ->
  let t1 := tc_next (c_tc c) in
  c_act (step c w) = None /\
  match c_act c with
  | None => c_out (step c w) = c_out c
  | Some a => if para_is_empty a then c_out (step c w) = c_out c
              else exists o, c_out (step c w) = o :: c_out c /\ o_begin o = p_begin a /\ o_end o = Some (tc_next t1)
  end.
Proof. exact edm_erases. Qed.
(* roll-up shows at most the selected number of rows: after a carriage return the new displayed caption holds at most
   `depth` rows (the rows kept from the previous one plus the base row) *)
Theorem C08_rollup_depth : forall c w a, c_err c = false -> is_dup c w = false -> ctl w kCR -> c_act c = Some a -> p_style a = sRollUp ->
  exists a', c_act (step c w) = Some a' /\ zlen (p_lines a') <= Z.max (c_depth c) 1.
Proof. exact rollup_depth. Qed.

(* text accumulates as received: while the cursor is at the end of the row being written (the situation of the three
   protocols while a row is transmitted), a run of characters is appended to that row, in pop-on style (buffer), roll-up
   style and paint-on style (displayed, paint-on styled caption), and the cursor is at the end of the row again *)
Theorem C08_text_accumulates : forall c word,
  (c_style c = sPopOn \/ c_style c = sRollUp \/ (c_style c = sPaintOn /\ exists a, c_act c = Some a /\ p_style a = sPaintOn)) ->
  target_ready c -> word <> [] ->
  target_ready (process_text c word) /\ target_text (process_text c word) = target_text c ++ word.
Proof. exact text_accumulates. Qed.
(* backspace erases the preceding character (when the last text element of the row holds it) ... *)
Theorem C08_backspace_removes_last : forall c p, target c = Some p -> row_ready_ne p ->
  exists p', target (backspace c) = Some p' /\ row_ready p' /\ row_text p' = removelast (row_text p) /\
             c_style (backspace c) = c_style c /\ p_style p' = p_style p.
Proof. exact backspace_removes_last. Qed.
(* ... and an extended character replaces it (SccLine.process: backspace(), then the character) *)
Theorem C08_extended_replaces : forall c p ch, target c = Some p -> row_ready_ne p ->
  (c_style c = sPopOn \/ c_style c = sRollUp \/ (c_style c = sPaintOn /\ p_style p = sPaintOn)) ->
  target_ready (process_text (backspace c) [ch]) /\
  target_text (process_text (backspace c) [ch]) = removelast (row_text p) ++ [ch].
Proof. exact extended_replaces. Qed.

(* ------------------------------------------------------------------ the display half: pop-on streams *)
(* The reference decoder S = Spec/Cea608Screen.v (`feed dev0`: the standard, no deviation admitted).  `pop_word s g w`
   (Proofs/C08/ScreenPopOn.v) is the executable membership test of the stream class, evaluated on the decoder's state:
   null padding, data channel 2, doubled codes, RCL / ENM / EDM / EOC / ignored miscellaneous codes, PACs for rows not yet
   addressed in the non-displayed memory, and - once the cursor is positioned - characters, special and extended characters,
   mid-row codes, tab offsets, DER.  One word: the relation `Rpop` (the buffered caption shows the non-displayed memory,
   the displayed caption the displayed memory, cell by cell: character, colour, italics, underline, row and column; same
   pen, same channel, same notion of "second copy") is preserved ... *)
Theorem C08_popon_word : forall c s g w g', Rpop c s g -> pop_word s g w = Some g' -> Rpop (step c w) (feed dev0 s w) g'.
Proof. exact step_pop. Qed.
(* ... hence, for every file whose lines are in the class (`pop_lines`), from the reader's and the decoder's initial
   states: no exception, and at the end of every prefix of lines the reader's buffered caption shows exactly the
   decoder's non-displayed memory and its displayed caption exactly the displayed memory (a blank cell is a transparent
   cell or a space) *)
Theorem C08_popon_memories : forall ta ls s' g', pop_lines scr0 g0 ls = Some (s', g') ->
  let c := run_words (ctx_init ta) ls in
  s' = fold_left (fun s l => fold_left (feed dev0) (snd l) s) ls scr0 /\
  c_err c = false /\ shows (c_buf c) (nond s') /\
  match c_act c with Some a => shows a (disp s') | None => forall r k, is_blank (mcell (disp s') r k) = true end.
Proof. exact popon_memories. Qed.
(* the words of a file are those of its lines that SccLine.from_str accepts (no malformed word) *)
Theorem C08_file_words : forall ta lines, no_bad_word lines ->
  to_model ta lines = finish (flush (run_words (ctx_init ta) (parsed_lines lines))).
Proof. exact to_model_words. Qed.

(* The display theorem for pop-on streams (C08_popon of the design, under the stream class instead of the trigger list):
   for every file
     - whose lines carry labels of one rate (30 for ':' / 30000/1001 for ';'), in order, each line starting after the
       previous one has been transmitted, and whose labels S counts as the reader does (`slines_frames_ok`, `stream_ok`),
     - whose words are in the pop-on class `pop_word` and contain no second copy of a doubled control code
       (`pop_lines_nc`: the second copy consumes no frame in the reader - recorded finding doubled-code-no-frame),
   and for every text_align configuration, at every frame f that is not the frame right after an EDM (`stable`: the reader
   keeps an erased caption until the frame after its stamp, the end being exclusive), the rows of the document rendered by
   S's comparison function `rows_of_doc` at the instant frame f starts are equal (`vrows_eqb`: row numbers, characters,
   colour, italics, underline; blank cells trimmed at both ends) to the reference display `screen sls f` = the displayed
   memory of the decoder after the words transmitted before f.  Tighter than S_word: the frames of an EOC window are
   included, of an EDM window only the middle frame is excluded. *)
Theorem C08_popon_display : forall df ta sls s' g', slines_frames_ok df sls -> stream_ok df 0 (lines_of_slines df sls) ->
  pop_lines_nc scr0 g0 (lines_of_slines df sls) = Some (s', g') ->
  forall f, stable (twords (lines_of_slines df sls)) f ->
  vrows_eqb (screen sls f) (rows_of_doc (finish (flush (run_words (ctx_init ta) (lines_of_slines df sls)))) (time_of df f)) = true.
Proof. exact popon_display_S. Qed.

(* ------------------------------------------------------------------ the display half: roll-up streams (contents) *)
(* Roll-up with base row 15 and a fixed depth n: `ru_word n s g w` (Proofs/C08/ScreenRollStep.v) is the executable membership test
   (null padding, data channel 2, doubled codes, CR, EDM, RUx of the same depth, a PAC for row 15 while nothing has been written
   on the base row, and - once the cursor is positioned - characters, special and extended characters, mid-row codes, tab
   offsets, DER).  One word: the relation `Rru n` (the displayed roll-up caption shows the displayed memory cell by cell, its
   rows are the rows lo .. 15 of the window without a gap, same pen, channel and notion of second copy) is preserved - the
   carriage return included: every row of the window moves up one row, the row leaving the window is dropped, the base row
   is cleared ... *)
Theorem C08_rollup_word : forall n c s g w g', Rru n c s g -> ru_word n s g w = Some g' -> Rru n (step c w) (feed dev0 s w) g'.
Proof. exact step_ru. Qed.
(* ... hence for every file that starts with RUx and stays in the class: no exception, and at the end of every prefix of lines
   the reader's displayed caption shows exactly the decoder's displayed memory ("roll-up shows at most the selected number of
   most recent rows": the rows of the window).  This is a statement about contents; the times at which the document shows
   them are those of the paragraph opened by the CR / PAC (recorded finding text-shown-from-paragraph-begin). *)
Theorem C08_rollup_memories : forall ta t0 w0 ws0 rest n s1 g1 s' g', ru_start w0 = Some n ->
  ru_words n (feed dev0 scr0 w0) (mkGR true true true) ws0 = Some (s1, g1) -> ru_lines n s1 g1 rest = Some (s', g') ->
  let c := run_words (ctx_init ta) ((t0, w0 :: ws0) :: rest) in
  s' = fold_left (fun s l => fold_left (feed dev0) (snd l) s) ((t0, w0 :: ws0) :: rest) scr0 /\
  c_err c = false /\ md s' = RollUp n /\
  match c_act c with Some a => shows a (disp s') | None => forall r k, is_blank (mcell (disp s') r k) = true end.
Proof. exact rollup_memories. Qed.

(* non-vacuity: the hypotheses are met by concrete, non-trivial values *)
(* after RCL, PAC row 15, "AB" the buffer is ready at the end of its row, which reads AB *)
Example C08_example_ready : exists p, target (fold_left step [5152; 5232; 16706] (ctx_init 0)) = Some p /\
                                      row_ready_ne p /\ row_ready p /\ row_text p = [65; 66].
Proof.
  eexists. split; [vm_compute; reflexivity|]. split; [|split].
  - exists 15, (mkL 15 0 2 [mkT None [65; 66] 2 (mkTS (-1) false false (-1))] 0), [], (mkT None [65; 66] 2 (mkTS (-1) false false (-1))).
    repeat split; try reflexivity; try discriminate; try lia. cbn. repeat constructor; cbn; intuition discriminate.
  - exists 15, (mkL 15 0 2 [mkT None [65; 66] 2 (mkTS (-1) false false (-1))] 0).
    split; [reflexivity|]. split; [reflexivity|]. split; [|split; reflexivity].
    exists [], (mkT None [65; 66] 2 (mkTS (-1) false false (-1))). repeat split.
  - reflexivity.
Qed.
Example C08_example_ctl : ctl 5167 kEOC /\ ctl 37932 kEDM /\ ctl 5165 kCR /\ loads_buffer 5232 = true /\ loads_buffer 16706 = true /\
                          loads_buffer 5167 = false.
Proof. vm_compute. repeat split. Qed.
Example C08_example_block : block_ok 1 [7200; 16706; 0; 7212] = true /\ ch1_code 5152 = true /\ ch1_code 7200 = false.
Proof. vm_compute. repeat split. Qed.
Example C08_example_clean : run_clean (ctx_init 0) [5152; 5166; 5232; 16706; 5167] = true /\
                            run_clean (ctx_init 0) [5152; 5152] = false.
Proof. vm_compute. split; reflexivity. Qed.

(* RDC at the start of a file: paint-on style and nothing displayed, no caption is being processed; the backspace, the tab
   offset and the extended character that follow raise nothing (the extended character is written alone) *)
Example C08_example_no_caption :
  cap_to_process (step (ctx_init 0) 5161) = None /\
  c_err (fold_left step [5161; 5153; 5922; 4658] (ctx_init 0)) = false /\
  target_text (fold_left step [5161; 5153; 5922; 4658] (ctx_init 0)) = [199].
Proof. vm_compute. repeat split. Qed.
(* a paint-on caption ("A ", then "BB" with a span begin) that an EOC moves to the buffer, where "CC" is appended, and a second
   EOC displays again four seconds later: the span painted at 10 s is shown from the beginning of the paragraph (begin 0) *)
Example C08_example_clamped :
  exists rs p1 p2 b1, finish (flush (run_words (ctx_init 0)
      [(((0, 0, 10, 0), r30), [5161; 5232; 16672; 16962]); (((0, 0, 12, 0), r30), [5152; 5167]); (((0, 0, 14, 0), r30), [17219; 5167])])) = Doc rs [p1; p2] /\
    q_children p1 = [QSpan None (mkTS (-1) false false 255) [65; 32]; QSpan (Some b1) (mkTS (-1) false false 255) [66; 66]] /\ (b1 == 1 # 30)%Q /\
    q_children p2 = [QSpan None (mkTS (-1) false false 255) [65; 32]; QSpan (Some 0%Q) (mkTS (-1) false false 255) [66; 66; 67; 67]].
Proof. eexists. eexists. eexists. eexists. split; [vm_compute; reflexivity|]. repeat split; reflexivity. Qed.

(* the pop-on class is inhabited by a stream with doubled codes, two rows, a colour PAC, a tab offset, a mid-row italics code,
   a special and an extended character, null padding, a channel-2 block, EDM and EOC; the display then shows two rows *)
Example C08_example_popon :
  exists s g, pop_lines scr0 g0 [(((0, 0, 10, 0), r30), [5152; 5152; 5166; 5166; 5232; 16706; 4398; 17220; 4400; 16640; 4640; 5186; 5922; 17220; 0;
                                                         7200; 7200; 16706; 5164; 5167; 5167])] = Some (s, g) /\
              map fst (rows_of_mem (disp s)) = [14; 15].
Proof.
  (* one evaluation, of a test: the two final states are never written out *)
  assert (H : match pop_lines scr0 g0 [(((0, 0, 10, 0), r30), [5152; 5152; 5166; 5166; 5232; 16706; 4398; 17220; 4400; 16640; 4640; 5186; 5922; 17220; 0;
                                                                7200; 7200; 16706; 5164; 5167; 5167])] with
              | Some (s, _) => text_eqb (map fst (rows_of_mem (disp s))) [14; 15]
              | None => false
              end = true) by (vm_compute; reflexivity).
  destruct (pop_lines _ _ _) as [[s g]|]; [|discriminate]. exists s, g. split; [reflexivity|now apply text_eqb_eq].
Qed.

(* the hypotheses of the display theorem are met by a two-line drop-frame stream (a caption of two rows with attributes, erased
   by the second line); frame 18060 lies inside the caption's display, 18282 is the frame right after the EDM *)
Definition ex_sls : list sline :=
  [mkSL true 0 10 0 0 [5152; 5166; 5232; 16706; 4398; 17220; 4400; 16640; 4640; 5186; 5922; 17220; 0; 7200; 16706; 5164; 5167];
   mkSL true 0 10 8 0 [5164]].
Example C08_example_display :
  slines_frames_ok true ex_sls /\ stream_ok true 0 (lines_of_slines true ex_sls) /\
  pop_lines_nc scr0 g0 (lines_of_slines true ex_sls) <> None /\
  stable (twords (lines_of_slines true ex_sls)) 18060 /\ map fst (screen ex_sls 18060) = [14; 15] /\
  stable_b (twords (lines_of_slines true ex_sls)) 18223 = false.
Proof.
  split; [repeat constructor|]. split; [repeat split; vm_compute; congruence|]. split.
  { assert (H : (if pop_lines_nc scr0 g0 (lines_of_slines true ex_sls) then true else false) = true) by (vm_compute; reflexivity).
    intros E. rewrite E in H. discriminate H. }
  split; [apply stable_b_ok; vm_compute; reflexivity|]. split; vm_compute; reflexivity.
Qed.

(* the roll-up class is inhabited: depth 3, doubled codes, a mid-row code, special and extended characters, a blank line
   (CR, null, CR), a colour PAC with a tab offset; the decoder then shows two of the three rows of its window *)
Example C08_example_rollup :
  ru_start 5158 = Some 3 /\
  exists s1 g1 s g, ru_words 3 (feed dev0 scr0 5158) (mkGR true true true) [5158; 5165; 5165; 5232; 16706; 4398; 17220; 4400] = Some (s1, g1) /\
    ru_lines 3 s1 g1 [(((0, 0, 20, 0), r30), [5165; 5232; 17220; 16640; 4640]); (((0, 0, 30, 0), r30), [5165; 0; 5165; 5218; 5922; 16706])] = Some (s, g) /\
    map fst (rows_of_mem (disp s)) = [13; 15].
Proof.
  split; [reflexivity|].
  assert (H : match ru_words 3 (feed dev0 scr0 5158) (mkGR true true true) [5158; 5165; 5165; 5232; 16706; 4398; 17220; 4400] with
              | Some (s1, g1) =>
                  match ru_lines 3 s1 g1 [(((0, 0, 20, 0), r30), [5165; 5232; 17220; 16640; 4640]); (((0, 0, 30, 0), r30), [5165; 0; 5165; 5218; 5922; 16706])] with
                  | Some (s, _) => text_eqb (map fst (rows_of_mem (disp s))) [13; 15]
                  | None => false
                  end
              | None => false
              end = true) by (vm_compute; reflexivity).
  destruct (ru_words _ _ _ _) as [[s1 g1]|]; [|discriminate]. destruct (ru_lines _ _ _ _) as [[s g]|] eqn:E; [|discriminate].
  exists s1, g1, s, g. split; [reflexivity|]. split; [exact E|now apply text_eqb_eq].
Qed.

Print Assumptions C08_stamps.  Print Assumptions C08_times_on_line_grid.  Print Assumptions C08_times_never_negative.
Print Assumptions C08_relative_begin_clamped.  Print Assumptions C08_no_word_raises.  Print Assumptions C08_raises_iff_malformed_word.
Print Assumptions C08_code_without_caption_ignored.  Print Assumptions C08_times_on_grid.
Print Assumptions C08_not_before_line.  Print Assumptions C08_frames_per_word.  Print Assumptions C08_within_word_window_partial.
Print Assumptions C08_stamp_never_late.  Print Assumptions C08_channel_block.  Print Assumptions C08_channel_filter.
Print Assumptions C08_doubled_once.  Print Assumptions C08_popon_invisible_until_eoc.  Print Assumptions C08_popon_eoc_flip.
Print Assumptions C08_edm_erases.  Print Assumptions C08_rollup_depth.  Print Assumptions C08_text_accumulates.
Print Assumptions C08_backspace_removes_last.  Print Assumptions C08_extended_replaces.
Print Assumptions C08_popon_word.  Print Assumptions C08_popon_memories.  Print Assumptions C08_file_words.
Print Assumptions C08_popon_display.  Print Assumptions C08_rollup_word.  Print Assumptions C08_rollup_memories.
