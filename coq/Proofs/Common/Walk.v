(* The tree recursions of Model/Isd.v and Model/SigTimes.v loop over the children of an element with a local
   fixpoint (the guard condition wants it there).  Seen from outside, the loop of `proc` and `restrict` is
   `collect_regions (map f cs)` and that of `sig_elem` is `flat_map f cs`: one unfolding equation per recursion in
   those terms; what `collect_regions` and `finish_element` return; what an element, a region, a snapshot that `proc`,
   `proc_region`, `isd` return was made of; what a per-region clone is. *)
From TT Require Import Model.Doc Gen.StyleTables Model.Isd Model.SigTimes Model.IsdCache.

Lemma Forall2_map_l {A B C} (f : A -> B) (P : B -> C -> Prop) : forall l outs, Forall2 P (map f l) outs -> Forall2 (fun x o => P (f x) o) l outs.
Proof.
  induction l as [|x l IH]; intros outs H; inversion H; subst; constructor; [assumption | apply IH; assumption].
Qed.

Lemma Forall2_In_l {A B} (R : A -> B -> Prop) l l' x : Forall2 R l l' -> In x l -> exists y, In y l' /\ R x y.
Proof.
  induction 1 as [|a b l l' Hab _ IH]; intros Hx; [destruct Hx|].
  destruct Hx as [<-|Hx]; [exists b; split; [left; reflexivity | exact Hab]|].
  destruct (IH Hx) as (y & Hy & Hr). exists y. split; [right; exact Hy | exact Hr].
Qed.

Lemma flat_map_incl {A B} (f g : A -> list B) l : (forall x, In x l -> incl (f x) (g x)) -> incl (flat_map f l) (flat_map g l).
Proof.
  intros H y Hy. apply in_flat_map in Hy as (x & Hx & Hy). apply in_flat_map. exists x. split; [exact Hx | apply (H x Hx), Hy].
Qed.


(* for closed r the hypothesis is decided by evaluating r as far as P looks at it; no witness is written down *)
Lemma res_ok_ex {A} (P : A -> Prop) (r : res A) :
  match r with Ok a => P a | Err _ => False end -> exists a, r = Ok a /\ P a.
Proof. destruct r as [a|]; [exists a; split; [reflexivity | assumption] | contradiction]. Qed.

Lemma collect_cons_ok r l rs : collect_regions (r :: l) = Ok rs ->
  exists o os, r = Ok o /\ collect_regions l = Ok os /\ rs = opt_list o ++ os.
Proof.
  cbn [collect_regions]. destruct r as [o|]; [|discriminate]. destruct (collect_regions l) as [os|]; [|discriminate].
  intros H. injection H as <-. exists o, os. destruct o; repeat split.
Qed.

Lemma collect_regions_spec : forall l rs, collect_regions l = Ok rs ->
  exists outs, Forall2 (fun r o => r = Ok o) l outs /\ rs = flat_map opt_list outs.
Proof.
  induction l as [|r l IH]; intros rs H.
  - injection H as <-. exists []. split; [constructor | reflexivity].
  - apply collect_cons_ok in H as (o & os & -> & H & ->). destruct (IH os H) as (outs & HF & ->).
    exists (o :: outs). split; [constructor; [reflexivity | exact HF] | reflexivity].
Qed.

Lemma collect_map_ok {A} (f : A -> res (option elem)) l rs : collect_regions (map f l) = Ok rs ->
  exists outs, Forall2 (fun x o => f x = Ok o) l outs /\ rs = flat_map opt_list outs.
Proof. intros H. apply collect_regions_spec in H as (outs & HF & ->). exists outs. split; [exact (Forall2_map_l f _ l outs HF) | reflexivity]. Qed.

Lemma collect_map_in {A} (f : A -> res (option elem)) l rs x : collect_regions (map f l) = Ok rs -> In x rs ->
  exists c, In c l /\ f c = Ok (Some x).
Proof.
  intros H Hx. apply collect_map_ok in H as (outs & HF & ->). apply in_flat_map in Hx as (o & Ho & Hx).
  destruct o as [y|]; [destruct Hx as [<-|[]] | destruct Hx]. apply (Forall2_In_r _ _ _ _ HF Ho).
Qed.

Lemma collect_all_none {A} (f : A -> res (option elem)) l :
  (forall x, In x l -> f x = Ok None) -> collect_regions (map f l) = Ok [].
Proof.
  induction l as [|x l IH]; intros H; [reflexivity|]. cbn [map collect_regions].
  rewrite (H x (or_introl eq_refl)), IH; [reflexivity|]. intros y Hy. apply H. right. exact Hy.
Qed.

Lemma collect_map_forall {A} (f : A -> res (option elem)) (P : elem -> Prop) l rs :
  (forall c x, In c l -> f c = Ok (Some x) -> P x) -> collect_regions (map f l) = Ok rs -> Forall P rs.
Proof.
  intros H Hc. apply Forall_forall. intros x Hx. destruct (collect_map_in f l rs x Hc Hx) as (c & Hin & E). exact (H c x Hin E).
Qed.

Lemma collect_map_flat {A X} (f : A -> res (option elem)) (g : elem -> list X) (s : A -> list X) l rs :
  (forall c o, In c l -> f c = Ok o -> flat_map g (opt_list o) = s c) -> collect_regions (map f l) = Ok rs ->
  flat_map g rs = flat_map s l.
Proof.
  intros H Hc. apply collect_map_ok in Hc as (outs & HF & ->). induction HF as [|c o l outs Ho _ IH]; [reflexivity|].
  cbn [flat_map]. rewrite flat_map_app, (H c o (or_introl eq_refl) Ho), IH; [reflexivity|]. intros c' o' Hc'. apply H. right. exact Hc'.
Qed.

Lemma kids_loop (f : elem -> res (option elem)) cs :
  (fix go (l : list elem) : res (list elem) :=
     match l with
     | [] => Ok []
     | c :: l' => bind (f c) (fun r => bind (go l') (fun rs => Ok (match r with Some x => x :: rs | None => rs end)))
     end) cs = collect_regions (map f cs).
Proof. induction cs as [|c cs IH]; [reflexivity|]. cbn [map collect_regions]. rewrite <- IH. reflexivity. Qed.

Definition assoc_region (a : attrs) (inh : option text) : option text :=
  match e_region a with Some r => Some r | None => inh end.

Lemma proc_node d t sel inh par pb pe a cs :
  proc d t sel inh par pb pe (Elem a cs) =
  let iv := make_absolute (e_begin a) (e_end a) pb pe in
  let assoc := assoc_region a inh in
  if negb (active_at t iv) then Ok None
  else if region_test sel assoc (is_nonempty_l cs) then Ok None
  else bind (style_phase d t a par iv) (fun st =>
       if display_none st then Ok None
       else bind (collect_regions (map (proc d t sel assoc (Some (e_kind a, st)) (Some (fst iv)) (snd iv)) cs)) (finish_element a st)).
Proof.
  cbn [proc]. cbv zeta. destruct (negb (active_at t _)); [reflexivity|].
  change (match cs with [] => false | _ => true end) with (is_nonempty_l cs). fold (assoc_region a inh).
  fold (region_test sel (assoc_region a inh) (is_nonempty_l cs)). destruct (region_test _ _ _); [reflexivity|].
  destruct (style_phase _ _ _ _ _) as [st|]; [|reflexivity]. cbn [bind]. destruct (display_none st); [reflexivity|].
  rewrite kids_loop. reflexivity.
Qed.

Lemma restrict_node sel inh a cs :
  restrict sel inh (Elem a cs) =
  let assoc := assoc_region a inh in
  if region_test (Some sel) assoc (is_nonempty_l cs) then Ok None
  else bind (collect_regions (map (restrict sel assoc) cs)) (fun cs' =>
       if is_nonempty_l cs' && negb (push_children_ok (e_kind a) cs') then Err errRubyChildren else Ok (Some (Elem a cs'))).
Proof. cbn [restrict]. rewrite kids_loop. reflexivity. Qed.

Lemma sig_elem_node fixed pb pe a cs :
  sig_elem fixed pb pe (Elem a cs) =
  let iv := make_absolute (e_begin a) (e_end a) pb pe in
  (fst iv :: opt_list (snd iv)) ++
  flat_map (fun s => let aiv := if fixed then make_absolute (a_begin s) (a_end s) (Some (fst iv)) (snd iv)
                                else make_absolute (a_begin s) (a_end s) pb pe in
                     fst aiv :: opt_list (snd aiv)) (e_anims a) ++
  flat_map (sig_elem fixed (Some (fst iv)) (snd iv)) cs.
Proof. reflexivity. Qed.

(* The last step of _process_element: the element is built (white space is handled below p, rt, rtc, rp), then kept
   or dropped. *)
Definition lwsp_kind (k : kind) : bool := match k with KP | KRt | KRtc | KRp => true | _ => false end.
Definition finish_children (a : attrs) (st : smap) (children : list elem) : list elem :=
  if lwsp_kind (e_kind a) then match children with [] => [] | _ => lwsp_children (isd_attrs a st) children end else children.
Definition finished (a : attrs) (st : smap) (children : list elem) : elem :=
  Elem (isd_attrs a (strip_inapplicable (e_kind a) st)) (finish_children a st children).

Lemma finish_children_nil a st : finish_children a st [] = [].
Proof. unfold finish_children. destruct (lwsp_kind (e_kind a)); reflexivity. Qed.

Lemma finish_element_inv a st children r : finish_element a st children = Ok r ->
  (children = [] \/ push_children_ok (e_kind a) children = true) /\
  match r with
  | Some x => x = finished a st children /\
              (keep_always (e_kind a) = true \/ finish_children a st children <> [] \/
               e_kind a = KRegion /\ sget (strip_inapplicable KRegion st) p_ShowBackground = Some (VEnum e_ShowBackgroundType_always))
  | None => keep_always (e_kind a) = false /\ finish_children a st children = []
  end.
Proof.
  unfold finish_element. cbv zeta. intros H.
  destruct (negb (push_children_ok (e_kind a) children) && is_nonempty_l children) eqn:Ep; [discriminate|]. split.
  { destruct children; [left; reflexivity | right]. rewrite andb_true_r in Ep. apply negb_false_iff, Ep. }
  set (ch := match e_kind a with KP | KRt | KRtc | KRp => _ | _ => children end) in H.
  replace ch with (finish_children a st children) in H by (unfold finish_children; destruct (e_kind a); reflexivity). clear ch.
  fold (finished a st children) in H.
  destruct (keep_always (e_kind a)); [injection H as <-; split; [reflexivity | left; reflexivity]|].
  destruct (finish_children a st children) as [|c0 ch0]; [|injection H as <-; split; [reflexivity | right; left; discriminate]].
  destruct (e_kind a); try (injection H as <-; split; reflexivity).
  destruct (sget _ p_ShowBackground) as [[x| | | | | | | | | | | | | |]|] eqn:Es; try (injection H as <-; split; reflexivity).
  destruct (x =? _) eqn:Ex; injection H as <-; split; try reflexivity. apply Z.eqb_eq in Ex as ->. right. right. split; reflexivity.
Qed.

Lemma finish_element_attrs a st children x : finish_element a st children = Ok (Some x) ->
  e_id (eattrs x) = e_id a /\ e_kind (eattrs x) = e_kind a.
Proof. intros H. apply finish_element_inv in H as (_ & -> & _). split; reflexivity. Qed.

Lemma proc_kept d t sel inh par pb pe a cs r : proc d t sel inh par pb pe (Elem a cs) = Ok (Some r) ->
  exists st children,
    style_phase d t a par (make_absolute (e_begin a) (e_end a) pb pe) = Ok st /\ display_none st = false /\
    collect_regions (map (proc d t sel (assoc_region a inh) (Some (e_kind a, st))
                               (Some (fst (make_absolute (e_begin a) (e_end a) pb pe))) (snd (make_absolute (e_begin a) (e_end a) pb pe))) cs)
      = Ok children /\
    finish_element a st children = Ok (Some r).
Proof.
  rewrite proc_node. cbv zeta. destruct (negb (active_at t _)); [discriminate|]. destruct (region_test _ _ _); [discriminate|].
  destruct (style_phase _ _ _ _ _) as [st|] eqn:Est; [|discriminate]. cbn [bind]. destruct (display_none st) eqn:Edn; [discriminate|].
  destruct (collect_regions _) as [children|] eqn:Ec; [|discriminate]. cbn [bind]. intros H. exists st, children. repeat split; assumption.
Qed.

Lemma proc_region_kept d t sel r o : proc_region d t sel r = Ok (Some o) ->
  exists st children,
    style_phase d t (eattrs r) None (make_absolute (e_begin (eattrs r)) (e_end (eattrs r)) None None) = Ok st /\
    display_none st = false /\
    (children = [] \/ exists b x, d_body d = Some b /\ proc d t sel None (Some (KRegion, st)) None None b = Ok (Some x) /\ children = [x]) /\
    finish_element (eattrs r) st children = Ok (Some o).
Proof.
  unfold proc_region. intros H. destruct (negb (active_at t _)); [discriminate|].
  destruct (style_phase d t _ None _) as [st|]; [|discriminate]. cbn [bind] in H.
  destruct (display_none st) eqn:Edn; [discriminate|].
  match type of H with bind ?g _ = _ => destruct g as [children|] eqn:Eg end; [|discriminate]. cbn [bind] in H.
  exists st, children. repeat split; try assumption.
  destruct (d_body d) as [b|]; [|injection Eg as <-; left; reflexivity].
  destruct (proc d t sel None _ None None b) as [[x|]|] eqn:Eb; cbn [bind] in Eg; try discriminate; injection Eg as <-;
    [right; exists b, x; repeat split; assumption | left; reflexivity].
Qed.

(* an uncached snapshot is made region by region: the document's regions, each selecting itself, or the default region
   selected by "no region" *)
Lemma isd_eq d t :
  isd d t = collect_regions (map (fun r => proc_region d t (match d_regions d with [] => None | _ => e_id (eattrs r) end) r)
                                 (match d_regions d with [] => [default_region] | l => l end)).
Proof. unfold isd. destruct (d_regions d); reflexivity. Qed.

Lemma isd_in d t rs o : isd d t = Ok rs -> In o rs ->
  exists sel r, (In r (d_regions d) \/ d_regions d = [] /\ r = default_region) /\ proc_region d t sel r = Ok (Some o).
Proof.
  rewrite isd_eq. intros H Ho. destruct (collect_map_in _ _ _ _ H Ho) as (r & Hr & Hp). eexists. exists r. split; [|exact Hp].
  destruct (d_regions d); [right; destruct Hr as [<-|[]]; split; reflexivity | left; exact Hr].
Qed.

Lemma clone_one_region_inv d r c : clone_one_region d r = Ok c ->
  exists rid b', e_id (eattrs r) = Some rid /\ match d_body d with Some b => restrict rid None b | None => Ok None end = Ok b' /\
                 c = mkDoc [r] b' (d_initials d) (d_rows d) (d_cols d) (d_pxh d) (d_pxw d) (d_active d) (d_dar d) (d_lang d).
Proof.
  unfold clone_one_region. destruct (e_id (eattrs r)) as [rid|]; [|discriminate].
  destruct (match d_body d with Some b => restrict rid None b | None => Ok None end) as [b'|] eqn:Eb; [|discriminate].
  intros H. injection H as <-. exists rid, b'. repeat split. exact Eb.
Qed.

Lemma clones_forall d : forall rs ds, clones d rs = Ok ds -> Forall2 (fun r c => clone_one_region d r = Ok c) rs ds.
Proof.
  induction rs as [|r rs IH]; intros ds H; cbn [clones] in H.
  - injection H as <-. constructor.
  - destruct (clone_one_region d r) as [c|] eqn:Ec; [|discriminate]. cbn [bind] in H.
    destruct (clones d rs) as [cs|] eqn:Ecs; [|discriminate]. cbn [bind] in H. injection H as <-.
    constructor; [exact Ec | apply IH; reflexivity].
Qed.
