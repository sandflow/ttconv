(* Induction principle for the rose tree of elements; its leaf chains. *)
From TT Require Import Model.Doc Gen.StyleTables Spec.IsdSpec.

Section ElemInd.
  Variable P : elem -> Prop.
  Hypothesis H : forall a cs, Forall P cs -> P (Elem a cs).
  Fixpoint elem_ind2 (e : elem) : P e :=
    match e with
    | Elem a cs =>
        H a cs ((fix go (l : list elem) : Forall P l :=
                   match l with
                   | [] => Forall_nil P
                   | c :: l' => Forall_cons c (elem_ind2 c) (go l')
                   end) cs)
    end.
End ElemInd.

Lemma kind_eqb_eq k k' : kind_eqb k k' = true -> k = k'.
Proof. destruct k, k'; try discriminate; reflexivity. Qed.

Lemma chains_node a cs :
  chains (Elem a cs) = match e_kind a with KBr | KText => [[a]] | _ => map (cons a) (flat_map chains cs) end.
Proof. reflexivity. Qed.
Lemma chains_nonempty : forall e c, In c (chains e) -> c <> [].
Proof.
  intros [a cs] c H. rewrite chains_node in H. destruct (e_kind a);
    try (apply in_map_iff in H as (x & <- & _); discriminate); destruct H as [<-|[]]; discriminate.
Qed.
