(* The style phase of _process_element, pass by pass and seen from one key: what each pass before the ordered
   computation leaves under a key and whether it schedules it (animation, specified, direction, inheritance, initial
   values); the ordered computation as a chain of steps, each of which sets its own key only (tts:position also
   tts:origin). *)
From TT Require Import Model.Doc Gen.StyleTables Model.Isd.

Lemma sget_sset_same m p v : sget (sset m p v) p = Some v.
Proof.
  induction m as [|[k w] m IH]; cbn [sset sget].
  - rewrite Z.eqb_refl. reflexivity.
  - destruct (k =? p) eqn:E; cbn [sget]; rewrite E; [reflexivity | exact IH].
Qed.
Lemma sget_sset_other m p v q : q <> p -> sget (sset m p v) q = sget m q.
Proof.
  intros Hne. induction m as [|[k w] m IH]; cbn [sset sget].
  - destruct (p =? q) eqn:E; [apply Z.eqb_eq in E; congruence | reflexivity].
  - destruct (k =? p) eqn:E; cbn [sget].
    + apply Z.eqb_eq in E. subst k. destruct (p =? q) eqn:E2; [apply Z.eqb_eq in E2; congruence | reflexivity].
    + destruct (k =? q); [reflexivity | exact IH].
Qed.
Lemma shas_sget m p : shas m p = match sget m p with Some _ => true | None => false end.
Proof. reflexivity. Qed.

(* animation steps: the value of key q afterwards is that of the last active step on q, else the old one *)
Fixpoint last_active (t : Q) (iv : Q * option Q) (q : Z) (l : list anim) (acc : option value) : option value :=
  match l with
  | [] => acc
  | s :: l' =>
      if (a_prop s =? q) && active_at t (make_absolute (a_begin s) (a_end s) (Some (fst iv)) (snd iv))
      then last_active t iv q l' (Some (a_val s)) else last_active t iv q l' acc
  end.
Lemma apply_anims_get t iv q : forall l st todo,
  sget (fst (apply_anims t iv l st todo)) q = last_active t iv q l (sget st q).
Proof.
  induction l as [|s l IH]; intros st todo; [reflexivity|]. cbn [apply_anims last_active].
  destruct (active_at t _) eqn:Ea.
  - rewrite IH. destruct (a_prop s =? q) eqn:E; cbn [andb].
    + apply Z.eqb_eq in E. subst q. rewrite sget_sset_same. reflexivity.
    + rewrite sget_sset_other; [reflexivity|]. intros ->. rewrite Z.eqb_refl in E. discriminate.
  - rewrite andb_false_r. apply IH.
Qed.

Lemma apply_specified_get q : forall l st todo,
  sget (fst (apply_specified l st todo)) q = match sget st q with Some v => Some v | None => sget l q end.
Proof.
  induction l as [|[p v] l IH]; intros st todo; cbn [apply_specified].
  - cbn [fst]. destruct (sget st q); reflexivity.
  - unfold shas. destruct (sget st p) eqn:Ep.
    + rewrite IH. destruct (sget st q) eqn:Eq; [reflexivity|]. cbn [sget].
      destruct (p =? q) eqn:E; [apply Z.eqb_eq in E; congruence | reflexivity].
    + rewrite IH. cbn [sget]. destruct (p =? q) eqn:E.
      * apply Z.eqb_eq in E. subst q. rewrite sget_sset_same, Ep. reflexivity.
      * rewrite sget_sset_other; [reflexivity|]. intros ->. rewrite Z.eqb_refl in E. discriminate.
Qed.

Lemma inherit_prop_other k pk pst st p q : q <> p -> sget (inherit_prop k pk pst st p) q = sget st q.
Proof.
  intros Hne. unfold inherit_prop.
  repeat match goal with
         | |- context [if ?c then _ else _] => destruct c
         | |- context [match ?x with _ => _ end] => destruct x
         end; try reflexivity; apply sget_sset_other; exact Hne.
Qed.
Lemma apply_initial_get d q : forall props st todo, NoDup props ->
  sget (fst (apply_initial d props st todo)) q =
  match sget st q with
  | Some v => Some v
  | None => if existsb (Z.eqb q) props
            then match sget (d_initials d) q with
                 | Some v => Some v
                 | None => if q =? p_Position then None else sget initial_values q
                 end
            else None
  end.
Proof.
  induction props as [|p props IH]; intros st todo Hnd; cbn [apply_initial existsb].
  - cbn [fst]. destruct (sget st q); reflexivity.
  - inversion Hnd as [|? ? Hnotin Hnd']; subst. unfold shas.
    destruct (sget st p) eqn:Ep.
    + rewrite (IH st todo Hnd'). destruct (sget st q) eqn:Eq; [reflexivity|].
      destruct (q =? p) eqn:E; [apply Z.eqb_eq in E; congruence | reflexivity].
    + destruct (sget (d_initials d) p) eqn:Ei.
      * rewrite (IH _ _ Hnd'). destruct (q =? p) eqn:E.
        -- apply Z.eqb_eq in E. subst q. rewrite sget_sset_same, Ep, Ei. reflexivity.
        -- rewrite sget_sset_other by (intros ->; rewrite Z.eqb_refl in E; discriminate). reflexivity.
      * destruct (p =? p_Position) eqn:Epos.
        -- rewrite (IH _ _ Hnd'). destruct (q =? p) eqn:E; [|reflexivity].
           apply Z.eqb_eq in E. subst q. rewrite Ep, Ei, Epos.
           destruct (existsb (Z.eqb p) props) eqn:Ex; [|reflexivity].
           apply existsb_exists in Ex as (y & Hy & Hq). apply Z.eqb_eq in Hq. subst y. contradiction.
        -- destruct (sget initial_values p) eqn:Eiv.
           ++ rewrite (IH _ _ Hnd'). destruct (q =? p) eqn:E.
              ** apply Z.eqb_eq in E. subst q. rewrite sget_sset_same, Ep, Ei, Epos, Eiv. reflexivity.
              ** rewrite sget_sset_other by (intros ->; rewrite Z.eqb_refl in E; discriminate). reflexivity.
           ++ rewrite (IH _ _ Hnd'). destruct (q =? p) eqn:E; [|reflexivity].
              apply Z.eqb_eq in E. subst q. rewrite Ep, Ei, Epos, Eiv.
              destruct (existsb (Z.eqb p) props) eqn:Ex; [|reflexivity].
              apply existsb_exists in Ex as (y & Hy & Hq). apply Z.eqb_eq in Hq. subst y. contradiction.
Qed.

Definition is_some {A} (o : option A) : bool := match o with Some _ => true | None => false end.
Definition mem (q : Z) (l : list Z) : bool := existsb (Z.eqb q) l.

Lemma apply_anims_todo t iv q : forall l st todo,
  mem q (snd (apply_anims t iv l st todo)) = mem q todo || is_some (last_active t iv q l None).
Proof.
  assert (G : forall l acc, is_some (last_active t iv q l acc) = is_some acc || is_some (last_active t iv q l None)).
  { induction l as [|s l IH]; intros acc; cbn [last_active]; [destruct acc; reflexivity|].
    destruct ((a_prop s =? q) && active_at t _); [rewrite (IH (Some (a_val s))); cbn; rewrite orb_true_r; destruct (is_some acc); reflexivity | apply IH]. }
  induction l as [|s l IH]; intros st todo; cbn [apply_anims last_active snd]; [rewrite orb_false_r; reflexivity|].
  destruct (active_at t _) eqn:Ea.
  - rewrite IH. unfold mem at 1. cbn [existsb]. fold (mem q todo). destruct (a_prop s =? q) eqn:E; cbn [andb].
    + rewrite (Z.eqb_sym q), E. cbn [orb]. rewrite G. cbn [is_some orb]. rewrite orb_true_r. reflexivity.
    + rewrite (Z.eqb_sym q), E. reflexivity.
  - rewrite andb_false_r. apply IH.
Qed.

Lemma mem_cons q p l : mem q (p :: l) = (q =? p) || mem q l.
Proof. reflexivity. Qed.
Lemma shas_cons p v l q : shas ((p, v) :: l) q = (p =? q) || shas l q.
Proof. unfold shas. cbn [sget]. destruct (p =? q); reflexivity. Qed.
Lemma shas_sset_other m p v q : p <> q -> shas (sset m p v) q = shas m q.
Proof. intros H. unfold shas. rewrite sget_sset_other by congruence. reflexivity. Qed.

Lemma apply_specified_todo q : forall l st todo,
  mem q (snd (apply_specified l st todo)) = mem q todo || (negb (shas st q) && shas l q).
Proof.
  induction l as [|[p v] l IH]; intros st todo; cbn [apply_specified snd].
  - unfold shas at 2. cbn [sget]. rewrite andb_false_r, orb_false_r. reflexivity.
  - rewrite shas_cons. destruct (shas st p) eqn:Ep.
    + rewrite IH. destruct (Z.eq_dec p q) as [->|Hne].
      * rewrite Ep. cbn [negb andb]. reflexivity.
      * destruct (p =? q) eqn:E; [apply Z.eqb_eq in E; congruence|]. reflexivity.
    + rewrite IH, mem_cons. destruct (Z.eq_dec p q) as [->|Hne].
      * rewrite Z.eqb_refl, Ep. cbn [negb andb orb]. rewrite orb_true_r. reflexivity.
      * rewrite shas_sset_other by exact Hne.
        destruct (p =? q) eqn:E; [apply Z.eqb_eq in E; congruence|].
        destruct (q =? p) eqn:E'; [apply Z.eqb_eq in E'; congruence|]. reflexivity.
Qed.

Lemma apply_initial_todo_exact d q : forall props st todo, NoDup props ->
  mem q (snd (apply_initial d props st todo)) = mem q todo || (mem q props && negb (shas st q)).
Proof.
  induction props as [|p props IH]; intros st todo Hnd; cbn [apply_initial snd].
  - unfold mem at 3. cbn [existsb andb]. rewrite orb_false_r. reflexivity.
  - inversion Hnd as [|? ? Hnotin Hnd']; subst. rewrite (mem_cons q p props).
    assert (Hnot : p = q -> mem q props = false).
    { intros <-. destruct (mem p props) eqn:Em; [|reflexivity].
      apply existsb_exists in Em as (y & Hy & Hq). apply Z.eqb_eq in Hq. subst y. contradiction. }
    assert (Hadd : forall st', (p <> q -> shas st' q = shas st q) -> shas st p = false ->
                     mem q (p :: todo) || (mem q props && negb (shas st' q)) = mem q todo || (((q =? p) || mem q props) && negb (shas st q))).
    { intros st' Hst Hp. rewrite mem_cons. destruct (Z.eq_dec p q) as [<-|Hne].
      - rewrite Z.eqb_refl, Hp. cbn [orb negb andb]. rewrite orb_true_r. reflexivity.
      - rewrite (Hst Hne). destruct (q =? p) eqn:E; [apply Z.eqb_eq in E; congruence|]. reflexivity. }
    destruct (shas st p) eqn:Ep.
    + rewrite (IH st todo Hnd'). destruct (Z.eq_dec p q) as [<-|Hne].
      * rewrite (Hnot eq_refl), Ep, Z.eqb_refl. cbn. reflexivity.
      * destruct (q =? p) eqn:E; [apply Z.eqb_eq in E; congruence|]. reflexivity.
    + destruct (sget (d_initials d) p); [rewrite (IH _ _ Hnd'); apply Hadd; [intros Hne; apply shas_sset_other; exact Hne | reflexivity]|].
      destruct (p =? p_Position); [rewrite (IH _ _ Hnd'); apply Hadd; [reflexivity | reflexivity]|].
      destruct (sget initial_values p); rewrite (IH _ _ Hnd'); apply Hadd; try reflexivity. intros Hne. apply shas_sset_other. exact Hne.
Qed.

Lemma existsb_skeys m p : existsb (Z.eqb p) (skeys m) = shas m p.
Proof.
  unfold skeys, shas. induction m as [|[k v] m IH]; [reflexivity|]. cbn [map fst existsb sget].
  rewrite (Z.eqb_sym p k). destruct (k =? p); [reflexivity | exact IH].
Qed.

Definition halve_kind (k pk : kind) : bool := match k with KRtc => true | KRt => negb (kind_eqb pk KRtc) | _ => false end.

Definition inh_step (k pk : kind) (pst : smap) (p : Z) (own : option value) : option value :=
  if p =? p_FontSize then
    match own with
    | Some v => Some v
    | None => match sget pst p with
              | Some (VLen pv) => Some (VLen (if halve_kind k pk then mkLen (Qdiv (lv pv) (qz 2)) (lu pv) else pv))
              | _ => None
              end
    end
  else if p =? p_TextDecoration then
    match sget pst p with
    | Some (VTextDec pu pl po) =>
        match own with
        | None => Some (VTextDec pu pl po)
        | Some (VTextDec u l o) => Some (VTextDec (if u =? -1 then pu else u) (if l =? -1 then pl else l) (if o =? -1 then po else o))
        | Some v => Some v
        end
    | _ => own
    end
  else if p =? p_WritingMode then match sget pst p with Some v => Some v | None => own end
  else if is_inherited p then match own with Some v => Some v | None => sget pst p end
  else own.

Lemma inherit_prop_key k pk pst st p : sget (inherit_prop k pk pst st p) p = inh_step k pk pst p (sget st p).
Proof.
  unfold inherit_prop, inh_step, shas, halve_kind.
  destruct (p =? p_FontSize).
  { destruct (sget st p) eqn:E; [exact E|]. destruct (sget pst p) as [[]|]; rewrite ?sget_sset_same; try exact E; reflexivity. }
  destruct (p =? p_TextDecoration).
  { destruct (sget pst p) as [[]|]; try reflexivity.
    destruct (sget st p) as [[]|] eqn:E; rewrite ?sget_sset_same; try exact E; reflexivity. }
  destruct (p =? p_WritingMode).
  { destruct (sget pst p); rewrite ?sget_sset_same; reflexivity. }
  destruct (is_inherited p); cbn [andb]; [|reflexivity].
  destruct (sget st p) eqn:E; cbn [negb]; [exact E|].
  destruct (sget pst p); rewrite ?sget_sset_same; try exact E; reflexivity.
Qed.

Lemma merge_idem u pu : (if (if u =? -1 then pu else u) =? -1 then pu else (if u =? -1 then pu else u)) = (if u =? -1 then pu else u).
Proof. destruct (u =? -1) eqn:E; [destruct (pu =? -1); reflexivity | rewrite E; reflexivity]. Qed.

Lemma inh_step_idem k pk pst p o : inh_step k pk pst p (inh_step k pk pst p o) = inh_step k pk pst p o.
Proof.
  unfold inh_step.
  destruct (p =? p_FontSize); [destruct o; [reflexivity|]; destruct (sget pst p) as [[]|]; reflexivity|].
  destruct (p =? p_TextDecoration).
  { destruct (sget pst p) as [[]|]; try reflexivity. destruct o as [[]|]; try reflexivity.
    - rewrite !merge_idem. reflexivity.
    - repeat match goal with |- context [if ?c then ?x else ?x] => destruct c end; reflexivity. }
  destruct (p =? p_WritingMode); [destruct (sget pst p); reflexivity|].
  destruct (is_inherited p); [|reflexivity]. destruct o; [reflexivity|]. destruct (sget pst p); reflexivity.
Qed.

Lemma apply_inherit_key k pk pst p : forall keys st,
  sget (apply_inherit k pk pst keys st) p = if mem p keys then inh_step k pk pst p (sget st p) else sget st p.
Proof.
  induction keys as [|q keys IH]; intros st; cbn [apply_inherit]; [reflexivity|]. rewrite IH, mem_cons.
  destruct (Z.eq_dec q p) as [->|Hne].
  - rewrite Z.eqb_refl. cbn [orb]. rewrite inherit_prop_key. destruct (mem p keys); [apply inh_step_idem | reflexivity].
  - rewrite inherit_prop_other by congruence. destruct (p =? q) eqn:E; [apply Z.eqb_eq in E; congruence|]. reflexivity.
Qed.

Lemma inh_step_generic k pk pst p o :
  p <> p_FontSize -> p <> p_TextDecoration -> p <> p_WritingMode ->
  inh_step k pk pst p o = if is_inherited p then match o with Some v => Some v | None => sget pst p end else o.
Proof.
  intros H1 H2 H3. unfold inh_step.
  destruct (p =? p_FontSize) eqn:E1; [apply Z.eqb_eq in E1; congruence|].
  destruct (p =? p_TextDecoration) eqn:E2; [apply Z.eqb_eq in E2; congruence|].
  destruct (p =? p_WritingMode) eqn:E3; [apply Z.eqb_eq in E3; congruence|]. reflexivity.
Qed.

Definition dir_special (a : attrs) : option value :=
  if negb (shas (e_styles a) p_Direction) then
    match sget (e_styles a) p_WritingMode with
    | Some (VEnum w) => if w =? e_WritingModeType_lrtb then Some (VEnum e_DirectionType_ltr)
                        else if w =? e_WritingModeType_rltb then Some (VEnum e_DirectionType_rtl) else None
    | _ => None
    end
  else None.
Definition fired (a : attrs) (p : Z) : bool := kind_eqb (e_kind a) KRegion && (p =? p_Direction) && is_some (dir_special a).

Definition dir_pass (a : attrs) (st : smap) (todo : list Z) : smap * list Z :=
  match e_kind a with
  | KRegion =>
      if negb (shas (e_styles a) p_Direction) then
        match sget (e_styles a) p_WritingMode with
        | Some (VEnum w) =>
            if w =? e_WritingModeType_lrtb then (sset st p_Direction (VEnum e_DirectionType_ltr), p_Direction :: todo)
            else if w =? e_WritingModeType_rltb then (sset st p_Direction (VEnum e_DirectionType_rtl), p_Direction :: todo)
            else (st, todo)
        | _ => (st, todo)
        end
      else (st, todo)
  | _ => (st, todo)
  end.

Lemma dir_pass_spec a st todo p :
  sget (fst (dir_pass a st todo)) p = (if fired a p then dir_special a else sget st p) /\
  mem p (snd (dir_pass a st todo)) = mem p todo || fired a p.
Proof.
  unfold dir_pass, fired, dir_special.
  destruct (e_kind a); cbn [kind_eqb andb fst snd]; try (rewrite orb_false_r; split; reflexivity).
  destruct (negb (shas (e_styles a) p_Direction)); cbn [fst snd is_some]; [|rewrite andb_false_r, orb_false_r; split; reflexivity].
  destruct (sget (e_styles a) p_WritingMode) as [[w| | | | | | | | | | | | | |]|]; cbn [fst snd is_some];
    try (rewrite andb_false_r, orb_false_r; split; reflexivity).
  assert (G : forall v, sget (sset st p_Direction v) p = (if (p =? p_Direction) && true then Some v else sget st p) /\
                        mem p (p_Direction :: todo) = mem p todo || ((p =? p_Direction) && true)).
  { intros v. rewrite mem_cons, andb_true_r. destruct (p =? p_Direction) eqn:E.
    - apply Z.eqb_eq in E. subst p. rewrite sget_sset_same, orb_true_r. split; reflexivity.
    - rewrite sget_sset_other by (intros ->; rewrite Z.eqb_refl in E; discriminate). rewrite orb_false_r. split; reflexivity. }
  destruct (w =? e_WritingModeType_lrtb); cbn [fst snd is_some]; [apply G|].
  destruct (w =? e_WritingModeType_rltb); cbn [fst snd is_some]; [apply G|].
  rewrite andb_false_r, orb_false_r. split; reflexivity.
Qed.

Definition step (d : doc) (par : option (kind * smap)) (todo : list Z) (p : Z) (st : smap) : res smap :=
  if mem p todo then compute_prop d par st p else Ok st.

Lemma compute_styles_cons_inv d par todo p order s st :
  compute_styles d par todo (p :: order) s = Ok st ->
  exists s', step d par todo p s = Ok s' /\ compute_styles d par todo order s' = Ok st.
Proof.
  cbn [compute_styles]. unfold step, mem. destruct (existsb (Z.eqb p) todo).
  - destruct (compute_prop d par s p) as [s'|]; [|discriminate]. cbn [bind]. intros H. exists s'. split; [reflexivity | exact H].
  - intros H. exists s. split; [reflexivity | exact H].
Qed.

Lemma compute_prop_fontsize_eq d par st :
  compute_prop d par st p_FontSize =
  match sget st p_FontSize with
  | Some (VLen v) =>
      let pv := match par with Some (_, pst) => get_len pst p_FontSize | None => None end in
      let ref := match pv with Some l => l | None => c_h d end in
      bind (compute_length v (Some ref) (Some ref) (Some (c_h d)) (Some (px_h d))) (fun l => Ok (sset st p_FontSize (VLen l)))
  | _ => Err errCompute
  end.
Proof. reflexivity. Qed.
Lemma compute_prop_extent d par st :
  compute_prop d par st p_Extent =
  match sget st p_Extent with
  | Some (VExtent h w) =>
      bind (compute_length h (Some (rh (qz 100))) (get_len st p_FontSize) (Some (c_h d)) (Some (px_h d))) (fun h' =>
      bind (compute_length w (Some (rw (qz 100))) (get_len st p_FontSize) (Some (c_w d)) (Some (px_w d))) (fun w' =>
      Ok (sset st p_Extent (VExtent h' w'))))
  | _ => Err errCompute
  end.
Proof. reflexivity. Qed.
Lemma compute_prop_disparity d par st :
  compute_prop d par st p_Disparity =
  match sget st p_Disparity with
  | Some (VLen l) =>
      bind (compute_length l (Some (rw (qz 100))) (get_len st p_FontSize) (Some (c_w d)) (Some (px_w d))) (fun l' =>
      Ok (sset st p_Disparity (VLen l')))
  | _ => Err errCompute
  end.
Proof. reflexivity. Qed.
Lemma compute_prop_origin d par st :
  compute_prop d par st p_Origin =
  match sget st p_Origin with
  | Some (VCoord x y) =>
      bind (compute_length y (Some (rh (qz 100))) None (Some (c_h d)) (Some (px_h d))) (fun y' =>
      bind (compute_length x (Some (rw (qz 100))) None (Some (c_w d)) (Some (px_w d))) (fun x' =>
      Ok (sset st p_Origin (VCoord x' y'))))
  | _ => Err errCompute
  end.
Proof. reflexivity. Qed.
Lemma compute_prop_padding d par st :
  compute_prop d par st p_Padding =
  match sget st p_Padding, sget st p_Extent with
  | Some (VPad b e a s), Some (VExtent eh ew) =>
      let vert := is_vertical (sget st p_WritingMode) in
      let fs := get_len st p_FontSize in
      let ba_pct := if vert then ew else eh in  let ba_c := if vert then c_w d else c_h d in
      let ba_px := if vert then px_w d else px_h d in
      let se_pct := if vert then eh else ew in  let se_c := if vert then c_h d else c_w d in
      let se_px := if vert then px_h d else px_w d in
      bind (compute_length b (Some ba_pct) fs (Some ba_c) (Some ba_px)) (fun b' =>
      bind (compute_length a (Some ba_pct) fs (Some ba_c) (Some ba_px)) (fun a' =>
      bind (compute_length s (Some se_pct) fs (Some se_c) (Some se_px)) (fun s' =>
      bind (compute_length e (Some se_pct) fs (Some se_c) (Some se_px)) (fun e' =>
      Ok (sset st p_Padding (VPad b' e' a' s'))))))
  | _, _ => Err errCompute
  end.
Proof. reflexivity. Qed.
Lemma compute_prop_lh d par st : compute_prop d par st p_LineHeight =
  match sget st p_LineHeight with
  | Some (VSpecial s) => Ok st
  | Some (VLen l) => bind (font_relative d st l) (fun l' => Ok (sset st p_LineHeight (VLen l')))
  | _ => Err errCompute
  end.
Proof. reflexivity. Qed.
Lemma compute_prop_lp d par st : compute_prop d par st p_LinePadding =
  match sget st p_LinePadding with
  | Some (VLen l) => bind (font_relative d st l) (fun l' => Ok (sset st p_LinePadding (VLen l')))
  | _ => Err errCompute
  end.
Proof. reflexivity. Qed.
Lemma compute_prop_rr d par st : compute_prop d par st p_RubyReserve =
  match sget st p_RubyReserve with
  | Some (VSpecial s) => Ok st
  | Some (VReserve pos (Some l)) => bind (font_relative d st l) (fun l' => Ok (sset st p_RubyReserve (VReserve pos (Some l'))))
  | Some (VReserve pos None) =>
      match get_len st p_FontSize with
      | Some fs => Ok (sset st p_RubyReserve (VReserve pos (Some (mkLen (Qdiv (lv fs) (qz 2)) (lu fs)))))
      | None => Err errCompute
      end
  | _ => Err errCompute
  end.
Proof. reflexivity. Qed.
Lemma compute_prop_to d par st : compute_prop d par st p_TextOutline =
  match sget st p_TextOutline with
  | Some (VSpecial s) => Ok st
  | Some (VOutline col t) =>
      bind (font_relative d st t) (fun t' =>
      Ok (sset st p_TextOutline (VOutline (match col with Some c => Some c | None => get_color st p_Color end) t')))
  | _ => Err errCompute
  end.
Proof. reflexivity. Qed.
Lemma compute_prop_ts d par st : compute_prop d par st p_TextShadow =
  match sget st p_TextShadow with
  | Some (VSpecial s) => Ok st
  | Some (VShadow ss) => bind (compute_shadows d st ss) (fun ss' => Ok (sset st p_TextShadow (VShadow ss')))
  | _ => Err errCompute
  end.
Proof. reflexivity. Qed.
Lemma compute_prop_te d par st : compute_prop d par st p_TextEmphasis =
  match sget st p_TextEmphasis with
  | Some (VSpecial s) => Ok st
  | Some (VEmph style col pos) =>
      let col' := match col with Some c => Some c | None => get_color st p_Color end in
      let wm := match par with Some (_, pst) => sget pst p_WritingMode | None => sget st p_WritingMode end in
      let style' := if style =? e_TextEmphasisType_Style_auto
                    then (if is_vertical wm then e_TextEmphasisType_Style_filled_sesame else e_TextEmphasisType_Style_filled_circle)
                    else style in
      Ok (sset st p_TextEmphasis (VEmph style' col' pos))
  | _ => Err errCompute
  end.
Proof. reflexivity. Qed.
Lemma compute_prop_position_eq d par st :
  compute_prop d par st p_Position =
  match sget st p_Position with
  | None =>
      match sget st p_Origin with
      | Some (VCoord x y) => Ok (sset st p_Position (VPos x e_PositionType_HEdge_left y e_PositionType_VEdge_top))
      | _ => Err errCompute
      end
  | Some (VPos ho he vo ve) =>
      match sget st p_Extent with
      | Some (VExtent eh ew) =>
          if negb (unit_eqb (lu eh) Urh && unit_eqb (lu ew) Urw) then Err errCompute
          else
          bind (compute_length vo (Some (rh (Qminus (qz 100) (lv eh)))) None (Some (c_h d)) (Some (px_h d))) (fun v1 =>
          let v2 := if ve =? e_PositionType_VEdge_bottom
                    then mkLen (Qminus (Qminus (qz 100) (lv eh)) (lv v1)) (lu v1) else v1 in
          bind (compute_length ho (Some (rw (Qminus (qz 100) (lv ew)))) None (Some (c_w d)) (Some (px_w d))) (fun h1 =>
          let h2 := if he =? e_PositionType_HEdge_right
                    then mkLen (Qminus (Qminus (qz 100) (lv ew)) (lv h1)) (lu h1) else h1 in
          Ok (sset (sset st p_Origin (VCoord h2 v2)) p_Position (VPos h2 e_PositionType_HEdge_left v2 e_PositionType_VEdge_top))))
      | _ => Err errCompute
      end
  | Some _ => Err errCompute
  end.
Proof. reflexivity. Qed.

(* H : <a run of a step written with if / match / bind> = Ok st': one goal per successful path through it *)
Ltac run_cases H :=
  repeat match type of H with
         | (if ?c then _ else _) = _ => destruct c eqn:?
         | match ?x with _ => _ end = _ => destruct x eqn:?
         | bind ?x _ = _ => destruct x eqn:?; cbn [bind] in H
         | Err _ = Ok _ => discriminate
         | Ok _ = Ok _ => injection H as <-
         end.

(* a step builds its map by setting its own key; the tts:position step also sets tts:origin *)
Lemma compute_prop_built (P : smap -> Prop) d par st p st' :
  (forall m v, P m -> P (sset m p v)) -> (p = p_Position -> forall m v, P m -> P (sset m p_Origin v)) ->
  compute_prop d par st p = Ok st' -> P st -> P st'.
Proof.
  intros Hp Ho H Hst. destruct (Z.eq_dec p p_Position) as [->|Hne].
  - rewrite compute_prop_position_eq in H.
    run_cases H; repeat first [apply Hp | apply (Ho eq_refl)]; exact Hst.
  - unfold compute_prop in H.
    destruct (p =? p_FontSize); [|destruct (p =? p_Extent); [|destruct (p =? p_Origin); [|destruct (p =? p_Position) eqn:E; [apply Z.eqb_eq in E; congruence|]]]].
    all: run_cases H; repeat apply Hp; exact Hst.
Qed.
Lemma compute_prop_frame d par st p st' q :
  compute_prop d par st p = Ok st' -> q <> p -> (p = p_Position -> q <> p_Origin) -> sget st' q = sget st q.
Proof.
  intros H Hq Ho. apply (compute_prop_built (fun m => sget m q = sget st q) _ _ _ _ _) with (3 := H); [| |reflexivity].
  - intros m v Hm. rewrite sget_sset_other by exact Hq. exact Hm.
  - intros E m v Hm. rewrite sget_sset_other by exact (Ho E). exact Hm.
Qed.
Lemma step_frame d par todo p s s' q :
  step d par todo p s = Ok s' -> q <> p -> (p = p_Position -> q <> p_Origin) -> sget s' q = sget s q.
Proof.
  unfold step. destruct (mem p todo); [apply compute_prop_frame|]. intros H _ _. injection H as <-. reflexivity.
Qed.

(* whatever tts:position was, its step leaves tts:origin and tts:position naming the same point from the top left corner *)
Definition coincide (st : smap) : Prop :=
  exists x y, sget st p_Origin = Some (VCoord x y) /\ sget st p_Position = Some (VPos x e_PositionType_HEdge_left y e_PositionType_VEdge_top).

Lemma compute_position_coincide d par st st' : compute_prop d par st p_Position = Ok st' -> coincide st'.
Proof.
  rewrite compute_prop_position_eq. intros H.
  assert (Hne : p_Origin <> p_Position) by discriminate.
  destruct (sget st p_Position) as [v|] eqn:Ep.
  - destruct v; try discriminate. destruct (sget st p_Extent) as [[]|]; try discriminate.
    destruct (negb _); [discriminate|].
    destruct (compute_length v _ None _ _) as [v1|]; [|discriminate]. cbn [bind] in H.
    destruct (compute_length h _ None _ _) as [h1|]; [|discriminate]. cbn [bind] in H. injection H as <-.
    eexists. eexists. split; [rewrite sget_sset_other by exact Hne; apply sget_sset_same | apply sget_sset_same].
  - destruct (sget st p_Origin) as [[]|] eqn:Eo; try discriminate. injection H as <-.
    eexists. eexists. split; [rewrite sget_sset_other by exact Hne; exact Eo | apply sget_sset_same].
Qed.

Lemma compute_styles_frame d par todo q : forall order s s',
  compute_styles d par todo order s = Ok s' -> ~ In q order -> (In p_Position order -> q <> p_Origin) -> sget s' q = sget s q.
Proof.
  induction order as [|p order IH]; intros s s' H Hq Ho; [cbn [compute_styles] in H; injection H as <-; reflexivity|].
  apply compute_styles_cons_inv in H as (s1 & H1 & H).
  rewrite (IH s1 s' H) by (first [intros X; apply Hq; right; exact X | intros X; apply Ho; right; exact X]).
  apply (step_frame _ _ _ _ _ _ _ H1).
  - intros ->. apply Hq. left. reflexivity.
  - intros ->. apply Ho. left. reflexivity.
Qed.

Lemma compute_styles_at d par todo p : forall pre post s0 st,
  compute_styles d par todo (pre ++ p :: post) s0 = Ok st ->
  exists s s', compute_styles d par todo pre s0 = Ok s /\ step d par todo p s = Ok s' /\ compute_styles d par todo post s' = Ok st.
Proof.
  induction pre as [|x pre IH]; intros post s0 st H; cbn [app] in H.
  - apply compute_styles_cons_inv in H as (s' & H1 & H). exists s0, s'. repeat split; [exact H1 | exact H].
  - apply compute_styles_cons_inv in H as (s1 & H1 & H). destruct (IH post s1 st H) as (s & s' & Ha & Hb & Hc).
    exists s, s'. repeat split; [|exact Hb | exact Hc]. cbn [compute_styles]. unfold step, mem in H1.
    destruct (existsb (Z.eqb x) todo); [rewrite H1; exact Ha | injection H1 as <-; exact Ha].
Qed.

