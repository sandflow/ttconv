(* C08: SccLine.process word by word — its equation for each kind of word, the channel filter and the handling of
   doubled control codes, for all states and all words. *)
From Coq Require Import QArith.
From TT Require Import Base.Prelude Base.SccTypes Base.SccDoc Gen.SccTables Model.SccWord Model.TimeCode Model.SccReader.
From TT Require Import Proofs.C08.Stamps.
Open Scope Z_scope.

Lemma byte2_range w : 0 <= byte2 w < 128.
Proof. unfold byte2. change parity_mask with (Z.ones 7). rewrite Z.land_ones by lia. apply Z.mod_pos_bound. reflexivity. Qed.
Lemma value_div w : value w / 256 = byte1 w.
Proof. unfold value. pose proof (byte2_range w). rewrite Z.div_add_l by lia. rewrite Z.div_small by lia. lia. Qed.
Lemma chan1_is_code w : d_chan (decode w) = 1 -> is_code (byte1 w) = true.
Proof.
  unfold decode. destruct (is_code (byte1 w)); [reflexivity|].
  destruct (value w =? 0); [discriminate|]. destruct (byte1 w <? 32); discriminate.
Qed.

Definition ch1_code (w : Z) : bool := (byte1 w <? 32) && negb (value w =? 0) && (d_chan (decode w) =? 1).
Lemma ch1_code_iff w : ch1_code w = true <-> d_chan (decode w) = 1.
Proof.
  unfold ch1_code. split.
  - intros H. lia.
  - intros H. pose proof (chan1_is_code w H) as Hc. unfold is_code in Hc.
    assert (value w <> 0) by (unfold value; pose proof (byte2_range w); lia). lia.
Qed.
Lemma ch1_bytes w : d_chan (decode w) = 1 -> (byte1 w <? 32) = true /\ (value w =? 0) = false.
Proof. intros H. apply ch1_code_iff in H. unfold ch1_code in H. lia. Qed.

Lemma is_dup_pad c w : value w = 0 -> is_dup c w = false.
Proof. intros H. unfold is_dup. destruct (c_prev c) as [pv|]; [|reflexivity]. rewrite H. destruct (pv =? 0) eqn:E; [|reflexivity]. assert (pv = 0) by lia. subst. reflexivity. Qed.
Lemma is_dup_chars c w : 32 <= byte1 w -> is_dup c w = false.
Proof.
  intros H. unfold is_dup. destruct (c_prev c) as [pv|]; [|reflexivity]. destruct (pv =? value w) eqn:E; [|reflexivity].
  assert (pv = value w) by lia. subst. rewrite value_div. unfold is_code. lia.
Qed.
Lemma step_pad c w : c_err c = false -> value w = 0 -> step c w = with_prev (with_tc c (tc_next (c_tc c))) None.
Proof.
  intros He Hv. pose proof (is_dup_pad c w Hv) as Hd. unfold is_dup in Hd. unfold step. rewrite He, Hd, Hv. reflexivity.
Qed.
Lemma step_other c w : c_err c = false -> is_dup c w = false -> value w <> 0 -> byte1 w < 32 -> d_chan (decode w) <> 1 ->
  step c w = with_prev (with_chan (with_tc c (tc_next (c_tc c))) (d_chan (decode w))) None.
Proof.
  intros He Hd Hv Hb Hc. unfold is_dup in Hd. unfold step. rewrite He, Hd.
  replace (value w =? 0) with false by lia. replace (byte1 w <? 32) with true by lia.
  replace (d_chan (decode w) =? 1) with false by lia. reflexivity.
Qed.
Lemma step_dup c w : c_err c = false -> is_dup c w = true -> step c w = with_prev c None.
Proof. intros He Hd. unfold is_dup in Hd. unfold step. rewrite He, Hd. reflexivity. Qed.
Lemma step_chars c w : c_err c = false -> 32 <= byte1 w ->
  step c w = let c1 := with_tc c (tc_next (c_tc c)) in
             if negb (c_chan c =? 1) then with_prev c1 None
             else with_prev (with_prev_type (process_text c1 (to_text w)) cChars) (Some (value w)).
Proof.
  intros He Hb. pose proof (is_dup_chars c w Hb) as Hd. unfold is_dup in Hd. unfold step. rewrite He, Hd.
  assert (value w <> 0) by (unfold value; pose proof (byte2_range w); lia).
  replace (value w =? 0) with false by lia. replace (byte1 w <? 32) with false by lia. reflexivity.
Qed.
Lemma step_code c w : c_err c = false -> is_dup c w = false -> d_chan (decode w) = 1 ->
  step c w =
  let d := decode w in let c := with_chan (with_tc c (tc_next (c_tc c))) 1 in
  with_prev
    (if d_cls d =? cPac then with_prev_type (process_pac c d) cPac
     else if d_cls d =? cAttr then with_prev_type (process_attribute c d) cAttr
     else if d_cls d =? cMidRow then with_prev_type (process_mid_row c d) cMidRow
     else if d_cls d =? cControl then with_prev_type (process_control c (d_code d)) cControl
     else if d_cls d =? cSpecial then with_prev_type (process_text c [d_t1 d]) cSpecial
     else if d_cls d =? cExtended then with_prev_type (process_text (backspace c) [d_t1 d]) cExtended
     else with_prev_type c (-1)) (Some (value w)).
Proof.
  intros He Hd Hc. destruct (ch1_bytes w Hc) as [H1 H2]. unfold is_dup in Hd. unfold step. rewrite He, Hd, H1, H2, Hc. reflexivity.
Qed.
Lemma step_control c w : c_err c = false -> is_dup c w = false -> d_chan (decode w) = 1 -> d_cls (decode w) = cControl ->
  step c w = with_prev (with_prev_type (process_control (with_chan (with_tc c (tc_next (c_tc c))) 1) (d_code (decode w))) cControl) (Some (value w)).
Proof. intros He Hd Hc Hcls. rewrite (step_code c w He Hd Hc). cbv zeta. rewrite Hcls. reflexivity. Qed.

(* the words that the channel filter skips: null padding; a word of the code range that decode does not attribute to channel 1; characters while another
   channel is addressed *)
Definition skipped (ch w : Z) : bool :=
  (value w =? 0) || (if byte1 w <? 32 then negb (d_chan (decode w) =? 1) else negb (ch =? 1)).
Definition chan_after (ch w : Z) : Z :=
  if value w =? 0 then ch else if byte1 w <? 32 then d_chan (decode w) else ch.
(* what a skipped word leaves: one more frame, the channel being addressed, and previous_word reset *)
Definition skip_to (c : ctx) (t : tcv) (ch : Z) : ctx := with_prev (with_chan (with_tc c t) ch) None.
Lemma skip_to_same c t : with_prev (with_tc c t) None = skip_to c t (c_chan c).
Proof. destruct c; reflexivity. Qed.
Lemma step_skipped c w : c_err c = false -> is_dup c w = false -> skipped (c_chan c) w = true ->
  step c w = skip_to c (tc_next (c_tc c)) (chan_after (c_chan c) w).
Proof.
  intros He Hd Hs. unfold step, is_dup, skipped, chan_after in *. rewrite He.
  destruct (match c_prev c with Some pv => _ | None => false end); [discriminate|].
  destruct (value w =? 0); [apply skip_to_same|]. cbn [orb] in Hs.
  destruct (byte1 w <? 32).
  - rewrite Hs. reflexivity.
  - change (c_chan (with_tc c (tc_next (c_tc c)))) with (c_chan c). rewrite Hs. apply skip_to_same.
Qed.
Lemma is_dup_reset c t ch w : is_dup (skip_to c t ch) w = false.
Proof. reflexivity. Qed.
Fixpoint block_ok (ch : Z) (b : list Z) : bool :=
  match b with [] => true | w :: b' => skipped ch w && block_ok (chan_after ch w) b' end.
Fixpoint chan_end (ch : Z) (b : list Z) : Z := match b with [] => ch | w :: b' => chan_end (chan_after ch w) b' end.
Lemma skip_to_twice c t1 x t2 y : skip_to (skip_to c t1 x) t2 y = skip_to c t2 y.
Proof. destruct c; reflexivity. Qed.
(* a non-empty block of skipped words changes nothing but the elapsed frames and the channel being addressed, and
   resets previous_word; only its first word could be taken for the second copy of a doubled code *)
Lemma channel_block_from b : forall c t ch, c_err c = false -> block_ok ch b = true ->
  fold_left step b (skip_to c t ch) = skip_to c (iter_n (length b) tc_next t) (chan_end ch b).
Proof.
  induction b as [|w b IH]; intros c t ch He Hb; cbn [fold_left length iter_n chan_end]; [reflexivity|].
  cbn [block_ok] in Hb. apply andb_true_iff in Hb as [Hs Hb].
  rewrite (step_skipped (skip_to c t ch) w He (is_dup_reset c t ch w) Hs).
  change (c_chan (skip_to c t ch)) with ch. change (c_tc (skip_to c t ch)) with t. rewrite skip_to_twice.
  rewrite IH by assumption. rewrite iter_shift. reflexivity.
Qed.
Lemma channel_block w b c : c_err c = false -> is_dup c w = false -> block_ok (c_chan c) (w :: b) = true ->
  fold_left step (w :: b) c = skip_to c (iter_n (length (w :: b)) tc_next (c_tc c)) (chan_end (c_chan c) (w :: b)).
Proof.
  intros He Hd Hb. cbn [fold_left]. cbn [block_ok] in Hb. apply andb_true_iff in Hb as [Hs Hb].
  rewrite (step_skipped c w He Hd Hs). rewrite channel_block_from by assumption.
  cbn [length chan_end]. rewrite iter_shift. reflexivity.
Qed.
Lemma step_ignores_chan c x w : c_err c = false -> is_dup c w = false -> d_chan (decode w) = 1 -> step (with_chan c x) w = step c w.
Proof.
  intros He Hd H. rewrite (step_code c w He Hd H), (step_code (with_chan c x) w He Hd H).
  replace (with_chan (with_tc (with_chan c x) (tc_next (c_tc (with_chan c x)))) 1) with (with_chan (with_tc c (tc_next (c_tc c))) 1)
    by (destruct c; reflexivity).
  reflexivity.
Qed.
(* interleaved words of another channel / null padding: the channel-1 code that follows is processed exactly as if
   only the frames had elapsed and previous_word had been forgotten - whatever that code is: a code repeated after the
   block is acted upon again *)
Lemma channel_filter x b w c : c_err c = false -> is_dup c x = false -> block_ok (c_chan c) (x :: b) = true ->
  ch1_code w = true ->
  fold_left step ((x :: b) ++ [w]) c = step (with_prev (with_tc c (iter_n (length (x :: b)) tc_next (c_tc c))) None) w.
Proof.
  intros He Hd Hb Hw. rewrite fold_left_app. cbn [fold_left app]. 
  change (fold_left step b (step c x)) with (fold_left step (x :: b) c). rewrite channel_block by assumption.
  unfold skip_to.
  set (c' := with_tc c _).
  replace (with_prev (with_chan c' (chan_end (c_chan c) (x :: b))) None) with (with_chan (with_prev c' None) (chan_end (c_chan c) (x :: b)))
    by (destruct c; reflexivity).
  apply step_ignores_chan; [exact He|reflexivity|apply ch1_code_iff, Hw].
Qed.

(* the second copy of a doubled channel-1 code changes nothing but previous_word, and consumes no frame *)
Lemma doubled_once c w : c_err c = false -> is_dup c w = false -> ch1_code w = true ->
  step (step c w) w = with_prev (step c w) None /\ c_tc (step (step c w) w) = c_tc (step c w).
Proof.
  intros He Hd Hw. apply ch1_code_iff in Hw. assert (He2 : c_err (step c w) = false) by (rewrite noerr_step; exact He).
  assert (Hdup : is_dup (step c w) w = true).
  { unfold is_dup. rewrite (step_code c w He Hd Hw). cbn [c_prev with_prev]. rewrite Z.eqb_refl, value_div. exact (chan1_is_code w Hw). }
  split.
  - exact (step_dup _ w He2 Hdup).
  - rewrite tc_step, He2, Hdup. reflexivity.
Qed.
