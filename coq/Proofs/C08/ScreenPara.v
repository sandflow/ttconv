(* C08, display simulation, part 3: the relation between a caption of the reader and a memory of the reference
   decoder (same cells on the same rows and columns, blank cells being transparent or spaces), and its preservation
   by the paragraph operations of the pop-on protocol. *)
From Coq Require Import QArith.
From TT Require Import Base.Prelude Base.SccTypes Base.SccDoc Gen.SccTables Model.SccWord Model.TimeCode Model.SccReader Spec.Cea608Screen.
From TT Require Import Proofs.C08.Text Proofs.C08.ScreenMem Proofs.C08.ScreenLine.
Open Scope Z_scope.

Lemma Forall2_ceqv_nth A B k : Forall2 ceqv A B -> ceqv (nth k A blank) (nth k B blank).
Proof. intros H. revert k. induction H; intros [|k]; cbn; auto using ceqv_refl. Qed.
Lemma Forall2_ceqv_refl A : Forall2 ceqv A A.
Proof. induction A; constructor; auto using ceqv_refl. Qed.
Lemma Forall2_ceqv_app A B C D : Forall2 ceqv A B -> Forall2 ceqv C D -> Forall2 ceqv (A ++ C) (B ++ D).
Proof. intros H. induction H; cbn; auto. Qed.
Lemma Forall2_length {X Y} (R : X -> Y -> Prop) A B : Forall2 R A B -> length A = length B.
Proof. induction 1; cbn; congruence. Qed.
Lemma lcell_cells l c : lcell l c = if c <? l_indent l then blank else nth (Z.to_nat (c - l_indent l)) (lcells l) blank.
Proof. reflexivity. Qed.
Lemma lcell_eqv l l' c : l_indent l' = l_indent l -> Forall2 ceqv (lcells l) (lcells l') -> ceqv (lcell l c) (lcell l' c).
Proof. intros Hi H. unfold lcell. rewrite Hi. destruct (c <? l_indent l); [apply ceqv_refl|]. now apply Forall2_ceqv_nth. Qed.

Definition pristine (p : para) : Prop := p_lines p = [(0, line_new 0 0)] /\ p_cur p = Att 0.
Definition nobegin (l : cline) : Prop := Forall (fun t => t_begin t = None) (l_texts l).
(* st: the caption style of the paragraph (pop-on for the buffered / flipped captions, roll-up for a roll-up caption) *)
Section Style.
Context {st : Z}.
Record para_mem (p : para) (m : mem) (used : list Z) : Prop := {
  pm_cells : forall r c, in_rows r -> in_cols c -> ceqv (mcell m r c) (pcell p r c);
  pm_line : forall r l, dget r (p_lines p) = Some l -> l_row l = r /\ 0 <= l_indent l /\ l_indent l + line_length l <= 32 /\ nobegin l;
  pm_keys : pristine p \/ (forall r l, dget r (p_lines p) = Some l -> in_rows r /\ In r used);
  pm_nodup : NoDup (map fst (p_lines p));
  pm_cur : exists r l, p_cur p = Att r /\ dget r (p_lines p) = Some l;
  pm_style : p_style p = st }.

Lemma para_mem_new m u : (forall r c, is_blank (mcell m r c) = true) -> para_mem (para_new st) m u.
Proof.
  intros Hm. split.
  - intros r c Hr Hc. unfold pcell, para_new. cbn [p_lines dget]. unfold in_rows in Hr. destruct (r =? 0) eqn:E; [lia|].
    apply ceqv_blank; [apply Hm|reflexivity].
  - intros r l. unfold para_new. cbn [p_lines dget]. destruct (r =? 0) eqn:E; [|discriminate]. intros H; inversion H; subst.
    cbn. repeat split; try lia. repeat constructor.
  - left. split; reflexivity.
  - cbn. constructor; [intros []|constructor].
  - exists 0, (line_new 0 0). split; reflexivity.
  - reflexivity.
Qed.
Lemma para_mem_ext p m m' u u' : para_mem p m u -> (forall r c, in_rows r -> in_cols c -> mcell m' r c = mcell m r c) -> incl u u' -> para_mem p m' u'.
Proof.
  intros [A B C D E F] Hm Hu. split; try assumption.
  - intros r c Hr Hc. rewrite Hm by assumption. now apply A.
  - destruct C as [C|C]; [now left|right]. intros r l H. destruct (C r l H). split; [assumption|now apply Hu].
Qed.

(* one row of the caption is replaced; the memory changes on that row only *)
Lemma para_mem_update p m u r l l' m' : para_mem p m u -> dget r (p_lines p) = Some l -> in_rows r -> In r u ->
  l_row l' = r -> 0 <= l_indent l' -> l_indent l' + line_length l' <= 32 -> nobegin l' ->
  (forall r' c', in_rows r' -> in_cols c' -> r' <> r -> mcell m' r' c' = mcell m r' c') ->
  (forall c', in_cols c' -> ceqv (mcell m' r c') (lcell l' c')) ->
  para_mem (put_line p r l') m' u.
Proof.
  intros [A B C D E F] Hg Hr Hu Hrow Hi Hlen Hnb Hother Hrowcells. split.
  - intros r' c' Hr' Hc'. rewrite pcell_put_line. destruct (r' =? r) eqn:Er.
    + assert (r' = r) by lia. subst r'. now apply Hrowcells.
    + rewrite Hother by (try assumption; lia). now apply A.
  - intros r' l0. rewrite dget_put_line. destruct (r' =? r) eqn:Er.
    + intros H; inversion H; subst l0. assert (r' = r) by lia. subst r'. repeat split; assumption.
    + apply B.
  - right. intros r' l0. rewrite dget_put_line. destruct (r' =? r) eqn:Er.
    + intros _. assert (r' = r) by lia. subst r'. split; assumption.
    + destruct C as [[C1 C2]|C]; [|apply C].
      rewrite C1 in Hg. cbn in Hg. destruct (r =? 0) eqn:E0; [unfold in_rows in Hr; lia|discriminate].
  - rewrite (keys_put_line p r l' l Hg). exact D.
  - destruct E as (r0 & l0 & E1 & E2). exists r0. rewrite cur_put_line. 
    destruct (r0 =? r) eqn:Er.
    + exists l'. split; [exact E1|]. rewrite dget_put_line, Er. reflexivity.
    + exists l0. split; [exact E1|]. rewrite dget_put_line, Er. exact E2.
  - exact F.
Qed.
Lemma para_mem_set_cursor p m u x : para_mem p m u -> para_mem (set_cursor p x) m u.
Proof. intros [A B C D E F]. split; assumption. Qed.

(* set_cursor_at(row, indent) for a row that holds no line (PAC to a fresh row) *)
Definition fresh_lines (p : para) (r0 : Z) (l0 : cline) : list (Z * cline) :=
  if line_is_empty l0 then ddel r0 (p_lines p) else p_lines p.
Definition at_fresh (p : para) (r0 : Z) (l0 : cline) (row ind0 : Z) : para :=
  set_cur (set_plines (set_cursor p (row, ind0)) (dset row (line_new row ind0) (fresh_lines p r0 l0))) (Att row).
Lemma line_set_cursor_new r i : line_set_cursor (line_new r i) 0 = line_new r i.
Proof. exact (line_set_cursor_at (line_new r i) [] text_new (line_at_new r i)). Qed.
(* the line just created at the cursor: _update_current_line_cursor has nothing to do *)
Lemma update_line_cursor_new q row i : p_cursor q = (row, i) ->
  update_line_cursor (set_cur (new_caption_line q) (Att row)) = set_cur (new_caption_line q) (Att row).
Proof.
  intros Hq. unfold new_caption_line. rewrite Hq.
  rewrite (update_line_cursor_at _ row (line_new row i)); [|reflexivity|apply dget_dset_same|cbn [p_cursor set_cur set_plines]; rewrite Hq; symmetry; apply Z.add_0_r].
  rewrite line_set_cursor_new. unfold put_line. cbn [p_lines set_cur set_plines]. rewrite dset_dset. reflexivity.
Qed.
Lemma set_cursor_at_fresh p r0 l0 row ind' : p_cur p = Att r0 -> dget r0 (p_lines p) = Some l0 -> l_row l0 = r0 ->
  dget row (fresh_lines p r0 l0) = None ->
  set_cursor_at p row ind' = at_fresh p r0 l0 row (if ind' =? -1 then 0 else ind').
Proof.
  intros Hc Hg Hr Hnone. unfold set_cursor_at. rewrite (cur_line_at p r0 l0 Hc Hg), Hr, Hg.
  unfold at_fresh, fresh_lines in *.
  destruct (line_is_empty l0); cbn [p_lines set_cur set_plines set_cursor]; rewrite Hnone;
    (destruct (ind' =? -1); [|erewrite update_line_cursor_new by reflexivity]); destruct p; reflexivity.
Qed.
Lemma dget_fresh_lines p r0 l0 r : NoDup (map fst (p_lines p)) ->
  dget r (fresh_lines p r0 l0) = if line_is_empty l0 && (r =? r0) then None else dget r (p_lines p).
Proof.
  intros Hn. unfold fresh_lines. destruct (line_is_empty l0); [|reflexivity]. cbn [andb]. now apply dget_ddel.
Qed.
(* a row that shows nothing - it holds no line, or it is the row of the current line and that line is empty - becomes the row
   of the cursor; u' lists the rows addressed from then on *)
Lemma para_mem_fresh p m u u' r0 l0 row ind0 : para_mem p m u -> p_cur p = Att r0 -> dget r0 (p_lines p) = Some l0 ->
  dget row (p_lines p) = None \/ (line_is_empty l0 = true /\ row = r0) ->
  in_rows row -> 0 <= ind0 <= 32 -> incl u u' -> In row u' ->
  dget row (fresh_lines p r0 l0) = None /\
  para_mem (at_fresh p r0 l0 row ind0) m u' /\ para_at (at_fresh p r0 l0 row ind0) row ind0 (line_new row ind0) [] text_new.
Proof.
  intros [A B C D E F] Hc Hg Hnone0 Hrow Hind Hincl Hin'.
  assert (Hnone : dget row (fresh_lines p r0 l0) = None).
  { rewrite dget_fresh_lines by exact D. destruct Hnone0 as [H|[H1 H2]].
    - rewrite H. destruct (_ && _); reflexivity.
    - subst row. rewrite H1, Z.eqb_refl. reflexivity. }
  split; [exact Hnone|].
  assert (Hget : forall r, dget r (p_lines (at_fresh p r0 l0 row ind0)) =
                           if r =? row then Some (line_new row ind0) else if line_is_empty l0 && (r =? r0) then None else dget r (p_lines p)).
  { intros r. unfold at_fresh. cbn [p_lines set_cur set_plines]. rewrite dget_dset. destruct (r =? row); [reflexivity|]. now apply dget_fresh_lines. }
  (* what the caption showed on a row whose line is dropped, or on the new row: nothing *)
  assert (Hblank : forall r c, in_rows r -> in_cols c -> r = row \/ (line_is_empty l0 && (r =? r0)) = true -> ceqv (mcell m r c) blank).
  { intros r c Hr Hc' Hcase. specialize (A r c Hr Hc'). unfold pcell in A.
    assert (Hr0 : dget r (p_lines p) = None \/ (line_is_empty l0 = true /\ r = r0)).
    { destruct Hcase as [->|H]; [exact Hnone0|]. apply andb_true_iff in H as [H1 H2]. right. split; [exact H1|lia]. }
    destruct Hr0 as [H|[H1 ->]]; [now rewrite H in A|]. rewrite Hg, lcell_empty in A; [exact A|]. unfold line_is_empty in H1. lia. }
  split.
  - split.
    + intros r c Hr Hc'. unfold pcell. rewrite Hget. destruct (r =? row) eqn:Er.
      * rewrite lcell_empty by reflexivity. apply Hblank; try assumption. left. lia.
      * destruct (line_is_empty l0 && (r =? r0)) eqn:E2; [apply Hblank; try assumption; now right|apply (A r c Hr Hc')].
    + intros r l. rewrite Hget. destruct (r =? row) eqn:Er.
      * intros H; inversion H; subst l. assert (r = row) by lia. subst r. cbn. repeat split; try lia. repeat constructor.
      * destruct (_ && _); [discriminate|]. apply B.
    + right. intros r l. rewrite Hget. destruct (r =? row) eqn:Er.
      * intros _. assert (r = row) by lia. subst r. split; assumption.
      * destruct (line_is_empty l0 && (r =? r0)) eqn:E2; [discriminate|]. intros H.
        destruct C as [[C1 C2]|C]; [|destruct (C r l H); split; [assumption|now apply Hincl]].
        (* a pristine caption holds its empty current line only *)
        rewrite C2 in Hc. injection Hc as <-. rewrite C1 in Hg, H. cbn in Hg, H. injection Hg as <-.
        destruct (r =? 0); [discriminate E2|discriminate H].
    + unfold at_fresh. cbn [p_lines set_cur set_plines]. apply nodup_dset_new; [exact Hnone|].
      unfold fresh_lines. destruct (line_is_empty l0); [now apply nodup_ddel|exact D].
    + exists row, (line_new row ind0). split; [reflexivity|]. rewrite Hget, Z.eqb_refl. reflexivity.
    + exact F.
  - split; [reflexivity|]. split; [rewrite Hget, Z.eqb_refl; reflexivity|]. split; [apply line_at_new|].
    split; [reflexivity|]. split; [reflexivity|]. cbn. lia.
Qed.
(* the rows of a caption that has a line on a row of the screen are listed *)
Lemma para_mem_used p m u r l : para_mem p m u -> dget r (p_lines p) = Some l -> in_rows r -> In r u.
Proof.
  intros Hpm Hg Hr. destruct (pm_keys _ _ _ Hpm) as [[C1 _]|C]; [|now destruct (C r l Hg)].
  rewrite C1 in Hg. cbn in Hg. unfold in_rows in Hr. destruct (r =? 0) eqn:E0; [lia|discriminate].
Qed.
(* set_cursor_at(row, indent) for a row that no PAC has addressed *)
Lemma para_mem_at_fresh p m u row ind0 : para_mem p m u -> ~ In row u -> in_rows row -> 0 <= ind0 <= 32 ->
  exists r0 l0, p_cur p = Att r0 /\ dget r0 (p_lines p) = Some l0 /\ l_row l0 = r0 /\ dget row (fresh_lines p r0 l0) = None /\
    para_mem (at_fresh p r0 l0 row ind0) m (row :: u) /\ para_at (at_fresh p r0 l0 row ind0) row ind0 (line_new row ind0) [] text_new.
Proof.
  intros Hpm Hnu Hrow Hind. destruct (pm_cur _ _ _ Hpm) as (r0 & l0 & Hc & Hg). exists r0, l0.
  split; [exact Hc|]. split; [exact Hg|]. split; [apply (pm_line _ _ _ Hpm r0 l0 Hg)|].
  apply (para_mem_fresh p m u (row :: u)); try assumption; [|apply incl_tl, incl_refl|now left].
  left. destruct (dget row (p_lines p)) as [lx|] eqn:Ex; [|reflexivity]. destruct (Hnu (para_mem_used p m u row lx Hpm Ex Hrow)).
Qed.

Lemma lcell_prefix l l2 A B : l_indent l2 = l_indent l -> lcells l2 = A ++ B -> Forall2 ceqv (lcells l) A ->
  forall c, c < l_indent l + line_length l -> ceqv (lcell l c) (lcell l2 c).
Proof.
  intros Hi Hc HF c Hlt. unfold lcell. rewrite Hi. destruct (c <? l_indent l) eqn:E; [apply ceqv_refl|].
  rewrite Hc. pose proof (Forall2_length _ _ _ HF) as HL. pose proof (lcells_length l) as HL2. unfold zlen in HL2.
  rewrite app_nth1 by lia. now apply Forall2_ceqv_nth.
Qed.
Lemma lcell_suffix l l2 A B : l_indent l2 = l_indent l -> lcells l2 = A ++ B -> zlen A = line_length l ->
  forall c, l_indent l + line_length l <= c -> lcell l2 c = nth (Z.to_nat (c - (l_indent l + line_length l))) B blank.
Proof.
  intros Hi Hc HL c Hge. unfold lcell. rewrite Hi. pose proof (line_length_nonneg l).
  destruct (c <? l_indent l) eqn:E; [lia|]. rewrite Hc. unfold zlen in HL. rewrite app_nth2 by lia. f_equal. lia.
Qed.

(* writing characters with the pen: the decoder's side *)
Fixpoint write_cells (m : mem) (r c : Z) (f : Z -> cell) (chs : list Z) : mem :=
  match chs with [] => m | ch :: chs' => write_cells (cell_set m r c (f ch)) r (c + 1) f chs' end.
Lemma write_cells_wf chs : forall m r c f, mem_wf m -> mem_wf (write_cells m r c f chs).
Proof. induction chs as [|ch chs IH]; intros m r c f H; cbn; [exact H|]. apply IH. now apply mem_wf_cell_set. Qed.
Lemma mcell_write_cells chs : forall m r c f r' c', mem_wf m -> in_rows r -> 0 <= c -> c + zlen chs <= 32 -> 0 <= c' ->
  mcell (write_cells m r c f chs) r' c' =
  if (r' =? r) && (c <=? c') && (c' <? c + zlen chs) then f (nth (Z.to_nat (c' - c)) chs 0) else mcell m r' c'.
Proof.
  induction chs as [|ch chs IH]; intros m r c f r' c' Hw Hr Hc Hlen Hc'; cbn [write_cells].
  - unfold zlen. cbn. replace ((r' =? r) && (c <=? c') && (c' <? c + 0)) with false by lia. reflexivity.
  - assert (Hz : zlen (ch :: chs) = zlen chs + 1) by (unfold zlen; cbn [length]; lia). rewrite Hz in *.
    pose proof (zlen_nonneg chs).
    rewrite IH; [|now apply mem_wf_cell_set|exact Hr|lia|lia|exact Hc'].
    rewrite mcell_cell_set; [|exact Hw|exact Hr|unfold in_cols; lia|exact Hc'].
    destruct (r' =? r) eqn:Er; cbn [andb]; [|reflexivity].
    destruct (c' =? c) eqn:Ec.
    + assert (c' = c) by lia. subst c'. replace (c + 1 <=? c) with false by lia. cbn [andb].
      replace ((c <=? c) && (c <? c + (zlen chs + 1))) with true by lia. rewrite Z.sub_diag. reflexivity.
    + destruct ((c + 1 <=? c') && (c' <? c + 1 + zlen chs)) eqn:E1.
      * replace ((c <=? c') && (c' <? c + (zlen chs + 1))) with true by lia.
        replace (Z.to_nat (c' - c)) with (S (Z.to_nat (c' - (c + 1)))) by lia. reflexivity.
      * replace ((c <=? c') && (c' <? c + (zlen chs + 1))) with false by lia. reflexivity.
Qed.
Definition puts (s : scr) (chs : list Z) : scr := fold_left put chs s.
Definition pen_cell (s : scr) (ch : Z) : cell := mkCell ch (pcol s) (pita s) (pund s).
Lemma puts_pop chs : forall s, md s = PopOn -> ccol s + zlen chs <= 31 ->
  puts s chs = set_pos (set_nond s (write_cells (nond s) (crow s) (ccol s) (pen_cell s) chs)) (crow s) (ccol s + zlen chs).
Proof.
  induction chs as [|ch chs IH]; intros s Hm Hlen.
  - unfold puts, zlen. cbn. rewrite Z.add_0_r. destruct s; reflexivity.
  - assert (Hz : zlen (ch :: chs) = zlen chs + 1) by (unfold zlen; cbn [length]; lia). rewrite Hz in *.
    pose proof (zlen_nonneg chs).
    unfold puts. cbn [fold_left]. fold (puts (put s ch) chs). rewrite (put_pop s ch Hm).
    replace (Z.min 31 (ccol s + 1)) with (ccol s + 1) by lia.
    rewrite IH; [|exact Hm|cbn; lia]. cbn [write_cells]. unfold set_pos, set_nond, pen_cell. cbn [disp nond md crow ccol pcol pita pund last chan pmid].
    f_equal. lia.
Qed.

Lemma para_at_row p m u r col l ts t : para_mem p m u -> para_at p r col l ts t -> in_rows r ->
  In r u /\ 0 <= l_indent l /\ nobegin l /\ (forall c, in_cols c -> ceqv (mcell m r c) (lcell l c)).
Proof.
  intros [A B C D E F] (Hc & Hg & Hl & Hr & Hcur & Hcol) Hin.
  destruct (B r l Hg) as (_ & Hi & _ & Hnb). split; [|split; [exact Hi|split; [exact Hnb|]]].
  - apply (para_mem_used p m u r l); [split; assumption|exact Hg|exact Hin].
  - intros c Hcc. specialize (A r c Hin Hcc). unfold pcell in A. now rewrite Hg in A.
Qed.
Lemma nth_map_cell (f : Z -> cell) W k : (k < length W)%nat -> nth k (map f W) blank = f (nth k W 0).
Proof. intros H. rewrite (nth_indep _ blank (f 0)) by (rewrite map_length; exact H). apply map_nth. Qed.
(* characters W are written with f at the cursor; the new line shows the old cells followed by the written ones *)
Lemma para_extend p m u r col l ts t l2 f W A B : para_mem p m u -> para_at p r col l ts t -> in_rows r -> 0 <= col ->
  col + zlen W <= 31 -> mem_wf m -> l_row l2 = r -> l_indent l2 = l_indent l -> nobegin l2 ->
  lcells l2 = A ++ B -> Forall2 ceqv (lcells l) A -> Forall2 ceqv (map f W) B ->
  para_mem (put_line p r l2) (write_cells m r col f W) u.
Proof.
  intros Hpm Hat Hin Hcol Hlen Hwf Hrow Hind Hnb Hcells HA HB.
  destruct (para_at_row p m u r col l ts t Hpm Hat Hin) as (Hu & Hi & _ & Hold).
  destruct Hat as (Hc & Hg & Hl & Hr & Hcur & Hcoleq).
  pose proof (Forall2_length _ _ _ HA) as LA. pose proof (Forall2_length _ _ _ HB) as LB. rewrite map_length in LB.
  pose proof (lcells_length l) as Ll. pose proof (lcells_length l2) as Ll2. unfold zlen in Ll, Ll2.
  assert (Elen2 : line_length l2 = line_length l + zlen W).
  { rewrite <- Ll2, Hcells, app_length, <- LA, <- LB, Nat2Z.inj_add, Ll. unfold zlen. reflexivity. }
  pose proof (zlen_nonneg W). pose proof (line_length_nonneg l).
  apply (para_mem_update p m u r l l2); try assumption.
  - rewrite Hind. exact Hi.
  - rewrite Hind, Elen2. lia.
  - intros r' c' Hr' Hc' Hne. rewrite mcell_write_cells; try assumption; [|lia|unfold in_cols in Hc'; lia].
    replace (r' =? r) with false by lia. reflexivity.
  - intros c' Hc'. rewrite mcell_write_cells; try assumption; [|lia|unfold in_cols in Hc'; lia]. rewrite Z.eqb_refl. cbn [andb].
    destruct (c' <? col) eqn:E1.
    + replace ((col <=? c') && (c' <? col + zlen W)) with false by lia.
      eapply ceqv_trans; [apply (Hold c' Hc')|]. apply (lcell_prefix l l2 A B Hind Hcells HA). lia.
    + rewrite (lcell_suffix l l2 A B Hind Hcells) by (unfold zlen; lia). rewrite <- Hcoleq.
      destruct (c' <? col + zlen W) eqn:E2.
      * replace (col <=? c') with true by lia. cbn [andb].
        eapply ceqv_trans; [|apply (Forall2_ceqv_nth _ _ _ HB)]. rewrite nth_map_cell by (unfold zlen in *; lia). apply ceqv_refl.
      * replace ((col <=? c') && false) with false by lia. rewrite nth_overflow by (unfold zlen in *; lia).
        apply ceqv_blank; [|reflexivity]. apply (ceqv_blank_l _ (lcell l c')); [apply (Hold c' Hc')|].
        rewrite lcell_beyond by lia. reflexivity.
Qed.
(* the cursor moves right over cells that stay empty: the new line shows the old cells followed by blanks *)
Lemma para_extend_blank p m u r col l ts t l2 A B : para_mem p m u -> para_at p r col l ts t -> in_rows r ->
  l_row l2 = r -> l_indent l2 = l_indent l -> nobegin l2 -> l_indent l2 + line_length l2 <= 32 ->
  lcells l2 = A ++ B -> Forall2 ceqv (lcells l) A -> Forall (fun x => is_blank x = true) B ->
  para_mem (put_line p r l2) m u.
Proof.
  intros Hpm Hat Hin Hrow Hind Hnb Hlen Hcells HA HB.
  destruct (para_at_row p m u r col l ts t Hpm Hat Hin) as (Hu & Hi & _ & Hold).
  destruct Hat as (Hc & Hg & Hl & Hr & Hcur & Hcoleq).
  pose proof (Forall2_length _ _ _ HA) as LA. pose proof (lcells_length l) as Ll. unfold zlen in Ll.
  pose proof (line_length_nonneg l).
  apply (para_mem_update p m u r l l2); try assumption.
  - rewrite Hind. exact Hi.
  - intros; reflexivity.
  - intros c' Hc'. destruct (c' <? col) eqn:E1.
    + eapply ceqv_trans; [apply (Hold c' Hc')|]. apply (lcell_prefix l l2 A B Hind Hcells HA). lia.
    + rewrite (lcell_suffix l l2 A B Hind Hcells) by (unfold zlen; lia).
      apply ceqv_blank.
      * apply (ceqv_blank_l _ (lcell l c')); [apply (Hold c' Hc')|]. rewrite lcell_beyond by lia. reflexivity.
      * destruct (nth_in_or_default (Z.to_nat (c' - (l_indent l + line_length l))) B blank) as [Hn|Hn]; [|rewrite Hn; reflexivity].
        rewrite Forall_forall in HB. now apply HB.
Qed.

(* process_text on a caption: append_text, then the pen's attributes on the current text *)
Lemma para_at_set_cursor_put p r col l ts t l2 ts2 t2 col2 : para_at p r col l ts t -> line_at l2 ts2 t2 -> l_row l2 = r ->
  col2 = l_indent l2 + line_length l2 -> para_at (set_cursor (put_line p r l2) (r, col2)) r col2 l2 ts2 t2.
Proof.
  intros (Hc & Hg & Hl & Hr & Hcur & Hcol) Hl2 Hr2 Hcol2. split; [exact Hc|]. split; [cbn [p_lines set_cursor]; rewrite dget_put_line, Z.eqb_refl; reflexivity|].
  split; [exact Hl2|]. split; [exact Hr2|]. split; [reflexivity|exact Hcol2].
Qed.
Definition all_spaces (t : ctext) : Prop := Forall (fun ch => ch = 32) (t_text t).
Lemma tcells_restyle t st' pen : (t_sty t = ts0 /\ all_spaces t) \/ sview (t_sty t) = pen -> sview st' = pen ->
  Forall2 ceqv (tcells t) (map (scell st') (t_text t)).
Proof.
  intros H Hst. unfold tcells. destruct H as [[_ Hsp]|Hv].
  - unfold all_spaces in Hsp. induction Hsp as [|ch tx Hch Htx IH]; cbn; constructor; [|exact IH]. subst ch. apply ceqv_blank; reflexivity.
  - assert (E : forall ch, scell (t_sty t) ch = scell st' ch) by (intros; apply scell_sview; congruence).
    induction (t_text t) as [|ch tx IH]; cbn; constructor; [rewrite E; apply ceqv_refl|exact IH].
Qed.
Lemma para_write p m u r col l ts t colr ita und pc pi pu word :
  para_mem p m u -> para_at p r col l ts t -> in_rows r -> 0 <= col -> col + zlen word <= 31 -> word <> [] -> mem_wf m ->
  (t_sty t = ts0 /\ all_spaces t) \/ sview (t_sty t) = penview colr ita und -> penview colr ita und = (pc, pi, pu) ->
  let t2 := text_set_sty (text_app t word) (pen_apply colr ita und (t_sty t)) in
  let l2 := line_map_last (line_app l ts t word) ts t2 in
  let p2 := set_cursor (put_line p r l2) (r, col + zlen word) in
  upd_cur_text (append_text p word) (fun x => text_set_sty x (pen_apply colr ita und (t_sty x))) = p2 /\
  para_mem p2 (write_cells m r col (fun ch => mkCell ch pc pi pu) word) u /\
  para_at p2 r (col + zlen word) l2 ts t2 /\ sview (t_sty t2) = (pc, pi, pu) /\ t_text t2 = t_text t ++ word.
Proof.
  intros Hpm Hat Hin Hcol Hlen Hw Hwf Helt Hpen. cbv zeta.
  set (st' := pen_apply colr ita und (t_sty t)).
  set (t2 := text_set_sty (text_app t word) st').
  set (l1 := line_app l ts t word). set (l2 := line_map_last l1 ts t2).
  assert (Hst' : sview st' = penview colr ita und).
  { apply pen_apply_view. destruct Helt as [[H _]|H]; [now left|now right]. }
  pose proof Hat as (Hc & Hg & Hl & Hr & Hcur & Hcoleq).
  pose proof (para_at_append p r col l ts t word Hat) as Hat1. fold l1 in Hat1.
  assert (Eq : upd_cur_text (append_text p word) (fun x => text_set_sty x (pen_apply colr ita und (t_sty x))) =
               set_cursor (put_line p r l2) (r, col + zlen word)).
  { rewrite (append_text_at p r col l ts t word Hat Hw). fold l1.
    rewrite (upd_cur_text_at _ r (col + zlen word) l1 ts (text_app t word) _ Hat1). apply put_line_over. }
  assert (Hl2 : line_at l2 ts t2).
  { assert (Et2 : text_len t2 = text_len t + zlen word) by (unfold t2, text_len; cbn [t_text text_set_sty]; apply (text_len_app t word)).
    split; [reflexivity|]. split; [reflexivity|]. split; [rewrite Et2; reflexivity|].
    rewrite line_length_sum. unfold l2, line_map_last, l1, line_app. cbn [l_texts l_cursor]. rewrite sum_len_app. cbn [sum_len].
    rewrite Et2, (line_at_length l ts t Hl). lia. }
  assert (Elen2 : line_length l2 = line_length l + zlen word).
  { rewrite (line_at_length l2 ts t2 Hl2), (line_at_length l ts t Hl). unfold t2, text_len. cbn [t_text text_set_sty text_app].
    unfold zlen. rewrite app_length. lia. }
  split; [exact Eq|]. split; [|split; [|split; [|reflexivity]]].
  - apply para_mem_set_cursor.
    destruct (para_at_row p m u r col l ts t Hpm Hat Hin) as (_ & _ & Hnb & _).
    apply (para_extend p m u r col l ts t l2 (fun ch => mkCell ch pc pi pu) word
             (flat_map tcells ts ++ map (scell st') (t_text t)) (map (scell st') word)); try assumption.
    + reflexivity.
    + unfold nobegin in *. unfold l2, line_map_last. cbn [l_texts]. destruct Hl as (E1 & _). rewrite E1 in Hnb.
      apply Forall_app in Hnb as [Hn1 Hn2]. apply Forall_app. split; [exact Hn1|]. inversion Hn2; subst. constructor; [assumption|constructor].
    + rewrite (lcells_at l2 ts t2) by reflexivity. unfold t2, tcells. cbn [t_text t_sty text_set_sty text_app].
      rewrite map_app, app_assoc. reflexivity.
    + rewrite (lcells_at l ts t) by apply Hl. apply Forall2_ceqv_app; [apply Forall2_ceqv_refl|].
      apply (tcells_restyle t st' (penview colr ita und)); assumption.
    + assert (E : forall ch, mkCell ch pc pi pu = scell st' ch).
      { intros ch. unfold scell. unfold sview in Hst'. rewrite Hpen in Hst'. injection Hst' as -> -> ->. reflexivity. }
      induction word as [|ch wd IH]; cbn; constructor; [rewrite E; apply ceqv_refl|].
      clear -E. induction wd as [|c2 wd IH]; cbn; constructor; [rewrite E; apply ceqv_refl|exact IH].
  - apply (para_at_set_cursor_put p r col l ts t l2 ts t2); try assumption. rewrite Elen2. change (l_indent l2) with (l_indent l). lia.
  - change (t_sty t2) with st'. congruence.
Qed.

(* a space at the cursor (mid-row codes), a new text element *)
Lemma nobegin_app_last l ts t t' l2 : l_texts l = ts ++ [t] -> nobegin l -> t_begin t' = None -> l_texts l2 = ts ++ [t'] -> nobegin l2.
Proof.
  intros E Hnb Hb E2. unfold nobegin in *. rewrite E in Hnb. rewrite E2. apply Forall_app in Hnb as [H1 _].
  apply Forall_app. split; [exact H1|]. constructor; [exact Hb|constructor].
Qed.
Lemma nobegin_last l ts t : l_texts l = ts ++ [t] -> nobegin l -> t_begin t = None.
Proof. intros E Hnb. unfold nobegin in Hnb. rewrite E in Hnb. apply Forall_app in Hnb as [_ H]. now inversion H. Qed.
Lemma para_space p m u r col l ts t f : para_mem p m u -> para_at p r col l ts t -> in_rows r -> 0 <= col -> col + 1 <= 31 ->
  mem_wf m -> is_blank (f 32) = true ->
  let l1 := line_app l ts t [32] in
  let p1 := set_cursor (put_line p r l1) (r, col + 1) in
  append_text p [32] = p1 /\ para_mem p1 (write_cells m r col f [32]) u /\ para_at p1 r (col + 1) l1 ts (text_app t [32]) /\
  is_blank (lcell l1 col) = true.
Proof.
  intros Hpm Hat Hin Hcol Hlen Hwf Hf. cbv zeta. set (l1 := line_app l ts t [32]).
  pose proof Hat as (Hc & Hg & Hl & Hr & Hcur & Hcoleq).
  destruct (para_at_row p m u r col l ts t Hpm Hat Hin) as (_ & _ & Hnb & _).
  assert (Ecells : lcells l1 = lcells l ++ [scell (t_sty t) 32]).
  { rewrite (lcells_at l1 ts (text_app t [32])) by reflexivity. rewrite (lcells_at l ts t) by apply Hl.
    unfold tcells. cbn [t_text t_sty text_app]. rewrite map_app, app_assoc. reflexivity. }
  split; [exact (append_text_at p r col l ts t [32] Hat ltac:(discriminate))|]. split; [|split].
  - apply para_mem_set_cursor.
    apply (para_extend p m u r col l ts t l1 f [32] (lcells l) [scell (t_sty t) 32]); try assumption; try reflexivity.
    + apply (nobegin_app_last l ts t (text_app t [32]) l1 (proj1 Hl) Hnb); [|reflexivity]. exact (nobegin_last l ts t (proj1 Hl) Hnb).
    + apply Forall2_ceqv_refl.
    + cbn. constructor; [|constructor]. apply ceqv_blank; [exact Hf|reflexivity].
  - exact (para_at_append p r col l ts t [32] Hat).
  - rewrite (lcell_suffix l l1 (lcells l) [scell (t_sty t) 32]); try reflexivity; [|exact Ecells|apply lcells_length|lia].
    rewrite <- Hcoleq, Z.sub_diag. reflexivity.
Qed.
Lemma para_newtext p m u r col l ts t : para_mem p m u -> para_at p r col l ts t -> in_rows r ->
  let l1 := line_new_text l ts t in
  let p1 := put_line p r l1 in
  new_caption_text p = p1 /\ para_mem p1 m u /\ para_at p1 r col l1 (ts ++ [t]) text_new /\
  (forall c, lcell l1 c = lcell l c) /\ line_length l1 = line_length l.
Proof.
  intros Hpm Hat Hin. cbv zeta. set (l1 := line_new_text l ts t).
  pose proof Hat as (Hc & Hg & Hl & Hr & Hcur & Hcoleq).
  destruct (para_at_row p m u r col l ts t Hpm Hat Hin) as (_ & _ & Hnb & _).
  assert (Ecells : lcells l1 = lcells l ++ []).
  { unfold lcells, l1, line_new_text. cbn [l_texts]. rewrite (proj1 Hl), !flat_map_app. cbn. now rewrite !app_nil_r. }
  assert (Elen : line_length l1 = line_length l).
  { rewrite !line_length_sum. unfold l1, line_new_text. cbn [l_texts]. rewrite (proj1 Hl), !sum_len_app. cbn. lia. }
  split; [exact (new_caption_text_at p r col l ts t Hat)|]. split; [|split; [|split]].
  - destruct Hpm as [A B C D E F]. destruct (B r l Hg) as (_ & Hi & Hle & _).
    apply (para_extend_blank p m u r col l ts t l1 (lcells l) []); try assumption; try reflexivity.
    + split; try assumption.
    + unfold nobegin in *. unfold l1, line_new_text. cbn [l_texts]. apply Forall_app. split; [rewrite <- (proj1 Hl); exact Hnb|repeat constructor].
    + change (l_indent l1) with (l_indent l). rewrite Elen. exact Hle.
    + apply Forall2_ceqv_refl.
    + constructor.
  - exact (para_at_new_text p r col l ts t Hat).
  - intros c. unfold lcell. change (l_indent l1) with (l_indent l). rewrite Ecells, app_nil_r. reflexivity.
  - exact Elen.
Qed.

Lemma para_mem_eqv p m m' u : para_mem p m u -> (forall r c, in_rows r -> in_cols c -> ceqv (mcell m' r c) (mcell m r c)) -> para_mem p m' u.
Proof.
  intros [A B C D E F] Hm. split; try assumption.
  intros r c Hr Hc. eapply ceqv_trans; [apply (Hm r c Hr Hc)|apply (A r c Hr Hc)].
Qed.
(* para_mem looks at the lines, the current line and the style only *)
Lemma para_mem_meta p p' m u : para_mem p m u -> p_lines p' = p_lines p -> p_cur p' = p_cur p -> p_style p' = p_style p -> para_mem p' m u.
Proof.
  intros [A B C D E F] E1 E2 E3. split.
  - intros r c. unfold pcell. rewrite E1. apply A.
  - rewrite E1. exact B.
  - unfold pristine. rewrite E1, E2. exact C.
  - rewrite E1. exact D.
  - rewrite E1, E2. exact E.
  - rewrite E3. exact F.
Qed.
Lemma put_line_same p r l : dget r (p_lines p) = Some l -> put_line p r l = p.
Proof. intros H. unfold put_line. rewrite (dset_same r l _ H). destruct p; reflexivity. Qed.
(* Delete to End of Row at the end of the row *)
Lemma line_delete_to_end_at l ts t : line_at l ts t -> line_delete_to_end l = l.
Proof.
  intros (E1 & E2 & E3 & E4). unfold line_delete_to_end. rewrite E1, E2.
  replace (firstn (S (length ts)) (ts ++ [t])) with (ts ++ [t]).
  - rewrite upd_nth_last. assert (Et : text_truncate t = t).
    { assert (Epy : py_to (t_text t) (Z.max (t_cur t) 0) = t_text t).
      { rewrite E3. assert (0 <= text_len t) by (unfold text_len; apply zlen_nonneg).
        rewrite Z.max_l by lia. unfold py_to. replace (0 <=? text_len t) with true by lia. unfold text_len. apply firstn_zlen. }
      unfold text_truncate. rewrite Epy. destruct t; reflexivity. }
    rewrite Et, <- E1, <- E2. destruct l; reflexivity.
  - symmetry. replace (S (length ts)) with (length (ts ++ [t])) by (rewrite app_length; cbn; lia). apply firstn_all.
Qed.
(* DER at the end of the row leaves the caption as it is, and blanks cells that showed nothing *)
Lemma para_der p m u r col l ts t : para_mem p m u -> para_at p r col l ts t -> in_rows r -> mem_wf m -> 0 <= col ->
  let m' := row_set m r (blank_from (Z.to_nat col) (row_get m r)) in
  upd_cur_line p line_delete_to_end = p /\ mem_wf m' /\ para_mem p m' u.
Proof.
  intros Hpm Hat Hin Hwf Hcol m'. pose proof Hat as (Hcu & Hge & Hl & Hr & Hcur & Hcoleq).
  split; [|split].
  - rewrite (upd_cur_line_at p _ l _ Hcu Hge), (line_delete_to_end_at l ts t Hl). exact (put_line_same _ _ _ Hge).
  - apply mem_wf_row_set; [exact Hwf|]. rewrite blank_from_length. now apply row_get_length.
  - apply (para_mem_eqv _ _ _ _ Hpm). intros r' c' Hr' Hc'. unfold m'. rewrite mcell_der; [|assumption|assumption|lia|unfold in_cols in Hc'; lia].
    destruct ((r' =? r) && (col <=? c')) eqn:E1; [|apply ceqv_refl].
    assert (r' = r) by lia. subst r'. apply ceqv_blank; [reflexivity|].
    destruct (para_at_row _ _ _ _ _ _ _ _ Hpm Hat Hin) as (_ & _ & _ & Hold).
    apply (ceqv_blank_l _ (lcell l c')); [apply Hold; exact Hc'|]. rewrite lcell_beyond by lia. reflexivity.
Qed.

(* tab offsets: indent_cursor at the end of the row *)
Definition gap_text (n : Z) : ctext := mkT None (spaces n) n ts0.
Definition line_gap (l : cline) (ts : list ctext) (t : ctext) (n : Z) : cline :=
  mkL (l_row l) (l_indent l) (line_length l + n) ((ts ++ [t]) ++ [gap_text n]) (length (ts ++ [t])).
Lemma zlen_spaces n : 0 <= n -> zlen (spaces n) = n.
Proof. intros H. unfold zlen, spaces. rewrite repeat_length. lia. Qed.
Lemma text_of_spaces n : 0 < n -> text_of (spaces n) = gap_text n.
Proof.
  intros H. unfold text_of. assert (Hn : is_nil (spaces n) = false).
  { unfold spaces. destruct (Z.to_nat n) eqn:E; [lia|reflexivity]. }
  rewrite Hn. unfold text_append, text_new. cbn [t_cur t_text t_begin t_sty]. change (0 <? 0) with false. cbv iota.
  unfold py_to, py_from. change (0 <=? 0) with true. rewrite zlen_spaces by lia. replace (0 <=? 0 + n) with true by lia.
  cbn [firstn]. replace (skipn (Z.to_nat (0 + n)) []) with (@nil Z) by (destruct (Z.to_nat (0 + n)); reflexivity).
  rewrite app_nil_r. unfold gap_text. f_equal.
Qed.
Lemma line_at_gap l ts t n : line_at l ts t -> 0 < n -> line_at (line_gap l ts t n) (ts ++ [t]) (gap_text n) /\ line_length (line_gap l ts t n) = line_length l + n.
Proof.
  intros (E1 & E2 & E3 & E4) Hn.
  assert (El : line_length (line_gap l ts t n) = line_length l + n).
  { rewrite !line_length_sum. unfold line_gap. cbn [l_texts]. rewrite E1, !sum_len_app. cbn [sum_len]. unfold text_len, gap_text. cbn [t_text].
    rewrite zlen_spaces by lia. lia. }
  split; [|exact El]. split; [reflexivity|]. split; [reflexivity|]. split; [unfold text_len, gap_text; cbn [t_cur t_text]; rewrite zlen_spaces by lia; reflexivity|].
  rewrite El. reflexivity.
Qed.
Lemma indent_cursor_at p r col l ts t n : para_at p r col l ts t -> 0 < n ->
  indent_cursor p n = set_cursor (put_line p r (if line_is_empty l then line_indent l n else line_gap l ts t n)) (r, col + n).
Proof.
  intros (Hc & Hg & Hl & Hr & Hcur & Hcoleq) Hn. unfold indent_cursor. rewrite Hcur. cbn [fst snd].
  set (p1 := set_cursor p (r, col + n)).
  assert (Hc1 : p_cur p1 = Att r) by exact Hc. assert (Hg1 : dget r (p_lines p1) = Some l) by exact Hg.
  rewrite (cur_line_at p1 r l Hc1 Hg1). destruct (line_is_empty l) eqn:Eemp.
  - rewrite (upd_cur_line_at p1 r l _ Hc1 Hg1). unfold p1, put_line. destruct p; reflexivity.
  - unfold update_line_cursor. rewrite (cur_line_at p1 r l Hc1 Hg1). change (snd (p_cursor p1)) with (col + n).
    pose proof (line_length_nonneg l). replace (col + n - l_indent l) with (line_length l + n) by lia.
    replace (line_length l + n <? 0) with false by lia. cbv iota. rewrite (cur_line_at p1 r l Hc1 Hg1).
    replace (line_length l + n - line_length l) with n by lia. replace (0 <? n) with true by lia. cbv iota.
    rewrite (upd_cur_line_at p1 r l _ Hc1 Hg1). rewrite (text_of_spaces n) by lia.
    assert (Eadd : line_add_obj l (gap_text n) = line_gap l ts t n).
    { unfold line_add_obj, line_gap. destruct Hl as (E1 & _). rewrite E1. f_equal.
      change (fold_right (fun t0 a => text_len t0 + a) 0 ((ts ++ [t]) ++ [gap_text n])) with (line_length (mkL 0 0 0 ((ts ++ [t]) ++ [gap_text n]) 0)).
      rewrite !line_length_sum, E1. cbn [l_texts]. rewrite !sum_len_app. cbn [sum_len]. unfold text_len, gap_text. cbn [t_text].
      rewrite zlen_spaces by lia. lia. }
    rewrite Eadd. destruct (line_at_gap l ts t n Hl Hn) as [Hlg Elg].
    set (q := put_line p1 r (line_gap l ts t n)).
    assert (Hcq : p_cur q = Att r) by exact Hc. assert (Hgq : dget r (p_lines q) = Some (line_gap l ts t n)) by (unfold q; rewrite dget_put_line, Z.eqb_refl; reflexivity).
    rewrite (upd_cur_line_at q r _ _ Hcq Hgq). rewrite <- Elg. rewrite (line_set_cursor_at _ _ _ Hlg).
    unfold q. rewrite put_line_twice. unfold p1, put_line. destruct p; reflexivity.
Qed.
Lemma para_tab p m u r col l ts t n pen : para_mem p m u -> para_at p r col l ts t -> in_rows r -> 0 < n -> col + n <= 31 ->
  (t_text t = [] -> t_sty t = ts0) ->
  ((t_sty t = ts0 /\ all_spaces t) \/ sview (t_sty t) = pen) ->
  (t_text t = [] -> line_length l = 0 \/ is_blank (lcell l (col - 1)) = true) ->
  para_mem (indent_cursor p n) m u /\ (forall r0, r0 <> r -> dget r0 (p_lines (indent_cursor p n)) = dget r0 (p_lines p)) /\
  exists l2 ts2 t2, para_at (indent_cursor p n) r (col + n) l2 ts2 t2 /\
    (t_text t2 = [] -> t_sty t2 = ts0) /\ ((t_sty t2 = ts0 /\ all_spaces t2) \/ sview (t_sty t2) = pen) /\
    (t_text t2 = [] -> line_length l2 = 0 \/ is_blank (lcell l2 (col + n - 1)) = true).
Proof.
  intros Hpm Hat Hin Hn Hlen He1 He2 He5. rewrite (indent_cursor_at p r col l ts t n Hat Hn).
  assert (Hrows : forall x r0, r0 <> r -> dget r0 (p_lines (set_cursor (put_line p r x) (r, col + n))) = dget r0 (p_lines p)).
  { intros x r0 Hne. cbn [p_lines set_cursor]. rewrite dget_put_line. replace (r0 =? r) with false by lia. reflexivity. }
  pose proof Hat as (Hc & Hg & Hl & Hr & Hcur & Hcoleq).
  destruct (para_at_row p m u r col l ts t Hpm Hat Hin) as (Hu & Hi & Hnb & Hold).
  destruct (line_is_empty l) eqn:Eemp.
  - unfold line_is_empty in Eemp. assert (El0 : line_length l = 0) by lia.
    assert (El1 : line_length (line_indent l n) = 0) by (rewrite <- El0; reflexivity).
    split.
    + apply para_mem_set_cursor. apply (para_mem_update p m u r l (line_indent l n)); try assumption; try reflexivity.
      * cbn. lia.
      * cbn [l_indent line_indent]. rewrite El1. lia.
      * intros c' Hc'. rewrite lcell_empty by exact El1. apply ceqv_blank; [|reflexivity].
        apply (ceqv_blank_l _ (lcell l c')); [apply Hold; exact Hc'|]. rewrite lcell_empty by exact El0. reflexivity.
    + split; [apply Hrows|]. exists (line_indent l n), ts, t. split; [|split; [exact He1|split; [exact He2|]]].
      * apply (para_at_set_cursor_put p r col l ts t); try assumption.
        cbn [l_indent line_indent]. rewrite El1. lia.
      * intros _. left. exact El1.
  - destruct (line_at_gap l ts t n Hl Hn) as [Hlg Elg].
    assert (Ecells : lcells (line_gap l ts t n) = lcells l ++ tcells (gap_text n)).
    { unfold lcells, line_gap. cbn [l_texts]. rewrite (proj1 Hl), !flat_map_app. cbn. now rewrite !app_nil_r. }
    split.
    + apply para_mem_set_cursor.
      apply (para_extend_blank p m u r col l ts t (line_gap l ts t n) (lcells l) (tcells (gap_text n))); try assumption; try reflexivity.
      * unfold nobegin in *. unfold line_gap. cbn [l_texts]. apply Forall_app. split; [rewrite <- (proj1 Hl); exact Hnb|repeat constructor].
      * cbn [l_indent line_gap]. rewrite Elg. lia.
      * apply Forall2_ceqv_refl.
      * unfold tcells, gap_text. cbn [t_text t_sty]. apply Forall_forall. intros x Hx. apply in_map_iff in Hx as (ch & <- & Hch).
        unfold spaces in Hch. apply repeat_spec in Hch. subst. reflexivity.
    + split; [apply Hrows|]. exists (line_gap l ts t n), (ts ++ [t]), (gap_text n). split; [|split; [|split; [left; split; [reflexivity|]|]]].
      * apply (para_at_set_cursor_put p r col l ts t); try assumption. cbn [l_indent line_gap]. rewrite Elg. lia.
      * intros H0. exfalso. unfold gap_text in H0. cbn in H0. unfold spaces in H0. destruct (Z.to_nat n) eqn:E; [lia|discriminate].
      * unfold all_spaces, gap_text. cbn [t_text]. apply Forall_forall. intros x Hx. unfold spaces in Hx. now apply repeat_spec in Hx.
      * intros H0. exfalso. unfold gap_text in H0. cbn in H0. unfold spaces in H0. destruct (Z.to_nat n) eqn:E; [lia|discriminate].
Qed.

(* set_cursor_at on the row of the current line, when that line is not empty *)
Lemma set_cursor_at_same_row p r l col' : p_cur p = Att r -> dget r (p_lines p) = Some l -> l_row l = r ->
  line_is_empty l = false -> (col' =? -1) = false -> set_cursor_at p r col' = update_line_cursor (set_cursor p (r, col')).
Proof.
  intros Hc Hg Hr Hne Hcol. unfold set_cursor_at. rewrite (cur_line_at p r l Hc Hg), Hr, Hg, Hne, Hcol.
  cbn [p_lines set_cur set_cursor]. rewrite Hg. f_equal. rewrite <- Hc. destruct p; reflexivity.
Qed.
(* the current (empty) line is dropped and created again at the cursor *)
Lemma para_mem_refresh p m u r l0 ind0 : para_mem p m u -> p_cur p = Att r -> dget r (p_lines p) = Some l0 ->
  line_is_empty l0 = true -> in_rows r -> 0 <= ind0 <= 32 ->
  dget r (fresh_lines p r l0) = None /\
  para_mem (at_fresh p r l0 r ind0) m u /\ para_at (at_fresh p r l0 r ind0) r ind0 (line_new r ind0) [] text_new.
Proof.
  intros Hpm Hc Hg Hemp Hrow Hind.
  apply (para_mem_fresh p m u u); try assumption; [now right|apply incl_refl|apply (para_mem_used p m u r l0 Hpm Hg Hrow)].
Qed.
Lemma tcells_removelast t : tcells (text_backspace t) = removelast (tcells t).
Proof.
  unfold tcells, text_backspace. cbn [t_text t_sty]. induction (t_text t) as [|ch tx IH]; [reflexivity|].
  destruct tx as [|c2 tx]; [reflexivity|]. cbn [removelast map] in *. rewrite IH. reflexivity.
Qed.
Lemma para_back p m u r col l ts t : para_mem p m u -> para_at p r col l ts t -> in_rows r -> t_text t <> [] -> mem_wf m -> col <= 32 ->
  para_mem (para_backspace p) (cell_set m r (col - 1) blank) u /\
  (forall r0, r0 <> r -> dget r0 (p_lines (para_backspace p)) = dget r0 (p_lines p)) /\
  exists l2 ts2 t2, para_at (para_backspace p) r (col - 1) l2 ts2 t2 /\
    ((t_sty t2 = ts0 /\ t_text t2 = []) \/ (t_sty t2 = t_sty t /\ t_text t2 = removelast (t_text t))).
Proof.
  intros Hpm Hat Hin Hne Hwf Hcol32. pose proof Hat as (Hc & Hg & Hl & Hr & Hcur & Hcoleq). pose proof Hl as (Ets & Ecur & Etc & Elc).
  destruct (para_at_row p m u r col l ts t Hpm Hat Hin) as (Hu & Hi & Hnb & Hold).
  set (t' := text_backspace t).
  assert (Hpos : 1 <= text_len t) by (unfold text_len, zlen; destruct (t_text t); [contradiction|cbn [length]; lia]).
  assert (Elen' : text_len t' = text_len t - 1) by (unfold text_len, t', text_backspace; cbn [t_text]; now apply removelast_len).
  pose proof (sum_len_nonneg ts) as Hts. pose proof (line_at_length l ts t Hl) as ELl.
  set (l1 := line_map_last l ts t').
  assert (EL1 : line_length l1 = line_length l - 1).
  { rewrite line_length_sum. unfold l1, line_map_last. cbn [l_texts]. rewrite sum_len_app. cbn [sum_len]. lia. }
  assert (Ecol1 : 1 <= col) by lia.
  assert (Ep1 : upd_cur_text p text_backspace = put_line p r l1) by exact (upd_cur_text_at p r col l ts t _ Hat).
  unfold para_backspace. rewrite Ep1. rewrite cursor_put_line, Hcur. cbn [fst snd]. rewrite Z.max_l by lia.
  set (p1 := put_line p r l1).
  assert (Hc1 : p_cur p1 = Att r) by exact Hc.
  assert (Hg1 : dget r (p_lines p1) = Some l1) by (unfold p1; rewrite dget_put_line, Z.eqb_refl; reflexivity).
  assert (Ecells1 : lcells l = lcells l1 ++ [List.last (tcells t) blank]).
  { rewrite (lcells_at l ts t Ets), (lcells_at l1 ts t' eq_refl). unfold t'. rewrite tcells_removelast, <- app_assoc. f_equal.
    apply app_removelast_last. unfold tcells. destruct (t_text t); [contradiction|discriminate]. }
  set (m' := cell_set m r (col - 1) blank).
  assert (Hm' : forall r' c', in_rows r' -> in_cols c' -> mcell m' r' c' = if (r' =? r) && (c' =? col - 1) then blank else mcell m r' c').
  { intros r' c' Hr' Hc'. unfold m'. apply mcell_cell_set; try assumption; unfold in_cols in *; lia. }
  (* the caption after the character has been removed from the text element *)
  assert (Hpm1 : para_mem p1 m' u).
  { apply (para_mem_update p m u r l l1); try assumption; try reflexivity.
    - change (l_indent l1) with (l_indent l). rewrite EL1. lia.
    - apply (nobegin_app_last l ts t t' l1 Ets Hnb); [|reflexivity]. exact (nobegin_last l ts t Ets Hnb).
    - intros r' c' Hr' Hc' Hneq. rewrite Hm' by assumption. replace (r' =? r) with false by lia. reflexivity.
    - intros c' Hc'. rewrite Hm' by assumption. rewrite Z.eqb_refl. cbn [andb].
      destruct (c' =? col - 1) eqn:E1.
      + apply ceqv_blank; [reflexivity|]. rewrite lcell_beyond; [reflexivity|]. change (l_indent l1) with (l_indent l). lia.
      + destruct (c' <? col - 1) eqn:E2.
        * eapply ceqv_trans; [apply (Hold c' Hc')|]. apply ceqv_sym.
          apply (lcell_prefix l1 l (lcells l1) [List.last (tcells t) blank]); [reflexivity|exact Ecells1|apply Forall2_ceqv_refl|].
          change (l_indent l1) with (l_indent l). lia.
        * apply ceqv_blank.
          -- apply (ceqv_blank_l _ (lcell l c')); [apply (Hold c' Hc')|]. rewrite lcell_beyond by lia. reflexivity.
          -- rewrite lcell_beyond; [reflexivity|]. change (l_indent l1) with (l_indent l). lia. }
  destruct (line_is_empty l1) eqn:Hemp.
  - (* the row held one character: the line is dropped and created again *)
    destruct (para_mem_refresh p1 m' u r l1 (col - 1) Hpm1 Hc1 Hg1 Hemp Hin ltac:(lia)) as (R0 & R1 & R2).
    rewrite (set_cursor_at_fresh p1 r l1 r (col - 1) Hc1 Hg1 Hr R0). replace (col - 1 =? -1) with false by lia.
    split; [exact R1|]. split.
    { intros r0 Hne0. unfold at_fresh. cbn [p_lines set_cur set_plines]. rewrite dget_dset. replace (r0 =? r) with false by lia.
      rewrite dget_fresh_lines by (apply (pm_nodup _ _ _ Hpm1)). replace (r0 =? r) with false by lia. rewrite andb_false_r.
      unfold p1. rewrite dget_put_line. replace (r0 =? r) with false by lia. reflexivity. }
    exists (line_new r (col - 1)), [], text_new. split; [exact R2|]. left. split; reflexivity.
  - (* otherwise the cursor moves to the new end of the row *)
    rewrite (set_cursor_at_same_row p1 r l1 (col - 1) Hc1 Hg1 Hr Hemp) by lia.
    set (p2 := set_cursor p1 (r, col - 1)).
    rewrite (update_line_cursor_at p2 r l1 Hc1 Hg1) by (cbn [p2 p_cursor set_cursor snd]; change (l_indent l1) with (l_indent l); lia).
    rewrite (line_set_cursor_total_eq l1 ts t' eq_refl).
    set (t2 := text_set_cur t' (text_len t')).
    set (l2 := mkL (l_row l1) (l_indent l1) (line_length l1) (ts ++ [t2]) (length ts)).
    assert (EL2 : line_length l2 = line_length l1).
    { rewrite !line_length_sum. unfold l2, l1, line_map_last. cbn [l_texts]. rewrite !sum_len_app. reflexivity. }
    assert (Hl2 : line_at l2 ts t2).
    { split; [reflexivity|]. split; [reflexivity|]. split; [reflexivity|]. rewrite EL2. reflexivity. }
    assert (Eover : put_line p2 r l2 = set_cursor (put_line p r l2) (r, col - 1)) by (unfold p2, p1; apply put_line_over).
    rewrite Eover. split.
    + apply para_mem_set_cursor. 
      assert (Hpm2 : para_mem (put_line p1 r l2) m' u).
      { apply (para_mem_update p1 m' u r l1 l2); try assumption; try reflexivity.
        - change (l_indent l2) with (l_indent l). rewrite EL2, EL1. lia.
        - apply (nobegin_app_last l ts t t2 l2 Ets Hnb); [|reflexivity]. exact (nobegin_last l ts t Ets Hnb).
        - intros c' Hc'. destruct Hpm1 as [A1 _ _ _ _ _]. specialize (A1 r c' Hin Hc'). unfold pcell in A1. rewrite Hg1 in A1.
          eapply ceqv_trans; [exact A1|]. apply lcell_eqv; [reflexivity|].
          rewrite (lcells_at l1 ts t' eq_refl), (lcells_at l2 ts t2 eq_refl). apply Forall2_ceqv_refl. }
      unfold p1 in Hpm2. rewrite put_line_twice in Hpm2. exact Hpm2.
    + split; [intros r0 Hne0; cbn [p_lines set_cursor]; rewrite dget_put_line; replace (r0 =? r) with false by lia; reflexivity|].
      exists l2, ts, t2. split.
      * apply (para_at_set_cursor_put p r col l ts t); try assumption; try reflexivity.
        change (l_indent l2) with (l_indent l). rewrite EL2. lia.
      * right. split; reflexivity.
Qed.
End Style.
