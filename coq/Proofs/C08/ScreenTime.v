(* C08, display simulation, part 9: times.  Frames and seconds; which paragraphs of the document are active at a frame; the
   document as a function of time: writing a caption to the document (push_active_caption_to_model) does not change what
   the document shows before the caption begins, ending it later does not change what it shows before it ends, and once
   every earlier caption has ended the document shows the caption. *)
From Coq Require Import QArith.
From TT Require Import Base.Prelude Base.SccTypes Base.SccDoc Gen.SccTables Model.SccWord Model.TimeCode Model.SccReader Spec.Cea608Screen.
From TT Require Import Proofs.C12.Integer Proofs.C12.DropFrame.
From TT Require Import Proofs.C08.Stamps Proofs.C08.Words Proofs.C08.Protocol Proofs.C08.Text Proofs.C08.ScreenMem Proofs.C08.ScreenLine
                       Proofs.C08.ScreenPara Proofs.C08.ScreenDoc Proofs.C08.ScreenRegion.
Open Scope Z_scope.

Definition rate_of (df : bool) : rate := if df then r2997 else r30.
(* a time code of the stream: the rate of the stream, a label that counts a frame *)
Definition tc_ok (df : bool) (t : tcv) : Prop := snd t = rate_of df /\ 0 <= tc_frames t.
Lemma tc_next_ok df t : tc_ok df t -> tc_ok df (tc_next t) /\ tc_frames (tc_next t) = tc_frames t + 1.
Proof.
  intros [Hr H0]. destruct t as [l r]. cbn [snd] in Hr. subst r.
  assert (Hr : rate_of df = r30 \/ rate_of df = r2997) by (destruct df; [now right|now left]).
  destruct (frames_iter (rate_of df) l Hr H0 1%nat) as [E1 E2]. cbn [iter_n] in E1, E2. change (Z.of_nat 1) with 1 in E1.
  change (tc_frames (l, rate_of df)) with (to_frames (rate_of df) l) in *. split; [split; [exact E2|lia]|exact E1].
Qed.
(* comparing a stamp with the instant a frame starts *)
Lemma Qle_frames df t n : snd t = rate_of df -> Qle_bool (tc_offset t) (time_of df n) = (tc_frames t <=? n).
Proof.
  intros Hr. unfold tc_offset, time_of, Qle_bool. rewrite Hr. destruct df; cbn [rate_of rn rd r30 r2997 Qnum Qden Z.to_pos].
  - destruct (tc_frames t <=? n) eqn:E; lia.
  - destruct (tc_frames t <=? n) eqn:E; lia.
Qed.

Definition obegin_le (o : outp) (n : Z) : bool := match o_begin o with Some b => tc_frames b <=? n | None => true end.
Definition oend_gt (o : outp) (n : Z) : bool := match o_end o with Some e => n <? tc_frames e | None => true end.
Definition o_ok (df : bool) (o : outp) : Prop :=
  (forall b, o_begin o = Some b -> snd b = rate_of df) /\ (forall e, o_end o = Some e -> snd e = rate_of df).
Lemma active_finish df o n : o_ok df o -> active (finish_p o) (time_of df n) = obegin_le o n && oend_gt o n.
Proof.
  intros [H1 H2]. unfold active, finish_p, obegin_le, oend_gt. cbn [q_begin q_end].
  destruct (o_begin o) as [b|]; destruct (o_end o) as [e|]; cbn [omap];
    rewrite ?(Qle_frames df b n (H1 b eq_refl)), ?(Qle_frames df e n (H2 e eq_refl)); try reflexivity.
  - f_equal. destruct (tc_frames e <=? n) eqn:E; cbn; lia.
  - destruct (tc_frames e <=? n) eqn:E; cbn; lia.
Qed.
(* the rows of the paragraphs shown at t, one list per paragraph, in document order *)
Definition vis (rs : list region) (t : Q) (ps : list pq) : list vrows :=
  map (fun p => rows_of_p rs p t) (filter (fun p => active p t) ps).
Definition merge_rows (acc : vrows) (rows : list vrows) : vrows := fold_left (fun a r => fold_left (fun a x => rinsert x a) r a) rows acc.
Lemma rows_of_doc_vis rs ps t : rows_of_doc (Doc rs ps) t = merge_rows [] (vis rs t ps).
Proof.
  unfold rows_of_doc, merge_rows, vis. generalize (@nil (Z * list cell)). induction ps as [|p ps IH]; intros acc; cbn [fold_left filter map]; [reflexivity|].
  destruct (active p t); cbn [map fold_left]; apply IH.
Qed.
Lemma vis_app rs t ps1 ps2 : vis rs t (ps1 ++ ps2) = vis rs t ps1 ++ vis rs t ps2.
Proof. unfold vis. now rewrite filter_app, map_app. Qed.
(* rows in increasing order are kept as they are *)
Fixpoint rinc (lo : Z) (v : vrows) : Prop := match v with [] => True | (r, _) :: v' => lo < r /\ rinc r v' end.
Lemma rinsert_end x acc : (forall y, In y acc -> fst y <= fst x) -> rinsert x acc = acc ++ [x].
Proof.
  induction acc as [|y acc IH]; intros H; cbn; [reflexivity|]. replace (fst y <=? fst x) with true by (symmetry; apply Z.leb_le; apply H; now left).
  rewrite IH; [reflexivity|]. intros z Hz. apply H. now right.
Qed.
Lemma merge_one v : forall lo acc, rinc lo v -> (forall y, In y acc -> fst y <= lo) -> fold_left (fun a x => rinsert x a) v acc = acc ++ v.
Proof.
  induction v as [|[r x] v IH]; intros lo acc Hv Hacc; cbn [fold_left]; [now rewrite app_nil_r|]. destruct Hv as [H1 H2].
  rewrite rinsert_end by (intros y Hy; specialize (Hacc y Hy); cbn; lia).
  rewrite (IH r); [now rewrite <- app_assoc|exact H2|]. intros y Hy. apply in_app_iff in Hy as [Hy|[<-|[]]]; [specialize (Hacc y Hy); lia|cbn; lia].
Qed.
Lemma rows_of_fun_rinc g n : forall lo, rinc (lo - 1) (rows_of_fun g lo n).
Proof.
  induction n as [|n IH]; intros lo; cbn [rows_of_fun]; [exact I|]. destruct (trim (g lo)).
  - specialize (IH (lo + 1)). replace (lo + 1 - 1) with lo in IH by lia.
    clear -IH. revert IH. generalize (rows_of_fun g (lo + 1) n). intros v. destruct v as [|[r x] v]; cbn; [auto|]. intros [H1 H2]. split; [lia|exact H2].
  - cbn. split; [lia|]. specialize (IH (lo + 1)). now replace (lo + 1 - 1) with lo in IH by lia.
Qed.
Lemma number_rows_rinc r ls : rinc (r - 1) (number_rows r ls).
Proof. rewrite number_rows_mem, rows_of_mem_from_fun. apply rows_of_fun_rinc. Qed.

(* the paragraphs written so far (most recent first) and the regions *)
Definition dstate := (list outp * list region)%type.
Definition docs (st : dstate) : doc := Doc (snd st) (map finish_p (rev (fst st))).
Definition shown (df : bool) (st : dstate) (f : Z) : vrows := rows_of_doc (docs st) (time_of df f).
(* push_active_caption_to_model, on the two components it changes *)
Definition pushp (a : option para) (e : option tcv) (st : dstate) : dstate :=
  match a with
  | Some a => if para_is_empty a then st
              else (snd (to_paragraph (set_end a e) (snd st)) :: fst st, fst (to_paragraph (set_end a e) (snd st)))
  | None => st
  end.
Definition st_ok (df : bool) (st : dstate) : Prop :=
  regs_ok (snd st) /\ Forall (fun o => o_ok df o /\ exists r, find_reg (snd st) (o_region o) = Some r) (fst st).
Definition para_ok (df : bool) (a : para) : Prop := p_style a = sPopOn /\ forall b, p_begin a = Some b -> snd b = rate_of df.
Definition ot_ok (df : bool) (e : option tcv) : Prop := forall t, e = Some t -> snd t = rate_of df.

Lemma to_paragraph_fst a e rs : fst (to_paragraph (set_end a e) rs) = fst (get_region a rs).
Proof. unfold to_paragraph. rewrite get_region_set_end. destruct (get_region a rs). reflexivity. Qed.
Lemma to_paragraph_snd a e rs : snd (to_paragraph (set_end a e) rs) =
  mkO (p_id a) (p_begin a) e (snd (get_region a rs)) (p_align a) (p_style a =? sPaintOn) (para_children (ksort (p_lines a)) None) (para_origin a).
Proof. unfold to_paragraph. rewrite get_region_set_end. destruct (get_region a rs). reflexivity. Qed.
Lemma pushp_ok df a e st : st_ok df st -> (forall x, a = Some x -> para_ok df x) -> ot_ok df e -> st_ok df (pushp a e st) /\ regs_ext (snd st) (snd (pushp a e st)).
Proof.
  intros [Hr Ho] Ha He. unfold pushp. destruct a as [a|]; [|split; [split; assumption|apply regs_ext_refl]].
  destruct (para_is_empty a); [split; [split; assumption|apply regs_ext_refl]|].
  destruct (Ha a eq_refl) as [Hs Hb]. cbn [fst snd]. rewrite to_paragraph_fst, to_paragraph_snd.
  assert (Hext : regs_ext (snd st) (fst (get_region a (snd st)))) by (apply (get_region_ext 1); apply Hr).
  split; [|exact Hext]. split; [now apply get_region_ok|]. constructor.
  - split; [split; cbn [o_begin o_end]; [exact Hb|exact He]|]. cbn [o_region].
    destruct (get_region_found a (snd st) Hr Hs) as (r & Hf & _). exists r. exact Hf.
  - apply Forall_forall. intros o Hin. rewrite Forall_forall in Ho. destruct (Ho o Hin) as [H1 (r & H2)]. split; [exact H1|].
    destruct (Hext _ _ H2) as (r' & H3 & _). exists r'. exact H3.
Qed.
Lemma rows_of_p_ext rs rs' p t : (exists r, find_reg rs (q_region p) = Some r) -> regs_ext rs rs' -> rows_of_p rs' p t = rows_of_p rs p t.
Proof.
  intros (r & Hr) Hext. destruct (Hext _ _ Hr) as (r' & Hr' & S1 & S2 & S3). unfold rows_of_p. rewrite Hr, Hr', S1, S2, S3. reflexivity.
Qed.
Lemma vis_ext df rs rs' t (os : list outp) : Forall (fun o => o_ok df o /\ exists r, find_reg rs (o_region o) = Some r) os -> regs_ext rs rs' ->
  vis rs' t (map finish_p os) = vis rs t (map finish_p os).
Proof.
  intros H Hext. induction H as [|o os [_ Ho] H IH]; [reflexivity|]. unfold vis in *. cbn [map filter].
  destruct (active (finish_p o) t); cbn [map]; [|exact IH]. rewrite IH. f_equal. apply rows_of_p_ext; [exact Ho|exact Hext].
Qed.
Lemma Forall_rev {A} (P : A -> Prop) l : Forall P l -> Forall P (rev l).
Proof. intros H. apply Forall_forall. intros x Hx. apply in_rev in Hx. rewrite Forall_forall in H. now apply H. Qed.
Lemma shown_vis df st f : shown df st f = merge_rows [] (vis (snd st) (time_of df f) (map finish_p (rev (fst st)))).
Proof. unfold shown, docs. apply rows_of_doc_vis. Qed.

(* (B) a caption that begins later, or nothing, is written: the past is unchanged *)
Lemma shown_push_later df a st f : st_ok df st -> (forall x, a = Some x -> para_ok df x /\ exists b, p_begin x = Some b /\ f < tc_frames b) ->
  shown df (pushp a None st) f = shown df st f.
Proof.
  intros Hst Ha. unfold pushp. destruct a as [a|]; [|reflexivity]. destruct (para_is_empty a); [reflexivity|].
  destruct (Ha a eq_refl) as [[Hs Hbr] (b & Hb & Hlt)]. rewrite !shown_vis. cbn [fst snd]. rewrite to_paragraph_fst, to_paragraph_snd.
  cbn [rev]. rewrite map_app, vis_app. destruct Hst as [Hr Ho].
  rewrite (vis_ext df (snd st)); [|apply Forall_rev; exact Ho|apply (get_region_ext 1); apply Hr].
  assert (Einact : vis (fst (get_region a (snd st))) (time_of df f) (map finish_p [mkO (p_id a) (p_begin a) None (snd (get_region a (snd st))) (p_align a)
              (p_style a =? sPaintOn) (para_children (ksort (p_lines a)) None) (para_origin a)]) = []).
  { unfold vis. cbn [map filter]. rewrite (active_finish df); [|split; cbn [o_begin o_end]; [exact Hbr|discriminate]].
    unfold obegin_le. cbn [o_begin]. rewrite Hb. replace (tc_frames b <=? f) with false by lia. reflexivity. }
  rewrite Einact, app_nil_r. reflexivity.
Qed.
(* (A) the end of the caption being written lies in the future: it does not matter which *)
Lemma shown_push_end df a e1 e2 st f : st_ok df st -> (forall x, a = Some x -> para_ok df x) -> ot_ok df e1 -> ot_ok df e2 ->
  (forall t, e1 = Some t -> f < tc_frames t) -> (forall t, e2 = Some t -> f < tc_frames t) ->
  shown df (pushp a e1 st) f = shown df (pushp a e2 st) f.
Proof.
  intros Hst Ha H1 H2 L1 L2. unfold pushp. destruct a as [a|]; [|reflexivity]. destruct (para_is_empty a); [reflexivity|].
  destruct (Ha a eq_refl) as [Hs Hbr]. rewrite !shown_vis. cbn [fst snd]. rewrite !to_paragraph_fst, !to_paragraph_snd.
  cbn [rev]. rewrite !map_app, !vis_app. f_equal.
  unfold vis. cbn [map filter]. rewrite !(active_finish df); try (split; cbn [o_begin o_end]; assumption).
  unfold obegin_le, oend_gt. cbn [o_begin o_end].
  assert (E1 : match e1 with Some e => f <? tc_frames e | None => true end = true) by (destruct e1 as [t|]; [specialize (L1 t eq_refl); lia|reflexivity]).
  assert (E2 : match e2 with Some e => f <? tc_frames e | None => true end = true) by (destruct e2 as [t|]; [specialize (L2 t eq_refl); lia|reflexivity]).
  rewrite E1, E2. destruct (match p_begin a with Some b => tc_frames b <=? f | None => true end); reflexivity.
Qed.
Definition all_ended (st : dstate) (f : Z) : Prop := Forall (fun o => exists e, o_end o = Some e /\ tc_frames e <= f) (fst st).
Lemma all_ended_mono st f f' : f <= f' -> all_ended st f -> all_ended st f'.
Proof. intros H He. unfold all_ended in *. rewrite Forall_forall in *. intros o Ho. destruct (He o Ho) as (e & E1 & E2). exists e. split; [exact E1|lia]. Qed.
Lemma all_ended_pushp a t st f : all_ended st f -> tc_frames t <= f -> all_ended (pushp a (Some t) st) f.
Proof.
  intros He Ht. unfold pushp. destruct a as [a|]; [destruct (para_is_empty a)|]; try exact He.
  constructor; [|exact He]. rewrite to_paragraph_snd. exists t. split; [reflexivity|exact Ht].
Qed.
Lemma vis_ended df rs t f os : t = time_of df f -> Forall (fun o => o_ok df o /\ exists e, o_end o = Some e /\ tc_frames e <= f) os ->
  vis rs t (map finish_p os) = [].
Proof.
  intros -> H. induction H as [|o os [Hok (e & He & Hle)] H IH]; [reflexivity|]. unfold vis in *. cbn [map filter].
  rewrite (active_finish df o f Hok). unfold oend_gt. rewrite He. replace (f <? tc_frames e) with false by lia. rewrite andb_false_r. exact IH.
Qed.
Lemma shown_ended df st f : st_ok df st -> all_ended st f -> shown df st f = [].
Proof.
  intros [Hr Ho] He. rewrite shown_vis. rewrite (vis_ended df _ _ f); [reflexivity|reflexivity|]. apply Forall_rev.
  unfold all_ended in He. rewrite Forall_forall in *. intros o Hin. destruct (Ho o Hin) as [H1 _]. split; [exact H1|now apply He].
Qed.
(* (C) every caption written earlier has ended and the caption displayed now has begun: the document shows it *)
Lemma shown_push_now df a m u st f : st_ok df st -> all_ended st f -> @para_mem sPopOn a m u -> mem_wf m -> para_ok df a ->
  (exists b, p_begin a = Some b /\ tc_frames b <= f) ->
  vrows_eqb (rows_of_mem m) (shown df (pushp (Some a) None st) f) = true.
Proof.
  intros Hst He Hpm Hw [Hs Hbr] (b & Hb & Hle). unfold pushp. destruct (para_is_empty a) eqn:Eemp.
  - rewrite (shown_ended df st f Hst He). rewrite (rows_of_mem_blank m Hw); [reflexivity|]. now apply (@para_empty_blank sPopOn a m u).
  - destruct Hst as [Hr Ho]. rewrite shown_vis. cbn [fst snd rev]. rewrite map_app, vis_app.
    rewrite (vis_ended df _ _ f); [|reflexivity|].
    2:{ apply Forall_rev. unfold all_ended in He. rewrite Forall_forall in *. intros o Hin. destruct (Ho o Hin) as [H1 _]. split; [exact H1|now apply He]. }
    cbn [app]. unfold vis. cbn [map filter].
    rewrite (active_finish df); [|rewrite to_paragraph_snd; split; cbn [o_begin o_end]; [exact Hbr|discriminate]].
    rewrite to_paragraph_snd at 1. rewrite to_paragraph_snd at 1. unfold obegin_le, oend_gt. cbn [o_begin o_end]. rewrite Hb.
    replace (tc_frames b <=? f) with true by lia. cbn [andb map].
    unfold merge_rows. cbn [fold_left].
    set (rws := rows_of_p _ _ _).
    assert (Hrws : vrows_eqb (rows_of_mem m) rws = true) by (unfold rws; apply (pushed_rows a m u); try assumption; apply regs_ext_refl).
    assert (Hinc : exists lo, rinc lo rws).
    { unfold rws, rows_of_p. destruct (find_reg _ _); [|exists (-2); cbn; split; [lia|exact I]]. eexists. apply number_rows_rinc. }
    destruct Hinc as (lo & Hinc). rewrite (merge_one rws lo []); [exact Hrws|exact Hinc|intros y []].
Qed.
