(* C08, display simulation, roll-up, part 1: the decoder's side in roll-up mode - characters go to the displayed memory;
   the window operations (carriage return, base row) seen cell by cell. *)
From Coq Require Import QArith.
From TT Require Import Base.Prelude Base.SccTypes Base.SccDoc Gen.SccTables Model.SccWord Model.TimeCode Model.SccReader Spec.Cea608Screen.
From TT Require Import Proofs.C08.ScreenMem Proofs.C08.ScreenLine Proofs.C08.ScreenPara.
Open Scope Z_scope.

Lemma rows_from_length k : forall r f, length (rows_from k r f) = k.
Proof. induction k as [|k IH]; intros r f; cbn; [reflexivity|]. now rewrite IH. Qed.
Lemma nth_rows_from k : forall r f i d, (i < k)%nat -> nth i (rows_from k r f) d = f (r + Z.of_nat i).
Proof.
  induction k as [|k IH]; intros r f i d Hi; [lia|]. destruct i as [|i]; cbn [rows_from nth]; [now rewrite Z.add_0_r|].
  rewrite IH by lia. f_equal. lia.
Qed.
Lemma row_get_mem_of f r : in_rows r -> row_get (mem_of f) r = f r.
Proof.
  intros Hr. unfold in_rows in Hr. unfold row_get, mem_of. replace ((1 <=? r) && (r <=? 15)) with true by lia.
  rewrite nth_rows_from by lia. f_equal. lia.
Qed.
Lemma mem_of_wf f : (forall r, in_rows r -> length (f r) = 32%nat) -> mem_wf (mem_of f).
Proof.
  intros H. split; [apply rows_from_length|]. unfold mem_of. apply Forall_forall. intros x Hx.
  apply In_nth with (d := blank_row) in Hx. destruct Hx as (i & Hi & <-). rewrite rows_from_length in Hi.
  rewrite nth_rows_from by exact Hi. apply H. unfold in_rows. lia.
Qed.
Lemma mcell_mem_of f r c : in_rows r -> mcell (mem_of f) r c = nth (Z.to_nat c) (f r) blank.
Proof. intros Hr. unfold mcell. now rewrite row_get_mem_of. Qed.
Lemma blank_row_length : length blank_row = 32%nat.
Proof. reflexivity. Qed.
Lemma nth_blank_row k : nth k blank_row blank = blank.
Proof. apply nth_repeat_any. Qed.
(* carriage return: the rows of the window move up, the base row is cleared *)
Lemma mcell_roll m b n r c : mem_wf m -> in_rows r ->
  mcell (roll m b n) r c = if in_window b n r then (if r =? b then blank else mcell m (r + 1) c) else mcell m r c.
Proof.
  intros Hw Hr. unfold roll. rewrite mcell_mem_of by exact Hr. destruct (in_window b n r); [|reflexivity].
  destruct (r =? b); [apply nth_blank_row|reflexivity].
Qed.
Lemma roll_wf m b n : mem_wf m -> mem_wf (roll m b n).
Proof.
  intros Hw. unfold roll. apply mem_of_wf. intros r Hr. destruct (in_window b n r); [|now apply row_get_length].
  destruct (r =? b); [reflexivity|now apply row_get_length].
Qed.
(* only the window is kept (RUx in roll-up mode; PAC for the base row the window is on) *)
Lemma mcell_trim m b n r c : in_rows r -> mcell (trim_window m b n) r c = if in_window b n r then mcell m r c else blank.
Proof. intros Hr. unfold trim_window. rewrite mcell_mem_of by exact Hr. destruct (in_window b n r); [reflexivity|apply nth_blank_row]. Qed.
Lemma trim_wf m b n : mem_wf m -> mem_wf (trim_window m b n).
Proof. intros Hw. apply mem_of_wf. intros r Hr. destruct (in_window b n r); [now apply row_get_length|reflexivity]. Qed.
Lemma mcell_move_same m b n r c : in_rows r -> mcell (move_window m b n b) r c = if in_window b n r then mcell m r c else blank.
Proof.
  intros Hr. unfold move_window. rewrite mcell_mem_of by exact Hr. destruct (in_window b n r); [|apply nth_blank_row].
  replace (r - b + b) with r by lia. reflexivity.
Qed.
Lemma move_same_wf m b n : mem_wf m -> mem_wf (move_window m b n b).
Proof. intros Hw. apply mem_of_wf. intros r Hr. destruct (in_window b n r); [now apply row_get_length|reflexivity]. Qed.

(* a memory that shows nothing stays so under these operations; cells outside the grid read as blank *)
Lemma blank_all m : mem_wf m -> (forall r k, in_rows r -> in_cols k -> is_blank (mcell m r k) = true) ->
  forall r k, is_blank (mcell m r k) = true.
Proof.
  intros Hw H r k. destruct (Z_le_dec 1 r); [destruct (Z_le_dec r 15)|]; [|rewrite mcell_outside by (unfold in_rows; lia); reflexivity..].
  destruct (Z_le_dec 0 k); [destruct (Z_le_dec k 31)|].
  - apply H; [unfold in_rows|unfold in_cols]; lia.
  - rewrite mcell_beyond by (try exact Hw; lia). reflexivity.
  - unfold mcell. replace (Z.to_nat k) with (Z.to_nat 0) by lia. apply (H r 0); [unfold in_rows|unfold in_cols]; lia.
Qed.
Lemma roll_blank m b n : mem_wf m -> (forall r k, is_blank (mcell m r k) = true) -> forall r k, is_blank (mcell (roll m b n) r k) = true.
Proof.
  intros Hw H r k. destruct (Z_le_dec 1 r); [destruct (Z_le_dec r 15)|]; [|rewrite mcell_outside by (unfold in_rows; lia); reflexivity..].
  rewrite mcell_roll by (try exact Hw; unfold in_rows; lia). destruct (in_window b n r); [destruct (r =? b); [reflexivity|]|]; apply H.
Qed.
Lemma trim_blank m b n : (forall r k, is_blank (mcell m r k) = true) -> forall r k, is_blank (mcell (trim_window m b n) r k) = true.
Proof.
  intros H r k. destruct (Z_le_dec 1 r); [destruct (Z_le_dec r 15)|]; [|rewrite mcell_outside by (unfold in_rows; lia); reflexivity..].
  rewrite mcell_trim by (unfold in_rows; lia). destruct (in_window b n r); [apply H|reflexivity].
Qed.

(* characters are stored in the displayed memory *)
Lemma put_ru s n ch : md s = RollUp n ->
  put s ch = set_pos (set_disp s (cell_set (disp s) (crow s) (ccol s) (mkCell ch (pcol s) (pita s) (pund s)))) (crow s) (Z.min 31 (ccol s + 1)).
Proof. intros H. unfold put, cur_mem, set_cur_mem. rewrite H. reflexivity. Qed.
Lemma back_ru s n : md s = RollUp n -> ccol s <> 0 ->
  back s = set_pos (set_disp s (cell_set (disp s) (crow s) (ccol s - 1) blank)) (crow s) (ccol s - 1).
Proof. intros H Hc. unfold back, cur_mem, set_cur_mem. rewrite H. destruct (ccol s =? 0) eqn:E; [lia|reflexivity]. Qed.
Lemma set_pos_disp_twice s m1 r1 c1 m2 r2 c2 : set_pos (set_disp (set_pos (set_disp s m1) r1 c1) m2) r2 c2 = set_pos (set_disp s m2) r2 c2.
Proof. reflexivity. Qed.
Lemma puts_ru chs : forall s n, md s = RollUp n -> ccol s + zlen chs <= 31 ->
  puts s chs = set_pos (set_disp s (write_cells (disp s) (crow s) (ccol s) (pen_cell s) chs)) (crow s) (ccol s + zlen chs).
Proof.
  induction chs as [|ch chs IH]; intros s n Hm Hlen.
  - unfold puts, zlen. cbn. rewrite Z.add_0_r. destruct s; reflexivity.
  - assert (Hz : zlen (ch :: chs) = zlen chs + 1) by (unfold zlen; cbn [length]; lia). rewrite Hz in *.
    pose proof (zlen_nonneg chs).
    unfold puts. cbn [fold_left]. fold (puts (put s ch) chs). rewrite (put_ru s n ch Hm).
    replace (Z.min 31 (ccol s + 1)) with (ccol s + 1) by lia.
    rewrite (IH _ n); [|exact Hm|cbn; lia].
    cbn [write_cells disp crow ccol set_pos set_disp]. rewrite set_pos_disp_twice. f_equal. lia.
Qed.
Lemma puts_ru_proj s n word : md s = RollUp n -> ccol s + zlen word <= 31 ->
  md (puts s word) = RollUp n /\ pcol (puts s word) = pcol s /\ pita (puts s word) = pita s /\ pund (puts s word) = pund s /\
  nond (puts s word) = nond s /\ crow (puts s word) = crow s /\ ccol (puts s word) = ccol s + zlen word /\
  disp (puts s word) = write_cells (disp s) (crow s) (ccol s) (pen_cell s) word /\
  last (puts s word) = last s /\ chan (puts s word) = chan s /\ pmid (puts s word) = pmid s.
Proof. intros Hm Hl. rewrite (puts_ru word s n Hm Hl). repeat split; try reflexivity. exact Hm. Qed.
