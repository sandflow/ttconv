(* C08, display simulation, roll-up, part 3: the carriage return - roll_up, get_last_caption_lines, set_lines on the new
   caption - row by row. *)
From Coq Require Import QArith.
From TT Require Import Base.Prelude Base.SccTypes Base.SccDoc Gen.SccTables Model.SccWord Model.TimeCode Model.SccReader Spec.Cea608Screen.
From TT Require Import Proofs.C08.Text Proofs.C08.ScreenMem Proofs.C08.ScreenLine Proofs.C08.ScreenPara Proofs.C08.ScreenDoc.
Open Scope Z_scope.

(* roll_up: every line moves one row up *)
Definition roll_step (d : list (Z * cline)) (kv : Z * cline) : list (Z * cline) :=
  let d1 := ddel (fst kv) d in if fst kv =? 0 then d1 else dset (fst kv - 1) (line_set_row (snd kv) (fst kv - 1)) d1.
Definition roll_fold (l d : list (Z * cline)) : list (Z * cline) := fold_left roll_step l d.
Lemma roll_up_lines p : p_lines (roll_up p) = roll_fold (ksort (p_lines p)) (p_lines p).
Proof. reflexivity. Qed.
(* the line that arrives on row r *)
Fixpoint shift_get (l : list (Z * cline)) (r : Z) : option cline :=
  match l with
  | [] => None
  | (k, v) :: l' => if (k - 1 =? r) && negb (k =? 0) then Some (line_set_row v r) else shift_get l' r
  end.
Fixpoint has_key {A} (l : list (Z * A)) (r : Z) : bool := match l with [] => false | (k, _) :: l' => (k =? r) || has_key l' r end.
Lemma shift_get_above lo l r : kinc lo l -> r < lo -> shift_get l r = None.
Proof.
  revert lo. induction l as [|[k v] l IH]; intros lo H Hr; cbn; [reflexivity|]. destruct H as [H1 H2].
  replace (k - 1 =? r) with false by lia. cbn [andb]. apply (IH k H2). lia.
Qed.
Lemma has_key_above {A} lo (l : list (Z * A)) r : kinc lo l -> r <= lo -> has_key l r = false.
Proof.
  revert lo. induction l as [|[k v] l IH]; intros lo H Hr; cbn; [reflexivity|]. destruct H as [H1 H2].
  replace (k =? r) with false by lia. cbn [orb]. apply (IH k H2). lia.
Qed.
Lemma roll_fold_get l : forall lo d r, kinc lo l -> NoDup (map fst d) ->
  dget r (roll_fold l d) = match shift_get l r with Some x => Some x | None => if has_key l r then None else dget r d end.
Proof.
  induction l as [|[k v] l IH]; intros lo d r Hk Hn; cbn [roll_fold fold_left shift_get has_key]; [reflexivity|].
  destruct Hk as [H1 H2]. fold (roll_fold l (roll_step d (k, v))).
  assert (Hn' : NoDup (map fst (roll_step d (k, v)))).
  { unfold roll_step. cbn [fst snd]. destruct (k =? 0); [now apply nodup_ddel|]. apply nodup_dset. now apply nodup_ddel. }
  rewrite (IH k _ r H2 Hn'). destruct (shift_get l r) as [x|] eqn:Es.
  - (* r is reached from a later key: r >= k *)
    assert (Hr : k <= r). { destruct (r <? k) eqn:E; [|lia]. rewrite (shift_get_above k l r H2) in Es by lia. discriminate. }
    replace (k - 1 =? r) with false by lia. reflexivity.
  - destruct ((k - 1 =? r) && negb (k =? 0)) eqn:E1.
    + rewrite (has_key_above k l r H2) by lia. unfold roll_step. cbn [fst snd]. replace (k =? 0) with false by lia.
      rewrite dget_dset. replace (r =? k - 1) with true by lia. f_equal. f_equal. lia.
    + destruct (has_key l r) eqn:Eh; [rewrite orb_true_r; reflexivity|]. rewrite orb_false_r.
      unfold roll_step. cbn [fst snd]. destruct (k =? r) eqn:Ekr.
      * assert (k = r) by lia. subst r. destruct (k =? 0) eqn:E0.
        -- now apply dget_ddel_nodup.
        -- rewrite dget_dset. replace (k =? k - 1) with false by lia. now apply dget_ddel_nodup.
      * destruct (k =? 0) eqn:E0.
        -- apply dget_ddel_other. lia.
        -- rewrite dget_dset. replace (r =? k - 1) with false by lia. apply dget_ddel_other. lia.
Qed.
(* on the sorted items of the dictionary itself *)
Lemma shift_get_sorted l : forall lo r, kinc lo l -> 0 <= lo ->
  shift_get l r = match dget (r + 1) l with Some v => Some (line_set_row v r) | None => None end.
Proof.
  induction l as [|[k v] l IH]; intros lo r Hk H0; cbn [shift_get dget]; [reflexivity|]. destruct Hk as [H1 H2].
  replace (negb (k =? 0)) with true by lia. rewrite andb_true_r.
  destruct (k - 1 =? r) eqn:E; [replace (r + 1 =? k) with true by lia; reflexivity|].
  replace (r + 1 =? k) with false by lia. apply (IH k r H2). lia.
Qed.
Lemma has_key_dget {A} (l : list (Z * A)) r : has_key l r = match dget r l with Some _ => true | None => false end.
Proof. induction l as [|[k v] l IH]; cbn; [reflexivity|]. rewrite Z.eqb_sym. destruct (r =? k); [reflexivity|exact IH]. Qed.
Lemma roll_up_get p r : NoDup (map fst (p_lines p)) -> (forall k, In k (map fst (p_lines p)) -> 0 < k) ->
  dget r (p_lines (roll_up p)) = match dget (r + 1) (p_lines p) with Some v => Some (line_set_row v r) | None => None end.
Proof.
  intros Hn Hpos. rewrite roll_up_lines.
  assert (Hk : kinc 0 (ksort (p_lines p))) by (apply ksort_inc; assumption).
  rewrite (roll_fold_get _ 0 _ r Hk Hn). rewrite (shift_get_sorted _ 0 r Hk) by lia. rewrite (dget_ksort _ _ Hn).
  destruct (dget (r + 1) (p_lines p)); [reflexivity|]. rewrite has_key_dget, (dget_ksort _ _ Hn).
  destruct (dget r (p_lines p)); reflexivity.
Qed.
Lemma roll_up_nodup p : NoDup (map fst (p_lines p)) -> NoDup (map fst (p_lines (roll_up p))).
Proof.
  intros Hn. rewrite roll_up_lines. generalize (ksort (p_lines p)). intros l. revert Hn. generalize (p_lines p).
  induction l as [|kv l IH]; intros d Hn; cbn [roll_fold fold_left]; [exact Hn|]. apply IH.
  unfold roll_step. destruct (fst kv =? 0); [now apply nodup_ddel|]. apply nodup_dset. now apply nodup_ddel.
Qed.

(* sorted items whose keys are exactly an interval: the item j places from the front has key lo + j *)
Definition interval_keys {A} (d : list (Z * A)) (lo hi : Z) : Prop := forall r, In r (map fst d) <-> lo <= r <= hi.
Lemma interval_sorted {A} (d : list (Z * A)) : forall lo hi, kinc (lo - 1) d -> interval_keys d lo hi ->
  zlen d = Z.max 0 (hi - lo + 1) /\ forall j r, dget r (skipn j d) = if lo + Z.of_nat j <=? r then dget r d else None.
Proof.
  induction d as [|[k v] d IH]; intros lo hi Hk Hi.
  - split.
    + unfold zlen. cbn. destruct (hi - lo + 1 <=? 0) eqn:E; [lia|]. exfalso. assert (In lo (map fst (@nil (Z * A)))) by (apply Hi; lia). contradiction.
    + intros j r. rewrite skipn_nil. now destruct (_ <=? _).
  - pose proof Hk as [H1 H2].
    assert (Hklo : k = lo).
    { assert (Hin : In k (map fst ((k, v) :: d))) by now left. apply Hi in Hin.
      assert (Hlo : In lo (map fst ((k, v) :: d))) by (apply Hi; lia). destruct Hlo as [Hlo|Hlo]; [cbn in Hlo; lia|].
      pose proof (kinc_keys_above k d H2 lo Hlo). lia. }
    subst k.
    assert (Hi' : interval_keys d (lo + 1) hi).
    { intros r. split.
      - intros Hr. pose proof (kinc_keys_above lo d H2 r Hr). assert (In r (map fst ((lo, v) :: d))) by now right. apply Hi in H0. lia.
      - intros Hr. assert (Hin : In r (map fst ((lo, v) :: d))) by (apply Hi; lia). destruct Hin as [Hin|Hin]; [cbn in Hin; lia|exact Hin]. }
    assert (Hk' : kinc (lo + 1 - 1) d) by (replace (lo + 1 - 1) with lo by lia; exact H2).
    destruct (IH (lo + 1) hi Hk' Hi') as [L1 L2].
    assert (Hhi : lo <= hi) by (assert (In lo (map fst ((lo, v) :: d))) by (now left); apply Hi in H; lia).
    split.
    + unfold zlen in *. cbn [length]. lia.
    + intros j r. destruct j as [|j]; cbn [skipn].
      * destruct (lo + Z.of_nat 0 <=? r) eqn:E; [reflexivity|]. apply (kinc_dget_below (lo - 1) _ r Hk). lia.
      * rewrite (L2 j r). replace (lo + 1 + Z.of_nat j) with (lo + Z.of_nat (S j)) by lia.
        destruct (lo + Z.of_nat (S j) <=? r) eqn:E; [|reflexivity]. cbn [dget]. now replace (r =? lo) with false by lia.
Qed.
Lemma kinc_skipn {A} j : forall lo (d : list (Z * A)), kinc lo d -> kinc lo (skipn j d).
Proof.
  induction j as [|j IH]; intros lo [|[k v] d] H; cbn [skipn]; try exact H. destruct H as [H1 H2].
  apply (kinc_weaken k); [lia|now apply IH].
Qed.

(* set_lines(list) of sorted items stored under their own rows, on a paragraph whose current line is its initial
   line: the items are added to the dictionary *)
Lemma set_lines_list_get d : forall lo q, kinc lo d -> (forall k v, In (k, v) d -> l_row v = k /\ k <> 0) ->
  p_cur q = Att 0 -> NoDup (map fst (p_lines q)) ->
  p_cur (set_lines_list q (map snd d)) = Att 0 /\ p_cursor (set_lines_list q (map snd d)) = p_cursor q /\
  p_style (set_lines_list q (map snd d)) = p_style q /\ NoDup (map fst (p_lines (set_lines_list q (map snd d)))) /\
  forall r, dget r (p_lines (set_lines_list q (map snd d))) = match dget r d with Some l => Some l | None => dget r (p_lines q) end.
Proof.
  unfold set_lines_list. induction d as [|[k v] d IH]; intros lo q Hk Hrow Hc Hn; cbn [map snd fold_left].
  - repeat split; assumption.
  - destruct Hk as [H1 H2]. destruct (Hrow k v (or_introl eq_refl)) as [Er E0]. rewrite Hc, Er. replace (0 =? k) with false by lia.
    set (q1 := set_plines q (dset k v (p_lines q))).
    assert (Hn1 : NoDup (map fst (p_lines q1))) by (unfold q1; cbn [p_lines set_plines]; now apply nodup_dset).
    destruct (IH k q1 H2 (fun x y Hx => Hrow x y (or_intror Hx)) Hc Hn1) as (A & B & C & D & E).
    split; [exact A|]. split; [exact B|]. split; [exact C|]. split; [exact D|]. intros r. rewrite E. cbn [dget]. unfold q1. cbn [p_lines set_plines].
    rewrite dget_dset. destruct (r =? k) eqn:Erk; [|reflexivity]. assert (r = k) by lia. subst r. now rewrite (kinc_dget_below k d k H2) by lia.
Qed.

Definition keys_between (a : para) (lo : Z) : Prop := forall r, dget r (p_lines a) <> None <-> lo <= r <= 15.
Definition cr_para (a : para) (n : Z) (x : option Z) (y : option tcv) : para :=
  set_cursor_at (set_lines_list (set_begin (set_id (para_new sRollUp) x) y) (last_lines (roll_up a) (n - 1))) roll_up_base_row (-1).
Lemma skipn_map {A B} (f : A -> B) j l : skipn j (map f l) = map f (skipn j l).
Proof. revert l. induction j; intros [|x l]; cbn; auto. Qed.
Lemma cr_lines a n lo x y : 2 <= n <= 4 -> NoDup (map fst (p_lines a)) -> 16 - n <= lo <= 15 -> keys_between a lo ->
  let a2 := cr_para a n x y in
  p_cur a2 = Att 15 /\ p_cursor a2 = (15, 0) /\ p_style a2 = sRollUp /\ NoDup (map fst (p_lines a2)) /\
  forall r, dget r (p_lines a2) =
            if r =? 15 then Some (line_new 15 0)
            else if (Z.max (lo - 1) (16 - n) <=? r) && (r <=? 14)
                 then match dget (r + 1) (p_lines a) with Some v => Some (line_set_row v r) | None => None end
                 else None.
Proof.
  intros Hn Hnd Hlo Hkeys. cbv zeta. unfold cr_para.
  assert (Hpos : forall k, In k (map fst (p_lines a)) -> 0 < k).
  { intros k Hk. destruct (dget k (p_lines a)) eqn:E; [|apply dget_none_keys in E; contradiction].
    assert (lo <= k <= 15) by (apply Hkeys; rewrite E; discriminate). lia. }
  set (L1 := p_lines (roll_up a)).
  assert (HL1 : forall r, dget r L1 = match dget (r + 1) (p_lines a) with Some v => Some (line_set_row v r) | None => None end)
    by (intros r; apply roll_up_get; assumption).
  assert (Hnd1 : NoDup (map fst L1)) by now apply roll_up_nodup.
  assert (Hk1 : forall r, In r (map fst L1) <-> lo - 1 <= r <= 14).
  { intros r. split.
    - intros Hin. destruct (dget r L1) eqn:E; [|apply dget_none_keys in E; contradiction]. rewrite HL1 in E.
      destruct (dget (r + 1) (p_lines a)) eqn:E2; [|discriminate]. assert (lo <= r + 1 <= 15) by (apply Hkeys; rewrite E2; discriminate). lia.
    - intros Hr. assert (Hne : dget (r + 1) (p_lines a) <> None) by (apply Hkeys; lia).
      destruct (dget (r + 1) (p_lines a)) eqn:E2; [|contradiction]. apply (dget_in_keys r L1 (line_set_row c r)). rewrite HL1, E2. reflexivity. }
  set (S1 := ksort L1).
  assert (Hinc : kinc (lo - 1 - 1) S1) by (apply ksort_inc; [exact Hnd1|intros k Hk; apply Hk1 in Hk; lia]).
  assert (Hint : interval_keys S1 (lo - 1) 14) by (intros r; unfold S1; rewrite ksort_keys; apply Hk1).
  destruct (interval_sorted S1 (lo - 1) 14 Hinc Hint) as [Hlen Hskip].
  set (j := Z.to_nat (zlen S1 - (n - 1))).
  assert (Eprev : last_lines (roll_up a) (n - 1) = map snd (skipn j S1)).
  { unfold last_lines. replace (n - 1 <=? 0) with false by lia. unfold py_from. replace (0 <=? - (n - 1)) with false by lia.
    fold L1. fold S1. rewrite skipn_map. f_equal. f_equal. unfold j, zlen. rewrite map_length. f_equal; lia. }
  rewrite Eprev. set (lo' := Z.max (lo - 1) (16 - n)).
  assert (Ej : lo - 1 + Z.of_nat j = lo') by (unfold j, lo'; rewrite Hlen; lia).
  assert (Hrowp : forall l r, dget r L1 = Some l -> l_row l = r).
  { intros l r Hg. rewrite HL1 in Hg. destruct (dget (r + 1) (p_lines a)); [injection Hg as <-; reflexivity|discriminate]. }
  (* the lines handed over stand under their own rows *)
  assert (Hrows : forall k v, In (k, v) (skipn j S1) -> l_row v = k /\ k <> 0).
  { intros k v Hin. assert (Hin1 : In (k, v) S1) by (rewrite <- (firstn_skipn j S1); apply in_or_app; now right).
    apply (proj1 (ksort_in L1 (k, v))), (dget_in L1 k v Hnd1) in Hin1. split; [exact (Hrowp v k Hin1)|].
    apply dget_in_keys, Hk1 in Hin1. lia. }
  set (a0 := set_begin (set_id (para_new sRollUp) x) y).
  destruct (set_lines_list_get (skipn j S1) _ a0 (kinc_skipn j _ _ Hinc) Hrows eq_refl ltac:(cbn; constructor; [intros []|constructor]))
    as (Q1 & Q2 & Q3 & Q4 & Q5).
  set (q := set_lines_list a0 (map snd (skipn j S1))) in *.
  (* the rows of the new paragraph before the cursor is set *)
  assert (Hq : forall r, dget r (p_lines q) = if r =? 0 then Some (line_new 0 0)
                         else if (lo' <=? r) && (r <=? 14) then dget r L1 else None).
  { intros r. rewrite Q5, Hskip, Ej. unfold S1. rewrite (dget_ksort _ _ Hnd1). unfold a0. cbn [p_lines set_begin set_id para_new dget].
    destruct (lo' <=? r) eqn:E1; cbn [andb]; [|reflexivity]. replace (r =? 0) with false by (unfold lo' in E1; lia).
    destruct (dget r L1) eqn:Eg; [|now destruct (r <=? 14)]. pose proof (proj1 (Hk1 r) (dget_in_keys _ _ _ Eg)). now replace (r <=? 14) with true by lia. }
  assert (Hq0 : dget 0 (p_lines q) = Some (line_new 0 0)) by (rewrite Hq; reflexivity).
  assert (Hfresh : dget 15 (fresh_lines q 0 (line_new 0 0)) = None).
  { rewrite dget_fresh_lines by exact Q4. change (15 =? 0) with false. rewrite andb_false_r. rewrite Hq. change (15 =? 0) with false. change (15 <=? 14) with false. rewrite andb_false_r. reflexivity. }
  unfold roll_up_base_row. rewrite (set_cursor_at_fresh q 0 (line_new 0 0) 15 (-1) Q1 Hq0 eq_refl Hfresh). change (if -1 =? -1 then 0 else -1) with 0.
  split; [reflexivity|]. split; [reflexivity|]. split; [exact Q3|]. split.
  - unfold at_fresh. cbn [p_lines set_cur set_plines]. apply nodup_dset_new; [exact Hfresh|]. unfold fresh_lines. change (line_is_empty (line_new 0 0)) with true. cbv iota. now apply nodup_ddel.
  - intros r. unfold at_fresh. cbn [p_lines set_cur set_plines]. rewrite dget_dset. destruct (r =? 15) eqn:E15; [reflexivity|].
    rewrite dget_fresh_lines by exact Q4. change (line_is_empty (line_new 0 0)) with true. cbn [andb]. rewrite Hq.
    destruct (r =? 0) eqn:E0.
    + replace ((lo' <=? r) && (r <=? 14)) with false by (unfold lo'; lia). reflexivity.
    + fold lo'. destruct ((lo' <=? r) && (r <=? 14)); [apply HL1|reflexivity].
Qed.
From TT Require Import Proofs.C08.ScreenRollMem.
Lemma lcell_set_row l r c : lcell (line_set_row l r) c = lcell l c.
Proof. reflexivity. Qed.
Lemma cr_caption a n lo x y m u : 2 <= n <= 4 -> @para_mem sRollUp a m u -> 16 - n <= lo <= 15 -> keys_between a lo -> mem_wf m ->
  (forall r, In r u -> in_rows r) -> (forall r, in_rows r -> In r u) ->
  let a2 := cr_para a n x y in
  @para_mem sRollUp a2 (roll m 15 n) u /\ p_cur a2 = Att 15 /\ keys_between a2 (Z.max (lo - 1) (16 - n)) /\
  dget 15 (p_lines a2) = Some (line_new 15 0) /\ para_at a2 15 0 (line_new 15 0) [] text_new.
Proof.
  intros Hn Hpm Hlo Hkeys Hw Hu1 Hu2. cbv zeta.
  destruct (cr_lines a n lo x y Hn (pm_nodup _ _ _ Hpm) Hlo Hkeys) as (C1 & C2 & C3 & C4 & C5).
  set (a2 := cr_para a n x y) in *. set (lo' := Z.max (lo - 1) (16 - n)) in *.
  assert (H15 : dget 15 (p_lines a2) = Some (line_new 15 0)) by (rewrite C5; reflexivity).
  assert (Hk2 : keys_between a2 lo').
  { intros r. rewrite C5. destruct (r =? 15) eqn:E; [split; [lia|discriminate]|].
    destruct ((lo' <=? r) && (r <=? 14)) eqn:E1.
    - assert (Hne : dget (r + 1) (p_lines a) <> None) by (apply Hkeys; unfold lo' in E1; lia).
      destruct (dget (r + 1) (p_lines a)); [split; [lia|discriminate]|contradiction].
    - split; [intros H; now contradiction H|lia]. }
  split; [|split; [exact C1|split; [exact Hk2|split; [exact H15|]]]].
  - split.
    + intros r c Hr Hc. rewrite mcell_roll by assumption. unfold pcell. rewrite C5.
      pose proof (pm_cells _ _ _ Hpm) as Hcells.
      destruct (r =? 15) eqn:E15.
      * assert (r = 15) by lia. subst r. replace (in_window 15 n 15) with true by (unfold in_window; lia). rewrite lcell_empty by reflexivity. apply ceqv_refl.
      * destruct (in_window 15 n r) eqn:Ew.
        -- (* inside the window: the row below moves up *)
           assert (Hr1 : in_rows (r + 1)) by (unfold in_rows in *; unfold in_window in Ew; lia).
           specialize (Hcells (r + 1) c Hr1 Hc). unfold pcell in Hcells.
           destruct ((lo' <=? r) && (r <=? 14)) eqn:E1.
           ++ destruct (dget (r + 1) (p_lines a)); [rewrite lcell_set_row; exact Hcells|exact Hcells].
           ++ assert (Hn1 : dget (r + 1) (p_lines a) = None).
              { destruct (dget (r + 1) (p_lines a)) eqn:E2; [|reflexivity]. exfalso.
                assert (lo <= r + 1 <= 15) by (apply Hkeys; rewrite E2; discriminate). unfold in_window in Ew. unfold lo' in E1. lia. }
              rewrite Hn1 in Hcells. exact Hcells.
        -- (* outside: nothing was there, nothing is there *)
           specialize (Hcells r c Hr Hc). unfold pcell in Hcells.
           assert (Hn1 : dget r (p_lines a) = None).
           { destruct (dget r (p_lines a)) eqn:E2; [|reflexivity]. exfalso.
             assert (lo <= r <= 15) by (apply Hkeys; rewrite E2; discriminate). unfold in_window in Ew. lia. }
           rewrite Hn1 in Hcells. replace ((lo' <=? r) && (r <=? 14)) with false by (unfold in_window in Ew; unfold lo'; lia). exact Hcells.
    + intros r l. rewrite C5. destruct (r =? 15) eqn:E15.
      * intros H; injection H as <-. assert (r = 15) by lia. subst r. cbn. repeat split; try lia. repeat constructor.
      * destruct ((lo' <=? r) && (r <=? 14)); [|discriminate]. destruct (dget (r + 1) (p_lines a)) as [v|] eqn:E2; [|discriminate].
        intros H; injection H as <-. destruct (pm_line _ _ _ Hpm (r + 1) v E2) as (_ & Hi & Hle & Hnb). repeat split; assumption.
    + right. intros r l Hg. assert (Hne : dget r (p_lines a2) <> None) by (rewrite Hg; discriminate). apply Hk2 in Hne.
      assert (Hr : in_rows r) by (unfold in_rows, lo' in *; lia). split; [exact Hr|now apply Hu2].
    + exact C4.
    + exists 15, (line_new 15 0). split; assumption.
    + exact C3.
  - split; [exact C1|]. split; [exact H15|]. split; [apply line_at_new|]. split; [reflexivity|]. split; [exact C2|]. cbn. lia.
Qed.
