(* C08: the timing skeleton of the pop-on protocol, and the roll-up depth, on the model, for all states:
   nothing loaded into the buffer is visible before the flip; EOC ends the displayed caption and starts the
   buffered one at the same stamp; EDM ends the displayed caption one frame later; after a carriage return a
   roll-up caption holds at most `depth` rows. *)
From Coq Require Import QArith.
From TT Require Import Base.Prelude Base.SccTypes Base.SccDoc Gen.SccTables Model.SccWord Model.TimeCode Model.SccReader.
From TT Require Import Proofs.C08.Stamps Proofs.C08.Words Proofs.C08.Text.
Open Scope Z_scope.

(* what is on screen and what has been written to the document *)
Definition visible (c : ctx) : option para * list outp * list region := (c_act c, c_out c, c_regions c).
Lemma style_with_attrs c a b d : c_style (with_attrs c a b d) = c_style c.  Proof. reflexivity. Qed.

(* words that only load the non-displayed memory: PAC, attribute, mid-row, characters (standard, special, extended),
   and the control codes RCL, ENM, TO1-3, BS and the ones the reader ignores *)
Definition loads_buffer (w : Z) : bool :=
  let d := decode w in
  if d_cls d =? cControl
  then negb ((d_code d =? kRDC) || (d_code d =? kRU2) || (d_code d =? kRU3) || (d_code d =? kRU4) ||
             (d_code d =? kEOC) || (d_code d =? kEDM) || (d_code d =? kCR))
  else true.

(* `hidden c c'`: c' still shows what c shows and is still in pop-on style, where the caption being processed is the
   buffer.  with_buf, with_attrs, with_prev, with_prev_type, with_chan and with_tc keep it by computation. *)
Definition hidden (c c' : ctx) : Prop := visible c' = visible c /\ c_style c' = sPopOn.
Lemma hidden_upd_cap c c' f : hidden c c' -> hidden c (upd_cap c' f).
Proof. intros H. unfold upd_cap. rewrite (proj2 H). exact H. Qed.
Lemma hidden_sync_acur c c' : hidden c c' -> hidden c (sync_acur c').
Proof. intros H. unfold sync_acur. destruct (c_act c'); exact H. Qed.
Lemma hidden_backspace c c' : hidden c c' -> hidden c (backspace c').
Proof. intros H. unfold backspace. destruct (cap_to_process c'); [now apply hidden_upd_cap|exact H]. Qed.
Lemma hidden_process_text c c' s : hidden c c' -> hidden c (process_text c' s).
Proof. intros H. unfold process_text. rewrite (proj2 H). apply hidden_sync_acur. exact H. Qed.
Lemma hidden_process_pac c c' d : hidden c c' -> hidden c (process_pac c' d).
Proof. intros H. unfold process_pac. rewrite (proj2 H). apply hidden_sync_acur. exact H. Qed.
Lemma hidden_process_attribute c c' d : hidden c c' -> hidden c (process_attribute c' d).
Proof. intros H. unfold process_attribute. destruct (cap_to_process c'); [now apply hidden_upd_cap|exact H]. Qed.
Lemma hidden_process_mid_row c c' d : hidden c c' -> hidden c (process_mid_row c' d).
Proof.
  intros H. unfold process_mid_row.
  assert (Ha : forall x a b u, hidden c x -> hidden c (with_attrs x a b u)) by exact (fun _ _ _ _ Hx => Hx).
  set (c1 := if negb _ then _ else _).
  assert (H1 : hidden c c1).
  { unfold c1. destruct (negb _); [apply Ha|now apply hidden_upd_cap, Ha]. destruct (cap_to_process c'); [|exact H].
    destruct (negb _); [|now apply hidden_upd_cap]. destruct (_ && _); [|destruct (negb _)]; now apply hidden_upd_cap. }
  clearbody c1. destruct (cap_to_process c1); [|exact H1]. destruct (_ =? _); [now apply hidden_upd_cap|exact H1].
Qed.
(* the control codes that neither change the style nor show, erase or roll anything *)
Lemma hidden_process_control c c' k :
  (k =? kRDC) || (k =? kRU2) || (k =? kRU3) || (k =? kRU4) || (k =? kEOC) || (k =? kEDM) || (k =? kCR) = false ->
  hidden c c' -> hidden c (process_control c' k).
Proof.
  intros Hk H. repeat (apply orb_false_iff in Hk; destruct Hk as [Hk ?]). unfold process_control.
  destruct (k =? kRCL); [exact (conj (proj1 H) eq_refl)|]. rewrite Hk.
  replace ((k =? kRU2) || (k =? kRU3) || (k =? kRU4)) with false by (symmetry; repeat (apply orb_false_iff; split); assumption).
  replace (k =? kEOC) with false. replace (k =? kEDM) with false. destruct (k =? kENM); [exact H|].
  destruct (_ || _ || _); [destruct (cap_to_process c'); [now apply hidden_upd_cap|exact H]|].
  replace (k =? kCR) with false. destruct (k =? kDER); [destruct (cap_to_process c'); [now apply hidden_upd_cap|exact H]|].
  destruct (k =? kBS); [now apply hidden_backspace|exact H].
Qed.
(* pop-on: whatever is loaded into the buffer, the displayed caption, the paragraphs written so far and the regions
   are unchanged — a caption is not visible before its EOC *)
Lemma popon_invisible c w : c_style c = sPopOn -> loads_buffer w = true -> visible (step c w) = visible c.
Proof.
  intros Hs Hl. assert (H : hidden c c) by now split. unfold step. destruct (c_err c); [reflexivity|].
  destruct (match c_prev c with Some pv => _ | None => false end); [reflexivity|].
  destruct (value w =? 0); [reflexivity|].
  destruct (byte1 w <? 32); [|destruct (negb _); [reflexivity|exact (proj1 (hidden_process_text c (with_tc c _) _ H))]].
  destruct (negb (d_chan (decode w) =? 1)); [reflexivity|].
  set (c2 := with_chan _ 1). assert (H2 : hidden c c2) by exact H. clearbody c2.
  unfold loads_buffer in Hl. cbv zeta in Hl.
  destruct (d_cls (decode w) =? cPac); [exact (proj1 (hidden_process_pac c c2 _ H2))|].
  destruct (d_cls (decode w) =? cAttr); [exact (proj1 (hidden_process_attribute c c2 _ H2))|].
  destruct (d_cls (decode w) =? cMidRow); [exact (proj1 (hidden_process_mid_row c c2 _ H2))|].
  destruct (d_cls (decode w) =? cControl); [apply negb_true_iff in Hl; exact (proj1 (hidden_process_control c c2 _ Hl H2))|].
  destruct (d_cls (decode w) =? cSpecial); [exact (proj1 (hidden_process_text c c2 _ H2))|].
  destruct (d_cls (decode w) =? cExtended); [|exact (proj1 H2)].
  exact (proj1 (hidden_process_text c _ _ (hidden_backspace c c2 H2))).
Qed.

(* a channel-1 miscellaneous control code *)
Definition ctl (w code : Z) : Prop :=
  (byte1 w <? 32) = true /\ (value w =? 0) = false /\ (d_chan (decode w) =? 1) = true /\
  d_cls (decode w) = cControl /\ d_code (decode w) = code.
Lemma step_ctl c w code : c_err c = false -> is_dup c w = false -> ctl w code ->
  step c w = with_prev (with_prev_type (process_control (with_chan (with_tc c (tc_next (c_tc c))) 1) code) cControl) (Some (value w)).
Proof.
  intros He Hd (_ & _ & H3 & H4 & H5). apply Z.eqb_eq in H3. rewrite <- H5. exact (step_control c w He Hd H3 H4).
Qed.
Lemma control_eoc c : exists f, (forall a, p_begin (f a) = p_begin a /\ p_lines (f a) = p_lines a) /\
  process_control c kEOC = upd_act (flip (with_buf c (set_begin (c_buf c) (Some (c_tc c)))) (c_tc c)) f.
Proof. eexists. split; [|reflexivity]. intros a. split; reflexivity. Qed.
Lemma control_edm c : process_control c kEDM = match c_act c with Some _ => push_active c (Some (tc_next (c_tc c))) true | None => c end.
Proof. reflexivity. Qed.
(* tab offsets: the three codes, by evaluation *)
Lemma process_control_to c k : kTO1 <= k <= kTO1 + 2 ->
  process_control c k = match cap_to_process c with None => c | Some _ => upd_cap c (fun p => indent_cursor p (k - kTO1 + 1)) end.
Proof. intros Hk. assert (E : k = 16 \/ k = 17 \/ k = 18) by (unfold kTO1 in Hk; lia). destruct E as [->|[->| ->]]; reflexivity. Qed.
Lemma process_control_cr c a : c_act c = Some a -> p_style a = sRollUp ->
  process_control c kCR =
  let '(c1, previous_lines) :=
    if para_is_empty a then (with_count c (c_count c - 1), [])
    else let c1 := upd_act (push_active c (Some (c_tc c)) false) roll_up in
         (c1, match c_act c1 with Some a1 => last_lines a1 (c_depth c1 - 1) | None => [] end) in
  upd_act (new_active_caption c1 (c_tc c) sRollUp) (fun x => set_cursor_at (set_lines_list x previous_lines) roll_up_base_row (-1)).
Proof.
  intros Ha Hs. unfold process_control. cbn [Z.eqb kCR kRCL kRDC kRU2 kRU3 kRU4 kEOC kEDM kENM kTO1 kTO2 kTO3 Pos.eqb orb].
  rewrite Ha, Hs. reflexivity.
Qed.

Lemma buf_push_active c e cl : c_buf (push_active c e cl) = c_buf c.
Proof.
  unfold push_active. destruct (c_act c); [|reflexivity]. destruct (para_is_empty _); [reflexivity|].
  destruct (to_paragraph _ _). reflexivity.
Qed.
Lemma act_push_active_clear c e : c_act (push_active c e true) = None.
Proof.
  unfold push_active. destruct (c_act c) eqn:E; [|exact E]. destruct (para_is_empty _); [reflexivity|].
  destruct (to_paragraph _ _). reflexivity.
Qed.
Lemma out_push_active c e cl :
  match c_act c with
  | None => c_out (push_active c e cl) = c_out c
  | Some a => if para_is_empty a then c_out (push_active c e cl) = c_out c
              else exists o, c_out (push_active c e cl) = o :: c_out c /\ o_begin o = p_begin a /\ o_end o = e
  end.
Proof.
  unfold push_active. destruct (c_act c) as [a|]; [|reflexivity].
  change (para_is_empty (set_end a e)) with (para_is_empty a). destruct (para_is_empty a); [reflexivity|].
  unfold to_paragraph. destruct (get_region _ _) as [rs rid]. eexists. split; [reflexivity|]. split; reflexivity.
Qed.
Lemma flip_act c t : exists b, c_act (flip c t) = Some b /\ p_begin b = p_begin (c_buf c) /\ p_lines b = p_lines (c_buf c).
Proof.
  unfold flip. set (c1 := push_active c (Some t) true). assert (E : c_buf c1 = c_buf c) by apply buf_push_active. clearbody c1.
  destruct (p_id (c_buf c1)) eqn:Ei.
  - exists (c_buf c1). rewrite <- E. destruct (c_act c); (split; [reflexivity|split; reflexivity]).
  - eexists. destruct (c_act c); (split; [reflexivity|]); cbn; rewrite E; split; reflexivity.
Qed.
Lemma flip_out c t : c_out (flip c t) = c_out (push_active c (Some t) true).
Proof. unfold flip. destruct (p_id _); destruct (c_act c); reflexivity. Qed.
Lemma out_upd_act c f : c_out (upd_act c f) = c_out c.
Proof. unfold upd_act. destruct (c_act c); reflexivity. Qed.

(* EOC: the buffered caption becomes the displayed one and begins at the stamp of the EOC; the caption displayed
   until then is written to the document with that same stamp as its end ("vanishes when replaced") *)
Lemma popon_eoc c w : c_err c = false -> is_dup c w = false -> ctl w kEOC ->
  let t1 := tc_next (c_tc c) in
  (exists b, c_act (step c w) = Some b /\ p_begin b = Some t1 /\ p_lines b = p_lines (c_buf c)) /\
  match c_act c with
  | None => c_out (step c w) = c_out c
  | Some a => if para_is_empty a then c_out (step c w) = c_out c
              else exists o, c_out (step c w) = o :: c_out c /\ o_begin o = p_begin a /\ o_end o = Some t1
  end.
Proof.
  intros He Hd Hc. cbv zeta. rewrite (step_ctl c w kEOC He Hd Hc).
  set (t1 := tc_next (c_tc c)). set (c2 := with_chan (with_tc c t1) 1). destruct (control_eoc c2) as (f & Hf & Epc). change (c_tc c2) with t1 in Epc.
  change (c_act (with_prev (with_prev_type ?x cControl) (Some (value w)))) with (c_act x).
  change (c_out (with_prev (with_prev_type ?x cControl) (Some (value w)))) with (c_out x). rewrite Epc. split.
  - destruct (flip_act (with_buf c2 (set_begin (c_buf c2) (Some t1))) t1) as (b & Eb & Bb & Lb).
    unfold upd_act. rewrite Eb. exists (f b). destruct (Hf b) as [F1 F2]. rewrite F1, F2, Bb, Lb. repeat split.
  - rewrite out_upd_act, flip_out. exact (out_push_active (with_buf c2 (set_begin (c_buf c2) (Some t1))) (Some t1) true).
Qed.
(* EDM: nothing is displayed any more; the caption that was displayed is written with the frame after the EDM's stamp
   as its (exclusive) end ("vanishes when erased") *)
Lemma edm_erases c w : c_err c = false -> is_dup c w = false -> ctl w kEDM ->
  let t1 := tc_next (c_tc c) in
  c_act (step c w) = None /\
  match c_act c with
  | None => c_out (step c w) = c_out c
  | Some a => if para_is_empty a then c_out (step c w) = c_out c
              else exists o, c_out (step c w) = o :: c_out c /\ o_begin o = p_begin a /\ o_end o = Some (tc_next t1)
  end.
Proof.
  intros He Hd Hc. cbv zeta. rewrite (step_ctl c w kEDM He Hd Hc).
  set (t1 := tc_next (c_tc c)). set (c2 := with_chan (with_tc c t1) 1).
  change (c_act (with_prev (with_prev_type ?x cControl) (Some (value w)))) with (c_act x).
  change (c_out (with_prev (with_prev_type ?x cControl) (Some (value w)))) with (c_out x). rewrite control_edm. change (c_tc c2) with t1.
  pose proof (out_push_active c2 (Some (tc_next t1)) true) as H. change (c_act c2) with (c_act c) in *.
  destruct (c_act c) as [a|] eqn:E; [split; [apply act_push_active_clear|exact H]|split; [exact E|reflexivity]].
Qed.

Lemma len_skipn_le {A} n (l : list A) : (length (skipn n l) <= length l)%nat.
Proof. rewrite skipn_length. lia. Qed.
Lemma len_last_lines p n : zlen (last_lines p n) <= Z.max n 0.
Proof.
  unfold last_lines, zlen. destruct (n <=? 0) eqn:E; [cbn; lia|]. unfold py_from.
  destruct (0 <=? - n) eqn:E2; [lia|]. rewrite skipn_length. unfold zlen. lia.
Qed.
Lemma len_upd_cur_line q f : length (p_lines (upd_cur_line q f)) = length (p_lines q).
Proof.
  unfold upd_cur_line. destruct (p_cur q); [|reflexivity]. destruct (dget _ _) eqn:E; [|reflexivity]. exact (len_dset_present _ _ _ _ E).
Qed.
Lemma len_update_line_cursor q : length (p_lines (update_line_cursor q)) = length (p_lines q).
Proof.
  unfold update_line_cursor. rewrite len_upd_cur_line. set (q1 := if _ <? 0 then _ else q).
  assert (E1 : length (p_lines q1) = length (p_lines q)) by (unfold q1; destruct (_ <? 0); [apply len_upd_cur_line|reflexivity]).
  clearbody q1. destruct (0 <? _); [rewrite len_upd_cur_line|]; exact E1.
Qed.
Lemma len_set_cursor_at p row ind : (length (p_lines (set_cursor_at p row ind)) <= length (p_lines p) + 1)%nat.
Proof.
  unfold set_cursor_at.
  set (p1 := match dget (l_row (cur_line p)) (p_lines p) with Some l => _ | None => p end).
  assert (H1 : (length (p_lines p1) <= length (p_lines p))%nat).
  { unfold p1. destruct (dget _ _); [|lia]. destruct (line_is_empty _); cbn; [apply len_ddel|lia]. }
  clearbody p1. set (p2 := set_cursor p1 _). assert (H2 : p_lines p2 = p_lines p1) by reflexivity. clearbody p2.
  set (p3 := match dget row (p_lines p2) with None => new_caption_line p2 | Some _ => p2 end).
  assert (H3 : (length (p_lines p3) <= length (p_lines p2) + 1)%nat).
  { unfold p3. destruct (dget row _); [lia|]. unfold new_caption_line. destruct (p_cursor p2). cbn. apply len_dset. }
  clearbody p3. rewrite H2 in H3. destruct (ind =? -1); [|rewrite len_update_line_cursor]; cbn; lia.
Qed.
(* no row is added when the current line is the empty initial line of a new paragraph: set_cursor_at removes it *)
Lemma len_set_cursor_at_fresh p row : p_cur p = Att 0 -> dget 0 (p_lines p) = Some (line_new 0 0) ->
  (length (p_lines (set_cursor_at p row (-1))) <= length (p_lines p))%nat.
Proof.
  intros Hc Hg. unfold set_cursor_at.
  assert (Ecl : cur_line p = line_new 0 0) by (unfold cur_line; rewrite Hc, Hg; reflexivity).
  rewrite Ecl. cbn [l_row line_new]. rewrite Hg. change (line_is_empty (line_new 0 0)) with true. cbv iota.
  change (-1 =? -1) with true. cbv iota.
  set (p2 := set_cursor _ _).
  assert (H2 : S (length (p_lines p2)) = length (p_lines p)) by (unfold p2; cbn; eapply len_ddel_present; eauto).
  clearbody p2. destruct (dget row (p_lines p2)); cbn; [lia|].
  unfold new_caption_line. destruct (p_cursor p2). cbn. pose proof (len_dset z (line_new z z0) (p_lines p2)). lia.
Qed.
(* while lines are handed over to a new paragraph: k lines besides its empty initial line (which a line of row 0
   overwrites), or k lines in all *)
Definition fresh_or_full (k : nat) (q : para) : Prop :=
  ((length (p_lines q) <= k + 1)%nat /\ p_cur q = Att 0 /\ dget 0 (p_lines q) = Some (line_new 0 0)) \/ (length (p_lines q) <= k)%nat.
Lemma set_lines_list_len ls : forall k q, fresh_or_full k q -> fresh_or_full (k + length ls) (set_lines_list q ls).
Proof.
  unfold set_lines_list. induction ls as [|l ls IH]; intros k q H; cbn [fold_left length]; [now rewrite Nat.add_0_r|].
  replace (k + S (length ls))%nat with (S k + length ls)%nat by lia. apply IH.
  destruct H as [(Hl & Hc & Hg)|Hl].
  - rewrite Hc. destruct (0 =? l_row l) eqn:E.
    + right. apply Z.eqb_eq in E. cbn. rewrite <- E. rewrite (len_dset_present 0 l (line_new 0 0)) by exact Hg. lia.
    + left. cbn. split; [pose proof (len_dset (l_row l) l (p_lines q)); lia|]. split; [exact Hc|].
      now rewrite dget_dset, E.
  - right. set (q1 := match p_cur q with Att r => _ | Det _ => q end).
    assert (E1 : p_lines q1 = p_lines q). { unfold q1. destruct (p_cur q); [|reflexivity]. destruct (_ =? _); reflexivity. }
    cbn. rewrite E1. pose proof (len_dset (l_row l) l (p_lines q)). lia.
Qed.
Lemma rollup_depth c w a : c_err c = false -> is_dup c w = false -> ctl w kCR -> c_act c = Some a -> p_style a = sRollUp ->
  exists a', c_act (step c w) = Some a' /\ zlen (p_lines a') <= Z.max (c_depth c) 1.
Proof.
  intros He Hd Hc Ha Hs. rewrite (step_ctl c w kCR He Hd Hc).
  set (t1 := tc_next (c_tc c)). set (c2 := with_chan (with_tc c t1) 1).
  change (c_act (with_prev (with_prev_type ?x cControl) (Some (value w)))) with (c_act x).
  rewrite (process_control_cr c2 a Ha Hs).
  (* the new caption holds its initial line, the lines handed over (at most depth - 1), and the base row in place of the
     initial line *)
  assert (Hmain : forall c1 ls, zlen ls <= Z.max (c_depth c - 1) 0 ->
            exists a', c_act (upd_act (new_active_caption c1 t1 sRollUp) (fun x => set_cursor_at (set_lines_list x ls) roll_up_base_row (-1))) = Some a' /\
                       zlen (p_lines a') <= Z.max (c_depth c) 1).
  { intros c1 ls Hls. eexists. split; [reflexivity|].
    set (p0 := set_begin _ _).
    assert (H0 : fresh_or_full 0 p0) by (left; cbn; repeat split; lia).
    pose proof (set_lines_list_len ls 0 p0 H0) as H1. cbn [Nat.add] in H1.
    unfold zlen in *. destruct H1 as [(Hl & Hcur & Hg)|Hl].
    - pose proof (len_set_cursor_at_fresh _ roll_up_base_row Hcur Hg). lia.
    - pose proof (len_set_cursor_at (set_lines_list p0 ls) roll_up_base_row (-1)). lia. }
  destruct (para_is_empty a); apply Hmain; [cbn; lia|].
  set (c1 := upd_act _ roll_up). replace (c_depth c1) with (c_depth c).
  - destruct (c_act c1); [apply len_last_lines|cbn; lia].
  - unfold c1, upd_act, push_active. change (c_act c2) with (c_act c). rewrite Ha. destruct (para_is_empty _); [reflexivity|].
    destruct (to_paragraph _ _). reflexivity.
Qed.
