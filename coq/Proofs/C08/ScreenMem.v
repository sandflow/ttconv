(* C08, display simulation, part 1: the memories of the reference decoder (Spec/Cea608Screen.v) seen as functions
   row -> column -> cell, and what the elementary operations of the decoder do to them; rows of cells as they are compared
   by S (blank cells trimmed at both ends, empty rows dropped): a memory and a rendering that show equivalent cells give
   equal rows. *)
From Coq Require Import QArith.
From TT Require Import Base.Prelude Base.SccTypes Base.SccDoc Model.SccWord Spec.Cea608Screen.
Open Scope Z_scope.

Lemma upd_length {A} (f : A -> A) i (l : list A) : length (upd i f l) = length l.
Proof. revert i. induction l as [|x l IH]; intros [|i]; cbn; auto. Qed.
Lemma nth_upd_same {A} (f : A -> A) i (l : list A) d : (i < length l)%nat -> nth i (upd i f l) d = f (nth i l d).
Proof. revert i. induction l as [|x l IH]; intros [|i] H; cbn in *; try lia; auto. apply IH. lia. Qed.
Lemma nth_upd_other {A} (f : A -> A) i j (l : list A) d : i <> j -> nth i (upd j f l) d = nth i l d.
Proof. revert i j. induction l as [|x l IH]; intros [|i] [|j] H; cbn; auto; try congruence. Qed.
Lemma nth_repeat_any {A} (x : A) n i : nth i (repeat x n) x = x.
Proof. revert i. induction n; intros [|i]; cbn; auto. Qed.

Definition mem_wf (m : mem) : Prop := length m = 15%nat /\ Forall (fun row => length row = 32%nat) m.
Definition mcell (m : mem) (r c : Z) : cell := nth (Z.to_nat c) (row_get m r) blank.
Definition in_rows (r : Z) : Prop := 1 <= r <= 15.
Definition in_cols (c : Z) : Prop := 0 <= c <= 31.

Lemma mem_wf_mem0 : mem_wf mem0.
Proof. split; [reflexivity|]. unfold mem0. apply Forall_forall. intros x Hx. apply repeat_spec in Hx. subst. reflexivity. Qed.
Lemma row_get_length m r : mem_wf m -> length (row_get m r) = 32%nat.
Proof.
  intros [Hl Hr]. unfold row_get. destruct (_ && _) eqn:E; [|reflexivity].
  rewrite Forall_forall in Hr. destruct (nth_in_or_default (Z.to_nat (r - 1)) m blank_row) as [H|H]; [now apply Hr|rewrite H; reflexivity].
Qed.
Lemma mcell_mem0 r c : mcell mem0 r c = blank.
Proof.
  unfold mcell, row_get. destruct (_ && _).
  - unfold mem0. replace (nth (Z.to_nat (r - 1)) (repeat blank_row 15) blank_row) with blank_row by (symmetry; apply nth_repeat_any).
    apply nth_repeat_any.
  - apply nth_repeat_any.
Qed.
Lemma mcell_beyond m r c : mem_wf m -> 32 <= c -> mcell m r c = blank.
Proof. intros H Hc. unfold mcell. apply nth_overflow. rewrite row_get_length by exact H. lia. Qed.
Lemma mcell_outside m r c : ~ in_rows r -> mcell m r c = blank.
Proof.
  intros H. unfold mcell, row_get. destruct (_ && _) eqn:E; [exfalso; apply H; unfold in_rows; lia|]. apply nth_repeat_any.
Qed.

Lemma row_get_row_set m r x r' : mem_wf m -> in_rows r -> row_get (row_set m r x) r' = if r' =? r then x else row_get m r'.
Proof.
  intros [Hl _] Hr. unfold in_rows in Hr. unfold row_set. replace ((1 <=? r) && (r <=? 15)) with true by lia.
  unfold row_get. destruct ((1 <=? r') && (r' <=? 15)) eqn:E.
  - destruct (r' =? r) eqn:E2.
    + assert (r' = r) by lia. subst. apply nth_upd_same. lia.
    + apply nth_upd_other. lia.
  - destruct (r' =? r) eqn:E2; [lia|reflexivity].
Qed.
Lemma mem_wf_row_set m r x : mem_wf m -> length x = 32%nat -> mem_wf (row_set m r x).
Proof.
  intros [Hl Hr] Hx. unfold row_set. destruct (_ && _); [|split; assumption]. split; [now rewrite upd_length|].
  clear Hl. revert Hr. generalize (Z.to_nat (r - 1)). induction m as [|y m IH]; intros [|i] H; cbn; inversion H; subst; constructor; auto.
Qed.
Lemma mem_wf_cell_set m r c x : mem_wf m -> mem_wf (cell_set m r c x).
Proof.
  intros H. unfold cell_set. destruct (_ && _); [|exact H]. apply mem_wf_row_set; [exact H|].
  rewrite upd_length. now apply row_get_length.
Qed.
Lemma mcell_cell_set m r c x r' c' : mem_wf m -> in_rows r -> in_cols c -> 0 <= c' ->
  mcell (cell_set m r c x) r' c' = if (r' =? r) && (c' =? c) then x else mcell m r' c'.
Proof.
  intros Hw Hr Hc Hc'. unfold in_cols in Hc. unfold cell_set. replace ((0 <=? c) && (c <=? 31)) with true by lia.
  unfold mcell. rewrite row_get_row_set by assumption. destruct (r' =? r) eqn:E; [|reflexivity].
  assert (r' = r) by lia. subst r'. cbn [andb]. destruct (c' =? c) eqn:E2.
  - assert (c' = c) by lia. subst c'. rewrite nth_upd_same; [reflexivity|]. rewrite row_get_length by exact Hw. lia.
  - apply nth_upd_other. lia.
Qed.
(* erasing the cells of a row from a column on (Delete to End of Row) *)
Lemma nth_blank_from k l i : nth i (blank_from k l) blank = if Nat.ltb i k then nth i l blank else blank.
Proof.
  revert k i. induction l as [|x l IH]; intros k i.
  - cbn [blank_from]. destruct i as [|i]; cbn [nth]; [destruct (Nat.ltb 0 k)|destruct (Nat.ltb (S i) k)]; reflexivity.
  - destruct k as [|k]; destruct i as [|i]; cbn [blank_from nth]; try reflexivity.
    + rewrite IH. reflexivity.
    + rewrite IH. reflexivity.
Qed.
Lemma blank_from_length k l : length (blank_from k l) = length l.
Proof. revert k. induction l as [|x l IH]; intros [|k]; cbn; auto. Qed.
Lemma mcell_der m r k r' c' : mem_wf m -> in_rows r -> 0 <= k -> 0 <= c' ->
  mcell (row_set m r (blank_from (Z.to_nat k) (row_get m r))) r' c' = if (r' =? r) && (k <=? c') then blank else mcell m r' c'.
Proof.
  intros Hw Hr Hk Hc. unfold mcell. rewrite row_get_row_set by assumption. destruct (r' =? r) eqn:E; [|reflexivity].
  assert (r' = r) by lia. subst r'. cbn [andb]. rewrite nth_blank_from.
  destruct (Nat.ltb (Z.to_nat c') (Z.to_nat k)) eqn:E2.
  - apply Nat.ltb_lt in E2. replace (k <=? c') with false by lia. reflexivity.
  - apply Nat.ltb_ge in E2. replace (k <=? c') with true by lia. reflexivity.
Qed.

Lemma cur_mem_set_cur_mem s m : cur_mem (set_cur_mem s m) = m.
Proof. unfold cur_mem, set_cur_mem. destruct (md s) eqn:E; cbn; rewrite E; reflexivity. Qed.
Definition scr_wf (s : scr) : Prop := mem_wf (disp s) /\ mem_wf (nond s).
Lemma cur_mem_wf s : scr_wf s -> mem_wf (cur_mem s).
Proof. intros [H1 H2]. unfold cur_mem. destruct (md s); assumption. Qed.
Lemma scr_wf_set_cur_mem s m : scr_wf s -> mem_wf m -> scr_wf (set_cur_mem s m).
Proof. intros [H1 H2] Hm. unfold set_cur_mem. destruct (md s); split; assumption. Qed.

(* pop-on mode: the memory written to is the non-displayed one *)
Lemma put_pop s ch : md s = PopOn ->
  put s ch = set_pos (set_nond s (cell_set (nond s) (crow s) (ccol s) (mkCell ch (pcol s) (pita s) (pund s)))) (crow s) (Z.min 31 (ccol s + 1)).
Proof. intros H. unfold put, cur_mem, set_cur_mem. rewrite H. reflexivity. Qed.
Lemma back_pop s : md s = PopOn -> ccol s <> 0 ->
  back s = set_pos (set_nond s (cell_set (nond s) (crow s) (ccol s - 1) blank)) (crow s) (ccol s - 1).
Proof. intros H Hc. unfold back, cur_mem, set_cur_mem. rewrite H. destruct (ccol s =? 0) eqn:E; [lia|reflexivity]. Qed.

(* a blank cell (transparent or a space) is seen as any other blank cell; other cells must be identical *)
Definition ceqv (a b : cell) : Prop := if is_blank a then is_blank b = true else a = b.
Lemma ceqv_refl a : ceqv a a.
Proof. unfold ceqv. destruct (is_blank a) eqn:E; reflexivity. Qed.
Lemma ceqv_sym a b : ceqv a b -> ceqv b a.
Proof.
  unfold ceqv. intros H. destruct (is_blank a) eqn:Ea.
  - rewrite H. reflexivity.
  - subst b. rewrite Ea. reflexivity.
Qed.
Lemma ceqv_trans a b c : ceqv a b -> ceqv b c -> ceqv a c.
Proof.
  unfold ceqv. intros H1 H2. destruct (is_blank a) eqn:Ea.
  - rewrite H1 in H2. exact H2.
  - subst b. rewrite Ea in H2. exact H2.
Qed.
Lemma ceqv_blank a b : is_blank a = true -> is_blank b = true -> ceqv a b.
Proof. intros Ha Hb. unfold ceqv. rewrite Ha. exact Hb. Qed.
Lemma ceqv_blank_l a b : ceqv a b -> is_blank b = true -> is_blank a = true.
Proof. unfold ceqv. intros H Hb. destruct (is_blank a) eqn:E; [reflexivity|]. subst b. congruence. Qed.
Lemma ceqv_blank_r a b : ceqv a b -> is_blank a = true -> is_blank b = true.
Proof. unfold ceqv. intros H Ha. rewrite Ha in H. exact H. Qed.
Lemma ceqv_nonblank a b : ceqv a b -> is_blank a = false -> a = b.
Proof. unfold ceqv. intros H Ha. rewrite Ha in H. exact H. Qed.
Lemma ceqv_cell_eqb a b : ceqv a b -> cell_eqb a b = true.
Proof.
  unfold ceqv, cell_eqb. intros H. destruct (is_blank a); [exact H|]. subst b.
  rewrite !Z.eqb_refl, !eqb_reflx. reflexivity.
Qed.
Lemma is_blank_blank : is_blank blank = true.
Proof. reflexivity. Qed.

Definition all_blank (l : list cell) : Prop := Forall (fun x => is_blank x = true) l.
Lemma drop_blank_app_blank B Y : all_blank B -> drop_blank (B ++ Y) = drop_blank Y.
Proof. induction 1 as [|x B Hx HB IH]; cbn; [reflexivity|]. now rewrite Hx. Qed.
Lemma drop_blank_all_blank B : all_blank B -> drop_blank B = [].
Proof. intros H. rewrite <- (app_nil_r B). now rewrite drop_blank_app_blank. Qed.
Lemma all_blank_rev B : all_blank B -> all_blank (rev B).
Proof. intros H. unfold all_blank in *. apply Forall_forall. intros x Hx. apply in_rev in Hx. rewrite Forall_forall in H. now apply H. Qed.
Lemma all_blank_repeat n : all_blank (repeat blank n).
Proof. apply Forall_forall. intros x Hx. apply repeat_spec in Hx. subst. reflexivity. Qed.
Lemma trim_all_blank B : all_blank B -> trim B = [].
Proof. intros H. unfold trim. now rewrite (drop_blank_all_blank B H). Qed.
Lemma drop_blank_app_nil Y B : drop_blank Y = [] -> all_blank B -> drop_blank (Y ++ B) = [].
Proof.
  intros HY HB. induction Y as [|x Y IH]; [now apply drop_blank_all_blank|].
  cbn [drop_blank app] in *. destruct (is_blank x); [now apply IH|discriminate].
Qed.
Lemma drop_blank_app_cons Y B y Y' : drop_blank Y = y :: Y' -> drop_blank (Y ++ B) = (y :: Y') ++ B.
Proof.
  intros HY. induction Y as [|x Y IH]; [discriminate|].
  cbn [drop_blank app] in *. destruct (is_blank x); [now apply IH|]. injection HY as -> ->. reflexivity.
Qed.
Lemma trim_pad B1 Y B2 : all_blank B1 -> all_blank B2 -> trim (B1 ++ Y ++ B2) = trim Y.
Proof.
  intros H1 H2. unfold trim. rewrite (drop_blank_app_blank B1 _ H1).
  destruct (drop_blank Y) as [|y Y'] eqn:E.
  - rewrite (drop_blank_app_nil Y B2 E H2). reflexivity.
  - rewrite (drop_blank_app_cons Y B2 y Y' E), rev_app_distr.
    rewrite (drop_blank_app_blank (rev B2) _ (all_blank_rev B2 H2)). reflexivity.
Qed.
Lemma Forall2_ceqv_drop X Z : Forall2 ceqv X Z -> Forall2 ceqv (drop_blank X) (drop_blank Z).
Proof.
  induction 1 as [|x z X Z Hxz H IH]; cbn; [constructor|].
  destruct (is_blank x) eqn:Ex.
  - rewrite (ceqv_blank_r _ _ Hxz Ex). exact IH.
  - pose proof (ceqv_nonblank _ _ Hxz Ex) as ->. rewrite Ex. constructor; [apply ceqv_refl|exact H].
Qed.
Lemma Forall2_rev {A B} (R : A -> B -> Prop) X Z : Forall2 R X Z -> Forall2 R (rev X) (rev Z).
Proof. induction 1; cbn; [constructor|]. apply Forall2_app; [assumption|]. constructor; [assumption|constructor]. Qed.
Lemma Forall2_ceqv_trim X Z : Forall2 ceqv X Z -> Forall2 ceqv (trim X) (trim Z).
Proof. intros H. unfold trim. apply Forall2_rev, Forall2_ceqv_drop, Forall2_rev, Forall2_ceqv_drop, H. Qed.
Lemma Forall2_ceqv_cells_eqb X Z : Forall2 ceqv X Z -> cells_eqb X Z = true.
Proof. induction 1 as [|x z X Z Hxz H IH]; cbn; [reflexivity|]. rewrite (ceqv_cell_eqb _ _ Hxz), IH. reflexivity. Qed.
Lemma Forall2_nth_ext {A} (R : A -> A -> Prop) d X Z : length X = length Z ->
  (forall k, (k < length X)%nat -> R (nth k X d) (nth k Z d)) -> Forall2 R X Z.
Proof.
  revert Z. induction X as [|x X IH]; intros [|z Z] HL H; cbn in *; try discriminate; [constructor|].
  constructor; [apply (H 0%nat); lia|]. apply IH; [lia|]. intros k Hk. apply (H (S k)). lia.
Qed.

(* what two rows of cells must satisfy to be seen as the same row *)
Definition row_same (X Z : list cell) : Prop := cells_eqb (trim X) (trim Z) = true.
Fixpoint rows_of_fun (g : Z -> list cell) (lo : Z) (n : nat) : vrows :=
  match n with
  | O => []
  | S k => match trim (g lo) with [] => rows_of_fun g (lo + 1) k | t => (lo, t) :: rows_of_fun g (lo + 1) k end
  end.
Lemma rows_of_fun_same g g' n : forall lo, (forall r, lo <= r < lo + Z.of_nat n -> row_same (g r) (g' r)) ->
  vrows_eqb (rows_of_fun g lo n) (rows_of_fun g' lo n) = true.
Proof.
  induction n as [|n IH]; intros lo H; cbn [rows_of_fun]; [reflexivity|].
  assert (H0 : row_same (g lo) (g' lo)) by (apply H; lia). unfold row_same in H0.
  assert (IH' : vrows_eqb (rows_of_fun g (lo + 1) n) (rows_of_fun g' (lo + 1) n) = true) by (apply IH; intros r Hr; apply H; lia).
  destruct (trim (g lo)) as [|x X]; destruct (trim (g' lo)) as [|z Z']; cbn in H0; try discriminate; [exact IH'|].
  cbn [vrows_eqb]. rewrite Z.eqb_refl, IH'. cbn [cells_eqb]. rewrite H0. reflexivity.
Qed.
Lemma rows_of_fun_ext g g' n : forall lo, (forall r, lo <= r < lo + Z.of_nat n -> g r = g' r) -> rows_of_fun g lo n = rows_of_fun g' lo n.
Proof.
  induction n as [|n IH]; intros lo H; cbn [rows_of_fun]; [reflexivity|]. rewrite (H lo) by lia. rewrite (IH (lo + 1)); [reflexivity|].
  intros r Hr. apply H. lia.
Qed.
Lemma rows_of_fun_app g n1 n2 : forall lo, rows_of_fun g lo (n1 + n2) = rows_of_fun g lo n1 ++ rows_of_fun g (lo + Z.of_nat n1) n2.
Proof.
  induction n1 as [|n1 IH]; intros lo; cbn [rows_of_fun Nat.add app]; [now rewrite Z.add_0_r|].
  rewrite IH. replace (lo + 1 + Z.of_nat n1) with (lo + Z.of_nat (S n1)) by lia. destruct (trim (g lo)); reflexivity.
Qed.
Lemma rows_of_fun_blank g n : forall lo, (forall r, lo <= r < lo + Z.of_nat n -> trim (g r) = []) -> rows_of_fun g lo n = [].
Proof.
  induction n as [|n IH]; intros lo H; cbn [rows_of_fun]; [reflexivity|]. rewrite (H lo) by lia. apply IH. intros r Hr. apply H. lia.
Qed.
Lemma rows_of_mem_from_fun m : forall r, rows_of_mem_from m r = rows_of_fun (fun r' => nth (Z.to_nat (r' - r)) m []) r (length m).
Proof.
  induction m as [|x m IH]; intros r; cbn [rows_of_mem_from rows_of_fun length]; [reflexivity|].
  rewrite Z.sub_diag. cbn [Z.to_nat nth]. rewrite IH.
  assert (E : rows_of_fun (fun r' => nth (Z.to_nat (r' - (r + 1))) m []) (r + 1) (length m) =
              rows_of_fun (fun r' => nth (Z.to_nat (r' - r)) (x :: m) []) (r + 1) (length m)).
  { apply rows_of_fun_ext. intros r' Hr'. replace (Z.to_nat (r' - r)) with (S (Z.to_nat (r' - (r + 1)))) by lia. reflexivity. }
  rewrite E. reflexivity.
Qed.
Lemma rows_of_mem_fun m : mem_wf m -> rows_of_mem m = rows_of_fun (row_get m) 1 15.
Proof.
  intros [HL _]. unfold rows_of_mem. rewrite rows_of_mem_from_fun, HL. apply rows_of_fun_ext. intros r Hr.
  unfold row_get. replace ((1 <=? r) && (r <=? 15)) with true by lia.
  apply nth_indep. lia.
Qed.
