(* C08, display simulation, part 5: the pop-on protocol.  For every sequence of words accepted by `pop_words` (the
   words of the pop-on repertoire under the conditions listed at `pop_word`) the reader's buffered caption shows what the
   non-displayed memory of the reference decoder holds, and its displayed caption what the displayed memory holds:
   same characters, colour, italics and underline on the same rows and columns. *)
From Coq Require Import QArith.
From TT Require Import Base.Prelude Base.SccTypes Base.SccDoc Gen.SccTables Model.SccWord Model.TimeCode Model.SccReader Spec.Cea608Screen.
From TT Require Import Proofs.C08.Stamps Proofs.C08.Words Proofs.C08.Protocol Proofs.C08.Text Proofs.C08.ScreenMem Proofs.C08.ScreenLine Proofs.C08.ScreenPara Proofs.C08.ScreenWords.
Open Scope Z_scope.

(* bookkeeping of the scan: is the cursor positioned (a PAC received since the last ENM / EOC); the rows addressed by a
   PAC in the non-displayed memory since it was last erased; the same for the displayed memory *)
Record gst := mkG { g_pos : bool ; g_un : list Z ; g_ud : list Z }.
Definition g0 : gst := mkG false [] [].
Definition inb (r : Z) (l : list Z) : bool := existsb (Z.eqb r) l.
Lemma inb_false r l : inb r l = false -> ~ In r l.
Proof.
  unfold inb. intros H Hin. assert (existsb (Z.eqb r) l = true); [|congruence].
  apply existsb_exists. exists r. split; [exact Hin|apply Z.eqb_refl].
Qed.
(* one word: None when it is outside the class, otherwise the bookkeeping after it.
   Accepted: null padding; words and characters of data channel 2; second copies of doubled codes; and on channel 1
   - RCL, ENM, EDM, EOC, and the miscellaneous codes both sides ignore (AOF, AON, FON, TR, RTD),
   - a PAC for a row that no PAC has addressed since the non-displayed memory was last erased,
   and, once a PAC has positioned the cursor,
   - characters, special characters, mid-row codes (the test on the colour is true of every mid-row code of the tables)
     and tab offsets that stay left of the last column,
   - an extended character when the cell before the cursor holds a character other than a space,
   - DER.
   Not in the class: RDC, RUx, CR (other protocols / recorded findings), BS, attribute (background) codes, control-range
   words of no data channel. *)
Definition pop_word (s : scr) (g : gst) (w : Z) : option gst :=
  if value w =? 0 then Some g
  else if byte1 w <? 32 then
    let d := decode w in
    if d_chan d =? 2 then Some g
    else if negb (d_chan d =? 1) then None
    else if is_second_copy s w then Some g
    else if d_cls d =? cPac then
      if (1 <=? d_row d) && (d_row d <=? 15) && ((d_indent d =? -1) || ((0 <=? d_indent d) && (d_indent d <=? 28))) &&
         negb (inb (d_row d) (g_un g))
      then Some (mkG true (d_row d :: g_un g) (g_ud g)) else None
    else if d_cls d =? cMidRow then
      if g_pos g && (ccol s + 1 <=? 31) && (if d_italic d then d_color d =? -1 else negb (d_color d =? -1))
      then Some g else None
    else if d_cls d =? cControl then
      let k := d_code d in
      if k =? kRCL then Some g
      else if k =? kENM then Some (mkG false [] (g_ud g))
      else if k =? kEDM then Some (mkG (g_pos g) (g_un g) [])
      else if k =? kEOC then Some (mkG false (g_ud g) (g_un g))
      else if (kTO1 <=? k) && (k <=? kTO1 + 2) then (if g_pos g && (ccol s + (k - kTO1 + 1) <=? 31) then Some g else None)
      else if k =? kDER then (if g_pos g then Some g else None)
      else if (k =? kBS) || (k =? kCR) || (k =? kRDC) || ((kRU2 <=? k) && (k <=? kRU4)) then None
      else Some g
    else if d_cls d =? cSpecial then (if g_pos g && (ccol s + 1 <=? 31) then Some g else None)
    else if d_cls d =? cExtended then
      (if g_pos g && (1 <=? ccol s) && negb (is_blank (mcell (nond s) (crow s) (ccol s - 1))) then Some g else None)
    else None
  else
    if chan s =? 1 then (if g_pos g && (ccol s + zlen (to_text w) <=? 31) then Some g else None) else Some g.
Fixpoint pop_words (s : scr) (g : gst) (ws : list Z) : option (scr * gst) :=
  match ws with
  | [] => Some (s, g)
  | w :: ws' => match pop_word s g w with Some g' => pop_words (feed dev0 s w) g' ws' | None => None end
  end.

Definition pen_of (c : ctx) : Z * bool * bool := penview (c_color c) (c_italic c) (c_under c).
(* the text element under the cursor: an empty element has no style yet; its style is the pen's unless it holds only
   spaces and has never been styled; an empty element follows a space *)
Definition elt_ok (pen : Z * bool * bool) (l : cline) (t : ctext) (col : Z) : Prop :=
  (t_text t = [] -> t_sty t = ts0) /\
  ((t_sty t = ts0 /\ Forall (fun ch => ch = 32) (t_text t)) \/ sview (t_sty t) = pen) /\
  (t_text t = [] -> line_length l = 0 \/ is_blank (lcell l (col - 1)) = true).
Record Rbase (c : ctx) (s : scr) (g : gst) : Prop := {
  r_err : c_err c = false;
  r_style : c_style c = sPopOn;
  r_md : md s = PopOn;
  r_pen : pen_of c = (pcol s, pita s, pund s);
  r_wf : scr_wf s;
  r_buf : @para_mem sPopOn (c_buf c) (nond s) (g_un g);
  r_act : match c_act c with
          | Some a => @para_mem sPopOn a (disp s) (g_ud g)
          | None => forall r k, is_blank (mcell (disp s) r k) = true
          end }.
(* the cursor of the buffered caption is where the decoder's cursor is, at the end of its row *)
Definition Rposn (c : ctx) (s : scr) : Prop :=
  in_rows (crow s) /\ 0 <= ccol s <= 31 /\
  exists l ts t, para_at (c_buf c) (crow s) (ccol s) l ts t /\ elt_ok (pen_of c) l t (ccol s).
Definition Rcore (c : ctx) (s : scr) (g : gst) : Prop := Rbase c s g /\ (g_pos g = true -> Rposn c s).
Record Rlink (c : ctx) (s : scr) : Prop := {
  r_chan : (c_chan c =? 1) = (chan s =? 1);
  r_dup : forall w, d_chan (decode w) = 1 -> is_dup c w = is_second_copy s w;
  r_prev : forall pv, c_prev c = Some pv -> is_code (pv / 256) = true -> exists w0, value w0 = pv /\ d_chan (decode w0) = 1;
  r_pmid : pmid s = (c_prev_type c =? cMidRow) }.
Definition Rpop (c : ctx) (s : scr) (g : gst) : Prop := Rcore c s g /\ Rlink c s.

(* Rbase / Rposn read only these components of the two states *)
Lemma Rbase_same c s g c' s' : Rbase c s g ->
  c_err c' = c_err c -> c_style c' = c_style c -> c_color c' = c_color c -> c_italic c' = c_italic c -> c_under c' = c_under c ->
  c_buf c' = c_buf c -> c_act c' = c_act c ->
  md s' = md s -> pcol s' = pcol s -> pita s' = pita s -> pund s' = pund s -> disp s' = disp s -> nond s' = nond s ->
  Rbase c' s' g.
Proof.
  intros [A B C D E F G] E1 E2 E3 E4 E5 E6 E7 F1 F2 F3 F4 F5 F6.
  assert (Ep : pen_of c' = pen_of c) by (unfold pen_of; now rewrite E3, E4, E5).
  split.
  - now rewrite E1.
  - now rewrite E2.
  - now rewrite F1.
  - now rewrite Ep, F2, F3, F4.
  - unfold scr_wf in *. now rewrite F5, F6.
  - now rewrite E6, F6.
  - now rewrite E7, F5.
Qed.
Lemma Rposn_same c s c' s' : Rposn c s ->
  c_color c' = c_color c -> c_italic c' = c_italic c -> c_under c' = c_under c -> c_buf c' = c_buf c ->
  crow s' = crow s -> ccol s' = ccol s -> Rposn c' s'.
Proof.
  intros H E3 E4 E5 E6 F7 F8. assert (Ep : pen_of c' = pen_of c) by (unfold pen_of; now rewrite E3, E4, E5).
  unfold Rposn. rewrite E6, Ep, F7, F8. exact H.
Qed.
Lemma Rcore_same c s g c' s' : Rcore c s g ->
  c_err c' = c_err c -> c_style c' = c_style c -> c_color c' = c_color c -> c_italic c' = c_italic c -> c_under c' = c_under c ->
  c_buf c' = c_buf c -> c_act c' = c_act c ->
  md s' = md s -> pcol s' = pcol s -> pita s' = pita s -> pund s' = pund s -> disp s' = disp s -> nond s' = nond s ->
  crow s' = crow s -> ccol s' = ccol s -> Rcore c' s' g.
Proof.
  intros [Hb Hp] E1 E2 E3 E4 E5 E6 E7 F1 F2 F3 F4 F5 F6 F7 F8. split.
  - now apply (Rbase_same c s g).
  - intros Hg. now apply (Rposn_same c s c' s' (Hp Hg)).
Qed.

Lemma Rpop_init ta : Rpop (ctx_init ta) scr0 g0.
Proof.
  split; [split; [split; try reflexivity|discriminate]|split; try reflexivity].
  - split; apply mem_wf_mem0.
  - apply para_mem_new. intros r k. change (nond scr0) with mem0. rewrite mcell_mem0. reflexivity.
  - unfold ctx_init. cbn [c_act]. intros r k. change (disp scr0) with mem0. rewrite mcell_mem0. reflexivity.
  - intros pv H. discriminate H.
Qed.
(* the time code of the line plays no part *)
Lemma Rpop_with_tc c s g t : Rpop c s g -> Rpop (with_tc c t) s g.
Proof.
  intros [H1 [A B C D]]. split.
  - apply (Rcore_same c s g); try reflexivity. exact H1.
  - split; assumption.
Qed.

(* both machines have forgotten the last code *)
Lemma Rlink_forget c s : c_prev c = None -> last s = None -> (c_chan c =? 1) = (chan s =? 1) ->
  pmid s = (c_prev_type c =? cMidRow) -> Rlink c s.
Proof.
  intros E1 E2 E3 E4. split; [exact E3| | |exact E4].
  - intros w _. unfold is_dup, is_second_copy. rewrite E1, E2. reflexivity.
  - intros pv H. rewrite E1 in H. discriminate H.
Qed.
Lemma Rpop_forget c s g : Rcore c s g -> c_prev c = None -> last s = None -> (c_chan c =? 1) = (chan s =? 1) ->
  pmid s = (c_prev_type c =? cMidRow) -> Rpop c s g.
Proof. intros H1 E1 E2 E3 E4. split; [exact H1|now apply Rlink_forget]. Qed.
Lemma step_pop_pad c s g w : Rpop c s g -> value w = 0 -> Rpop (step c w) (feed dev0 s w) g.
Proof.
  intros [H1 [A B C D]] Hv. rewrite (step_pad c w (r_err _ _ _ (proj1 H1)) Hv), (feed_pad dev0 s w Hv).
  apply Rpop_forget; try reflexivity; [|exact A|exact D]. apply (Rcore_same c s g); try reflexivity. exact H1.
Qed.
Lemma not_dup_other c s w : Rlink c s -> d_chan (decode w) <> 1 -> is_dup c w = false.
Proof.
  intros [A B C D] Hc. unfold is_dup. destruct (c_prev c) as [pv|] eqn:E; [|reflexivity].
  destruct (pv =? value w) eqn:E1; [|reflexivity]. destruct (is_code (pv / 256)) eqn:E2; [|reflexivity].
  destruct (C pv eq_refl E2) as (w0 & Hv & Hch). assert (Hpv : pv = value w) by lia. rewrite Hpv in Hv.
  rewrite (decode_value w0 w Hv) in Hch. contradiction.
Qed.
(* a word of data channel 2: both machines note it (unless it is taken for a second copy) and address channel 2 *)
Lemma Rlink_other c s w X : Rlink c s -> d_chan (decode w) = 2 -> c_prev X = None -> c_chan X = 2 -> c_prev_type X = c_prev_type c ->
  Rlink X (set_chan (set_last s (if is_second_copy s w then None else Some (value w))) 2).
Proof.
  intros [A B C D] Hc E1 E2 E3. split.
  - now rewrite E2.
  - intros w' Hw'. unfold is_dup. rewrite E1. destruct (is_second_copy s w) eqn:Es; unfold is_second_copy;
      cbn [last set_chan set_last]; [reflexivity|]. destruct (value w =? value w') eqn:E; [|reflexivity].
    assert (Hvv : value w = value w') by lia. rewrite (decode_value w w' Hvv) in Hc. lia.
  - intros pv H. rewrite E1 in H. discriminate H.
  - now rewrite E3.
Qed.
Lemma step_pop_other c s g w : Rpop c s g -> value w <> 0 -> byte1 w < 32 -> d_chan (decode w) = 2 ->
  Rpop (step c w) (feed dev0 s w) g.
Proof.
  intros [H1 HL] Hv Hb Hc. assert (Hn : d_chan (decode w) <> 1) by lia.
  rewrite (step_other c w (r_err _ _ _ (proj1 H1)) (not_dup_other c s w HL Hn) Hv Hb Hn), (feed_code_cls dev0 s w Hv Hb).
  cbv zeta. rewrite Hc. change (negb (2 =? 1)) with true. change (2 =? 2) with true. cbv iota. split.
  - apply (Rcore_same c s g); try reflexivity. exact H1.
  - now apply (Rlink_other c s w).
Qed.
Lemma step_pop_dup c s g w : Rpop c s g -> d_chan (decode w) = 1 -> is_second_copy s w = true ->
  Rpop (step c w) (feed dev0 s w) g.
Proof.
  intros [H1 HL] Hc Hd. destruct (ch1_bytes w Hc) as [Hb Hv].
  assert (Hdup : is_dup c w = true) by (rewrite (r_dup _ _ HL w Hc); exact Hd).
  rewrite (step_dup c w (r_err _ _ _ (proj1 H1)) Hdup), (feed_code_cls dev0 s w) by lia.
  cbv zeta. rewrite Hc, Hd. change (negb (1 =? 1)) with false. cbv iota.
  apply Rpop_forget; try reflexivity; [|exact (r_chan _ _ HL)|exact (r_pmid _ _ HL)]. apply (Rcore_same c s g); try reflexivity. exact H1.
Qed.
(* characters while data channel 2 is addressed *)
Lemma step_pop_chars_other c s g w : Rpop c s g -> 32 <= byte1 w -> (chan s =? 1) = false ->
  Rpop (step c w) (feed dev0 s w) g.
Proof.
  intros [H1 HL] Hb Hch. rewrite (step_chars c w (r_err _ _ _ (proj1 H1)) Hb), (feed_chars dev0 s w Hb). cbv zeta.
  rewrite (r_chan _ _ HL). change (chan (set_last s None)) with (chan s). rewrite Hch. cbn [negb].
  apply Rpop_forget; try reflexivity; [|exact (r_chan _ _ HL)|exact (r_pmid _ _ HL)].
  apply (Rcore_same c s g); try reflexivity. exact H1.
Qed.

Lemma Rlink_code w X s1 cls : d_chan (decode w) = 1 -> c_chan X = 1 -> last s1 = Some (value w) -> chan s1 = 1 ->
  Rlink (with_prev (with_prev_type X cls) (Some (value w))) (set_pmid s1 (cls =? cMidRow)).
Proof.
  intros Hc Hch Hlast Hchan. split.
  - cbn [c_chan with_prev with_prev_type chan set_pmid]. rewrite Hch, Hchan. reflexivity.
  - intros w' Hw'. unfold is_dup, is_second_copy. cbn [c_prev with_prev last set_pmid]. rewrite Hlast.
    rewrite value_div. rewrite (chan1_is_code w Hc). apply andb_true_r.
  - intros pv H Hcode. cbn [c_prev with_prev] in H. injection H as <-. exists w. split; [reflexivity|exact Hc].
  - reflexivity.
Qed.
Lemma wrap_code g' w X s1 cls : d_chan (decode w) = 1 ->
  Rcore X s1 g' -> c_chan X = 1 -> last s1 = Some (value w) -> chan s1 = 1 ->
  Rpop (with_prev (with_prev_type X cls) (Some (value w))) (set_pmid s1 (cls =? cMidRow)) g'.
Proof.
  intros Hc HX Hch Hlast Hchan. split; [|now apply Rlink_code].
  apply (Rcore_same X s1 g'); try reflexivity. exact HX.
Qed.
Lemma Rcore_code c s g x : Rcore c s g -> Rcore (code_ctx c) (set_chan (set_last s (Some x)) 1) g.
Proof. intros H. apply (Rcore_same c s g); try reflexivity. exact H. Qed.
(* Both machines first note the code x and the channel (code_ctx; set_last, set_chan), then act according to the class of the code,
   then note the class (with_prev_type; set_pmid).  Rcode relates the states between the two notes; the lemmas `pop_...` below
   say that what the reader does for a class of code (process_pac, process_mid_row, process_control, process_text) and what
   the decoder does (pac, midrow, control, put) preserve it. *)
Definition Rcode (x : Z) (c : ctx) (s : scr) (g : gst) : Prop := Rcore c s g /\ c_chan c = 1 /\ last s = Some x /\ chan s = 1.
Lemma Rcode_enter c s g x : Rcore c s g -> Rcode x (code_ctx c) (set_chan (set_last s (Some x)) 1) g.
Proof. intros H. split; [now apply Rcore_code|repeat split]. Qed.
Lemma Rcode_leave g' w X s1 cls : d_chan (decode w) = 1 -> Rcode (value w) X s1 g' ->
  Rpop (with_prev (with_prev_type X cls) (Some (value w))) (set_pmid s1 (cls =? cMidRow)) g'.
Proof. intros Hc (H0 & H1 & H2 & H3). now apply wrap_code. Qed.

Lemma sync_acur_proj c : c_err (sync_acur c) = c_err c /\ c_style (sync_acur c) = c_style c /\ c_color (sync_acur c) = c_color c /\
  c_italic (sync_acur c) = c_italic c /\ c_under (sync_acur c) = c_under c /\ c_buf (sync_acur c) = c_buf c /\
  c_act (sync_acur c) = c_act c /\ c_chan (sync_acur c) = c_chan c.
Proof. unfold sync_acur. destruct (c_act c) eqn:E; repeat split; try reflexivity; cbn; now rewrite E. Qed.
Lemma puts_proj s word : md s = PopOn -> ccol s + zlen word <= 31 ->
  md (puts s word) = PopOn /\ pcol (puts s word) = pcol s /\ pita (puts s word) = pita s /\ pund (puts s word) = pund s /\
  disp (puts s word) = disp s /\ crow (puts s word) = crow s /\ ccol (puts s word) = ccol s + zlen word /\
  nond (puts s word) = write_cells (nond s) (crow s) (ccol s) (pen_cell s) word /\
  last (puts s word) = last s /\ chan (puts s word) = chan s /\ pmid (puts s word) = pmid s.
Proof. intros Hm Hl. rewrite (puts_pop word s Hm Hl). repeat split; try reflexivity. exact Hm. Qed.
(* the position part of the relation is all that the write needs: the element under the cursor carries the pen's style
   or only unstyled spaces *)
Definition Rposn_w (c : ctx) (s : scr) : Prop :=
  in_rows (crow s) /\ 0 <= ccol s <= 31 /\
  exists l ts t, para_at (c_buf c) (crow s) (ccol s) l ts t /\ ((t_sty t = ts0 /\ all_spaces t) \/ sview (t_sty t) = pen_of c).
Lemma Rposn_weaken c s : Rposn c s -> Rposn_w c s.
Proof. intros (A & B & l & ts & t & Hat & (_ & E2 & _)). split; [exact A|]. split; [exact B|]. exists l, ts, t. split; assumption. Qed.
Lemma core_write c s g word : Rbase c s g -> Rposn_w c s -> word <> [] -> ccol s + zlen word <= 31 ->
  Rbase (process_text c word) (puts s word) g /\ Rposn (process_text c word) (puts s word) /\
  c_chan (process_text c word) = c_chan c.
Proof.
  intros Hb (Hrow & Hcol & l & ts & t & Hat & Helt) Hw Hlen.
  pose proof Hb as [A B C D E F G].
  destruct (puts_proj s word C Hlen) as (P1 & P2 & P3 & P4 & P5 & P6 & P7 & P8 & P9 & P10 & P11).
  destruct (para_write (c_buf c) (nond s) (g_un g) (crow s) (ccol s) l ts t (c_color c) (c_italic c) (c_under c)
              (pcol s) (pita s) (pund s) word F Hat Hrow (proj1 Hcol) Hlen Hw (proj2 E) Helt D) as (Q1 & Q2 & Q3 & Q4 & Q5).
  rewrite (process_text_cap c _ word (or_introl B) (cap_pop c B)), (upd_cap_pop c _ B), style_cur_text_eq, Q1.
  match goal with |- context [sync_acur ?x] => destruct (sync_acur_proj x) as (S1 & S2 & S3 & S4 & S5 & S6 & S7 & S8); set (c' := sync_acur x) in * end.
  cbn [c_err c_style c_color c_italic c_under c_buf c_act c_chan with_buf] in S1, S2, S3, S4, S5, S6, S7, S8.
  split; [|split].
  - split.
    + rewrite S1. exact A.
    + rewrite S2. exact B.
    + exact P1.
    + unfold pen_of. rewrite S3, S4, S5, P2, P3, P4. exact D.
    + destruct E as [E1 E2]. split; [rewrite P5; exact E1|]. rewrite P8. now apply write_cells_wf.
    + rewrite S6, P8. exact Q2.
    + rewrite S7, P5. exact G.
  - split; [rewrite P6; exact Hrow|]. split; [rewrite P7; pose proof (zlen_nonneg word); lia|].
    eexists _, ts, _. rewrite S6, P6, P7. split; [exact Q3|].
    split; [|split].
    + intros H0. rewrite Q5 in H0. destruct (t_text t); [destruct word; [contradiction|discriminate]|discriminate].
    + right. unfold pen_of. rewrite S3, S4, S5, Q4. symmetry. exact D.
    + intros H0. rewrite Q5 in H0. destruct (t_text t); [destruct word; [contradiction|discriminate]|discriminate].
  - exact S8.
Qed.
Lemma feed_chars_puts v s w : 32 <= byte1 w -> (chan s =? 1) = true ->
  feed v s w = puts (set_pmid (set_last s None) false) (to_text w).
Proof.
  intros Hb Hc. rewrite (feed_chars v s w Hb). cbv zeta. change (chan (set_last s None)) with (chan s). rewrite Hc.
  rewrite (to_text_chars w Hb). destruct (d_t2 (decode w) =? -1); reflexivity.
Qed.
Lemma Rlink_chars c s X s1 w : Rlink c s -> 32 <= byte1 w -> c_chan X = c_chan c -> chan s1 = chan s -> last s1 = None -> pmid s1 = false ->
  Rlink (with_prev (with_prev_type X cChars) (Some (value w))) s1.
Proof.
  intros [A B C D] Hby E1 E2 E3 E4. split.
  - cbn [c_chan with_prev with_prev_type]. rewrite E1, E2. exact A.
  - intros w' _. unfold is_dup, is_second_copy. cbn [c_prev with_prev]. rewrite E3.
    rewrite value_div. replace (is_code (byte1 w)) with false by (unfold is_code; lia). apply andb_false_r.
  - intros pv H Hcode. cbn [c_prev with_prev] in H. injection H as <-. rewrite value_div in Hcode. unfold is_code in Hcode. lia.
  - rewrite E4. reflexivity.
Qed.
Lemma step_pop_chars c s g w : Rpop c s g -> 32 <= byte1 w -> (chan s =? 1) = true -> g_pos g = true ->
  ccol s + zlen (to_text w) <= 31 -> Rpop (step c w) (feed dev0 s w) g.
Proof.
  intros [[Hb Hp] HL] Hby Hch Hg Hlen.
  rewrite (step_chars c w (r_err _ _ _ Hb) Hby), (feed_chars_puts dev0 s w Hby Hch). cbv zeta.
  rewrite (r_chan _ _ HL), Hch. cbn [negb].
  set (c1 := with_tc c (tc_next (c_tc c))). set (s0 := set_pmid (set_last s None) false).
  assert (Hb1 : Rbase c1 s0 g) by (apply (Rbase_same c s g); try reflexivity; exact Hb).
  assert (Hp1 : Rposn c1 s0) by (apply (Rposn_same c s); try reflexivity; exact (Hp Hg)).
  assert (Hne : to_text w <> []) by (rewrite (to_text_chars w Hby); discriminate).
  destruct (core_write c1 s0 g (to_text w) Hb1 (Rposn_weaken _ _ Hp1) Hne Hlen) as (R1 & R2 & R3).
  destruct (puts_proj s0 (to_text w) (r_md _ _ _ Hb1) Hlen) as (P1 & P2 & P3 & P4 & P5 & P6 & P7 & P8 & P9 & P10 & P11).
  split; [split|].
  - apply (Rbase_same _ _ g _ _ R1); reflexivity.
  - intros _. apply (Rposn_same _ _ _ _ R2); reflexivity.
  - now apply (Rlink_chars c s _ _ w HL Hby R3).
Qed.

Lemma feed_act s w : d_chan (decode w) = 1 -> is_second_copy s w = false ->
  feed dev0 s w = act dev0 (set_chan (set_last s (Some (value w))) 1) (decode w).
Proof.
  intros Hc Hd. destruct (ch1_bytes w Hc) as [Hb Hv]. rewrite (feed_code_cls dev0 s w) by lia. cbv zeta.
  rewrite Hc, Hd. reflexivity.
Qed.
Lemma not_dup_code c s w : Rlink c s -> d_chan (decode w) = 1 -> is_second_copy s w = false -> is_dup c w = false.
Proof. intros HL Hc Hd. rewrite (r_dup _ _ HL w Hc). exact Hd. Qed.

Lemma code_write x c s g ch : Rbase c s g -> Rposn_w c s -> c_chan c = 1 -> last s = Some x -> chan s = 1 -> ccol s + 1 <= 31 ->
  Rcode x (process_text c [ch]) (put s ch) g.
Proof.
  intros Hb Hp H1 H2 H3 Hlen.
  destruct (core_write c s g [ch] Hb Hp ltac:(discriminate) Hlen) as (R1 & R2 & R3).
  destruct (puts_proj s [ch] (r_md _ _ _ Hb) Hlen) as (_ & _ & _ & _ & _ & _ & _ & _ & P9 & P10 & _).
  change (put s ch) with (puts s [ch]). split; [split; [exact R1|intros _; exact R2]|]. rewrite R3, P9, P10. repeat split; assumption.
Qed.
Lemma pop_special x c s g ch : Rcode x c s g -> g_pos g = true -> ccol s + 1 <= 31 -> Rcode x (process_text c [ch]) (put s ch) g.
Proof. intros ([Hb Hp] & H1 & H2 & H3) Hg Hlen. exact (code_write x c s g ch Hb (Rposn_weaken _ _ (Hp Hg)) H1 H2 H3 Hlen). Qed.

(* preamble address codes: the row is fresh *)
Lemma process_pac_pop c d : c_style c = sPopOn ->
  process_pac c d = sync_acur (with_attrs (with_buf c (set_cursor_at (c_buf c) (d_row d) (d_indent d))) (d_color d) (d_italic d) (d_under d)).
Proof. intros H. unfold process_pac. rewrite H. reflexivity. Qed.
Lemma elt_ok_new pen r i col : elt_ok pen (line_new r i) text_new col.
Proof. split; [reflexivity|]. split; [left; split; [reflexivity|constructor]|]. intros _. left. reflexivity. Qed.
Lemma pop_pac x c s g d : Rcode x c s g -> in_rows (d_row d) -> (d_indent d = -1 \/ 0 <= d_indent d <= 28) -> ~ In (d_row d) (g_un g) ->
  Rcode x (process_pac c d) (pac dev0 s d) (mkG true (d_row d :: g_un g) (g_ud g)).
Proof.
  intros ([[A B C D E F G] _] & H1 & H2 & H3) Hrow Hind Hfresh.
  rewrite (process_pac_pop c d B). unfold pac. rewrite C.
  set (ind0 := if d_indent d =? -1 then 0 else d_indent d).
  assert (Hind0 : 0 <= ind0 <= 28) by (unfold ind0; destruct Hind as [->|H]; [cbn; lia|destruct (d_indent d =? -1); lia]).
  destruct (para_mem_at_fresh (c_buf c) (nond s) (g_un g) (d_row d) ind0 F Hfresh Hrow ltac:(lia))
    as (r0 & l0 & Q1 & Q2 & Q3 & Q4 & Q5 & Q6).
  rewrite (set_cursor_at_fresh (c_buf c) r0 l0 (d_row d) (d_indent d) Q1 Q2 Q3 Q4). fold ind0.
  match goal with |- context [sync_acur ?y] => destruct (sync_acur_proj y) as (S1 & S2 & S3 & S4 & S5 & S6 & S7 & S8); set (c' := sync_acur y) in * end.
  cbn [c_err c_style c_color c_italic c_under c_buf c_act c_chan with_buf with_attrs] in S1, S2, S3, S4, S5, S6, S7, S8.
  split; [split|rewrite S8; repeat split; assumption].
  - split.
    + rewrite S1. exact A.
    + rewrite S2. exact B.
    + exact C.
    + unfold pen_of. rewrite S3, S4, S5. reflexivity.
    + exact E.
    + rewrite S6. exact Q5.
    + rewrite S7. exact G.
  - intros _. split; [exact Hrow|]. split; [cbn [ccol set_pos]; lia|].
    exists (line_new (d_row d) ind0), [], text_new. rewrite S6. split; [exact Q6|apply elt_ok_new].
Qed.

Definition mid_para (p : para) (und prev : bool) : para :=
  if prev then new_caption_text (append_text p [32])
  else if negb (is_nil (t_text (cur_text p)))
  then (if negb und then append_text (new_caption_text p) [32] else new_caption_text (append_text p [32]))
  else append_text p [32].
(* on the caption being processed, in pop-on and roll-up style alike; in the four cases of the code the function applied
   to that caption is mid_para *)
Lemma process_mid_row_cap c p d : c_style c = sPopOn \/ c_style c = sRollUp -> cap_to_process c = Some p ->
  p_style (mid_para p (d_under d) (c_prev_type c =? cMidRow)) <> sPaintOn ->
  process_mid_row c d = with_attrs (upd_cap c (fun p => mid_para p (d_under d) (c_prev_type c =? cMidRow)))
                                   (if d_color d =? -1 then c_color c else d_color d) (d_italic d) (d_under d).
Proof.
  intros Hs Hp Hst. unfold process_mid_row. rewrite Hp. cbv zeta.
  replace (c_style c =? sPaintOn) with false by (destruct Hs as [-> | ->]; reflexivity). cbn [andb].
  set (col := if d_color d =? -1 then c_color c else d_color d).
  assert (Ef : forall g h, g p = h p -> upd_cap c g = upd_cap c h).
  { intros g h E. unfold upd_cap, upd_act. unfold cap_to_process in Hp. destruct (c_style c =? sPopOn); [injection Hp as <-|rewrite Hp]; now rewrite E. }
  assert (Ea : forall g, upd_cap (with_attrs c col (d_italic d) (d_under d)) g = with_attrs (upd_cap c g) col (d_italic d) (d_under d)).
  { intros g. unfold upd_cap, upd_act. cbn [c_style c_buf c_act with_attrs]. destruct (c_style c =? sPopOn); [|destruct (c_act c)]; destruct c; reflexivity. }
  match goal with |- match cap_to_process ?c1 with _ => _ end = with_attrs ?c2 _ _ _ =>
    assert (E1 : c1 = with_attrs c2 col (d_italic d) (d_under d)) end.
  { destruct (c_prev_type c =? cMidRow); cbn [negb]; [now rewrite Ea|]. f_equal.
    unfold mid_para. destruct (negb (is_nil (t_text (cur_text p)))) eqn:En; [destruct (negb (d_under d)) eqn:Eu|]; apply Ef; now rewrite ?En, ?Eu. }
  rewrite E1. change (cap_to_process (with_attrs ?x _ _ _)) with (cap_to_process x).
  rewrite (proj1 (target_upd_cap c _ p Hp)). now apply Z.eqb_neq in Hst as ->.
Qed.
Lemma cur_text_at p r col l ts t : para_at p r col l ts t -> cur_text p = t.
Proof.
  intros (Hc & Hg & (E1 & E2 & _) & _). unfold cur_text. rewrite (cur_line_at p r l Hc Hg). unfold line_cur_text. rewrite E1, E2. apply nth_last.
Qed.
Lemma para_mid {st} p m u r col l ts t und prev pen f : @para_mem st p m u -> para_at p r col l ts t -> in_rows r -> 0 <= col -> col + 1 <= 31 ->
  mem_wf m -> is_blank (f 32) = true -> (t_text t = [] -> t_sty t = ts0) ->
  @para_mem st (mid_para p und prev) (write_cells m r col f [32]) u /\
  (forall r0, r0 <> r -> dget r0 (p_lines (mid_para p und prev)) = dget r0 (p_lines p)) /\
  exists l2 ts2 t2, para_at (mid_para p und prev) r (col + 1) l2 ts2 t2 /\ elt_ok pen l2 t2 (col + 1).
Proof.
  intros Hpm Hat Hin Hcol Hlen Hwf Hf He1. unfold mid_para. rewrite (cur_text_at p r col l ts t Hat).
  assert (Hrow1 : forall q x y r0, r0 <> r -> dget r0 (p_lines (set_cursor (put_line q r x) y)) = dget r0 (p_lines q)).
  { intros q x y r0 Hne. cbn [p_lines set_cursor]. rewrite dget_put_line. replace (r0 =? r) with false by lia. reflexivity. }
  assert (Hrow2 : forall q x r0, r0 <> r -> dget r0 (p_lines (put_line q r x)) = dget r0 (p_lines q)).
  { intros q x r0 Hne. rewrite dget_put_line. replace (r0 =? r) with false by lia. reflexivity. }
  (* directly after another mid-row code, and for an underlined code after text: the space goes into the current text
     element, a new one follows *)
  assert (Hnew : @para_mem st (new_caption_text (append_text p [32])) (write_cells m r col f [32]) u /\
            (forall r0, r0 <> r -> dget r0 (p_lines (new_caption_text (append_text p [32]))) = dget r0 (p_lines p)) /\
            exists l2 ts2 t2, para_at (new_caption_text (append_text p [32])) r (col + 1) l2 ts2 t2 /\ elt_ok pen l2 t2 (col + 1)).
  { destruct (para_space p m u r col l ts t f Hpm Hat Hin Hcol Hlen Hwf Hf) as (Q1 & Q2 & Q3 & Q4). rewrite Q1.
    destruct (para_newtext _ _ u r (col + 1) _ ts _ Q2 Q3 Hin) as (N1 & N2 & N3 & N4 & N5). rewrite N1.
    split; [exact N2|]. split; [intros r0 Hne; rewrite Hrow2, Hrow1 by exact Hne; reflexivity|].
    eexists _, _, _. split; [exact N3|]. split; [reflexivity|]. split; [left; split; [reflexivity|constructor]|].
    intros _. right. rewrite N4. replace (col + 1 - 1) with col by lia. exact Q4. }
  destruct prev; [exact Hnew|].
  destruct (t_text t) as [|ch tx] eqn:Et; cbn [is_nil negb].
  - (* the current text is empty: the space goes into it *)
    destruct (para_space p m u r col l ts t f Hpm Hat Hin Hcol Hlen Hwf Hf) as (Q1 & Q2 & Q3 & Q4). rewrite Q1.
    split; [exact Q2|]. split; [intros r0 Hne; now apply Hrow1|]. eexists _, ts, _. split; [exact Q3|]. split; [|split].
    + cbn. rewrite Et. discriminate.
    + left. cbn [t_sty t_text text_app]. split; [now apply He1|]. rewrite Et. repeat constructor.
    + cbn. rewrite Et. discriminate.
  - destruct und; cbn [negb]; [exact Hnew|].
    (* otherwise the space opens the new text element *)
    destruct (para_newtext p m u r col l ts t Hpm Hat Hin) as (N1 & N2 & N3 & N4 & N5). rewrite N1.
    destruct (para_space _ m u r col _ (ts ++ [t]) text_new f N2 N3 Hin Hcol Hlen Hwf Hf) as (Q1 & Q2 & Q3 & Q4). rewrite Q1.
    split; [exact Q2|]. split; [intros r0 Hne; rewrite Hrow1, Hrow2 by exact Hne; reflexivity|].
    eexists _, _, _. split; [exact Q3|]. split; [discriminate|]. split; [left; split; [reflexivity|repeat constructor]|discriminate].
Qed.
(* the pen after a mid-row code: the italics codes carry no colour, the colour codes switch italics off *)
Lemma midrow_pen c s d : pen_of c = (pcol s, pita s, pund s) ->
  (if d_italic d then d_color d =? -1 else negb (d_color d =? -1)) = true ->
  penview (if d_color d =? -1 then c_color c else d_color d) (d_italic d) (d_under d) = (if d_italic d then pcol s else d_color d, d_italic d, d_under d).
Proof.
  unfold pen_of, penview. intros D Htab. injection D as D1 D2 D3. destruct (d_italic d).
  - rewrite Htab. now rewrite D1.
  - destruct (d_color d =? -1) eqn:E1; [discriminate Htab|]. now rewrite E1.
Qed.
Lemma pop_midrow x c s g d : Rcode x c s g -> g_pos g = true -> ccol s + 1 <= 31 ->
  (if d_italic d then d_color d =? -1 else negb (d_color d =? -1)) = true ->
  Rcode x (process_mid_row c d) (midrow dev0 s d) g.
Proof.
  intros ([Hb Hp] & H1 & H2 & H3) Hg Hlen Htab.
  pose proof Hb as [A B C D E F G]. destruct (Hp Hg) as (Hrow & Hcol & l & ts & t & Hat & (He1 & He2 & He5)).
  destruct (puts_proj s [32] C Hlen) as (P1 & P2 & P3 & P4 & P5 & P6 & P7 & P8 & P9 & P10 & P11).
  set (newpen := penview (if d_color d =? -1 then c_color c else d_color d) (d_italic d) (d_under d)).
  destruct (para_mid (c_buf c) (nond s) (g_un g) (crow s) (ccol s) l ts t (d_under d) (c_prev_type c =? cMidRow) newpen (pen_cell s)
              F Hat Hrow (proj1 Hcol) Hlen (proj2 E) eq_refl He1) as (M1 & _ & l2 & ts2 & t2 & M2 & M3).
  rewrite (process_mid_row_cap c _ d (or_introl B) (cap_pop c B)), (upd_cap_pop c _ B) by (rewrite (pm_style _ _ _ M1); discriminate).
  unfold midrow. change (put s 32) with (puts s [32]).
  assert (Hpen : newpen = (if d_italic d then pcol (puts s [32]) else d_color d, d_italic d, d_under d)) by (rewrite P2; exact (midrow_pen c s d D Htab)).
  match goal with |- Rcode _ _ ?s1 _ =>
    assert (Es1 : md s1 = PopOn /\ (pcol s1, pita s1, pund s1) = newpen /\ disp s1 = disp s /\ nond s1 = nond (puts s [32]) /\
                  crow s1 = crow s /\ ccol s1 = ccol s + 1 /\ last s1 = last s /\ chan s1 = chan s)
  end.
  { rewrite Hpen. destruct (d_italic d); repeat split; try assumption; try reflexivity. }
  destruct Es1 as (T1 & T2 & T3 & T4 & T5 & T6 & T7 & T8).
  split; [split|rewrite T7, T8; repeat split; assumption].
  - split; try assumption.
    + unfold pen_of. cbn [c_color c_italic c_under with_attrs]. rewrite T2. reflexivity.
    + unfold scr_wf. rewrite T3, T4, P8. destruct E as [E1 E2]. split; [exact E1|now apply write_cells_wf].
    + cbn [c_buf with_attrs with_buf]. rewrite T4, P8. exact M1.
    + cbn [c_act with_attrs with_buf]. rewrite T3. exact G.
  - intros _. split; [rewrite T5; exact Hrow|]. split; [rewrite T6; lia|].
    exists l2, ts2, t2. cbn [c_buf with_attrs with_buf]. rewrite T5, T6. split; [exact M2|exact M3].
Qed.

Lemma feed_control s w : d_chan (decode w) = 1 -> is_second_copy s w = false -> d_cls (decode w) = cControl ->
  feed dev0 s w = set_pmid (control dev0 (set_chan (set_last s (Some (value w))) 1) (d_code (decode w))) (cControl =? cMidRow).
Proof. intros Hc Hd Hcls. rewrite (feed_act s w Hc Hd). unfold act. rewrite Hcls. reflexivity. Qed.

Lemma pop_rcl x c s g : Rcode x c s g -> Rcode x (process_control c kRCL) (control dev0 s kRCL) g.
Proof.
  intros (H0 & H1 & H2 & H3). split; [|repeat split; assumption].
  apply (Rcore_same c s g); try reflexivity; [exact H0| |]; cbn; symmetry; [exact (r_style _ _ _ (proj1 H0))|exact (r_md _ _ _ (proj1 H0))].
Qed.
Definition ignored_code (k : Z) : bool :=
  negb ((k =? kRCL) || (k =? kENM) || (k =? kEDM) || (k =? kEOC) || ((kTO1 <=? k) && (k <=? kTO1 + 2)) || (k =? kDER) ||
        (k =? kBS) || (k =? kCR) || (k =? kRDC) || ((kRU2 <=? k) && (k <=? kRU4))).
(* the tests of both machines on such a code all fail (the codes by their numbers: the two machines name them separately) *)
Lemma ignored_tests k : ignored_code k = true ->
  ((k =? 0) = false /\ (k =? 14) = false /\ (k =? 12) = false /\ (k =? 15) = false /\ (k =? 4) = false /\
   (k =? 1) = false /\ (k =? 13) = false /\ (k =? 9) = false) /\
  ((16 <=? k) && (k <=? 16 + 2) = false /\ (5 <=? k) && (k <=? 7) = false) /\
  ((k =? 16) || (k =? 17) || (k =? 18) = false /\ (k =? 5) || (k =? 6) || (k =? 7) = false).
Proof.
  unfold ignored_code, kRCL, kENM, kEDM, kEOC, kTO1, kDER, kBS, kCR, kRDC, kRU2, kRU4.
  intros Hk. apply negb_true_iff in Hk.
  apply orb_false_elim in Hk as [Hk K10]. apply orb_false_elim in Hk as [Hk K9]. apply orb_false_elim in Hk as [Hk K8].
  apply orb_false_elim in Hk as [Hk K7]. apply orb_false_elim in Hk as [Hk K6]. apply orb_false_elim in Hk as [Hk K5].
  apply orb_false_elim in Hk as [Hk K4]. apply orb_false_elim in Hk as [Hk K3]. apply orb_false_elim in Hk as [K1 K2].
  repeat split; try assumption; lia.
Qed.
Lemma process_control_ignored c k : ignored_code k = true -> process_control c k = c.
Proof.
  intros Hk. destruct (ignored_tests k Hk) as ((K1 & K2 & K3 & K4 & K6 & K7 & K8 & K9) & _ & K5 & K10).
  unfold process_control, Model.SccReader.kRCL, Model.SccReader.kRDC, Model.SccReader.kRU2, Model.SccReader.kRU3, Model.SccReader.kRU4,
    Model.SccReader.kEOC, Model.SccReader.kEDM, Model.SccReader.kENM, Model.SccReader.kTO1, Model.SccReader.kTO2, Model.SccReader.kTO3,
    Model.SccReader.kCR, Model.SccReader.kDER, Model.SccReader.kBS.
  rewrite K1, K9, K10, K4, K3, K2, K5, K8, K6, K7. reflexivity.
Qed.
Lemma control_ignored s k : ignored_code k = true -> control dev0 s k = s.
Proof.
  intros Hk. destruct (ignored_tests k Hk) as ((K1 & K2 & K3 & K4 & K6 & K7 & K8 & K9) & (K5 & K10) & _).
  unfold control, kRCL, kRDC, kRU2, kRU4, kCR, kBS, kDER, kEDM, kENM, kEOC, kTO1.
  rewrite K1, K9, K10, K8, K7, K6, K3, K2, K4, K5. reflexivity.
Qed.
Lemma pop_ignored x c s g k : Rcode x c s g -> ignored_code k = true -> Rcode x (process_control c k) (control dev0 s k) g.
Proof. intros H Hk. rewrite (process_control_ignored c k Hk), (control_ignored s k Hk). exact H. Qed.

(* ENM: the buffered caption / non-displayed memory is erased *)
Lemma pop_enm x c s g : Rcode x c s g -> Rcode x (process_control c kENM) (control dev0 s kENM) (mkG false [] (g_ud g)).
Proof.
  intros ([[A B C D E F G] _] & H1 & H2 & H3). split; [|repeat split; assumption]. split; [|discriminate]. split; try assumption.
  - destruct E as [E1 E2]. split; [exact E1|apply mem_wf_mem0].
  - apply para_mem_new. intros r k. cbn. rewrite mcell_mem0. reflexivity.
Qed.

(* EDM: the displayed caption is ended and nothing is displayed any more *)
Lemma push_active_proj c e cl : c_err (push_active c e cl) = c_err c /\ c_style (push_active c e cl) = c_style c /\
  c_color (push_active c e cl) = c_color c /\ c_italic (push_active c e cl) = c_italic c /\ c_under (push_active c e cl) = c_under c /\
  c_buf (push_active c e cl) = c_buf c /\ c_chan (push_active c e cl) = c_chan c /\ c_depth (push_active c e cl) = c_depth c.
Proof.
  unfold push_active. destruct (c_act c); [|repeat split]. destruct (para_is_empty _); [repeat split|].
  destruct (to_paragraph _ _). repeat split.
Qed.
Lemma edm_proj c : let X := process_control c kEDM in
  c_err X = c_err c /\ c_style X = c_style c /\ c_color X = c_color c /\ c_italic X = c_italic c /\ c_under X = c_under c /\
  c_buf X = c_buf c /\ c_chan X = c_chan c /\ c_depth X = c_depth c /\ c_act X = None.
Proof.
  cbv zeta. rewrite control_edm. destruct (c_act c) eqn:Ea; [|now repeat split].
  destruct (push_active_proj c (Some (tc_next (c_tc c))) true) as (Q1 & Q2 & Q3 & Q4 & Q5 & Q6 & Q7 & Q8).
  rewrite Q1, Q2, Q3, Q4, Q5, Q6, Q7, Q8. repeat split. apply act_push_active_clear.
Qed.
Lemma pop_edm x c s g : Rcode x c s g -> Rcode x (process_control c kEDM) (control dev0 s kEDM) (mkG (g_pos g) (g_un g) []).
Proof.
  intros ([[A B C D E F G] Hp] & H1 & H2 & H3). destruct (edm_proj c) as (X1 & X2 & X3 & X4 & X5 & X6 & X7 & _ & X8).
  change (control dev0 s kEDM) with (set_disp s mem0). set (X := process_control c kEDM) in *.
  split; [split|rewrite X7; repeat split; assumption].
  - split.
    + now rewrite X1.
    + now rewrite X2.
    + exact C.
    + unfold pen_of. rewrite X3, X4, X5. exact D.
    + destruct E as [E1 E2]. split; [apply mem_wf_mem0|exact E2].
    + rewrite X6. exact F.
    + rewrite X8. intros r k. cbn. rewrite mcell_mem0. reflexivity.
  - intros Hg. apply (Rposn_same c s); try assumption; try reflexivity. exact (Hp Hg).
Qed.

(* EOC: the two captions / memories are exchanged *)
Lemma flip_proj c t :
  (exists b, c_act (flip c t) = Some b /\ p_lines b = p_lines (c_buf c) /\ p_cur b = p_cur (c_buf c) /\ p_style b = p_style (c_buf c)) /\
  c_buf (flip c t) = match c_act c with Some a => set_end a (Some t) | None => para_new sPopOn end /\
  c_err (flip c t) = c_err c /\ c_style (flip c t) = c_style c /\ c_color (flip c t) = c_color c /\
  c_italic (flip c t) = c_italic c /\ c_under (flip c t) = c_under c /\ c_chan (flip c t) = c_chan c.
Proof.
  unfold flip. destruct (push_active_proj c (Some t) true) as (Q1 & Q2 & Q3 & Q4 & Q5 & Q6 & Q7 & _).
  set (c1 := push_active c (Some t) true) in *. clearbody c1.
  destruct (p_id (c_buf c1)) eqn:Ei; destruct (c_act c) eqn:Ea; cbn; rewrite ?Q1, ?Q2, ?Q3, ?Q4, ?Q5, ?Q6, ?Q7;
    (split; [eexists; split; [reflexivity|]; cbn; rewrite ?Q6; repeat split|repeat split]).
Qed.
Lemma pop_eoc x c s g : Rcode x c s g -> Rcode x (process_control c kEOC) (control dev0 s kEOC) (mkG false (g_ud g) (g_un g)).
Proof.
  intros ([[A B C D E F G] _] & H1 & H2 & H3).
  set (t := c_tc c). set (c2 := with_buf c (set_begin (c_buf c) (Some t))).
  assert (Epc : exists f, process_control c kEOC = upd_act (flip c2 t) f /\ forall a, p_lines (f a) = p_lines a /\ p_cur (f a) = p_cur a /\ p_style (f a) = p_style a).
  { eexists. split; [reflexivity|]. intros a. repeat split. }
  destruct Epc as (f & Epc & Hf). rewrite Epc.
  change (control dev0 s kEOC) with (set_md (set_nond (set_disp s (nond s)) (disp s)) PopOn).
  destruct (flip_proj c2 t) as ((b & F1 & F2 & F3 & F4) & F5 & F6 & F7 & F8 & F9 & F10 & F11).
  assert (HX : c_act (upd_act (flip c2 t) f) = Some (f b) /\ c_buf (upd_act (flip c2 t) f) = c_buf (flip c2 t) /\
               c_err (upd_act (flip c2 t) f) = c_err (flip c2 t) /\ c_style (upd_act (flip c2 t) f) = c_style (flip c2 t) /\
               c_color (upd_act (flip c2 t) f) = c_color (flip c2 t) /\ c_italic (upd_act (flip c2 t) f) = c_italic (flip c2 t) /\
               c_under (upd_act (flip c2 t) f) = c_under (flip c2 t) /\ c_chan (upd_act (flip c2 t) f) = c_chan (flip c2 t)).
  { unfold upd_act. rewrite F1. repeat split. }
  destruct HX as (X1 & X2 & X3 & X4 & X5 & X6 & X7 & X8).
  split; [split; [|discriminate]|rewrite X8, F11; repeat split; assumption]. split.
  - rewrite X3, F6. exact A.
  - rewrite X4, F7. exact B.
  - reflexivity.
  - unfold pen_of. rewrite X5, X6, X7, F8, F9, F10. exact D.
  - destruct E as [E1 E2]. split; assumption.
  - rewrite X2, F5. cbn [nond set_md set_nond g_un]. change (c_act c2) with (c_act c).
    destruct (c_act c) as [a|] eqn:Ea.
    + apply (para_mem_meta a); try reflexivity. exact G.
    + apply para_mem_new. exact G.
  - rewrite X1. cbn [disp set_md set_nond set_disp g_ud].
    destruct (Hf b) as (G1 & G2 & G3).
    apply (para_mem_meta (c_buf c)); [exact F|rewrite G1, F2; reflexivity|rewrite G2, F3; reflexivity|rewrite G3, F4; reflexivity].
Qed.

Lemma pop_to x c s g k : Rcode x c s g -> kTO1 <= k <= kTO1 + 2 -> g_pos g = true -> ccol s + (k - kTO1 + 1) <= 31 ->
  Rcode x (process_control c k) (control dev0 s k) g.
Proof.
  intros ([Hb Hp] & H1 & H2 & H3) Hk Hg Hlen. pose proof Hb as [A B C D E F G].
  destruct (Hp Hg) as (Hrow & Hcol & l & ts & t & Hat & (He1 & He2 & He5)).
  rewrite (process_control_to c k Hk), (control_to s k Hk). unfold cap_to_process, upd_cap. rewrite B. change (sPopOn =? sPopOn) with true. cbv iota.
  set (n := k - kTO1 + 1) in *.
  assert (Hn : 0 < n) by (unfold n, kTO1 in *; lia). replace (Z.min 31 (ccol s + n)) with (ccol s + n) by lia.
  destruct (para_tab (c_buf c) (nond s) (g_un g) (crow s) (ccol s) l ts t n (pen_of c) F Hat Hrow Hn Hlen He1 He2 He5)
    as (T1 & _ & l2 & ts2 & t2 & T2 & T3 & T4 & T5).
  split; [split|repeat split; assumption].
  - split; try assumption.
  - intros _. split; [exact Hrow|]. split; [cbn [ccol set_pos]; lia|].
    exists l2, ts2, t2. split; [exact T2|]. split; [exact T3|split; [exact T4|exact T5]].
Qed.

(* Delete to End of Row: nothing is displayed to the right of the cursor *)
Lemma process_control_der c :
  process_control c kDER = match cap_to_process c with None => c | Some _ => upd_cap c (fun p => upd_cur_line p line_delete_to_end) end.
Proof. reflexivity. Qed.
Lemma control_der s :
  control dev0 s kDER = set_cur_mem s (row_set (cur_mem s) (crow s) (blank_from (Z.to_nat (ccol s)) (row_get (cur_mem s) (crow s)))).
Proof. reflexivity. Qed.
Lemma pop_der x c s g : Rcode x c s g -> g_pos g = true -> Rcode x (process_control c kDER) (control dev0 s kDER) g.
Proof.
  intros ([Hb Hp] & H1 & H2 & H3) Hg. pose proof Hb as [A B C D E F G]. pose proof (Hp Hg) as (Hrow & Hcol & l & ts & t & Hat & Helt).
  destruct (para_der _ _ _ _ _ _ _ _ F Hat Hrow (proj2 E) (proj1 Hcol)) as (Q1 & Q2 & Q3).
  rewrite process_control_der, (cap_pop c B), (upd_cap_pop c _ B), Q1, control_der. unfold set_cur_mem, cur_mem. rewrite C.
  replace (with_buf c (c_buf c)) with c by (destruct c; reflexivity).
  split; [split|repeat split; assumption].
  - split; try assumption. split; [exact (proj1 E)|exact Q2].
  - intros _. exact (Hp Hg).
Qed.

(* extended characters: backspace, then the character *)
Lemma all_spaces_removelast t tx : all_spaces t -> Forall (fun ch => ch = 32) tx -> tx = removelast (t_text t) -> True.
Proof. trivial. Qed.
Lemma Forall_removelast {A} (P : A -> Prop) l : Forall P l -> Forall P (removelast l).
Proof. induction 1 as [|x l Hx Hl IH]; cbn; [constructor|]. destruct l; [constructor|]. constructor; assumption. Qed.
(* backspace over a character that shows: the element under the cursor keeps its style, or is the empty initial one *)
Lemma para_back_elt {st} p m u r col l ts t pen : @para_mem st p m u -> para_at p r col l ts t -> in_rows r -> mem_wf m -> 1 <= col <= 31 ->
  is_blank (mcell m r (col - 1)) = false -> elt_ok pen l t col ->
  @para_mem st (para_backspace p) (cell_set m r (col - 1) blank) u /\
  (forall r0, r0 <> r -> dget r0 (p_lines (para_backspace p)) = dget r0 (p_lines p)) /\
  exists l2 ts2 t2, para_at (para_backspace p) r (col - 1) l2 ts2 t2 /\ ((t_sty t2 = ts0 /\ all_spaces t2) \/ sview (t_sty t2) = pen).
Proof.
  intros Hpm Hat Hrow Hwf Hcol Hnb (He1 & He2 & He5).
  destruct (para_at_row _ _ _ _ _ _ _ _ Hpm Hat Hrow) as (_ & _ & _ & Hold).
  assert (Hne : t_text t <> []).
  { intros H0. assert (Hcc : in_cols (col - 1)) by (unfold in_cols; lia).
    pose proof (Hold (col - 1) Hcc) as Hq. destruct (He5 H0) as [H5|H5].
    - rewrite lcell_empty in Hq by exact H5. pose proof (ceqv_blank_l _ _ Hq eq_refl). congruence.
    - pose proof (ceqv_blank_l _ _ Hq H5). congruence. }
  destruct (para_back p m u r col l ts t Hpm Hat Hrow Hne Hwf ltac:(lia)) as (Q1 & Qrows & l2 & ts2 & t2 & Q2 & Q3).
  split; [exact Q1|]. split; [exact Qrows|]. exists l2, ts2, t2. split; [exact Q2|].
  destruct Q3 as [[S1 S2]|[S1 S2]].
  - left. split; [exact S1|]. unfold all_spaces. rewrite S2. constructor.
  - destruct He2 as [[H1 H2]|H2].
    + left. split; [congruence|]. unfold all_spaces in *. rewrite S2. now apply Forall_removelast.
    + right. congruence.
Qed.
Lemma core_back c s g : Rbase c s g -> Rposn c s -> 1 <= ccol s -> is_blank (mcell (nond s) (crow s) (ccol s - 1)) = false ->
  Rbase (backspace c) (back s) g /\ Rposn_w (backspace c) (back s) /\ c_chan (backspace c) = c_chan c /\
  last (back s) = last s /\ chan (back s) = chan s /\ ccol (back s) = ccol s - 1.
Proof.
  intros Hb (Hrow & Hcol & l & ts & t & Hat & Helt) Hc1 Hnb.
  pose proof Hb as [A B C D E F G].
  rewrite (backspace_is c _ (cap_pop c B)), (upd_cap_pop c _ B), (back_pop s C) by lia.
  destruct (para_back_elt _ _ _ _ _ _ _ _ (pen_of c) F Hat Hrow (proj2 E) ltac:(lia) Hnb Helt) as (Q1 & _ & l2 & ts2 & t2 & Q2 & Q3).
  split; [|split; [|repeat split]].
  - split; try assumption.
    + destruct E as [E1 E2]. split; [exact E1|]. cbn [nond set_pos set_nond]. now apply mem_wf_cell_set.
  - split; [exact Hrow|]. split; [cbn [ccol set_pos]; lia|]. exists l2, ts2, t2. split; [exact Q2|exact Q3].
Qed.
Lemma pop_extended x c s g ch : Rcode x c s g -> g_pos g = true -> 1 <= ccol s ->
  is_blank (mcell (nond s) (crow s) (ccol s - 1)) = false -> Rcode x (process_text (backspace c) [ch]) (put (back s) ch) g.
Proof.
  intros ([Hb Hp] & H1 & H2 & H3) Hg Hc1 Hnb. pose proof (Hp Hg) as Hp1.
  destruct (core_back c s g Hb Hp1 Hc1 Hnb) as (B1 & B2 & B3 & B4 & B5 & B6).
  apply (code_write x _ _ g ch B1 B2); [rewrite B3; exact H1|rewrite B4; exact H2|rewrite B5; exact H3|].
  rewrite B6. destruct Hp1 as (_ & Hcol & _). lia.
Qed.

Lemma step_pop c s g w g' : Rpop c s g -> pop_word s g w = Some g' -> Rpop (step c w) (feed dev0 s w) g'.
Proof.
  intros HR Hw. unfold pop_word in Hw.
  destruct (value w =? 0) eqn:Ev.
  { injection Hw as <-. apply step_pop_pad; [exact HR|lia]. }
  destruct (byte1 w <? 32) eqn:Eb.
  2:{ pose proof (byte1_range w). destruct (chan s =? 1) eqn:Ech.
      - destruct (g_pos g && (ccol s + zlen (to_text w) <=? 31)) eqn:E1; [|discriminate]. injection Hw as <-.
        apply andb_true_iff in E1 as [E1 E2]. apply step_pop_chars; try assumption; lia.
      - injection Hw as <-. apply step_pop_chars_other; try assumption; lia. }
  cbv zeta in Hw.
  destruct (d_chan (decode w) =? 2) eqn:Ec2.
  { injection Hw as <-. apply step_pop_other; try assumption; lia. }
  destruct (d_chan (decode w) =? 1) eqn:Ec1; [|discriminate]. cbn [negb] in Hw.
  assert (Hc : d_chan (decode w) = 1) by lia.
  destruct (is_second_copy s w) eqn:Ed.
  { injection Hw as <-. now apply step_pop_dup. }
  (* a channel-1 code that is acted upon: by class *)
  destruct HR as [[Hb Hp] HL].
  rewrite (step_code c w (r_err _ _ _ Hb) (not_dup_code c s w HL Hc Ed) Hc), (feed_act s w Hc Ed). cbv zeta. fold (code_ctx c). unfold act.
  pose proof (Rcode_enter c s g (value w) (conj Hb Hp)) as HC.
  set (d := decode w) in *. set (c1 := code_ctx c) in *. set (s0 := set_chan (set_last s (Some (value w))) 1) in *.
  change (ccol s) with (ccol s0) in Hw. change (crow s) with (crow s0) in Hw. change (nond s) with (nond s0) in Hw.
  destruct (Z.eqb_spec (d_cls d) cPac) as [Hcls|_].
  { rewrite Hcls. destruct (_ && _) eqn:E1 in Hw; [|discriminate]. injection Hw as <-.
    apply andb_true_iff in E1 as [E1 E4]. apply andb_true_iff in E1 as [E1 E3]. apply andb_true_iff in E1 as [E1 E2].
    apply (Rcode_leave _ w _ _ cPac Hc), pop_pac; [exact HC|unfold in_rows; lia|lia|].
    apply inb_false. now apply negb_true_iff in E4. }
  destruct (Z.eqb_spec (d_cls d) cMidRow) as [Hcls|_].
  { rewrite Hcls. destruct (_ && _) eqn:E1 in Hw; [|discriminate]. injection Hw as <-.
    apply andb_true_iff in E1 as [E1 E4]. apply andb_true_iff in E1 as [E1 E2].
    apply (Rcode_leave _ w _ _ cMidRow Hc), pop_midrow; [exact HC|exact E1|lia|exact E4]. }
  destruct (Z.eqb_spec (d_cls d) cControl) as [Hcls|_].
  { rewrite Hcls. apply (Rcode_leave _ w _ _ cControl Hc). cbn [Z.eqb Pos.eqb cControl cPac cMidRow]. set (k := d_code d) in *.
    destruct (Z.eqb_spec k kRCL) as [Hk|K1]. { injection Hw as <-. rewrite Hk. now apply pop_rcl. }
    destruct (Z.eqb_spec k kENM) as [Hk|K2]. { injection Hw as <-. rewrite Hk. now apply pop_enm. }
    destruct (Z.eqb_spec k kEDM) as [Hk|K3]. { injection Hw as <-. rewrite Hk. now apply pop_edm. }
    destruct (Z.eqb_spec k kEOC) as [Hk|K4]. { injection Hw as <-. rewrite Hk. now apply pop_eoc. }
    destruct ((kTO1 <=? k) && (k <=? kTO1 + 2)) eqn:K5.
    { destruct (g_pos g && (ccol s0 + (k - kTO1 + 1) <=? 31)) eqn:E1; [|discriminate]. injection Hw as <-.
      apply andb_true_iff in E1 as [E1 E2]. apply pop_to; [exact HC|lia|exact E1|lia]. }
    destruct (Z.eqb_spec k kDER) as [Hk|K6].
    { destruct (g_pos g) eqn:E1; [|discriminate]. injection Hw as <-. rewrite Hk. now apply pop_der. }
    destruct ((k =? kBS) || (k =? kCR) || (k =? kRDC) || ((kRU2 <=? k) && (k <=? kRU4))) eqn:K7; [discriminate|].
    injection Hw as <-. apply pop_ignored; [exact HC|]. unfold ignored_code. rewrite K5.
    apply orb_false_iff in K7 as [K7 K10]. apply orb_false_iff in K7 as [K7 K9]. apply orb_false_iff in K7 as [K7 K8].
    rewrite K7, K8, K9, K10. apply Z.eqb_neq in K1, K2, K3, K4, K6. rewrite K1, K2, K3, K4, K6. reflexivity. }
  destruct (Z.eqb_spec (d_cls d) cSpecial) as [Hcls|_].
  { rewrite Hcls. destruct (g_pos g && (ccol s0 + 1 <=? 31)) eqn:E1; [|discriminate]. injection Hw as <-.
    apply andb_true_iff in E1 as [E1 E2]. apply (Rcode_leave _ w _ _ cSpecial Hc), pop_special; [exact HC|exact E1|lia]. }
  destruct (Z.eqb_spec (d_cls d) cExtended) as [Hcls|_]; [|discriminate].
  rewrite Hcls. destruct (_ && _) eqn:E1 in Hw; [|discriminate]. injection Hw as <-.
  apply andb_true_iff in E1 as [E1 E3]. apply andb_true_iff in E1 as [E1 E2].
  apply (Rcode_leave _ w _ _ cExtended Hc), pop_extended; [exact HC|exact E1|lia|now apply negb_true_iff in E3].
Qed.

Lemma steps_pop ws : forall c s g s' g', Rpop c s g -> pop_words s g ws = Some (s', g') ->
  Rpop (fold_left step ws c) s' g' /\ s' = fold_left (feed dev0) ws s.
Proof.
  induction ws as [|w ws IH]; intros c s g s' g' HR Hw; cbn [pop_words fold_left] in *.
  - injection Hw as <- <-. split; [exact HR|reflexivity].
  - destruct (pop_word s g w) as [g1|] eqn:E; [|discriminate]. apply (IH _ _ _ _ _ (step_pop c s g w g1 HR E) Hw).
Qed.
(* a file: lines of (time code, words); the reader starts every line at its time code *)
Definition run_words (c : ctx) (ls : list (tcv * list Z)) : ctx := fold_left (fun c l => fold_left step (snd l) (with_tc c (fst l))) ls c.
Fixpoint pop_lines (s : scr) (g : gst) (ls : list (tcv * list Z)) : option (scr * gst) :=
  match ls with
  | [] => Some (s, g)
  | l :: ls' => match pop_words s g (snd l) with Some (s1, g1) => pop_lines s1 g1 ls' | None => None end
  end.
Lemma lines_pop ls : forall c s g s' g', Rpop c s g -> pop_lines s g ls = Some (s', g') ->
  Rpop (run_words c ls) s' g' /\ s' = fold_left (fun s l => fold_left (feed dev0) (snd l) s) ls s.
Proof.
  induction ls as [|l ls IH]; intros c s g s' g' HR Hl; cbn [pop_lines run_words fold_left] in *.
  - injection Hl as <- <-. split; [exact HR|reflexivity].
  - destruct (pop_words s g (snd l)) as [[s1 g1]|] eqn:E; [|discriminate].
    destruct (steps_pop (snd l) (with_tc c (fst l)) s g s1 g1 (Rpop_with_tc c s g (fst l) HR) E) as [H1 H2].
    subst s1. apply (IH _ _ _ _ _ H1 Hl).
Qed.

(* the statement about the memories: after any stream of the class, from the start of the file, the reader's two
   captions show, cell by cell, what the decoder's two memories hold *)
Definition shows (p : para) (m : mem) : Prop := forall r k, in_rows r -> in_cols k -> ceqv (mcell m r k) (pcell p r k).
Theorem popon_memories ta ls s' g' : pop_lines scr0 g0 ls = Some (s', g') ->
  let c := run_words (ctx_init ta) ls in
  s' = fold_left (fun s l => fold_left (feed dev0) (snd l) s) ls scr0 /\
  c_err c = false /\ shows (c_buf c) (nond s') /\
  match c_act c with Some a => shows a (disp s') | None => forall r k, is_blank (mcell (disp s') r k) = true end.
Proof.
  intros Hl. cbv zeta. destruct (lines_pop ls (ctx_init ta) scr0 g0 s' g' (Rpop_init ta) Hl) as [[[Hb _] _] Hs].
  split; [exact Hs|]. destruct Hb as [A B C D E F G]. split; [exact A|]. split; [exact (pm_cells _ _ _ F)|].
  destruct (c_act _); [exact (pm_cells _ _ _ G)|exact G].
Qed.
