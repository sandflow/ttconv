(* C08, display simulation, part 4: how the word decoder classifies a word, and the equations of the reference decoder's
   `feed` for each class (those of SccLine.process are in Words.v). *)
From Coq Require Import QArith.
From TT Require Import Base.Prelude Base.SccTypes Base.SccDoc Gen.SccTables Model.SccWord Model.TimeCode Model.SccReader Spec.Cea608Screen.
From TT Require Import Proofs.C08.Stamps Proofs.C08.Words.
Open Scope Z_scope.

Lemma byte1_range w : 0 <= byte1 w < 128.
Proof. unfold byte1. change parity_mask with (Z.ones 7). rewrite Z.land_ones by lia. apply Z.mod_pos_bound. reflexivity. Qed.
Lemma value_mod w : value w mod 256 = byte2 w.
Proof. unfold value. pose proof (byte2_range w). rewrite Z.add_comm, Z.mod_add by lia. apply Z.mod_small. lia. Qed.
Lemma decode_value w w' : value w = value w' -> decode w = decode w'.
Proof.
  intros H. assert (H1 : byte1 w = byte1 w') by (rewrite <- !value_div; now rewrite H).
  assert (H2 : byte2 w = byte2 w') by (rewrite <- !value_mod; now rewrite H).
  unfold decode. rewrite H, H1, H2. reflexivity.
Qed.
Lemma find_pac_cls b1 b2 d : find_pac b1 b2 = Some d -> d_cls d = cPac.
Proof.
  unfold find_pac. destruct (pac_row b1 b2); [|discriminate]. destruct (_ && _); [|discriminate].
  destruct (assoc pac_desc _) as [[[[col ind] it] un]|]; [|discriminate]. intros H; inversion H; reflexivity.
Qed.
Lemma decode_pad w : value w = 0 -> d_cls (decode w) = cPad.
Proof.
  intros H. assert (H1 : byte1 w = 0) by (rewrite <- value_div, H; reflexivity).
  unfold decode. rewrite H, H1. reflexivity.
Qed.
Lemma decode_code_cls w : value w <> 0 -> byte1 w < 32 -> d_cls (decode w) <> cPad /\ d_cls (decode w) <> cChars.
Proof.
  intros Hv Hb. unfold decode. destruct (is_code (byte1 w)).
  - destruct (find_control _ _) as [[id [[[a b] c'] d']]|]; [cbn; split; discriminate|].
    destruct (find2 attribute_codes _) as [[[a b] [[col bg] un]]|]; [cbn; split; discriminate|].
    destruct (find2 mid_row_codes _) as [[[a b] [[col it] un]]|]; [cbn; split; discriminate|].
    destruct (find_pac _ _) as [d|] eqn:E; [rewrite (find_pac_cls _ _ _ E); split; discriminate|].
    destruct (find2 special_chars _) as [[[a b] u]|]; [cbn; split; discriminate|].
    destruct (find2 extended_chars _) as [[[a b] u]|]; cbn; split; discriminate.
  - destruct (value w =? 0) eqn:E; [lia|]. destruct (byte1 w <? 32) eqn:E2; [cbn; split; discriminate|lia].
Qed.
Lemma decode_chars w : 32 <= byte1 w ->
  decode w = mkDec cChars 0 (-1) (-1) (-1) (-1) false false false (char_of (byte1 w)) (char_of (byte2 w)).
Proof.
  intros H. unfold decode. replace (is_code (byte1 w)) with false by (unfold is_code; lia).
  assert (value w <> 0) by (unfold value; pose proof (byte2_range w); lia).
  destruct (value w =? 0) eqn:E; [lia|]. destruct (byte1 w <? 32) eqn:E2; [lia|reflexivity].
Qed.
Lemma char_of_first w : 32 <= byte1 w -> char_of (byte1 w) <> -1.
Proof.
  intros H. unfold char_of. destruct (byte1 w =? 0) eqn:E; [lia|].
  pose proof (byte1_range w). destruct (assoc std_chars (byte1 w)) eqn:E2; [|lia].
  (* every entry of the table maps to a code point *)
  assert (G : forall (l : list (Z * Z)) k v, assoc l k = Some v -> In (k, v) l).
  { induction l as [|[x r] l IH]; cbn; [discriminate|]. intros k v. destruct (k =? x) eqn:Ex; [intros Hh; inversion Hh; left; f_equal; lia|right; auto]. }
  apply G in E2. assert (F : forallb (fun kv => negb (snd kv =? -1)) std_chars = true) by reflexivity.
  rewrite forallb_forall in F. specialize (F _ E2). cbn in F. lia.
Qed.
Lemma to_text_chars w : 32 <= byte1 w ->
  to_text w = d_t1 (decode w) :: (if d_t2 (decode w) =? -1 then [] else [d_t2 (decode w)]).
Proof.
  intros H. rewrite (decode_chars w H). cbn [d_t1 d_t2]. unfold to_text. cbn [filter].
  pose proof (char_of_first w H). destruct (char_of (byte1 w) =? -1) eqn:E; [lia|]. cbn [negb].
  destruct (char_of (byte2 w) =? -1); reflexivity.
Qed.

(* the context on which SccLine.process acts upon a channel-1 code *)
Definition code_ctx (c : ctx) : ctx := with_chan (with_tc c (tc_next (c_tc c))) 1.

Lemma feed_pad v s w : value w = 0 -> feed v s w = set_last s None.
Proof. intros H. unfold feed. rewrite (decode_pad w H). reflexivity. Qed.
Lemma feed_chars v s w : 32 <= byte1 w ->
  feed v s w = let s0 := set_last s None in
               if chan s0 =? 1 then let s1 := put (set_pmid s0 false) (d_t1 (decode w)) in
                                    if d_t2 (decode w) =? -1 then s1 else put s1 (d_t2 (decode w))
               else s0.
Proof. intros H. unfold feed. rewrite (decode_chars w H). reflexivity. Qed.
Lemma feed_code_cls v s w : value w <> 0 -> byte1 w < 32 ->
  feed v s w = let d := decode w in let x := value w in
    if negb (d_chan d =? 1) then
      let s := set_last s (if is_second_copy s w then None else Some x) in
      if d_chan d =? 2 then set_chan s 2 else s
    else if is_second_copy s w then set_last s None
    else act v (set_chan (set_last s (Some x)) 1) d.
Proof.
  intros Hv Hb. destruct (decode_code_cls w Hv Hb) as [H1 H2]. unfold feed.
  replace (d_cls (decode w) =? cPad) with false by (symmetry; apply Z.eqb_neq; exact H1).
  replace (d_cls (decode w) =? cChars) with false by (symmetry; apply Z.eqb_neq; exact H2). reflexivity.
Qed.
Lemma control_to s k : kTO1 <= k <= kTO1 + 2 -> control dev0 s k = set_pos s (crow s) (Z.min 31 (ccol s + (k - kTO1 + 1))).
Proof. intros Hk. assert (E : k = 16 \/ k = 17 \/ k = 18) by (unfold kTO1 in Hk; lia). destruct E as [->|[->| ->]]; reflexivity. Qed.
