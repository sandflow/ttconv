(* C08, display simulation, part 8: the regions paragraphs are attached to (pop-on style: one region per origin); a caption
   written to the document (to_paragraph) and read back by S's comparison function shows what the decoder's memory held
   when it was written. *)
From Coq Require Import QArith.
From TT Require Import Base.Prelude Base.SccTypes Base.SccDoc Gen.SccTables Model.SccWord Model.TimeCode Model.SccReader Spec.Cea608Screen.
From TT Require Import Proofs.C08.Text Proofs.C08.ScreenMem Proofs.C08.ScreenLine Proofs.C08.ScreenPara Proofs.C08.ScreenDoc.
Open Scope Z_scope.

(* region numbers are 1, 2, 3, ... in document order; every region is top-aligned (no roll-up region) *)
Fixpoint nums_from (k : Z) (rs : list region) : Prop := match rs with [] => True | r :: rs' => r_num r = k /\ nums_from (k + 1) rs' end.
Definition regs_ok (rs : list region) : Prop := nums_from 1 rs /\ Forall (fun r => r_after r = false) rs.
Definition rid (r : region) : Z * Z := (r_kind r, r_num r).
Definition id_is (id : Z * Z) (r : region) : bool := (r_kind r =? fst id) && (r_num r =? snd id).
Lemma find_reg_eq rs id : find_reg rs id = match rs with [] => None | r :: rs' => if id_is id r then Some r else find_reg rs' id end.
Proof. destruct rs; reflexivity. Qed.
Lemma nums_from_ge k rs r : nums_from k rs -> In r rs -> k <= r_num r.
Proof. revert k. induction rs as [|x rs IH]; cbn; intros k H Hin; [contradiction|]. destruct H as [H1 H2]. destruct Hin as [<-|Hin]; [lia|]. specialize (IH _ H2 Hin). lia. Qed.
Lemma nums_from_app k rs r : nums_from k rs -> r_num r = k + zlen rs -> nums_from k (rs ++ [r]).
Proof.
  revert k. induction rs as [|x rs IH]; cbn; intros k H Hr.
  - unfold zlen in Hr. cbn in Hr. split; [lia|exact I].
  - destruct H as [H1 H2]. split; [exact H1|]. apply IH; [exact H2|]. unfold zlen in *. cbn [length] in Hr. lia.
Qed.
Lemma find_reg_in k rs r : nums_from k rs -> In r rs -> find_reg rs (rid r) = Some r.
Proof.
  revert k. induction rs as [|x rs IH]; intros k H Hin; [contradiction|]. rewrite find_reg_eq. destruct H as [H1 H2].
  destruct Hin as [->|Hin].
  - unfold id_is, rid. cbn [fst snd]. now rewrite !Z.eqb_refl.
  - pose proof (nums_from_ge _ _ _ H2 Hin). unfold id_is, rid. cbn [fst snd]. replace (r_num x =? r_num r) with false by lia.
    rewrite andb_false_r. now apply (IH (k + 1)).
Qed.
(* a number beyond those given out so far names no region *)
Lemma find_reg_fresh k rs id : nums_from k rs -> k + zlen rs <= snd id -> find_reg rs id = None.
Proof.
  revert k. induction rs as [|x rs IH]; intros k Hn Hid; [reflexivity|]. rewrite find_reg_eq. destruct Hn as [H1 H2].
  unfold zlen in *. cbn [length] in Hid. unfold id_is. replace (r_num x =? snd id) with false by lia. rewrite andb_false_r.
  apply (IH (k + 1)); [exact H2|lia].
Qed.
Lemma find_reg_replace r' rs id : find_reg (replace_region r' rs) id =
  match find_reg rs id with Some r => Some (if id_is id r' then r' else r) | None => None end.
Proof.
  unfold id_is. induction rs as [|x rs IH]; [reflexivity|]. cbn [replace_region].
  destruct ((r_kind x =? r_kind r') && (r_num x =? r_num r')) eqn:E; cbn [find_reg].
  - destruct ((r_kind x =? fst id) && (r_num x =? snd id)) eqn:E2.
    + replace ((r_kind r' =? fst id) && (r_num r' =? snd id)) with true by lia. reflexivity.
    + replace ((r_kind r' =? fst id) && (r_num r' =? snd id)) with false by lia. destruct (find_reg rs id); reflexivity.
  - destruct ((r_kind x =? fst id) && (r_num x =? snd id)) eqn:E2; [|exact IH].
    apply andb_true_iff in E2 as [E3 E4]. apply andb_false_iff in E.
    destruct (r_kind r' =? fst id) eqn:A1; destruct (r_num r' =? snd id) eqn:A2; cbn [andb]; try reflexivity.
    exfalso. destruct E as [E|E]; lia.
Qed.
Lemma find_reg_app rs r id : find_reg (rs ++ [r]) id = match find_reg rs id with Some x => Some x | None => if id_is id r then Some r else None end.
Proof. induction rs as [|x rs IH]; [reflexivity|]. cbn [app]. rewrite !(find_reg_eq (x :: _)). destruct (id_is id x); [reflexivity|exact IH]. Qed.
Lemma nums_from_replace k r' rs : nums_from k rs -> nums_from k (replace_region r' rs).
Proof.
  revert k. induction rs as [|x rs IH]; cbn; intros k H; [exact I|]. destruct H as [H1 H2].
  destruct ((r_kind x =? r_kind r') && (r_num x =? r_num r')) eqn:E; cbn; [split; [lia|exact H2]|split; [exact H1|now apply IH]].
Qed.
Lemma Forall_replace (P : region -> Prop) r' rs : P r' -> Forall P rs -> Forall P (replace_region r' rs).
Proof. intros Hr. induction 1 as [|x rs Hx H IH]; cbn; [constructor|]. destruct (_ && _); constructor; assumption. Qed.

(* what a rendering reads of a region *)
Definition reg_same (r r' : region) : Prop := r_oy r' = r_oy r /\ r_after r' = r_after r /\ r_eh r' = r_eh r.
Definition regs_ext (rs rs' : list region) : Prop := forall id r, find_reg rs id = Some r -> exists r', find_reg rs' id = Some r' /\ reg_same r r'.
Lemma regs_ext_refl rs : regs_ext rs rs.
Proof. intros id r H. exists r. split; [exact H|repeat split]. Qed.
Lemma regs_ext_trans a b c : regs_ext a b -> regs_ext b c -> regs_ext a c.
Proof.
  intros H1 H2 id r H. destruct (H1 id r H) as (r' & E1 & S1 & S2 & S3). destruct (H2 id r' E1) as (r'' & E2 & T1 & T2 & T3).
  exists r''. split; [exact E2|]. repeat split; congruence.
Qed.
Lemma find_region_spec p rs r : find_region p rs = Some r -> In r rs /\ has_same_origin p r = true /\ r_kind r = p_style p.
Proof.
  induction rs as [|x rs IH]; cbn; [discriminate|]. destruct (has_same_origin p x && (r_kind x =? p_style p)) eqn:E.
  - intros H; inversion H; subst. apply andb_true_iff in E as [E1 E2]. split; [now left|]. split; [exact E1|lia].
  - intros H. destruct (IH H) as (A & B & C). split; [now right|]. split; assumption.
Qed.
Lemma extend_region_same p r : reg_same r (extend_region p r) /\ rid (extend_region p r) = rid r.
Proof. unfold extend_region. destruct (_ <? _); repeat split. Qed.
Lemma id_is_rid id r : id_is id r = true -> id = rid r.
Proof. unfold id_is, rid. destruct id as [a b]. cbn [fst snd]. intros H. f_equal; lia. Qed.
(* attaching a paragraph keeps what earlier paragraphs read of their regions *)
Lemma get_region_ext k p rs : nums_from k rs -> regs_ext rs (fst (get_region p rs)).
Proof.
  intros Hn. unfold get_region. destruct (find_region p rs) as [r0|] eqn:E; cbn [fst].
  - intros id r H. rewrite find_reg_replace, H. destruct (extend_region_same p r0) as [S Eid].
    destruct (id_is id (extend_region p r0)) eqn:E2.
    + eexists. split; [reflexivity|].
      destruct (find_region_spec p rs r0 E) as (Hin & _).
      apply id_is_rid in E2. rewrite Eid in E2. subst id. rewrite (find_reg_in k rs r0 Hn Hin) in H. injection H as <-. exact S.
    + exists r. split; [reflexivity|repeat split].
  - intros id r H. rewrite find_reg_app, H. exists r. split; [reflexivity|repeat split].
Qed.
Lemma get_region_ok p rs : regs_ok rs -> p_style p = sPopOn -> regs_ok (fst (get_region p rs)).
Proof.
  intros [Hn Ha] Hs. unfold get_region. destruct (find_region p rs) as [r0|] eqn:E; cbn [fst].
  - destruct (find_region_spec p rs r0 E) as (Hin & _). split; [now apply nums_from_replace|].
    apply Forall_replace; [|exact Ha]. rewrite Forall_forall in Ha. specialize (Ha r0 Hin).
    destruct (extend_region_same p r0) as [(_ & S2 & _) _]. congruence.
  - split.
    + apply nums_from_app; [exact Hn|]. unfold create_region. destruct (para_origin p). cbn [r_num]. lia.
    + apply Forall_app. split; [exact Ha|]. constructor; [|constructor]. unfold create_region. destruct (para_origin p). cbn [r_after].
      rewrite Hs. reflexivity.
Qed.
(* the region a pop-on paragraph is attached to: top-aligned, at the paragraph's own origin row *)
Lemma get_region_found p rs : regs_ok rs -> p_style p = sPopOn ->
  exists r, find_reg (fst (get_region p rs)) (snd (get_region p rs)) = Some r /\ r_after r = false /\ r_oy r = pct_y (snd (para_origin p)).
Proof.
  intros [Hn Ha] Hs. unfold get_region. destruct (find_region p rs) as [r0|] eqn:E; cbn [fst snd].
  - destruct (find_region_spec p rs r0 E) as (Hin & Ho & Hk).
    destruct (extend_region_same p r0) as [(S1 & S2 & S3) Eid].
    exists (extend_region p r0). rewrite find_reg_replace. change (r_kind r0, r_num r0) with (rid r0).
    rewrite (find_reg_in 1 rs r0 Hn Hin). rewrite <- Eid. unfold id_is, rid. cbn [fst snd]. rewrite !Z.eqb_refl. cbn [andb].
    split; [reflexivity|]. rewrite Forall_forall in Ha. split; [rewrite S2; now apply Ha|].
    rewrite S1. unfold has_same_origin in Ho. destruct (para_origin p) as [px py]. rewrite Hs in Ho.
    change ((sPopOn =? sRollUp) || (sPopOn =? sPaintOn)) with false in Ho. cbv iota in Ho. cbn [snd]. lia.
  - exists (create_region p (zlen rs + 1)). rewrite find_reg_app.
    assert (Enone : find_reg rs (r_kind (create_region p (zlen rs + 1)), r_num (create_region p (zlen rs + 1))) = None).
    { apply (find_reg_fresh 1 rs _ Hn). unfold create_region. destruct (para_origin p). cbn [snd r_num]. lia. }
    rewrite Enone. unfold id_is. cbn [fst snd]. rewrite !Z.eqb_refl. cbn [andb]. split; [reflexivity|].
    unfold create_region. destruct (para_origin p) as [px py]. rewrite Hs. cbn [r_after r_oy snd]. split; reflexivity.
Qed.
(* the origin row of a caption, read back from the percentage *)
Lemma row_of_pct_y r1 : 1 <= r1 <= 15 -> row_of_pct (pct_y (r1 + 1)) = r1.
Proof.
  intros H. assert (E : forallb (fun r => row_of_pct (pct_y (r + 1)) =? r) [1; 2; 3; 4; 5; 6; 7; 8; 9; 10; 11; 12; 13; 14; 15] = true) by (vm_compute; reflexivity).
  rewrite forallb_forall in E. assert (Hin : In r1 [1; 2; 3; 4; 5; 6; 7; 8; 9; 10; 11; 12; 13; 14; 15]) by (cbn; lia).
  specialize (E r1 Hin). lia.
Qed.
Lemma zmin_list_spec l : forall d, l <> [] -> In (zmin_list d l) l /\ forall x, In x l -> zmin_list d l <= x.
Proof.
  induction l as [|y l IH]; intros d Hne; [contradiction|]. cbn [zmin_list]. destruct l as [|z l].
  - cbn [zmin_list]. split; [left; lia|]. intros x [<-|[]]. lia.
  - destruct (IH y ltac:(discriminate)) as [H1 H2]. split.
    + destruct (Z.min_spec y (zmin_list y (z :: l))) as [[_ ->]|[_ ->]]; [now left|now right].
    + intros x [<-|Hx]; [lia|]. specialize (H2 x Hx). lia.
Qed.
Lemma para_origin_row {st} p m u r1 l1 d : @para_mem st p m u -> para_is_empty p = false -> ksort (p_lines p) = (r1, l1) :: d ->
  snd (para_origin p) = r1 + 1 /\ 1 <= r1 <= 15.
Proof.
  intros Hpm Hne Hs. unfold para_origin. rewrite Hne. cbn [snd]. unfold safe_y.
  assert (Hnp : ~ pristine p).
  { intros [P1 P2]. unfold para_is_empty, para_length in Hne. rewrite P1 in Hne. cbn in Hne. discriminate. }
  destruct (para_mem_sorted p m u Hpm Hnp) as (Hinc & _ & Hrows). rewrite Hs in Hinc. destruct Hinc as [_ Hd].
  destruct Hpm as [A B C D E F].
  assert (Hin1 : In r1 (map fst (p_lines p))) by (apply ksort_keys; rewrite Hs; now left).
  assert (Hkeys : forall k, In k (map fst (p_lines p)) -> 1 <= k <= 15 /\ r1 <= k).
  { intros k Hk. destruct (dget k (p_lines p)) eqn:E1; [|apply dget_none_keys in E1; contradiction].
    split; [exact (Hrows k c E1)|]. apply ksort_keys in Hk. rewrite Hs in Hk. destruct Hk as [<-|Hk]; [cbn; lia|].
    pose proof (kinc_keys_above r1 d Hd k Hk). lia. }
  assert (Emap : map (fun kv : Z * cline => l_row (snd kv) - 1) (p_lines p) = map (fun k => k - 1) (map fst (p_lines p))).
  { rewrite map_map. apply map_ext_in. intros [k l] Hkl. cbn [fst snd]. assert (Hg : dget k (p_lines p) = Some l) by (apply (dget_in _ _ _ D); exact Hkl).
    destruct (B k l Hg) as (Hr & _). now rewrite Hr. }
  rewrite Emap. set (ks := map fst (p_lines p)) in *.
  assert (Hne2 : map (fun k => k - 1) ks <> []) by (destruct ks; [contradiction|discriminate]).
  unfold min_of. destruct (map (fun k => k - 1) ks) as [|x xs] eqn:Ex; [contradiction|].
  destruct (zmin_list_spec (x :: xs) x ltac:(discriminate)) as [M1 M2].
  assert (M1' : In (zmin_list x (x :: xs)) (map (fun k => k - 1) ks)) by (rewrite Ex; exact M1).
  apply in_map_iff in M1' as (k0 & Ek0 & Hk0). destruct (Hkeys k0 Hk0) as [_ Hge].
  assert (Hle : zmin_list x (x :: xs) <= r1 - 1) by (apply M2; rewrite <- Ex; apply in_map_iff; exists r1; split; [reflexivity|exact Hin1]).
  split; [lia|]. now destruct (Hkeys r1 Hin1).
Qed.

Lemma para_empty_blank {st} p m u : @para_mem st p m u -> para_is_empty p = true -> forall r c, in_rows r -> in_cols c -> is_blank (mcell m r c) = true.
Proof.
  intros [A B C D E F] He r c Hr Hc. specialize (A r c Hr Hc). apply (ceqv_blank_l _ _ A). unfold pcell.
  destruct (dget r (p_lines p)) as [l|] eqn:El; [|reflexivity]. rewrite lcell_empty; [reflexivity|].
  (* every line of an empty caption is empty *)
  unfold para_is_empty, para_length in He. apply (proj1 (dget_in _ _ _ D)) in El.
  assert (G : forall d : list (Z * cline), (forall kv, In kv d -> 0 <= line_length (snd kv)) -> fold_right (fun kv a => line_length (snd kv) + a) 0 d = 0 ->
              forall kv, In kv d -> line_length (snd kv) = 0).
  { induction d as [|x d IH]; intros Hnn H0 kv Hin; [contradiction|]. cbn [fold_right] in H0.
    assert (0 <= fold_right (fun kv a => line_length (snd kv) + a) 0 d).
    { clear -Hnn. induction d as [|y d IH]; cbn; [lia|]. assert (0 <= line_length (snd y)) by (apply Hnn; right; now left).
      assert (0 <= fold_right (fun kv a => line_length (snd kv) + a) 0 d) by (apply IH; intros kv H1; apply Hnn; destruct H1 as [->|H1]; [now left|right; now right]). lia. }
    pose proof (Hnn x (or_introl eq_refl)). destruct Hin as [<-|Hin]; [lia|]. apply IH; [intros; apply Hnn; now right|lia|exact Hin]. }
  apply (G (p_lines p) (fun kv _ => line_length_nonneg (snd kv)) ltac:(lia) (r, l) El).
Qed.
Lemma rows_of_mem_blank m : mem_wf m -> (forall r c, in_rows r -> in_cols c -> is_blank (mcell m r c) = true) -> rows_of_mem m = [].
Proof.
  intros Hw H. rewrite (rows_of_mem_fun m Hw). apply rows_of_fun_blank. intros r Hr. apply (row_blank_trim m r Hw). intros c Hc. apply H; [unfold in_rows; lia|exact Hc].
Qed.
Lemma para_nobegin_all {st} p m u : @para_mem st p m u -> Forall (fun kv => nobegin (snd kv)) (ksort (p_lines p)).
Proof.
  intros [A B C D E F]. apply Forall_forall. intros [k l] Hin. apply (proj1 (ksort_in _ _)) in Hin. apply (proj2 (dget_in _ _ _ D)) in Hin.
  destruct (B k l Hin) as (_ & _ & _ & H). exact H.
Qed.
Lemma find_region_set_end a e rs : find_region (set_end a e) rs = find_region a rs.
Proof. induction rs as [|r rs IH]; cbn [find_region]; [reflexivity|]. rewrite IH. reflexivity. Qed.
Lemma get_region_set_end a e rs : get_region (set_end a e) rs = get_region a rs.
Proof. unfold get_region. rewrite find_region_set_end. reflexivity. Qed.
(* a caption written to the document, read back through any later state of the regions, shows the rows of the memory *)
Lemma pushed_rows a m u rs e t : @para_mem sPopOn a m u -> mem_wf m -> para_is_empty a = false -> regs_ok rs ->
  forall rs'', regs_ext (fst (to_paragraph (set_end a e) rs)) rs'' ->
  vrows_eqb (rows_of_mem m) (rows_of_p rs'' (finish_p (snd (to_paragraph (set_end a e) rs))) t) = true.
Proof.
  intros Hpm Hw Hne Hok rs'' Hext.
  assert (Hnp : ~ pristine a).
  { intros [P1 P2]. unfold para_is_empty, para_length in Hne. rewrite P1 in Hne. cbn in Hne. discriminate. }
  pose proof (para_rows_shows a m u Hpm Hw Hnp) as Hshow.
  unfold to_paragraph in *. 
  rewrite (get_region_set_end a e rs) in *.
  destruct (get_region_found a rs Hok (pm_style _ _ _ Hpm)) as (r & Hfind & Hafter & Hoy).
  destruct (get_region a rs) as [rs' id] eqn:Eg. cbn [fst snd] in *.
  destruct (Hext id r Hfind) as (r'' & Hfind'' & S1 & S2 & S3).
  unfold rows_of_p, finish_p. cbn [q_region q_begin q_children o_region o_paint o_begin o_children]. rewrite Hfind''.
  rewrite S2, Hafter, S1, Hoy.
  change (p_lines (set_end a e)) with (p_lines a).
  unfold para_rows in Hshow. destruct (ksort (p_lines a)) as [|[r1 l1] d] eqn:Es; [|].
  - (* a caption that is not empty has a line *)
    exfalso. unfold para_is_empty, para_length in Hne. assert (p_lines a = []).
    { destruct (p_lines a) as [|kv l]; [reflexivity|]. exfalso. assert (Hin : In kv (ksort (kv :: l))) by (apply ksort_in; now left). rewrite Es in Hin. contradiction. }
    rewrite H in Hne. cbn in Hne. discriminate.
  - destruct (para_origin_row a m u r1 l1 d Hpm Hne Es) as [Eo Hr1]. rewrite Eo, (row_of_pct_y r1 Hr1).
    destruct (para_mem_sorted a m u Hpm Hnp) as (Hinc & _). rewrite Es in Hinc. destruct Hinc as [_ Hinc].
    pose proof (para_nobegin_all a m u Hpm) as Hnb. rewrite Es in Hnb. inversion Hnb as [|? ? Hnb1 Hnbd]; subst. cbn [snd] in Hnb1.
    cbn [para_children app].
    match goal with |- context [map (finish_child ?pt ?pb) _] => set (paint := pt); set (pbq := pb) end.
    rewrite map_app. change (map (finish_child paint pbq) (line_spans l1)) with (qchildren paint pbq (line_spans l1)).
    rewrite lines_of_spans by exact Hnb1. cbn [app].
    change (map (finish_child paint pbq) (para_children d (Some r1))) with (qchildren paint pbq (para_children d (Some r1))).
    rewrite lines_of_children by assumption. exact Hshow.
Qed.
