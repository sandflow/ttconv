(* C08, display simulation, part 2: a caption of the reader (SccCaptionParagraph: rows of text elements with styles)
   seen as a function row -> column -> cell, and what the paragraph operations used by the pop-on protocol do to
   it while the cursor is at the end of the row being written. *)
From Coq Require Import QArith.
From TT Require Import Base.Prelude Base.SccTypes Base.SccDoc Gen.SccTables Model.SccWord Model.TimeCode Model.SccReader Spec.Cea608Screen.
From TT Require Import Proofs.C08.Text Proofs.C08.ScreenMem.
Open Scope Z_scope.

Definition vcol (st : tstyle) : Z := if ts_color st =? -1 then white else ts_color st.
Definition scell (st : tstyle) (ch : Z) : cell := mkCell ch (vcol st) (ts_italic st) (ts_under st).
Definition tcells (t : ctext) : list cell := map (scell (t_sty t)) (t_text t).
Definition lcells (l : cline) : list cell := flat_map tcells (l_texts l).
Definition lcell (l : cline) (c : Z) : cell :=
  if c <? l_indent l then blank else nth (Z.to_nat (c - l_indent l)) (lcells l) blank.
Definition pcell (p : para) (r c : Z) : cell := match dget r (p_lines p) with Some l => lcell l c | None => blank end.

Lemma tcells_length t : zlen (tcells t) = text_len t.
Proof. unfold tcells, text_len, zlen. now rewrite map_length. Qed.
Lemma flat_tcells_length ts : zlen (flat_map tcells ts) = sum_len ts.
Proof.
  induction ts as [|t ts IH]; cbn; [reflexivity|]. unfold zlen in *. rewrite app_length, Nat2Z.inj_add, IH.
  pose proof (tcells_length t) as H. unfold zlen in H. lia.
Qed.
Lemma lcells_length l : zlen (lcells l) = line_length l.
Proof. unfold lcells. rewrite line_length_sum. apply flat_tcells_length. Qed.
Lemma lcell_beyond l c : l_indent l + line_length l <= c -> lcell l c = blank.
Proof.
  intros H. unfold lcell. destruct (c <? l_indent l); [reflexivity|]. apply nth_overflow.
  pose proof (lcells_length l) as E. unfold zlen in E. pose proof (sum_len_nonneg (l_texts l)). rewrite line_length_sum in *. lia.
Qed.
Lemma lcell_empty l c : line_length l = 0 -> lcell l c = blank.
Proof.
  intros H. unfold lcell. destruct (c <? l_indent l); [reflexivity|].
  pose proof (lcells_length l) as E. rewrite H in E. unfold zlen in E. destruct (lcells l); [destruct (Z.to_nat _); reflexivity|cbn in E; lia].
Qed.
Lemma is_blank_scell st ch : is_blank (scell st ch) = (ch =? -1) || (ch =? 32).
Proof. reflexivity. Qed.

(* the cursor of a line is at its end: the current text is the last one (texts = ts ++ [t]) and all cursors are at the end *)
Definition line_at (l : cline) (ts : list ctext) (t : ctext) : Prop :=
  l_texts l = ts ++ [t] /\ l_cur l = length ts /\ t_cur t = text_len t /\ l_cursor l = line_length l.
Lemma line_at_at_end l ts t : line_at l ts t -> at_end l.
Proof. intros (A & B & C & D). exists ts, t. repeat split; assumption. Qed.
Lemma line_at_length l ts t : line_at l ts t -> line_length l = sum_len ts + text_len t.
Proof. intros (A & _). rewrite line_length_sum, A, sum_len_app. cbn. lia. Qed.
Lemma line_at_new r i : line_at (line_new r i) [] text_new.
Proof. repeat split. Qed.
Lemma lcells_at l ts t : l_texts l = ts ++ [t] -> lcells l = flat_map tcells ts ++ tcells t.
Proof. intros A. unfold lcells. rewrite A, flat_map_app. cbn. now rewrite app_nil_r. Qed.

Lemma line_set_cursor_at l ts t : line_at l ts t -> line_set_cursor l (line_length l) = l.
Proof.
  intros (Ets & Ecur & Etc & Elc). assert (Eset : text_set_cur t (text_len t) = t) by (rewrite <- Etc; destruct t; reflexivity).
  rewrite (line_set_cursor_total_eq l ts t Ets), Eset, <- Ets, <- Ecur, <- Elc. destruct l; reflexivity.
Qed.

Definition sview (st : tstyle) : Z * bool * bool := (vcol st, ts_italic st, ts_under st).
Lemma scell_sview st st' ch : sview st = sview st' -> scell st ch = scell st' ch.
Proof. unfold sview, scell. intros H. inversion H. reflexivity. Qed.
(* add_style_property of the current colour, font style and text decoration (None is ignored) *)
Definition pen_apply (col : Z) (ita und : bool) (st : tstyle) : tstyle := sty_under (sty_italic (sty_color st col) ita) und.
Definition penview (col : Z) (ita und : bool) : Z * bool * bool := (if col =? -1 then white else col, ita, und).
Lemma pen_apply_view col ita und st : st = ts0 \/ sview st = penview col ita und -> sview (pen_apply col ita und st) = penview col ita und.
Proof.
  intros [->|H].
  - unfold pen_apply, sty_under, sty_italic, sty_color, penview, sview, vcol, ts0.
    destruct (col =? -1) eqn:E; destruct ita; destruct und; cbn; rewrite ?E; reflexivity.
  - destruct st as [c i u b]. unfold sview, penview, vcol in H. cbn in H. injection H as H1 H2 H3. subst i u.
    unfold pen_apply, sty_under, sty_italic, sty_color, penview, sview, vcol.
    destruct (col =? -1) eqn:E; destruct ita; destruct und; cbn; rewrite ?E; try rewrite H1; reflexivity.
Qed.
Lemma style_cur_text_eq c p : style_cur_text c p = upd_cur_text p (fun x => text_set_sty x (pen_apply (c_color c) (c_italic c) (c_under c) (t_sty x))).
Proof. reflexivity. Qed.

(* the cursor is on row r, column col, at the end of the line l (texts ts ++ [t]) stored under that row *)
Definition para_at (p : para) (r col : Z) (l : cline) (ts : list ctext) (t : ctext) : Prop :=
  p_cur p = Att r /\ dget r (p_lines p) = Some l /\ line_at l ts t /\ l_row l = r /\
  p_cursor p = (r, col) /\ col = l_indent l + line_length l.
Definition put_line (p : para) (r : Z) (l : cline) : para := set_plines p (dset r l (p_lines p)).
Lemma dget_put_line p r l r' : dget r' (p_lines (put_line p r l)) = if r' =? r then Some l else dget r' (p_lines p).
Proof. unfold put_line. cbn. apply dget_dset. Qed.
Lemma put_line_twice p r l l' : put_line (put_line p r l') r l = put_line p r l.
Proof. unfold put_line. cbn. now rewrite dset_dset. Qed.
Lemma put_line_over p r l1 x l2 : put_line (set_cursor (put_line p r l1) x) r l2 = set_cursor (put_line p r l2) x.
Proof. unfold put_line. cbn [p_lines set_cursor set_plines]. rewrite dset_dset. destruct p; reflexivity. Qed.
Lemma pcell_put_line p r l r' c : pcell (put_line p r l) r' c = if r' =? r then lcell l c else pcell p r' c.
Proof. unfold pcell. rewrite dget_put_line. destruct (r' =? r); reflexivity. Qed.
Lemma pcell_set_cursor p x r c : pcell (set_cursor p x) r c = pcell p r c.
Proof. reflexivity. Qed.
Lemma keys_put_line p r l x : dget r (p_lines p) = Some x -> map fst (p_lines (put_line p r l)) = map fst (p_lines p).
Proof. intros H. unfold put_line. cbn. eapply dset_keys_present; eauto. Qed.
Lemma upd_cur_line_at p r l f : p_cur p = Att r -> dget r (p_lines p) = Some l -> upd_cur_line p f = put_line p r (f l).
Proof. exact (upd_cur_line_att p r l f). Qed.
Lemma cur_put_line p r l : p_cur (put_line p r l) = p_cur p.  Proof. reflexivity. Qed.
Lemma cursor_put_line p r l : p_cursor (put_line p r l) = p_cursor p.  Proof. reflexivity. Qed.
Lemma zlen_pos {A} (s : list A) : s <> [] -> 0 < zlen s.
Proof. destruct s; [contradiction|]. intros _. unfold zlen. cbn [length]. lia. Qed.
Lemma zlen_nonneg {A} (s : list A) : 0 <= zlen s.
Proof. unfold zlen. lia. Qed.
Lemma line_length_nonneg l : 0 <= line_length l.
Proof. rewrite line_length_sum. apply sum_len_nonneg. Qed.
Lemma update_line_cursor_at q r l : p_cur q = Att r -> dget r (p_lines q) = Some l -> snd (p_cursor q) = l_indent l + line_length l ->
  update_line_cursor q = put_line q r (line_set_cursor l (line_length l)).
Proof. intros Hc Hg Hcol. rewrite (update_line_cursor_eq q r l Hc Hg Hcol). exact (upd_cur_line_at q r l _ Hc Hg). Qed.

(* what append_text makes of the last text element and of the line, at the end of the row *)
Definition text_app (t : ctext) (s : text) : ctext := mkT (t_begin t) (t_text t ++ s) (text_len t + zlen s) (t_sty t).
Definition line_app (l : cline) (ts : list ctext) (t : ctext) (s : text) : cline :=
  mkL (l_row l) (l_indent l) (line_length l + zlen s) (ts ++ [text_app t s]) (length ts).
Lemma text_len_app t s : text_len (text_app t s) = text_len t + zlen s.
Proof. unfold text_app, text_len, zlen. cbn. rewrite app_length. lia. Qed.
Lemma line_length_app l ts t s : line_at l ts t -> line_length (line_app l ts t s) = line_length l + zlen s.
Proof.
  intros H. rewrite (line_at_length l ts t H). rewrite line_length_sum. unfold line_app. cbn [l_texts].
  rewrite sum_len_app. cbn [sum_len]. rewrite text_len_app. lia.
Qed.
Lemma line_at_app l ts t s : line_at l ts t -> line_at (line_app l ts t s) ts (text_app t s).
Proof.
  intros H. repeat split; try reflexivity.
  - cbn. symmetry. apply text_len_app.
  - rewrite (line_length_app l ts t s H). reflexivity.
Qed.
Lemma append_text_at p r col l ts t s : para_at p r col l ts t -> s <> [] ->
  append_text p s = set_cursor (put_line p r (line_app l ts t s)) (r, col + zlen s).
Proof.
  intros (Hc & Hg & Hl & Hr & Hcur & Hcol) Hs.
  unfold append_text. rewrite (upd_cur_line_at p r l _ Hc Hg), (line_add_str_at l ts t s (proj1 Hl) (proj1 (proj2 Hl)) (proj1 (proj2 (proj2 Hl))) (proj2 (proj2 (proj2 Hl))) Hs). fold (text_app t s). fold (line_app l ts t s).
  set (l1 := line_app l ts t s). pose proof (line_length_app l ts t s Hl) as Hlen1. fold l1 in Hlen1.
  unfold indent_cursor. rewrite cursor_put_line, Hcur. cbn [fst snd].
  set (q1 := set_cursor (put_line p r l1) (r, col + zlen s)).
  assert (Hg1 : dget r (p_lines q1) = Some l1) by (unfold q1; cbn [p_lines set_cursor]; rewrite dget_put_line, Z.eqb_refl; reflexivity).
  rewrite (cur_line_at q1 r l1 Hc Hg1).
  pose proof (line_length_nonneg l). pose proof (zlen_pos s Hs).
  replace (line_is_empty l1) with false by (unfold line_is_empty; lia).
  rewrite (update_line_cursor_at q1 r l1 Hc Hg1) by (cbn [q1 p_cursor set_cursor snd]; change (l_indent l1) with (l_indent l); lia).
  rewrite (line_set_cursor_at l1 ts _ (line_at_app l ts t s Hl)). unfold q1. apply put_line_over.
Qed.
Lemma para_at_append p r col l ts t s : para_at p r col l ts t ->
  para_at (set_cursor (put_line p r (line_app l ts t s)) (r, col + zlen s)) r (col + zlen s) (line_app l ts t s) ts (text_app t s).
Proof.
  intros (Hc & Hg & Hl & Hr & Hcur & Hcol). split; [exact Hc|]. split; [cbn [p_lines set_cursor]; rewrite dget_put_line, Z.eqb_refl; reflexivity|].
  split; [now apply line_at_app|]. split; [exact Hr|]. split; [reflexivity|].
  rewrite (line_length_app l ts t s Hl). cbn [l_indent line_app]. lia.
Qed.
(* a change of the current text that keeps its characters and cursor *)
Definition line_map_last (l : cline) (ts : list ctext) (t' : ctext) : cline := mkL (l_row l) (l_indent l) (l_cursor l) (ts ++ [t']) (l_cur l).
Lemma upd_cur_text_at p r col l ts t f : para_at p r col l ts t ->
  upd_cur_text p f = put_line p r (line_map_last l ts (f t)).
Proof.
  intros (Hc & Hg & (Ets & Ecur & Etc & Elc) & Hr & Hcur & Hcol). unfold upd_cur_text. rewrite (upd_cur_line_at p r l _ Hc Hg).
  unfold line_upd_cur_text, line_map_last. rewrite Ets, Ecur, upd_nth_last. reflexivity.
Qed.
Lemma para_at_map_last p r col l ts t t' : para_at p r col l ts t -> t_text t' = t_text t -> t_cur t' = t_cur t ->
  para_at (put_line p r (line_map_last l ts t')) r col (line_map_last l ts t') ts t'.
Proof.
  intros (Hc & Hg & (Ets & Ecur & Etc & Elc) & Hr & Hcur & Hcol) Ht Hcu.
  assert (Elen : line_length (line_map_last l ts t') = line_length l).
  { rewrite !line_length_sum. unfold line_map_last. cbn [l_texts]. rewrite Ets, !sum_len_app. cbn [sum_len]. unfold text_len. now rewrite Ht. }
  split; [exact Hc|]. split; [rewrite dget_put_line, Z.eqb_refl; reflexivity|]. split.
  - split; [reflexivity|]. split; [exact Ecur|]. split; [unfold text_len in *; rewrite Hcu, Ht; exact Etc|]. rewrite Elen. exact Elc.
  - split; [exact Hr|]. split; [exact Hcur|]. rewrite Elen. exact Hcol.
Qed.
(* new_caption_text: an empty text element at the end of the row *)
Definition line_new_text (l : cline) (ts : list ctext) (t : ctext) : cline :=
  mkL (l_row l) (l_indent l) (line_length l) ((ts ++ [t]) ++ [text_new]) (length (ts ++ [t])).
Lemma new_caption_text_at p r col l ts t : para_at p r col l ts t -> new_caption_text p = put_line p r (line_new_text l ts t).
Proof.
  intros (Hc & Hg & (Ets & Ecur & Etc & Elc) & Hr & Hcur & Hcol). unfold new_caption_text. rewrite (upd_cur_line_at p r l _ Hc Hg).
  unfold line_add_obj, line_new_text. rewrite Ets. f_equal. f_equal.
  change (fold_right (fun t0 a => text_len t0 + a) 0 ((ts ++ [t]) ++ [text_new])) with (line_length (mkL 0 0 0 ((ts ++ [t]) ++ [text_new]) 0)).
  rewrite !line_length_sum, Ets. cbn [l_texts]. rewrite !sum_len_app. cbn. lia.
Qed.
Lemma para_at_new_text p r col l ts t : para_at p r col l ts t ->
  para_at (put_line p r (line_new_text l ts t)) r col (line_new_text l ts t) (ts ++ [t]) text_new.
Proof.
  intros (Hc & Hg & (Ets & Ecur & Etc & Elc) & Hr & Hcur & Hcol).
  assert (Elen : line_length (line_new_text l ts t) = line_length l).
  { rewrite !line_length_sum. unfold line_new_text. cbn [l_texts]. rewrite Ets, !sum_len_app. cbn. lia. }
  split; [exact Hc|]. split; [rewrite dget_put_line, Z.eqb_refl; reflexivity|]. split.
  - split; [reflexivity|]. split; [reflexivity|]. split; [reflexivity|]. rewrite Elen. reflexivity.
  - split; [exact Hr|]. split; [exact Hcur|]. rewrite Elen. exact Hcol.
Qed.
