(* C08, display simulation, part 10: the pop-on display theorem.  For every file of the pop-on class without doubled
   codes, at every frame that does not directly follow an EDM, the document shows the reference decoder's display. *)
From Coq Require Import QArith.
From TT Require Import Base.Prelude Base.SccTypes Base.SccDoc Gen.SccTables Model.SccWord Model.TimeCode Model.SccReader Spec.Cea608Screen.
From TT Require Import Proofs.C08.Stamps Proofs.C08.Words Proofs.C08.Protocol Proofs.C08.Text Proofs.C08.ScreenMem Proofs.C08.ScreenLine
                       Proofs.C08.ScreenPara Proofs.C08.ScreenWords Proofs.C08.ScreenPopOn Proofs.C08.ScreenFile
                       Proofs.C08.ScreenDoc Proofs.C08.ScreenRegion Proofs.C08.ScreenTime.
Open Scope Z_scope.

Definition is_ctl (w k : Z) : bool := (d_chan (decode w) =? 1) && (d_cls (decode w) =? cControl) && (d_code (decode w) =? k).
Definition is_show (w : Z) : bool := is_ctl w kEOC || is_ctl w kEDM.
(* the decoder's display is not touched by any other word in pop-on mode *)
Lemma disp_put_pop s ch : md s = PopOn -> disp (put s ch) = disp s /\ md (put s ch) = PopOn.
Proof. intros H. rewrite (put_pop s ch H). split; [reflexivity|exact H]. Qed.
Lemma disp_back_pop s : md s = PopOn -> disp (back s) = disp s /\ md (back s) = PopOn.
Proof. intros H. unfold back. destruct (ccol s =? 0); [split; [reflexivity|exact H]|]. unfold set_cur_mem, cur_mem. rewrite H. split; [reflexivity|exact H]. Qed.
Lemma disp_control_pop s k : md s = PopOn -> k <> kEOC -> k <> kEDM -> ~ (kRU2 <= k <= kRU4) -> disp (control dev0 s k) = disp s.
Proof.
  intros H H1 H2 H3. unfold control, kEOC, kEDM, kRU2, kRU4 in *.
  destruct (k =? kRCL); [reflexivity|]. destruct (k =? kRDC); [reflexivity|].
  replace ((5 <=? k) && (k <=? 7)) with false by lia.
  destruct (k =? kCR); [rewrite H; reflexivity|]. destruct (k =? kBS); [apply (disp_back_pop s H)|].
  destruct (k =? kDER); [unfold set_cur_mem; rewrite H; reflexivity|].
  replace (k =? 12) with false by lia. destruct (k =? kENM); [reflexivity|]. replace (k =? 15) with false by lia.
  destruct (_ && _); reflexivity.
Qed.
Lemma disp_act_pop s d : md s = PopOn ->
  ~ (d_cls d = cControl /\ (d_code d = kEOC \/ d_code d = kEDM \/ kRU2 <= d_code d <= kRU4)) -> disp (act dev0 s d) = disp s.
Proof.
  intros H Hn. unfold act. change (disp (set_pmid ?x ?b)) with (disp x).
  destruct (d_cls d =? cPac) eqn:E1; [unfold pac; rewrite H; reflexivity|].
  destruct (d_cls d =? cMidRow) eqn:E2.
  { unfold midrow. destruct (d_italic d); cbn [disp set_pen]; apply (disp_put_pop s 32 H). }
  destruct (d_cls d =? cControl) eqn:E3.
  { apply disp_control_pop; [exact H| | |]; intros Hk; apply Hn; (split; [lia|]); [now left|right; now left|right; now right]. }
  destruct (d_cls d =? cSpecial); [apply (disp_put_pop s _ H)|].
  destruct (d_cls d =? cExtended); [|reflexivity].
  destruct (disp_back_pop s H) as [B1 B2]. rewrite (proj1 (disp_put_pop (back s) _ B2)). exact B1.
Qed.
(* the miscellaneous control codes of the class: none of BS, CR, RDC, RUx *)
Lemma pop_word_control s g w g' : pop_word s g w = Some g' -> d_chan (decode w) = 1 -> is_second_copy s w = false ->
  d_cls (decode w) = cControl -> let k := d_code (decode w) in k <> kBS /\ k <> kCR /\ k <> kRDC /\ ~ (kRU2 <= k <= kRU4).
Proof.
  intros Hw Hc Hd Hcls. destruct (ch1_bytes w Hc) as [Eb Ev]. unfold pop_word in Hw. rewrite Ev, Eb, Hc, Hd, Hcls in Hw.
  cbn [Z.eqb Pos.eqb negb cControl cPac cMidRow] in Hw. cbv zeta in *. set (k := d_code (decode w)) in *.
  unfold kRCL, kENM, kEDM, kEOC, kTO1, kDER, kBS, kCR, kRDC, kRU2, kRU4 in *.
  destruct (k =? 0) eqn:K1; [lia|]. destruct (k =? 14) eqn:K2; [lia|]. destruct (k =? 12) eqn:K3; [lia|]. destruct (k =? 15) eqn:K4; [lia|].
  destruct ((16 <=? k) && (k <=? 16 + 2)) eqn:K5; [lia|]. destruct (k =? 4) eqn:K6; [lia|].
  destruct ((k =? 1) || (k =? 13) || (k =? 9) || ((5 <=? k) && (k <=? 7))) eqn:K7; [discriminate|]. lia.
Qed.
Lemma disp_feed_quiet s g w g' : md s = PopOn -> pop_word s g w = Some g' -> is_show w = false -> disp (feed dev0 s w) = disp s.
Proof.
  intros Hm Hw Hq. destruct (value w =? 0) eqn:Ev.
  { rewrite (feed_pad dev0 s w) by lia. reflexivity. }
  destruct (byte1 w <? 32) eqn:Eb.
  - rewrite (feed_code_cls dev0 s w) by lia. cbv zeta.
    destruct (d_chan (decode w) =? 1) eqn:Ec; cbn [negb].
    + destruct (is_second_copy s w) eqn:Ed; [reflexivity|].
      rewrite disp_act_pop; [reflexivity|exact Hm|]. intros [Hc Hk].
      destruct (pop_word_control s g w g' Hw ltac:(lia) Ed Hc) as (_ & _ & _ & Hru).
      unfold is_show, is_ctl in Hq. rewrite Ec, Hc in Hq. cbn [andb Z.eqb Pos.eqb cControl] in Hq. lia.
    + destruct (d_chan (decode w) =? 2); reflexivity.
  - pose proof (byte1_range w). rewrite (feed_chars dev0 s w) by lia. cbv zeta. change (chan (set_last s None)) with (chan s).
    destruct (chan s =? 1); [|reflexivity].
    assert (Hm0 : md (set_pmid (set_last s None) false) = PopOn) by exact Hm.
    destruct (disp_put_pop _ (d_t1 (decode w)) Hm0) as [P1 P2].
    destruct (d_t2 (decode w) =? -1); [exact P1|]. rewrite (proj1 (disp_put_pop _ _ P2)). exact P1.
Qed.

(* the reader: words that are not a second copy consume one frame; quiet words leave the document alone *)
Definition no_copy (s : scr) (w : Z) : bool := negb ((d_chan (decode w) =? 1) && is_second_copy s w).
Lemma no_copy_not_dup c s g w : Rpop c s g -> no_copy s w = true -> is_dup c w = false.
Proof.
  intros [_ HL] Hn. unfold no_copy in Hn. destruct (d_chan (decode w) =? 1) eqn:Ec.
  - rewrite (r_dup _ _ HL w) by lia. cbn [andb] in Hn. now apply negb_true_iff in Hn.
  - destruct (value w =? 0) eqn:Ev; [apply is_dup_pad; lia|].
    destruct (byte1 w <? 32) eqn:Eb; [apply (not_dup_other c s w HL); lia|]. apply is_dup_chars. lia.
Qed.
Lemma tc_step_nodup c s g w : Rpop c s g -> no_copy s w = true -> c_tc (step c w) = tc_next (c_tc c).
Proof.
  intros HR Hn. rewrite tc_step. rewrite (no_copy_not_dup c s g w HR Hn). destruct HR as [[Hb _] _]. rewrite (r_err _ _ _ Hb). reflexivity.
Qed.
Lemma quiet_visible c s g w g' : Rpop c s g -> pop_word s g w = Some g' -> is_show w = false -> visible (step c w) = visible c.
Proof.
  intros HR Hw Hq. pose proof HR as [[Hb _] HL]. destruct (value w =? 0) eqn:Ev.
  { rewrite (step_pad c w (r_err _ _ _ Hb)) by lia. reflexivity. }
  destruct (byte1 w <? 32) eqn:Eb.
  2:{ apply popon_invisible; [exact (r_style _ _ _ Hb)|]. pose proof (byte1_range w). unfold loads_buffer. rewrite (decode_chars w) by lia. reflexivity. }
  destruct (d_chan (decode w) =? 1) eqn:Ec.
  2:{ rewrite (step_other c w (r_err _ _ _ Hb)); [reflexivity|apply (not_dup_other c s w HL); lia|lia|lia|lia]. }
  destruct (is_second_copy s w) eqn:Ed.
  { rewrite (step_dup c w (r_err _ _ _ Hb)); [reflexivity|]. rewrite (r_dup _ _ HL w) by lia. exact Ed. }
  apply popon_invisible; [exact (r_style _ _ _ Hb)|]. unfold loads_buffer. cbv zeta.
  destruct (d_cls (decode w) =? cControl) eqn:Ecls; [|reflexivity].
  destruct (pop_word_control s g w g' Hw ltac:(lia) Ed ltac:(lia)) as (_ & Hcr & Hrdc & Hru). cbv zeta in *.
  unfold is_show, is_ctl in Hq. rewrite Ec, Ecls in Hq. cbn [andb] in Hq.
  unfold kEOC, kEDM, kRU2, kRU4, kCR, kRDC, Model.SccReader.kRDC, Model.SccReader.kRU2, Model.SccReader.kRU3, Model.SccReader.kRU4,
    Model.SccReader.kEOC, Model.SccReader.kEDM, Model.SccReader.kCR in *. lia.
Qed.

(* the two components of the state that push_active_caption_to_model changes *)
Definition cst (c : ctx) : dstate := (c_out c, c_regions c).
Lemma push_active_st c e cl : cst (push_active c e cl) = pushp (c_act c) e (cst c).
Proof.
  unfold push_active, pushp, cst. destruct (c_act c) as [a|]; [|reflexivity].
  change (para_is_empty (set_end a e)) with (para_is_empty a). destruct (para_is_empty a); [reflexivity|].
  cbn [c_regions with_act with_acur snd fst]. destruct (to_paragraph (set_end a e) (c_regions c)) as [rs o]. reflexivity.
Qed.
Lemma doc_of_flush c : c_err c = false -> finish (flush c) = docs (pushp (c_act c) None (cst c)).
Proof.
  intros He. unfold finish, flush. cbn [c_err new_buffered_caption with_buf]. rewrite err_push_active, He.
  rewrite <- (push_active_st c None true). reflexivity.
Qed.
Lemma visible_cst c c' : visible c' = visible c -> cst c' = cst c /\ c_act c' = c_act c.
Proof. unfold visible, cst. intros H. injection H as H1 H2 H3. rewrite H1, H2, H3. split; reflexivity. Qed.

Lemma ctl_of_is_ctl w k : is_ctl w k = true -> ctl w k.
Proof.
  unfold is_ctl. intros H. apply andb_true_iff in H as [H H3]. apply andb_true_iff in H as [H1 H2].
  assert (Hc : d_chan (decode w) = 1) by lia. destruct (ch1_bytes w Hc) as [B1 B2]. repeat split; try assumption; lia.
Qed.
Lemma step_eoc_doc c w : c_err c = false -> is_dup c w = false -> is_ctl w kEOC = true ->
  cst (step c w) = pushp (c_act c) (Some (tc_next (c_tc c))) (cst c) /\
  exists a', c_act (step c w) = Some a' /\ p_begin a' = Some (tc_next (c_tc c)).
Proof.
  intros He Hd Hk. apply ctl_of_is_ctl in Hk. rewrite (step_ctl c w _ He Hd Hk).
  set (t1 := tc_next (c_tc c)). set (c2 := with_chan (with_tc c t1) 1).
  destruct (control_eoc c2) as (f & Hf & Hpc). change kEOC with Model.SccReader.kEOC. rewrite Hpc. change (c_tc c2) with t1.
  set (c3 := with_buf c2 (set_begin (c_buf c2) (Some t1))).
  destruct (flip_act c3 t1) as (b & Eb & Bb & _).
  split.
  - unfold cst. cbn [c_out c_regions with_prev with_prev_type]. unfold upd_act. rewrite Eb. cbn [c_out c_regions with_act].
    assert (E : cst (flip c3 t1) = cst (push_active c3 (Some t1) true)).
    { unfold cst, flip. destruct (p_id (c_buf (push_active c3 (Some t1) true))); destruct (c_act c3); reflexivity. }
    unfold cst in E. rewrite E. fold (cst (push_active c3 (Some t1) true)). rewrite push_active_st. reflexivity.
  - exists (f b). split; [unfold upd_act; rewrite Eb; reflexivity|]. rewrite (proj1 (Hf b)), Bb. reflexivity.
Qed.
Lemma step_edm_doc c w : c_err c = false -> is_dup c w = false -> is_ctl w kEDM = true ->
  cst (step c w) = pushp (c_act c) (Some (tc_next (tc_next (c_tc c)))) (cst c) /\ c_act (step c w) = None.
Proof.
  intros He Hd Hk. apply ctl_of_is_ctl in Hk. rewrite (step_ctl c w _ He Hd Hk).
  set (t1 := tc_next (c_tc c)). set (c2 := with_chan (with_tc c t1) 1).
  change kEDM with Model.SccReader.kEDM. rewrite control_edm. change (c_tc c2) with t1. change (c_act c2) with (c_act c). destruct (c_act c) as [a|] eqn:Ea.
  - split.
    + change (cst (with_prev (with_prev_type (push_active c2 (Some (tc_next t1)) true) cControl) (Some (value w)))) with (cst (push_active c2 (Some (tc_next t1)) true)).
      rewrite push_active_st. change (c_act c2) with (c_act c). rewrite Ea. reflexivity.
    + cbn [c_act with_prev with_prev_type]. apply act_push_active_clear.
  - split; [reflexivity|exact Ea].
Qed.

(* (frame during which the word is transmitted, word); a word is in effect from the next frame on *)
Definition tword := (Z * Z)%type.
Definition feed_at (f : Z) (s : scr) (fw : tword) : scr := if fst fw <? f then feed dev0 s (snd fw) else s.
Definition state_at (pre : list tword) (f : Z) : scr := fold_left (feed_at f) pre scr0.
Definition is_edm (w : Z) : bool := is_ctl w kEDM.
(* a frame at which the comparison is exact: not the frame right after an EDM (the reader keeps the erased caption one
   frame longer: its end is exclusive) *)
Definition stable (pre : list tword) (f : Z) : Prop := forall fw, In fw pre -> is_edm (snd fw) = true -> fst fw + 1 <> f.
Lemma state_at_app pre fw f : state_at (pre ++ [fw]) f = feed_at f (state_at pre f) fw.
Proof. unfold state_at. rewrite fold_left_app. reflexivity. Qed.
Lemma state_at_all pre f : (forall fw, In fw pre -> fst fw < f) -> state_at pre f = fold_left (feed dev0) (map snd pre) scr0.
Proof.
  unfold state_at. generalize scr0. induction pre as [|fw pre IH]; intros s H; cbn [fold_left map]; [reflexivity|].
  unfold feed_at at 2. replace (fst fw <? f) with true by (symmetry; apply Z.ltb_lt; apply H; now left). apply IH. intros x Hx. apply H. now right.
Qed.
Lemma stable_app pre fw f : stable (pre ++ [fw]) f -> stable pre f.
Proof. intros H x Hx. apply H. apply in_app_iff. now left. Qed.

Record Inv (df : bool) (c : ctx) (s : scr) (g : gst) (pre : list tword) : Prop := {
  i_rel : Rpop c s g;
  i_tc : tc_ok df (c_tc c);
  i_st : st_ok df (cst c);
  i_ended : all_ended (cst c) (tc_frames (c_tc c) + 1);
  i_act : forall a, c_act c = Some a -> exists b, p_begin a = Some b /\ snd b = rate_of df /\ tc_frames b <= tc_frames (c_tc c);
  i_s : s = fold_left (feed dev0) (map snd pre) scr0;
  i_past : forall fw, In fw pre -> fst fw < tc_frames (c_tc c);
  i_shown : forall f, stable pre f -> vrows_eqb (rows_of_mem (disp (state_at pre f))) (shown df (pushp (c_act c) None (cst c)) f) = true }.

Lemma act_para_ok df c s g : Rpop c s g ->
  (forall a, c_act c = Some a -> exists b, p_begin a = Some b /\ snd b = rate_of df /\ tc_frames b <= tc_frames (c_tc c)) ->
  forall x, c_act c = Some x -> para_ok df x.
Proof.
  intros [[Hb _] _] Ha x Hx. destruct (Ha x Hx) as (b & B1 & B2 & _). pose proof (r_act _ _ _ Hb) as G. rewrite Hx in G.
  split; [exact (pm_style _ _ _ G)|]. intros b' Hb'. rewrite B1 in Hb'. injection Hb' as <-. exact B2.
Qed.

(* one more word, transmitted during frame F, after all the others: up to frame F nothing changes (`before`); from frame
   F + 1 on the decoder shows its display after the word (`after`) *)
Lemma shown_step df pre s F w D D' : s = fold_left (feed dev0) (map snd pre) scr0 -> (forall fw, In fw pre -> fst fw < F) ->
  (forall f, stable pre f -> vrows_eqb (rows_of_mem (disp (state_at pre f))) (shown df D f) = true) ->
  (forall f, f <= F -> shown df D' f = shown df D f) ->
  (forall f, F < f -> stable (pre ++ [(F, w)]) f -> state_at pre f = s -> vrows_eqb (rows_of_mem (disp (feed dev0 s w))) (shown df D' f) = true) ->
  forall f, stable (pre ++ [(F, w)]) f -> vrows_eqb (rows_of_mem (disp (state_at (pre ++ [(F, w)]) f))) (shown df D' f) = true.
Proof.
  intros Hs Hpast Hsh Hbefore Hafter f Hstab. destruct (f <=? F) eqn:Ef.
  - rewrite state_at_app. unfold feed_at. cbn [fst snd]. replace (F <? f) with false by lia. rewrite Hbefore by lia.
    apply Hsh, (stable_app _ _ _ Hstab).
  - rewrite state_at_all.
    + rewrite map_app, fold_left_app, <- Hs. apply Hafter; [lia|exact Hstab|].
      rewrite state_at_all; [symmetry; exact Hs|]. intros fw Hin. specialize (Hpast fw Hin). lia.
    + intros fw Hin. apply in_app_iff in Hin as [Hin|[<-|[]]]; [specialize (Hpast fw Hin); lia|cbn; lia].
Qed.
(* one word of the class that is not a second copy, transmitted during the frame the line's time code has reached *)
Lemma inv_step df c s g pre w g' : Inv df c s g pre -> pop_word s g w = Some g' -> no_copy s w = true ->
  Inv df (step c w) (feed dev0 s w) g' (pre ++ [(tc_frames (c_tc c), w)]).
Proof.
  intros [HR Htc Hst Hend Hact Hs Hpast Hsh] Hw Hnc.
  set (F := tc_frames (c_tc c)) in *.
  pose proof (step_pop c s g w g' HR Hw) as HR'.
  pose proof (tc_step_nodup c s g w HR Hnc) as Etc.
  destruct (tc_next_ok df (c_tc c) Htc) as [Htc1 Ef1]. fold F in Ef1.
  pose proof (no_copy_not_dup c s g w HR Hnc) as Hnd.
  pose proof HR as [[Hb _] _]. pose proof (r_err _ _ _ Hb) as Herr. pose proof HR' as [[Hb' _] _]. pose proof (r_act _ _ _ Hb') as G.
  pose proof (act_para_ok df c s g HR Hact) as Hpok.
  assert (Hpast' : forall fw, In fw (pre ++ [(F, w)]) -> fst fw < F + 1).
  { intros fw Hin. apply in_app_iff in Hin as [Hin|[<-|[]]]; [specialize (Hpast fw Hin); lia|cbn; lia]. }
  assert (Hs' : feed dev0 s w = fold_left (feed dev0) (map snd (pre ++ [(F, w)])) scr0).
  { rewrite map_app, fold_left_app. cbn [map snd fold_left]. f_equal. exact Hs. }
  assert (Hend' : forall t, tc_frames t <= F + 2 -> all_ended (pushp (c_act c) (Some t) (cst c)) (F + 2)).
  { intros t Ht. apply all_ended_pushp; [apply (all_ended_mono _ (F + 1)); [lia|exact Hend]|exact Ht]. }
  destruct (is_show w) eqn:Eshow.
  - (* EOC or EDM *)
    unfold is_show in Eshow. destruct (is_ctl w kEOC) eqn:Eeoc.
    + (* EOC: the displayed caption ends at the stamp, the buffered one begins there *)
      destruct (step_eoc_doc c w Herr Hnd Eeoc) as (Ecst & a' & Ea' & Eb').
      set (t1 := tc_next (c_tc c)) in *. rewrite Ea' in G.
      assert (Hot : ot_ok df (Some t1)) by (intros t Ht; injection Ht as <-; apply Htc1).
      destruct (pushp_ok df (c_act c) (Some t1) (cst c) Hst Hpok Hot) as [Hst1 _].
      assert (Hpok' : para_ok df a').
      { split; [exact (pm_style _ _ _ G)|]. intros b Hb0. rewrite Eb' in Hb0. injection Hb0 as <-. apply Htc1. }
      split; try assumption.
      * rewrite Etc. exact Htc1.
      * rewrite Ecst. exact Hst1.
      * rewrite Etc, Ecst, Ef1. replace (F + 1 + 1) with (F + 2) by lia. apply Hend'. lia.
      * intros x Hx. rewrite Ea' in Hx. injection Hx as <-. exists t1. split; [exact Eb'|]. split; [apply Htc1|]. rewrite Etc. lia.
      * rewrite Etc, Ef1. exact Hpast'.
      * rewrite Ea', Ecst. apply (shown_step df pre s F w (pushp (c_act c) None (cst c)) _ Hs Hpast Hsh).
        -- intros f Hf.
           rewrite (shown_push_later df (Some a') _ f Hst1) by (intros x Hx; injection Hx as <-; split; [exact Hpok'|exists t1; split; [exact Eb'|lia]]).
           apply (shown_push_end df (c_act c) (Some t1) None (cst c) f Hst Hpok Hot); [discriminate|intros t Ht; injection Ht as <-; lia|discriminate].
        -- intros f Hf _ _.
           apply (shown_push_now df a' (disp (feed dev0 s w)) (g_ud g') _ f Hst1); try assumption.
           ++ apply (all_ended_mono _ (F + 1)); [lia|]. apply all_ended_pushp; [exact Hend|lia].
           ++ apply (r_wf _ _ _ Hb').
           ++ exists t1. split; [exact Eb'|lia].
    + (* EDM: the displayed caption ends one frame after the stamp, nothing is displayed any more *)
      cbn [orb] in Eshow. destruct (step_edm_doc c w Herr Hnd Eshow) as (Ecst & Ea').
      set (t1 := tc_next (c_tc c)) in *. set (t2 := tc_next t1) in *. rewrite Ea' in G.
      destruct (tc_next_ok df t1 Htc1) as [Htc2 Ef2]. fold t2 in Htc2, Ef2.
      assert (Hot : ot_ok df (Some t2)) by (intros t Ht; injection Ht as <-; apply Htc2).
      destruct (pushp_ok df (c_act c) (Some t2) (cst c) Hst Hpok Hot) as [Hst1 _].
      split; try assumption.
      * rewrite Etc. exact Htc1.
      * rewrite Ecst. exact Hst1.
      * rewrite Etc, Ecst, Ef1. replace (F + 1 + 1) with (F + 2) by lia. apply Hend'. lia.
      * intros x Hx. rewrite Ea' in Hx. discriminate.
      * rewrite Etc, Ef1. exact Hpast'.
      * rewrite Ea', Ecst. change (pushp None None ?st) with st.
        apply (shown_step df pre s F w (pushp (c_act c) None (cst c)) _ Hs Hpast Hsh).
        -- intros f Hf. apply (shown_push_end df (c_act c) (Some t2) None (cst c) f Hst Hpok Hot); [discriminate|intros t Ht; injection Ht as <-; lia|discriminate].
        -- intros f Hf Hstab _.
           assert (Hne : F + 1 <> f) by (apply (Hstab (F, w)); [apply in_app_iff; right; now left|exact Eshow]).
           rewrite (shown_ended df _ f Hst1) by (apply (all_ended_mono _ (F + 2)); [lia|apply Hend'; lia]).
           rewrite (rows_of_mem_blank _ (proj1 (r_wf _ _ _ Hb'))); [reflexivity|]. intros r k _ _. apply G.
  - (* any other word: the displayed caption, the document and the decoder's display are as before *)
    destruct (visible_cst c (step c w) (quiet_visible c s g w g' HR Hw Eshow)) as [Ecst Eact].
    pose proof (disp_feed_quiet s g w g' (r_md _ _ _ Hb) Hw Eshow) as Edisp.
    split; try assumption.
    + rewrite Etc. exact Htc1.
    + rewrite Ecst. exact Hst.
    + rewrite Etc, Ecst, Ef1. apply (all_ended_mono _ (F + 1)); [lia|exact Hend].
    + intros x Hx. rewrite Eact in Hx. destruct (Hact x Hx) as (b & B1 & B2 & B3). exists b. split; [exact B1|]. split; [exact B2|]. rewrite Etc. lia.
    + rewrite Etc, Ef1. exact Hpast'.
    + rewrite Eact, Ecst. apply (shown_step df pre s F w _ _ Hs Hpast Hsh); [reflexivity|].
      intros f Hf Hstab Hcur. rewrite Edisp, <- Hcur. apply Hsh, (stable_app _ _ _ Hstab).
Qed.

Fixpoint number_from (F : Z) (ws : list Z) : list tword := match ws with [] => [] | w :: ws' => (F, w) :: number_from (F + 1) ws' end.
Definition twords (ls : list (tcv * list Z)) : list tword := flat_map (fun l => number_from (tc_frames (fst l)) (snd l)) ls.
(* the pop-on class without second copies of doubled codes (they consume no frame in the reader: recorded finding
   doubled-code-no-frame, a behaviour the repository's own tests require) *)
Fixpoint pop_words_nc (s : scr) (g : gst) (ws : list Z) : option (scr * gst) :=
  match ws with
  | [] => Some (s, g)
  | w :: ws' => if no_copy s w then match pop_word s g w with Some g' => pop_words_nc (feed dev0 s w) g' ws' | None => None end else None
  end.
Fixpoint pop_lines_nc (s : scr) (g : gst) (ls : list (tcv * list Z)) : option (scr * gst) :=
  match ls with
  | [] => Some (s, g)
  | l :: ls' => match pop_words_nc s g (snd l) with Some (s1, g1) => pop_lines_nc s1 g1 ls' | None => None end
  end.
(* lines at the rate of the stream, in order, each starting after the previous one has been transmitted *)
Fixpoint stream_ok (df : bool) (lo : Z) (ls : list (tcv * list Z)) : Prop :=
  match ls with
  | [] => True
  | l :: ls' => snd (fst l) = rate_of df /\ lo <= tc_frames (fst l) /\ stream_ok df (tc_frames (fst l) + zlen (snd l)) ls'
  end.

Lemma inv_words df ws : forall c s g pre s' g', Inv df c s g pre -> pop_words_nc s g ws = Some (s', g') ->
  Inv df (fold_left step ws c) s' g' (pre ++ number_from (tc_frames (c_tc c)) ws) /\
  tc_frames (c_tc (fold_left step ws c)) = tc_frames (c_tc c) + zlen ws.
Proof.
  induction ws as [|w ws IH]; intros c s g pre s' g' HI Hw; cbn [pop_words_nc fold_left number_from] in *.
  - injection Hw as <- <-. rewrite app_nil_r. split; [exact HI|unfold zlen; cbn; lia].
  - destruct (no_copy s w) eqn:Enc; [|discriminate]. destruct (pop_word s g w) as [g1|] eqn:Ew; [|discriminate].
    pose proof (inv_step df c s g pre w g1 HI Ew Enc) as HI1.
    assert (Etc : tc_frames (c_tc (step c w)) = tc_frames (c_tc c) + 1).
    { rewrite (tc_step_nodup c s g w (i_rel _ _ _ _ _ HI) Enc). apply (tc_next_ok df), (i_tc _ _ _ _ _ HI). }
    destruct (IH _ _ _ _ _ _ HI1 Hw) as [H1 H2]. rewrite Etc in H1, H2. rewrite <- app_assoc in H1. cbn [app] in H1.
    split; [exact H1|]. rewrite H2. unfold zlen. cbn [length]. lia.
Qed.
Lemma inv_line_start df c s g pre t : Inv df c s g pre -> snd t = rate_of df -> tc_frames (c_tc c) <= tc_frames t -> Inv df (with_tc c t) s g pre.
Proof.
  intros [HR Htc Hst Hend Hact Hs Hpast Hsh] Hr Hle. destruct Htc as [_ H0]. split; try assumption.
  - now apply Rpop_with_tc.
  - split; [exact Hr|]. cbn [c_tc with_tc]. lia.
  - cbn [c_tc with_tc]. apply (all_ended_mono _ (tc_frames (c_tc c) + 1)); [lia|exact Hend].
  - intros a Ha. destruct (Hact a Ha) as (b & B1 & B2 & B3). exists b. split; [exact B1|]. split; [exact B2|]. cbn [c_tc with_tc]. lia.
  - intros fw Hin. specialize (Hpast fw Hin). cbn [c_tc with_tc]. lia.
Qed.
Lemma inv_lines df ls : forall c s g pre s' g', Inv df c s g pre -> stream_ok df (tc_frames (c_tc c)) ls ->
  pop_lines_nc s g ls = Some (s', g') -> Inv df (run_words c ls) s' g' (pre ++ twords ls).
Proof.
  induction ls as [|l ls IH]; intros c s g pre s' g' HI Hok Hl; cbn [pop_lines_nc run_words fold_left twords flat_map] in *.
  - injection Hl as <- <-. now rewrite app_nil_r.
  - destruct Hok as (Hr & Hle & Hok). destruct (pop_words_nc s g (snd l)) as [[s1 g1]|] eqn:Ew; [|discriminate].
    pose proof (inv_line_start df c s g pre (fst l) HI Hr Hle) as HI0.
    destruct (inv_words df (snd l) _ _ _ _ _ _ HI0 Ew) as [HI1 Etc]. cbn [c_tc with_tc] in HI1, Etc.
    rewrite app_assoc. apply (IH _ _ _ _ _ _ HI1); [rewrite Etc; exact Hok|exact Hl].
Qed.
Lemma inv_init df ta t : snd t = rate_of df -> 0 <= tc_frames t -> Inv df (with_tc (ctx_init ta) t) scr0 g0 [].
Proof.
  intros Hr H0. split.
  - apply Rpop_with_tc, Rpop_init.
  - split; assumption.
  - split; [split; [exact I|constructor]|constructor].
  - constructor.
  - intros a Ha. discriminate Ha.
  - reflexivity.
  - intros fw [].
  - intros f _. reflexivity.
Qed.

Theorem popon_display df ta ls s' g' : stream_ok df 0 ls -> pop_lines_nc scr0 g0 ls = Some (s', g') ->
  forall f, stable (twords ls) f ->
  vrows_eqb (rows_of_mem (disp (state_at (twords ls) f))) (rows_of_doc (finish (flush (run_words (ctx_init ta) ls))) (time_of df f)) = true.
Proof.
  intros Hok Hl f Hstab. destruct ls as [|l ls].
  - reflexivity.
  - cbn [stream_ok] in Hok. destruct Hok as (Hr & Hle & Hok). cbn [pop_lines_nc] in Hl.
    destruct (pop_words_nc scr0 g0 (snd l)) as [[s1 g1]|] eqn:Ew; [|discriminate].
    pose proof (inv_init df ta (fst l) Hr Hle) as HI0.
    destruct (inv_words df (snd l) _ _ _ _ _ _ HI0 Ew) as [HI1 Etc]. cbn [c_tc with_tc app] in HI1, Etc.
    assert (HI2 : Inv df (run_words (ctx_init ta) (l :: ls)) s' g' (twords (l :: ls))).
    { cbn [run_words fold_left twords flat_map]. apply (inv_lines df ls _ _ _ _ _ _ HI1); [rewrite Etc; exact Hok|exact Hl]. }
    destruct HI2 as [HR _ _ _ _ _ _ Hsh]. rewrite doc_of_flush; [apply (Hsh f Hstab)|].
    destruct HR as [[Hb _] _]. exact (r_err _ _ _ Hb).
Qed.

(* in the terms of S: lines with SMPTE labels, `screen` *)
Definition sline_tc (df : bool) (sl : sline) : tcv := ((sl_h sl, sl_m sl, sl_s sl, sl_f sl), rate_of df).
Definition lines_of_slines (df : bool) (sls : list sline) : list (tcv * list Z) := map (fun sl => (sline_tc df sl, sl_words sl)) sls.
(* S counts the frames of a label as the reader does (C12; checked for every line of every generated file by the harness) *)
Definition slines_frames_ok (df : bool) (sls : list sline) : Prop := Forall (fun sl => frame_of sl = tc_frames (sline_tc df sl)) sls.
Lemma feed_at_later f ws : forall F s, f <= F -> fold_left (feed_at f) (number_from F ws) s = s.
Proof.
  induction ws as [|w ws IH]; intros F s H; cbn [number_from fold_left]; [reflexivity|].
  unfold feed_at at 2. cbn [fst]. replace (F <? f) with false by lia. apply IH. lia.
Qed.
Lemma feed_until_number f ws : forall F s, feed_until dev0 s F f ws = fold_left (feed_at f) (number_from F ws) s.
Proof.
  induction ws as [|w ws IH]; intros F s; cbn [feed_until number_from fold_left]; [reflexivity|].
  unfold feed_at at 2. cbn [fst snd]. destruct (F <? f) eqn:E; [apply IH|]. symmetry. apply feed_at_later. lia.
Qed.
Lemma fold_left_flat_map {A B C} (h : A -> C -> A) (k : B -> list C) l : forall a,
  fold_left h (flat_map k l) a = fold_left (fun a x => fold_left h (k x) a) l a.
Proof. induction l as [|x l IH]; intros a; cbn [flat_map fold_left]; [reflexivity|]. rewrite fold_left_app. apply IH. Qed.
Lemma screen_state_at df sls f : slines_frames_ok df sls -> screen_state dev0 sls f = state_at (twords (lines_of_slines df sls)) f.
Proof.
  intros H. unfold screen_state, state_at, twords, lines_of_slines. rewrite fold_left_flat_map. generalize scr0.
  induction H as [|sl sls Hsl H IH]; intros s; cbn [map fold_left fst snd]; [reflexivity|].
  rewrite feed_until_number, Hsl. apply IH.
Qed.
Theorem popon_display_S df ta sls s' g' : slines_frames_ok df sls -> stream_ok df 0 (lines_of_slines df sls) ->
  pop_lines_nc scr0 g0 (lines_of_slines df sls) = Some (s', g') ->
  forall f, stable (twords (lines_of_slines df sls)) f ->
  vrows_eqb (screen sls f) (rows_of_doc (finish (flush (run_words (ctx_init ta) (lines_of_slines df sls)))) (time_of df f)) = true.
Proof.
  intros Hf Hok Hl f Hst. unfold screen. rewrite (screen_state_at df sls f Hf). now apply (popon_display df ta _ s' g').
Qed.
(* the executable form of `stable` *)
Definition stable_b (pre : list tword) (f : Z) : bool := forallb (fun fw => negb (is_edm (snd fw) && (fst fw + 1 =? f))) pre.
Lemma stable_b_ok pre f : stable_b pre f = true -> stable pre f.
Proof.
  unfold stable_b, stable. rewrite forallb_forall. intros H fw Hin He Heq. specialize (H fw Hin). rewrite He in H.
  replace (fst fw + 1 =? f) with true in H by lia. discriminate.
Qed.
