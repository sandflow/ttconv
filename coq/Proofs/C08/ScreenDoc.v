(* C08, display simulation, part 7: the paragraph written to the document (to_paragraph: rows in increasing order
   separated by line breaks) rendered back to rows by S's comparison function shows what the caption shows. *)
From Coq Require Import QArith.
From TT Require Import Base.Prelude Base.SccTypes Base.SccDoc Gen.SccTables Model.SccWord Model.TimeCode Model.SccReader Spec.Cea608Screen.
From TT Require Import Proofs.C08.Text Proofs.C08.ScreenMem Proofs.C08.ScreenLine Proofs.C08.ScreenPara.
Open Scope Z_scope.

(* what ksort, the model of sorted(d.items()), yields: keys strictly increasing and above lo *)
Fixpoint kinc {A} (lo : Z) (d : list (Z * A)) : Prop := match d with [] => True | (k, _) :: d' => lo < k /\ kinc k d' end.
Lemma kinc_weaken {A} lo lo' (d : list (Z * A)) : lo' <= lo -> kinc lo d -> kinc lo' d.
Proof. destruct d as [|[k v] d]; cbn; [auto|]. intros H [H1 H2]. split; [lia|exact H2]. Qed.
Lemma kinc_keys_above {A} lo (d : list (Z * A)) : kinc lo d -> forall k, In k (map fst d) -> lo < k.
Proof.
  revert lo. induction d as [|[k v] d IH]; cbn; intros lo H x Hx; [contradiction|]. destruct H as [H1 H2].
  destruct Hx as [<-|Hx]; [exact H1|]. specialize (IH k H2 x Hx). lia.
Qed.
Lemma kinc_dget_below {A} lo (d : list (Z * A)) r : kinc lo d -> r <= lo -> dget r d = None.
Proof.
  intros H Hr. destruct (dget r d) eqn:E; [|reflexivity]. apply dget_in_keys in E. pose proof (kinc_keys_above lo d H r E). lia.
Qed.
Lemma kinsert_keys {A} (kv : Z * A) l x : In x (map fst (kinsert kv l)) <-> fst kv = x \/ In x (map fst l).
Proof.
  induction l as [|y l IH]; cbn [kinsert map In]; [reflexivity|]. destruct (fst kv <=? fst y); cbn [map In]; [reflexivity|]. rewrite IH. clear IH. tauto.
Qed.
Lemma kinsert_in {A} (kv : Z * A) l x : In x (kinsert kv l) <-> kv = x \/ In x l.
Proof.
  induction l as [|y l IH]; cbn [kinsert In]; [reflexivity|]. destruct (fst kv <=? fst y); cbn [In]; [reflexivity|]. rewrite IH. clear IH. tauto.
Qed.
Lemma kinsert_inc {A} lo (kv : Z * A) l : kinc lo l -> lo < fst kv -> ~ In (fst kv) (map fst l) -> kinc lo (kinsert kv l).
Proof.
  revert lo. induction l as [|[k v] l IH]; intros lo H Hlo Hn; destruct kv as [k0 v0]; cbn in *; [auto|].
  destruct H as [H1 H2]. destruct (k0 <=? k) eqn:E; cbn.
  - split; [exact Hlo|]. split; [|exact H2]. assert (k0 <> k) by (intros ->; apply Hn; now left). lia.
  - split; [exact H1|]. apply (IH k); [exact H2|lia|]. intros Hin. apply Hn. now right.
Qed.
Lemma ksort_keys {A} (d : list (Z * A)) x : In x (map fst (ksort d)) <-> In x (map fst d).
Proof. induction d as [|kv d IH]; cbn [ksort fold_right map In]; [reflexivity|]. fold (ksort d). rewrite kinsert_keys, IH. reflexivity. Qed.
Lemma ksort_in {A} (d : list (Z * A)) x : In x (ksort d) <-> In x d.
Proof. induction d as [|kv d IH]; cbn [ksort fold_right In]; [reflexivity|]. fold (ksort d). rewrite kinsert_in, IH. reflexivity. Qed.
Lemma ksort_inc {A} lo (d : list (Z * A)) : NoDup (map fst d) -> (forall k, In k (map fst d) -> lo < k) -> kinc lo (ksort d).
Proof.
  induction d as [|kv d IH]; cbn; intros Hn Hlo; [exact I|]. inversion Hn; subst.
  apply kinsert_inc; [apply IH; [assumption|intros k Hk; apply Hlo; now right]|apply Hlo; now left|].
  intros Hin. apply H1. apply (proj1 (ksort_keys d (fst kv))). exact Hin.
Qed.
Lemma nodup_kinc {A} lo (d : list (Z * A)) : kinc lo d -> NoDup (map fst d).
Proof.
  revert lo. induction d as [|[k v] d IH]; cbn; intros lo H; [constructor|]. destruct H as [H1 H2]. constructor; [|now apply (IH k)].
  intros Hin. pose proof (kinc_keys_above k d H2 k Hin). lia.
Qed.
Lemma dget_in {A} (d : list (Z * A)) k v : NoDup (map fst d) -> (dget k d = Some v <-> In (k, v) d).
Proof.
  induction d as [|[k2 v2] d IH]; cbn; intros Hn; [split; [discriminate|contradiction]|]. inversion Hn; subst.
  destruct (k =? k2) eqn:E.
  - assert (k = k2) by lia. subst k2. split.
    + intros H; inversion H; now left.
    + intros [H|H]; [inversion H; reflexivity|]. exfalso. apply H1. change k with (fst (k, v)). now apply in_map.
  - rewrite (IH H2). split; [now right|]. intros [H|H]; [inversion H; lia|exact H].
Qed.
Lemma dget_ksort {A} (d : list (Z * A)) k : NoDup (map fst d) -> dget k (ksort d) = dget k d.
Proof.
  intros Hn. assert (Hn2 : NoDup (map fst (ksort d))).
  { apply (nodup_kinc (-1 - Z.abs (fold_right Z.min 0 (map fst d)))). apply ksort_inc; [exact Hn|].
    intros x Hx. assert (G : forall l x, In x l -> fold_right Z.min 0 l <= x).
    { induction l as [|y l IH]; cbn; [contradiction|]. intros z [->|Hz]; [lia|]. specialize (IH z Hz). lia. }
    specialize (G _ _ Hx). lia. }
  destruct (dget k d) as [v|] eqn:E.
  - apply (dget_in _ _ _ Hn2). apply ksort_in. now apply (dget_in _ _ _ Hn).
  - destruct (dget k (ksort d)) as [v|] eqn:E2; [|reflexivity].
    apply (dget_in _ _ _ Hn2), ksort_in, (dget_in _ _ _ Hn) in E2. congruence.
Qed.

(* the rendering of the rows r0 (cells cur, already read) and the rows of d (sorted, all above r0) *)
Fixpoint doc_lines (d : list (Z * cline)) (r0 : Z) (cur : list cell) : list (list cell) :=
  match d with
  | [] => [cur]
  | (r, l) :: d' => cur :: repeat [] (Z.to_nat (r - r0 - 1)) ++ doc_lines d' r (lcells l)
  end.
Definition qchildren (paint : bool) (pb : option tcv) (cs : list child) : list childq := map (finish_child paint pb) cs.
Lemma cells_of_span_bg st tx : cells_of_span (if ts_bg st =? -1 then sty_bg st black else st) tx = map (scell st) tx.
Proof.
  unfold cells_of_span, scell, vcol. destruct (ts_bg st =? -1); [|reflexivity].
  unfold sty_bg. change (black =? -1) with false. cbv iota. reflexivity.
Qed.
Lemma lines_of_spans paint pbq pb t l rest cur : nobegin l ->
  lines_of pb t (qchildren paint pbq (line_spans l) ++ rest) cur = lines_of pb t rest (cur ++ lcells l).
Proof.
  unfold nobegin, line_spans, lcells. revert cur. induction (l_texts l) as [|x ts IH]; intros cur H; cbn [flat_map]; [now rewrite app_nil_r|].
  inversion H; subst. unfold qchildren in *. rewrite map_app, <- app_assoc.
  destruct (is_nil (t_text x)) eqn:E.
  - cbn [map app]. rewrite IH by assumption. unfold tcells. destruct (t_text x); [|discriminate]. reflexivity.
  - cbn [map app finish_child lines_of]. rewrite H2. cbn [lines_of]. rewrite IH by assumption.
    rewrite cells_of_span_bg. unfold tcells. now rewrite app_assoc.
Qed.
Lemma lines_of_brs pb t n rest cur paint pbq :
  lines_of pb t (qchildren paint pbq (brs (S n)) ++ rest) cur = cur :: repeat [] n ++ lines_of pb t rest [].
Proof.
  cbn [brs qchildren map app finish_child lines_of]. f_equal. induction n as [|n IH]; cbn [brs map app repeat finish_child lines_of]; [reflexivity|].
  f_equal. exact IH.
Qed.
Lemma lines_of_children paint pbq pb t d : forall r0 cur, kinc r0 d -> Forall (fun kv => nobegin (snd kv)) d ->
  lines_of pb t (qchildren paint pbq (para_children d (Some r0))) cur = doc_lines d r0 cur.
Proof.
  induction d as [|[r l] d IH]; intros r0 cur Hk Hn; cbn [para_children doc_lines]; [reflexivity|].
  destruct Hk as [H1 H2]. inversion Hn; subst. cbn [snd] in *.
  replace (Z.to_nat (Z.abs (r0 - r))) with (S (Z.to_nat (r - r0 - 1))) by lia.
  unfold qchildren. rewrite map_app. fold (qchildren paint pbq (brs (S (Z.to_nat (r - r0 - 1))))).
  rewrite lines_of_brs. f_equal. f_equal. rewrite map_app. fold (qchildren paint pbq (line_spans l)).
  rewrite lines_of_spans by assumption. cbn [app]. apply IH; assumption.
Qed.
Lemma nth_doc_lines d : forall r0 cur r, kinc r0 d -> r0 <= r ->
  nth (Z.to_nat (r - r0)) (doc_lines d r0 cur) [] = if r =? r0 then cur else match dget r d with Some l => lcells l | None => [] end.
Proof.
  induction d as [|[k l] d IH]; intros r0 cur r Hk Hr; cbn [doc_lines dget].
  - destruct (r =? r0) eqn:E; [replace (r - r0) with 0 by lia; reflexivity|].
    destruct (Z.to_nat (r - r0)) eqn:E2; [lia|]. destruct n; reflexivity.
  - destruct Hk as [H1 H2]. destruct (r =? r0) eqn:E; [replace (r - r0) with 0 by lia; reflexivity|].
    replace (Z.to_nat (r - r0)) with (S (Z.to_nat (r - r0 - 1))) by lia. cbn [nth].
    destruct (r <? k) eqn:E3.
    + rewrite app_nth1 by (rewrite repeat_length; lia).
      replace (r =? k) with false by lia. rewrite (kinc_dget_below k d r H2) by lia. apply nth_repeat_any.
    + rewrite app_nth2 by (rewrite repeat_length; lia). rewrite repeat_length.
      replace (Z.to_nat (r - r0 - 1) - Z.to_nat (k - r0 - 1))%nat with (Z.to_nat (r - k)) by lia.
      rewrite IH by (try assumption; lia). destruct (r =? k); reflexivity.
Qed.
Fixpoint last_key {A} (d : list (Z * A)) (r0 : Z) : Z := match d with [] => r0 | (k, _) :: d' => last_key d' k end.
Lemma last_key_ge {A} (d : list (Z * A)) : forall r0, kinc r0 d -> r0 <= last_key d r0.
Proof. induction d as [|[k v] d IH]; cbn; intros r0 H; [lia|]. destruct H as [H1 H2]. specialize (IH k H2). lia. Qed.
Lemma last_key_in {A} (d : list (Z * A)) : forall r0, last_key d r0 = r0 \/ In (last_key d r0) (map fst d).
Proof. induction d as [|[k v] d IH]; cbn; intros r0; [now left|]. destruct (IH k) as [H|H]; [right; left; now rewrite H|right; now right]. Qed.
Lemma doc_lines_length d : forall r0 cur, kinc r0 d -> Z.of_nat (length (doc_lines d r0 cur)) = last_key d r0 - r0 + 1.
Proof.
  induction d as [|[k l] d IH]; intros r0 cur Hk; cbn [doc_lines last_key length]; [lia|].
  destruct Hk as [H1 H2]. rewrite app_length, repeat_length. pose proof (IH k (lcells l) H2). pose proof (last_key_ge d k H2). lia.
Qed.
Lemma number_rows_mem r ls : number_rows r ls = rows_of_mem_from ls r.
Proof. revert r. induction ls as [|l ls IH]; intros r; cbn; [reflexivity|]. rewrite IH. reflexivity. Qed.

Lemma all_blank_nth X : (forall k, (k < length X)%nat -> is_blank (nth k X blank) = true) -> all_blank X.
Proof.
  induction X as [|x X IH]; intros H; [constructor|]. constructor; [apply (H 0%nat); cbn; lia|]. apply IH. intros k Hk. apply (H (S k)). cbn. lia.
Qed.
Lemma row_blank_trim m r : mem_wf m -> (forall c, in_cols c -> is_blank (mcell m r c) = true) -> trim (row_get m r) = [].
Proof.
  intros Hw H. apply trim_all_blank. apply all_blank_nth. rewrite row_get_length by exact Hw. intros k Hk.
  specialize (H (Z.of_nat k)). unfold mcell in H. rewrite Nat2Z.id in H. apply H. unfold in_cols. lia.
Qed.
Lemma row_same_line m r l : mem_wf m -> (forall c, in_cols c -> ceqv (mcell m r c) (lcell l c)) -> 0 <= l_indent l ->
  l_indent l + line_length l <= 32 -> row_same (row_get m r) (lcells l).
Proof.
  intros Hw H Hi Hlen. unfold row_same. pose proof (lcells_length l) as HL. unfold zlen in HL. pose proof (line_length_nonneg l).
  set (i := Z.to_nat (l_indent l)). set (n := length (lcells l)).
  set (Zl := repeat blank i ++ lcells l ++ repeat blank (32 - i - n)).
  assert (HF : Forall2 ceqv (row_get m r) Zl).
  { apply (Forall2_nth_ext ceqv blank).
    - rewrite row_get_length by exact Hw. unfold Zl. rewrite !app_length, !repeat_length. fold n. lia.
    - rewrite row_get_length by exact Hw. intros k Hk. specialize (H (Z.of_nat k)). unfold mcell in H. rewrite Nat2Z.id in H.
      assert (Hin : in_cols (Z.of_nat k)) by (unfold in_cols; lia). specialize (H Hin).
      assert (E : nth k Zl blank = lcell l (Z.of_nat k)).
      { unfold Zl, lcell. destruct (Z.of_nat k <? l_indent l) eqn:E1.
        - rewrite app_nth1 by (rewrite repeat_length; lia). apply nth_repeat_any.
        - rewrite app_nth2 by (rewrite repeat_length; lia). rewrite repeat_length.
          replace (Z.to_nat (Z.of_nat k - l_indent l)) with (k - i)%nat by lia.
          destruct (Nat.ltb (k - i) n) eqn:E2.
          + apply Nat.ltb_lt in E2. now rewrite app_nth1.
          + apply Nat.ltb_ge in E2. rewrite app_nth2 by exact E2. fold n. rewrite nth_repeat_any. symmetry. apply nth_overflow. exact E2. }
      rewrite E. exact H. }
  apply Forall2_ceqv_cells_eqb. replace (trim (lcells l)) with (trim Zl) by (unfold Zl; apply trim_pad; apply all_blank_repeat).
  now apply Forall2_ceqv_trim.
Qed.

(* the rows of the paragraph as written by to_paragraph and read back: first row = smallest key *)
Definition para_rows (p : para) : vrows :=
  match ksort (p_lines p) with
  | [] => []
  | (r1, l1) :: d => number_rows r1 (doc_lines d r1 (lcells l1))
  end.
(* the lines of a caption that a PAC has addressed, sorted: rows of the screen, in increasing order *)
Lemma para_mem_sorted {st} p m u : @para_mem st p m u -> ~ pristine p ->
  kinc 0 (ksort (p_lines p)) /\ (forall r, dget r (ksort (p_lines p)) = dget r (p_lines p)) /\
  (forall r l, dget r (p_lines p) = Some l -> in_rows r).
Proof.
  intros [A B C D E F] Hnp. destruct C as [C|C]; [contradiction|].
  assert (Hkeys : forall r l, dget r (p_lines p) = Some l -> in_rows r) by (intros r l H; now destruct (C r l H)).
  split; [|split; [intros r; now apply dget_ksort|exact Hkeys]].
  apply ksort_inc; [exact D|]. intros k Hk. destruct (dget k (p_lines p)) eqn:E1; [pose proof (Hkeys _ _ E1) as H; unfold in_rows in H; lia|].
  apply dget_none_keys in E1. contradiction.
Qed.
Lemma para_rows_shows {st} p m u : @para_mem st p m u -> mem_wf m -> ~ pristine p -> vrows_eqb (rows_of_mem m) (para_rows p) = true.
Proof.
  intros Hpm Hw Hnp. destruct (para_mem_sorted p m u Hpm Hnp) as (Hinc & Hg & Hkeys). destruct Hpm as [A B C D E F].
  unfold para_rows. destruct (ksort (p_lines p)) as [|[r1 l1] d] eqn:Es.
  - (* no line at all: cannot be (there is a current line) *)
    destruct E as (r0 & l0 & _ & E2). apply dget_in_keys in E2. apply ksort_keys in E2. rewrite Es in E2. contradiction.
  - unfold in_rows in Hkeys. cbn [kinc] in Hinc. destruct Hinc as [Hr1 Hd].
    assert (Hr1in : 1 <= r1 <= 15).
    { specialize (Hg r1). cbn in Hg. rewrite Z.eqb_refl in Hg. symmetry in Hg. exact (Hkeys _ _ Hg). }
    assert (Hlast : last_key d r1 <= 15).
    { destruct (last_key_in d r1) as [H|H]; [lia|]. assert (Hk : In (last_key d r1) (map fst ((r1, l1) :: d))) by now right.
      destruct (dget (last_key d r1) ((r1, l1) :: d)) eqn:E1.
      - rewrite Hg in E1. specialize (Hkeys _ _ E1). lia.
      - apply dget_none_keys in E1. contradiction. }
    set (L := doc_lines d r1 (lcells l1)). pose proof (doc_lines_length d r1 (lcells l1) Hd) as HLL. fold L in HLL.
    pose proof (last_key_ge d r1 Hd) as Hge.
    rewrite number_rows_mem, rows_of_mem_from_fun.
    set (gL := fun r' => nth (Z.to_nat (r' - r1)) L []).
    (* the rendering covers rows r1 .. last key; rows up to 15 add nothing *)
    assert (EgL : rows_of_fun gL r1 (length L) = rows_of_fun gL r1 (Z.to_nat (16 - r1))).
    { replace (Z.to_nat (16 - r1)) with (length L + Z.to_nat (15 - last_key d r1))%nat by lia.
      rewrite rows_of_fun_app. rewrite (rows_of_fun_blank gL (Z.to_nat (15 - last_key d r1))); [now rewrite app_nil_r|].
      intros r Hr. unfold gL. rewrite nth_overflow by lia. reflexivity. }
    rewrite EgL. rewrite (rows_of_mem_fun m Hw).
    replace 15%nat with (Z.to_nat (r1 - 1) + Z.to_nat (16 - r1))%nat by lia. rewrite rows_of_fun_app.
    assert (Hrow : forall r, 1 <= r <= 15 -> forall c, in_cols c ->
                   ceqv (mcell m r c) (match dget r (p_lines p) with Some l => lcell l c | None => blank end)).
    { intros r Hr c Hc. apply (A r c Hr Hc). }
    rewrite (rows_of_fun_blank (row_get m) (Z.to_nat (r1 - 1)) 1).
    + cbn [app]. replace (1 + Z.of_nat (Z.to_nat (r1 - 1))) with r1 by lia. apply rows_of_fun_same. intros r Hr.
      assert (Hr15 : 1 <= r <= 15) by lia. unfold gL, L. rewrite nth_doc_lines by (try assumption; lia).
      assert (EgLr : (if r =? r1 then lcells l1 else match dget r d with Some l => lcells l | None => [] end) =
                     match dget r (p_lines p) with Some l => lcells l | None => [] end).
      { rewrite <- Hg. cbn [dget]. destruct (r =? r1); reflexivity. }
      rewrite EgLr. destruct (dget r (p_lines p)) as [l|] eqn:El.
      * destruct (B r l El) as (_ & Hi & Hle & _). apply row_same_line; try assumption.
        intros c Hc. specialize (Hrow r Hr15 c Hc). now rewrite El in Hrow.
      * unfold row_same. rewrite (row_blank_trim m r Hw); [reflexivity|]. intros c Hc. specialize (Hrow r Hr15 c Hc). rewrite El in Hrow.
        apply (ceqv_blank_l _ _ Hrow). reflexivity.
    + intros r Hr. apply (row_blank_trim m r Hw). intros c Hc. assert (Hr15 : 1 <= r <= 15) by lia. specialize (Hrow r Hr15 c Hc).
      assert (En : dget r (p_lines p) = None).
      { rewrite <- Hg. cbn [dget]. replace (r =? r1) with false by lia. apply (kinc_dget_below r1 d r Hd). lia. }
      rewrite En in Hrow. apply (ceqv_blank_l _ _ Hrow). reflexivity.
Qed.
