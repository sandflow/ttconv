(* C08, display simulation, roll-up, part 2: the relation between the reader's displayed roll-up caption and the decoder's
   displayed memory (base row 15, window of n rows), and its preservation by what the codes do to the context and to the screen. *)
From Coq Require Import QArith.
From TT Require Import Base.Prelude Base.SccTypes Base.SccDoc Gen.SccTables Model.SccWord Model.TimeCode Model.SccReader Spec.Cea608Screen.
From TT Require Import Proofs.C08.Stamps Proofs.C08.Words Proofs.C08.Protocol Proofs.C08.Text Proofs.C08.ScreenMem Proofs.C08.ScreenLine
                       Proofs.C08.ScreenPara Proofs.C08.ScreenWords Proofs.C08.ScreenPopOn Proofs.C08.ScreenRollMem.
Open Scope Z_scope.

Definition all_rows : list Z := [1; 2; 3; 4; 5; 6; 7; 8; 9; 10; 11; 12; 13; 14; 15].
Lemma in_all_rows r : in_rows r -> In r all_rows.
Proof. unfold in_rows, all_rows. intros H. cbn. lia. Qed.
(* bookkeeping of the scan: the cursor is positioned on the base row; nothing has been written on the base row since it was
   last cleared; a caption is being displayed (false after EDM until the next RUx) *)
Record gru := mkGR { gr_pos : bool ; gr_fresh : bool ; gr_live : bool }.
(* the rows of the displayed caption: lo .. 15 without a gap, inside the window; the cursor line is the base row *)
Definition contig (n : Z) (a : para) : Prop :=
  p_cur a = Att 15 /\ exists lo, 16 - n <= lo <= 15 /\ forall r, dget r (p_lines a) <> None <-> lo <= r <= 15.
Definition base_empty (a : para) : Prop := forall l, dget 15 (p_lines a) = Some l -> line_length l = 0.
Record Rub (n : Z) (c : ctx) (s : scr) (g : gru) : Prop := {
  u_err : c_err c = false;
  u_style : c_style c = sRollUp;
  u_depth : c_depth c = n;
  u_md : md s = RollUp n;
  u_n : 2 <= n <= 4;
  u_crow : crow s = 15;
  u_pen : pen_of c = (pcol s, pita s, pund s);
  u_wf : scr_wf s;
  u_act : match c_act c with
          | Some a => gr_live g = true /\ @para_mem sRollUp a (disp s) all_rows /\ contig n a /\ (gr_fresh g = true -> base_empty a)
          | None => gr_live g = false /\ forall r k, is_blank (mcell (disp s) r k) = true
          end }.
Definition Rupos (c : ctx) (s : scr) : Prop :=
  0 <= ccol s <= 31 /\ exists a l ts t, c_act c = Some a /\ para_at a 15 (ccol s) l ts t /\ elt_ok (pen_of c) l t (ccol s).
Definition Rupos_w (c : ctx) (s : scr) : Prop :=
  0 <= ccol s <= 31 /\ exists a l ts t, c_act c = Some a /\ para_at a 15 (ccol s) l ts t /\
    ((t_sty t = ts0 /\ all_spaces t) \/ sview (t_sty t) = pen_of c).
Definition Rru (n : Z) (c : ctx) (s : scr) (g : gru) : Prop := Rub n c s g /\ (gr_pos g = true -> Rupos c s) /\ Rlink c s.
Lemma Rupos_weaken c s : Rupos c s -> Rupos_w c s.
Proof. intros (A & a & l & ts & t & Ha & Hat & (_ & E2 & _)). split; [exact A|]. exists a, l, ts, t. split; [exact Ha|]. split; [exact Hat|exact E2]. Qed.

(* Rub and Rupos read these parts of the context and of the screen only *)
Lemma Rub_same n c s g c' s' : Rub n c s g ->
  (c_err c', c_style c', c_depth c', c_color c', c_italic c', c_under c', c_act c') =
  (c_err c, c_style c, c_depth c, c_color c, c_italic c, c_under c, c_act c) ->
  (md s', crow s', pcol s', pita s', pund s', disp s', nond s') = (md s, crow s, pcol s, pita s, pund s, disp s, nond s) ->
  Rub n c' s' g.
Proof.
  intros [A B C D E F G H I] Ec Es. injection Ec as E1 E2 E3 E4 E5 E6 E7. injection Es as F1 F2 F3 F4 F5 F6 F7.
  split; try congruence.
  - unfold pen_of in *. congruence.
  - unfold scr_wf in *. now rewrite F6, F7.
  - now rewrite E7, F6.
Qed.
Lemma Rupos_same c s c' s' : Rupos c s ->
  (c_color c', c_italic c', c_under c', c_act c', ccol s') = (c_color c, c_italic c, c_under c, c_act c, ccol s) -> Rupos c' s'.
Proof. intros H E. injection E as E1 E2 E3 E4 E5. unfold Rupos, pen_of. now rewrite E1, E2, E3, E4, E5. Qed.
(* the relation after a change of the displayed caption; in use, `try reflexivity; try eassumption` closes the premises about
   what the code left alone, and the ones left are what the case has to show *)
Lemma Rub_upd n c s g c' s' g' a' : Rub n c s g ->
  (c_err c', c_style c', c_depth c') = (c_err c, c_style c, c_depth c) -> pen_of c' = (pcol s', pita s', pund s') ->
  (md s', crow s', nond s') = (md s, crow s, nond s) -> mem_wf (disp s') ->
  c_act c' = Some a' -> gr_live g' = true -> @para_mem sRollUp a' (disp s') all_rows -> contig n a' ->
  (gr_fresh g' = true -> base_empty a') -> Rub n c' s' g'.
Proof.
  intros [A B C D E F G H I] Ec Hpen Es Hwf Ha Hl Hpm Hct Hbe. injection Ec as E1 E2 E3. injection Es as F1 F2 F3.
  split; try congruence; [split; [exact Hwf|rewrite F3; apply H]|now rewrite Ha].
Qed.
(* a channel-1 code that is acted upon (as wrap_code for the pop-on relation) *)
Lemma wrap_code_ru n g' w X s1 cls : d_chan (decode w) = 1 ->
  Rub n X s1 g' -> (gr_pos g' = true -> Rupos X s1) -> c_chan X = 1 -> last s1 = Some (value w) -> chan s1 = 1 ->
  Rru n (with_prev (with_prev_type X cls) (Some (value w))) (set_pmid s1 (cls =? cMidRow)) g'.
Proof.
  intros Hc HX HP Hch Hlast Hchan. split; [|split; [|now apply Rlink_code]].
  - now apply (Rub_same n X s1 g').
  - intros Hg. now apply (Rupos_same X s1 _ _ (HP Hg)).
Qed.
(* `acts n c s c' s' g'`: what a code does to the context (c to c') and to the screen (s to s') carries the relation, and
   touches neither the channel nor the decoder's previous word *)
Definition acts (n : Z) (c : ctx) (s : scr) (c' : ctx) (s' : scr) (g' : gru) : Prop :=
  Rub n c' s' g' /\ (gr_pos g' = true -> Rupos c' s') /\ c_chan c' = c_chan c /\ last s' = last s /\ chan s' = chan s.
(* SccLine.process and the decoder on a channel-1 code, reduced to what the code does *)
Lemma ru_code n c s g w c' s' cls g' : Rru n c s g -> d_chan (decode w) = 1 ->
  (Rub n (code_ctx c) (set_chan (set_last s (Some (value w))) 1) g ->
   (gr_pos g = true -> Rupos (code_ctx c) (set_chan (set_last s (Some (value w))) 1)) ->
   acts n (code_ctx c) (set_chan (set_last s (Some (value w))) 1) c' s' g') ->
  Rru n (with_prev (with_prev_type c' cls) (Some (value w))) (set_pmid s' (cls =? cMidRow)) g'.
Proof.
  intros (Hb & Hp & HL) Hc H. destruct H as (R1 & R2 & R3 & R4 & R5).
  - now apply (Rub_same n c s g).
  - intros Hg. now apply (Rupos_same c s _ _ (Hp Hg)).
  - apply (wrap_code_ru n g' w c' s' cls Hc R1 R2); [rewrite R3|rewrite R4|rewrite R5]; reflexivity.
Qed.
Lemma contig_put_line n a l : contig n a -> contig n (put_line a 15 l).
Proof.
  intros (Hc & lo & Hlo & Hk). split; [exact Hc|]. exists lo. split; [exact Hlo|]. intros r. rewrite dget_put_line.
  destruct (r =? 15) eqn:E; [|apply Hk]. assert (r = 15) by lia. subst r. split; [intros _; lia|discriminate].
Qed.
Lemma contig_at_15 n a : contig n a -> exists l, dget 15 (p_lines a) = Some l.
Proof. intros (_ & lo & Hlo & Hk). destruct (dget 15 (p_lines a)) eqn:E; [eexists; reflexivity|]. exfalso. apply (proj2 (Hk 15)); [lia|exact E]. Qed.
Lemma contig_from_at n a a' col l ts t col' l' ts' t' : contig n a -> para_at a 15 col l ts t -> para_at a' 15 col' l' ts' t' ->
  (forall r, r <> 15 -> dget r (p_lines a') = dget r (p_lines a)) -> contig n a'.
Proof.
  intros (_ & lo & Hlo & Hk) (_ & Hg & _) (Hc' & Hg' & _) Hd. split; [exact Hc'|]. exists lo. split; [exact Hlo|]. intros r. rewrite <- Hk.
  destruct (r =? 15) eqn:E; [assert (r = 15) by lia; subst r; rewrite Hg, Hg'; split; discriminate|]. rewrite Hd by lia. tauto.
Qed.
Lemma in_rows_15 : in_rows 15.  Proof. unfold in_rows. lia. Qed.

Lemma core_write_ru n c s g word : Rub n c s g -> Rupos_w c s -> word <> [] -> ccol s + zlen word <= 31 ->
  acts n c s (process_text c word) (puts s word) (mkGR true false (gr_live g)).
Proof.
  intros Hb (Hcol & a & l & ts & t & Ha & Hat & Helt) Hw Hlen.
  pose proof Hb as [A B C D E F G H I]. rewrite Ha in I. destruct I as (I1 & I2 & I3 & I4).
  destruct (puts_ru_proj s n word D Hlen) as (P1 & P2 & P3 & P4 & P5 & P6 & P7 & P8 & P9 & P10 & P11). rewrite F in P8.
  destruct (para_write a (disp s) all_rows 15 (ccol s) l ts t (c_color c) (c_italic c) (c_under c)
              (pcol s) (pita s) (pund s) word I2 Hat in_rows_15 (proj1 Hcol) Hlen Hw (proj1 H) Helt G) as (Q1 & Q2 & Q3 & Q4 & Q5).
  rewrite (process_text_cap c a word (or_intror B) (cap_ru c a B Ha)), (upd_cap_ru c a _ B Ha), style_cur_text_eq, Q1.
  assert (Hnil : t_text (text_set_sty (text_app t word) (pen_apply (c_color c) (c_italic c) (c_under c) (t_sty t))) = [] -> False).
  { intros H0. rewrite Q5 in H0. destruct (t_text t); [destruct word; [contradiction|discriminate]|discriminate]. }
  split; [|split; [|split; [reflexivity|split; assumption]]].
  - eapply (Rub_upd n c s g); try reflexivity; try eassumption; try congruence.
    + unfold pen_of. cbn [c_color c_italic c_under sync_acur c_act with_act with_acur]. now rewrite P2, P3, P4.
    + rewrite P8. apply write_cells_wf, H.
    + now rewrite P8.
    + apply contig_put_line, I3.
    + discriminate.
  - intros _. split; [rewrite P7; pose proof (zlen_nonneg word); lia|].
    eexists _, _, ts, _. rewrite P7. split; [reflexivity|]. split; [exact Q3|].
    split; [intros H0; destruct (Hnil H0)|split; [|intros H0; destruct (Hnil H0)]].
    right. unfold pen_of. cbn [c_color c_italic c_under sync_acur c_act with_act with_acur]. rewrite Q4. symmetry. exact G.
Qed.
Lemma step_ru_chars n c s g w : Rru n c s g -> 32 <= byte1 w -> (chan s =? 1) = true -> gr_pos g = true ->
  ccol s + zlen (to_text w) <= 31 -> Rru n (step c w) (feed dev0 s w) (mkGR true false (gr_live g)).
Proof.
  intros (Hb & Hp & HL) Hby Hch Hg Hlen.
  rewrite (step_chars c w (u_err _ _ _ _ Hb) Hby), (feed_chars_puts dev0 s w Hby Hch). cbv zeta.
  rewrite (r_chan _ _ HL), Hch. cbn [negb].
  set (c1 := with_tc c (tc_next (c_tc c))). set (s0 := set_pmid (set_last s None) false).
  assert (Hb1 : Rub n c1 s0 g) by now apply (Rub_same n c s g).
  assert (Hp1 : Rupos c1 s0) by now apply (Rupos_same c s _ _ (Hp Hg)).
  assert (Hne : to_text w <> []) by (rewrite (to_text_chars w Hby); discriminate).
  destruct (core_write_ru n c1 s0 g (to_text w) Hb1 (Rupos_weaken _ _ Hp1) Hne Hlen) as (R1 & R2 & R3 & R4 & R5).
  split; [|split].
  - now apply (Rub_same n _ _ _ _ _ R1).
  - intros _. now apply (Rupos_same _ _ _ _ (R2 eq_refl)).
  - apply (Rlink_chars c s _ _ w HL Hby R3 R5 R4). destruct (puts_ru_proj s0 n (to_text w) (u_md _ _ _ _ Hb1) Hlen) as (_ & _ & _ & _ & _ & _ & _ & _ & _ & _ & P11).
    exact P11.
Qed.

(* preamble address code for the base row, nothing written on it yet *)
Lemma outside_window_blank n a m u : @para_mem sRollUp a m u -> contig n a -> forall r c, in_rows r -> in_cols c ->
  in_window 15 n r = false -> is_blank (mcell m r c) = true.
Proof.
  intros Hpm (_ & lo & Hlo & Hk) r c Hr Hc Hw. pose proof (pm_cells _ _ _ Hpm r c Hr Hc) as Hq. apply (ceqv_blank_l _ _ Hq).
  unfold pcell. destruct (dget r (p_lines a)) eqn:E; [|reflexivity]. exfalso.
  assert (Hin : lo <= r <= 15) by (apply Hk; rewrite E; discriminate). unfold in_window in Hw. lia.
Qed.
Lemma trim_eqv n a m u : @para_mem sRollUp a m u -> contig n a ->
  forall r c, in_rows r -> in_cols c -> ceqv (if in_window 15 n r then mcell m r c else blank) (mcell m r c).
Proof.
  intros Hpm Hc r c Hr Hcc. destruct (in_window 15 n r) eqn:E; [apply ceqv_refl|].
  apply ceqv_blank; [reflexivity|]. now apply (outside_window_blank n a m u).
Qed.
Lemma contig_at_fresh n a l0 ind0 : contig n a -> NoDup (map fst (p_lines a)) -> contig n (at_fresh a 15 l0 15 ind0).
Proof.
  intros (Hc & lo & Hlo & Hk) Hn. split; [reflexivity|]. exists lo. split; [exact Hlo|]. intros r. unfold at_fresh. cbn [p_lines set_cur set_plines].
  rewrite dget_dset. destruct (r =? 15) eqn:E; [split; [intros _; lia|discriminate]|].
  rewrite dget_fresh_lines by exact Hn. replace (r =? 15) with false by lia. rewrite andb_false_r. apply Hk.
Qed.
Lemma process_pac_ru c a d : c_style c = sRollUp -> c_act c = Some a -> d_row d = 15 ->
  process_pac c d =
  sync_acur (with_attrs (with_act c (Some (new_caption_text (set_cursor_at (match p_begin a with None => set_begin a (Some (c_tc c)) | Some _ => a end) 15 (d_indent d)))))
                        (d_color d) (d_italic d) (d_under d)).
Proof.
  intros H Ha Hr. unfold process_pac. rewrite H, Hr. change (sRollUp =? sPaintOn) with false. change (sRollUp =? sRollUp) with true.
  change ((5 <=? 15) && (15 <? 12)) with false. cbv iota. rewrite Ha. unfold upd_act. rewrite Ha. cbn [c_act with_act]. reflexivity.
Qed.
Lemma ru_pac n c s g d : Rub n c s g -> d_row d = 15 -> (d_indent d = -1 \/ 0 <= d_indent d <= 28) ->
  gr_live g = true -> gr_fresh g = true -> acts n c s (process_pac c d) (pac dev0 s d) (mkGR true true true).
Proof.
  intros Hb Hrow Hind Hlive Hfresh. pose proof Hb as [A B C D E F G H I].
  destruct (c_act c) as [a|] eqn:Ea; [|destruct I as [I _]; congruence]. destruct I as (I1 & I2 & I3 & I4).
  rewrite (process_pac_ru c a d B Ea Hrow). unfold pac. rewrite D. cbn [v_base15 dev0]. rewrite Hrow.
  replace (Z.max 15 n) with 15 by lia.
  set (a' := match p_begin a with None => set_begin a (Some (c_tc c)) | Some _ => a end).
  assert (Hpm' : @para_mem sRollUp a' (disp s) all_rows) by (apply (para_mem_meta a); [exact I2|unfold a'; destruct (p_begin a); reflexivity..]).
  assert (Hct' : contig n a') by (unfold a'; destruct (p_begin a); exact I3).
  destruct (contig_at_15 n a' Hct') as (l15 & Hl15).
  assert (Hemp : line_is_empty l15 = true).
  { unfold line_is_empty. apply Z.eqb_eq. apply (I4 Hfresh). unfold a' in Hl15. destruct (p_begin a); exact Hl15. }
  set (ind0 := if d_indent d =? -1 then 0 else d_indent d).
  assert (Hind0 : 0 <= ind0 <= 28) by (unfold ind0; destruct Hind as [->|Hi]; [cbn; lia|destruct (d_indent d =? -1); lia]).
  destruct (para_mem_refresh a' (disp s) all_rows 15 l15 ind0 Hpm' (proj1 Hct') Hl15 Hemp in_rows_15 ltac:(lia)) as (R0 & R1 & R2).
  destruct (pm_line _ _ _ Hpm' 15 l15 Hl15) as (Hrow15 & _).
  rewrite (set_cursor_at_fresh a' 15 l15 15 (d_indent d) (proj1 Hct') Hl15 Hrow15 R0). fold ind0.
  destruct (para_newtext _ _ all_rows 15 ind0 _ [] _ R1 R2 in_rows_15) as (N1 & N2 & N3 & N4 & N5). rewrite N1.
  split; [|split; [|repeat split]].
  - eapply (Rub_upd n c s g); try reflexivity; try eassumption.
    + cbn [md crow nond set_pos set_disp set_pen]. now rewrite F.
    + cbn [disp crow set_pos set_disp set_pen]. rewrite F. apply move_same_wf, H.
    + apply (para_mem_eqv _ _ _ _ N2). intros r k Hr Hk. cbn [disp crow set_pos set_disp set_pen]. rewrite F, mcell_move_same by exact Hr.
      exact (trim_eqv n a' _ all_rows Hpm' Hct' r k Hr Hk).
    + apply contig_put_line, contig_at_fresh; [exact Hct'|apply (pm_nodup _ _ _ Hpm')].
    + intros _ l Hl. rewrite dget_put_line, Z.eqb_refl in Hl. injection Hl as <-. rewrite N5. reflexivity.
  - intros _. split; [cbn [ccol set_pos]; lia|]. eexists _, _, _, _. split; [reflexivity|]. split; [exact N3|].
    split; [reflexivity|]. split; [left; split; [reflexivity|constructor]|]. intros _. left. rewrite N5. reflexivity.
Qed.

Lemma ru_midrow n c s g d : Rub n c s g -> Rupos c s -> ccol s + 1 <= 31 ->
  (if d_italic d then d_color d =? -1 else negb (d_color d =? -1)) = true ->
  acts n c s (process_mid_row c d) (midrow dev0 s d) (mkGR true false (gr_live g)).
Proof.
  intros Hb (Hcol & a & l & ts & t & Ha & Hat & (He1 & He2 & He5)) Hlen Htab. pose proof Hb as [A B C D E F G H I].
  rewrite Ha in I. destruct I as (I1 & I2 & I3 & I4).
  assert (Hlen1 : ccol s + zlen [32] <= 31) by exact Hlen.
  destruct (puts_ru_proj s n [32] D Hlen1) as (P1 & P2 & P3 & P4 & P5 & P6 & P7 & P8 & P9 & P10 & P11). rewrite F in P8.
  set (newpen := penview (if d_color d =? -1 then c_color c else d_color d) (d_italic d) (d_under d)).
  destruct (para_mid a (disp s) all_rows 15 (ccol s) l ts t (d_under d) (c_prev_type c =? cMidRow) newpen (pen_cell s)
              I2 Hat in_rows_15 (proj1 Hcol) Hlen (proj1 H) eq_refl He1) as (M1 & Mrows & l2 & ts2 & t2 & M2 & M3).
  rewrite (process_mid_row_cap c a d (or_intror B) (cap_ru c a B Ha)), (upd_cap_ru c a _ B Ha) by (rewrite (pm_style _ _ _ M1); discriminate).
  unfold midrow. change (put s 32) with (puts s [32]).
  assert (Hpen : newpen = (if d_italic d then pcol (puts s [32]) else d_color d, d_italic d, d_under d)) by (rewrite P2; exact (midrow_pen c s d G Htab)).
  match goal with |- acts _ _ _ _ ?s1 _ =>
    assert (Es1 : md s1 = RollUp n /\ (pcol s1, pita s1, pund s1) = newpen /\ nond s1 = nond s /\ disp s1 = disp (puts s [32]) /\
                  crow s1 = crow s /\ ccol s1 = ccol s + 1 /\ last s1 = last s /\ chan s1 = chan s)
      by (rewrite Hpen; destruct (d_italic d); repeat split; assumption)
  end.
  destruct Es1 as (T1 & T2 & T3 & T4 & T5 & T6 & T7 & T8).
  split; [|split; [|repeat split; assumption]].
  - eapply (Rub_upd n c s g); try reflexivity; try eassumption; try congruence.
    + unfold pen_of. cbn [c_color c_italic c_under with_attrs]. now rewrite T2.
    + rewrite T4, P8. apply write_cells_wf, H.
    + exact (contig_from_at n a _ _ _ _ _ _ _ _ _ I3 Hat M2 Mrows).
    + discriminate.
  - intros _. split; [rewrite T6; lia|]. eexists _, l2, ts2, t2. split; [reflexivity|]. rewrite T6. split; [exact M2|exact M3].
Qed.

Lemma ru_to n c s g k : Rub n c s g -> Rupos c s -> kTO1 <= k <= kTO1 + 2 -> ccol s + (k - kTO1 + 1) <= 31 ->
  acts n c s (process_control c k) (control dev0 s k) (mkGR true false (gr_live g)).
Proof.
  intros Hb (Hcol & a & l & ts & t & Ha & Hat & (He1 & He2 & He5)) Hk Hlen. pose proof Hb as [A B C D E F G H I].
  rewrite Ha in I. destruct I as (I1 & I2 & I3 & I4).
  rewrite (process_control_to c k Hk), (cap_ru c a B Ha), (upd_cap_ru c a _ B Ha), (control_to s k Hk).
  set (m := k - kTO1 + 1) in *. assert (Hm : 0 < m) by (unfold m; lia). replace (Z.min 31 (ccol s + m)) with (ccol s + m) by lia.
  destruct (para_tab a (disp s) all_rows 15 (ccol s) l ts t m (pen_of c) I2 Hat in_rows_15 Hm Hlen He1 He2 He5)
    as (T1 & Trows & l2 & ts2 & t2 & T2 & T3 & T4 & T5).
  split; [|split; [|repeat split]].
  - eapply (Rub_upd n c s g); try reflexivity; try eassumption; [apply H|exact (contig_from_at n a _ _ _ _ _ _ _ _ _ I3 Hat T2 Trows)|discriminate].
  - intros _. split; [cbn [ccol set_pos]; lia|]. eexists _, l2, ts2, t2. split; [reflexivity|]. split; [exact T2|]. split; [exact T3|split; [exact T4|exact T5]].
Qed.
Lemma ru_der n c s g : Rub n c s g -> Rupos c s -> acts n c s (process_control c kDER) (control dev0 s kDER) g.
Proof.
  intros Hb Hp. pose proof Hb as [A B C D E F G H I]. pose proof Hp as (Hcol & a & l & ts & t & Ha & Hat & Helt).
  rewrite Ha in I. destruct I as (I1 & I2 & I3 & I4).
  destruct (para_der _ _ _ _ _ _ _ _ I2 Hat in_rows_15 (proj1 H) (proj1 Hcol)) as (Q1 & Q2 & Q3).
  rewrite process_control_der, (cap_ru c a B Ha), (upd_cap_ru c a _ B Ha), Q1, control_der. unfold set_cur_mem, cur_mem. rewrite D, F.
  split; [|split; [|repeat split]].
  - eapply (Rub_upd n c s g); try reflexivity; eassumption.
  - intros _. split; [exact Hcol|]. exists a, l, ts, t. split; [reflexivity|]. split; [exact Hat|exact Helt].
Qed.

Lemma core_back_ru n c s g : Rub n c s g -> Rupos c s -> 1 <= ccol s -> is_blank (mcell (disp s) (crow s) (ccol s - 1)) = false ->
  Rub n (backspace c) (back s) (mkGR true false (gr_live g)) /\ Rupos_w (backspace c) (back s) /\ c_chan (backspace c) = c_chan c /\
  last (back s) = last s /\ chan (back s) = chan s /\ ccol (back s) = ccol s - 1.
Proof.
  intros Hb (Hcol & a & l & ts & t & Ha & Hat & Helt) Hc1 Hnb.
  pose proof Hb as [A B C D E F G H I]. rewrite Ha in I. destruct I as (I1 & I2 & I3 & I4).
  rewrite (backspace_is c a (cap_ru c a B Ha)), (upd_cap_ru c a _ B Ha), (back_ru s n D) by lia. rewrite F in *.
  destruct (para_back_elt _ _ _ _ _ _ _ _ (pen_of c) I2 Hat in_rows_15 (proj1 H) ltac:(lia) Hnb Helt) as (Q1 & Qrows & l2 & ts2 & t2 & Q2 & Q3).
  split; [|split; [|repeat split]].
  - eapply (Rub_upd n c s g); try reflexivity; try eassumption;
      [cbn [md crow nond set_pos set_disp]; now rewrite F|apply mem_wf_cell_set, H|exact (contig_from_at n a _ _ _ _ _ _ _ _ _ I3 Hat Q2 Qrows)|discriminate].
  - split; [cbn [ccol set_pos]; lia|]. exists (para_backspace a), l2, ts2, t2. cbn [c_act with_act ccol set_pos]. split; [reflexivity|]. split; [exact Q2|exact Q3].
Qed.
Lemma ru_extended n c s g ch : Rub n c s g -> Rupos c s -> 1 <= ccol s -> is_blank (mcell (disp s) (crow s) (ccol s - 1)) = false ->
  acts n c s (process_text (backspace c) [ch]) (put (back s) ch) (mkGR true false (gr_live g)).
Proof.
  intros Hb Hp Hc1 Hnb. destruct (core_back_ru n c s g Hb Hp Hc1 Hnb) as (B1 & B2 & B3 & B4 & B5 & B6).
  assert (Hlen1 : ccol (back s) + zlen [ch] <= 31) by (rewrite B6; destruct Hp as (Hcol & _); unfold zlen; cbn [length]; lia).
  destruct (core_write_ru n (backspace c) (back s) _ [ch] B1 B2 ltac:(discriminate) Hlen1) as (R1 & R2 & R3 & R4 & R5).
  change (put (back s) ch) with (puts (back s) [ch]). split; [exact R1|]. split; [exact R2|]. repeat split; congruence.
Qed.

Lemma ru_edm n c s g : Rub n c s g -> acts n c s (process_control c kEDM) (control dev0 s kEDM) (mkGR false false false).
Proof.
  intros [A B C D E F G H I]. destruct (edm_proj c) as (X1 & X2 & X3 & X4 & X5 & _ & X7 & X6 & X8).
  change (control dev0 s kEDM) with (set_disp s mem0). set (X := process_control c kEDM) in *.
  split; [|split; [discriminate|repeat split; assumption]]. split; try assumption; try congruence.
  - unfold pen_of in *. cbn [pcol pita pund set_disp]. congruence.
  - split; [apply mem_wf_mem0|apply H].
  - rewrite X8. split; [reflexivity|]. intros r k. cbn. rewrite mcell_mem0. reflexivity.
Qed.

Definition ru_depth (k : Z) : Z := k - kRU2 + 2.
Lemma process_control_ru c k : kRU2 <= k <= kRU4 ->
  process_control c k =
  let c1 := with_depth (with_style c sRollUp) (ru_depth k) in
  match c_act c1 with
  | Some _ => c1
  | None => sync_acur (upd_act (new_active_caption c1 (c_tc c) sRollUp) (fun a =>
              new_caption_text (new_caption_line (set_cursor_at (set_pstyle a sRollUp) roll_up_base_row 0))))
  end.
Proof. intros H. assert (Hk : k = 5 \/ k = 6 \/ k = 7) by (unfold kRU2, kRU4 in H; lia). destruct Hk as [->|[->| ->]]; reflexivity. Qed.
Lemma control_ru s n k : md s = RollUp n -> kRU2 <= k <= kRU4 ->
  control dev0 s k = set_md (set_disp s (trim_window (disp s) (crow s) (ru_depth k))) (RollUp (ru_depth k)).
Proof.
  intros Hm H. assert (Hk : k = 5 \/ k = 6 \/ k = 7) by (unfold kRU2, kRU4 in H; lia).
  destruct Hk as [->|[->| ->]]; unfold control; cbn [Z.eqb Z.leb Z.compare Pos.compare Pos.compare_cont kRCL kRDC kRU2 kRU4 andb]; now rewrite Hm.
Qed.
Lemma ru_ru_live n c s g k : Rub n c s g -> (gr_pos g = true -> Rupos c s) -> kRU2 <= k <= kRU4 -> ru_depth k = n -> gr_live g = true ->
  acts n c s (process_control c k) (control dev0 s k) g.
Proof.
  intros Hb Hp Hk Hn Hlive. pose proof Hb as [A B C D E F G H I].
  destruct (c_act c) as [a|] eqn:Ea; [|destruct I as [I _]; congruence]. destruct I as (I1 & I2 & I3 & I4).
  rewrite (process_control_ru c _ Hk), (control_ru s n _ D Hk), Hn. cbv zeta. cbn [c_act with_depth with_style]. rewrite Ea, F.
  split; [|split; [|repeat split]].
  - eapply (Rub_upd n c s g); try reflexivity; try eassumption;
      [cbn [c_err c_style c_depth with_depth with_style]; congruence|cbn [md crow nond set_md set_disp]; congruence|now apply trim_wf, H|].
    apply (para_mem_eqv _ _ _ _ I2). intros r k' Hr Hkk. cbn [disp set_md set_disp]. rewrite mcell_trim by exact Hr. exact (trim_eqv n a _ all_rows I2 I3 r k' Hr Hkk).
  - intros Hg. now apply (Rupos_same c s _ _ (Hp Hg)).
Qed.

(* a new, empty roll-up caption on the base row (RUx when nothing is displayed; carriage return on an empty caption) *)
Lemma new_caption_line_same p r l : p_cursor p = (r, l_indent l) -> p_cur p = Att r -> dget r (p_lines p) = Some l -> l = line_new r (l_indent l) ->
  new_caption_line p = p.
Proof.
  intros Hcur Hc Hg Hl. unfold new_caption_line. rewrite Hcur. rewrite <- Hl. rewrite (dset_same r l _ Hg). rewrite <- Hc. destruct p; reflexivity.
Qed.
Lemma fresh_ru_caption x y m n ind pen : 2 <= n <= 4 -> (forall r c, is_blank (mcell m r c) = true) -> (if ind =? -1 then 0 else ind) = 0 ->
  let r := set_cursor_at (set_begin (set_id (para_new sRollUp) x) y) roll_up_base_row ind in
  @para_mem sRollUp r m all_rows /\ contig n r /\ base_empty r /\ para_at r 15 0 (line_new 15 0) [] text_new /\ elt_ok pen (line_new 15 0) text_new 0.
Proof.
  intros Hn Hm Hind. cbv zeta. set (a0 := set_begin (set_id (para_new sRollUp) x) y).
  assert (Hpm0 : @para_mem sRollUp a0 m []) by (apply (para_mem_meta (para_new sRollUp)); [now apply para_mem_new|reflexivity..]).
  destruct (para_mem_at_fresh a0 m [] 15 0 Hpm0 ltac:(intros []) in_rows_15 ltac:(lia)) as (r0 & l0 & Q1 & Q2 & Q3 & Q4 & Q5 & Q6).
  unfold roll_up_base_row. rewrite (set_cursor_at_fresh a0 r0 l0 15 ind Q1 Q2 Q3 Q4), Hind.
  set (q := at_fresh a0 r0 l0 15 0) in *.
  (* the only line of the new paragraph was its initial, empty line, which has been removed *)
  assert (Hkeys : forall r, dget r (p_lines q) <> None <-> r = 15).
  { intros r. unfold q, at_fresh. cbn [p_lines set_cur set_plines]. rewrite dget_dset. destruct (r =? 15) eqn:E; [split; [lia|discriminate]|].
    rewrite dget_fresh_lines by (apply (pm_nodup _ _ _ Hpm0)). injection Q1 as <-. cbn in Q2. injection Q2 as <-.
    cbn. destruct (r =? 0); (split; [intros H; now contradiction H|lia]). }
  split; [|split; [|split; [|split; [exact Q6|apply elt_ok_new]]]].
  - apply (para_mem_ext q m m [15] all_rows Q5); [reflexivity|]. intros z [<-|[]]. now apply in_all_rows.
  - split; [reflexivity|]. exists 15. split; [lia|]. intros r. rewrite Hkeys. lia.
  - intros l Hl. destruct Q6 as (_ & Qg & _). rewrite Qg in Hl. injection Hl as <-. reflexivity.
Qed.
Lemma new_ru_caption x y m n pen : 2 <= n <= 4 -> (forall r c, is_blank (mcell m r c) = true) ->
  let r := new_caption_text (new_caption_line (set_cursor_at (set_pstyle (set_begin (set_id (para_new sRollUp) x) y) sRollUp) roll_up_base_row 0)) in
  @para_mem sRollUp r m all_rows /\ contig n r /\ base_empty r /\ exists l, para_at r 15 0 l [text_new] text_new /\ elt_ok pen l text_new 0.
Proof.
  intros Hn Hm. cbv zeta. change (set_pstyle (set_begin (set_id (para_new sRollUp) x) y) sRollUp) with (set_begin (set_id (para_new sRollUp) x) y).
  destruct (fresh_ru_caption x y m n 0 pen Hn Hm eq_refl) as (F1 & F2 & F3 & F4 & _). set (q := set_cursor_at _ _ 0) in *.
  pose proof F4 as (Qc & Qg & Ql & Qr & Qcur & Qcol).
  rewrite (new_caption_line_same q 15 (line_new 15 0) Qcur Qc Qg eq_refl).
  destruct (para_newtext q m all_rows 15 0 _ [] _ F1 F4 in_rows_15) as (N1 & N2 & N3 & N4 & N5). rewrite N1.
  split; [exact N2|]. split; [now apply contig_put_line|]. split.
  - intros l Hl. rewrite dget_put_line, Z.eqb_refl in Hl. injection Hl as <-. rewrite N5. reflexivity.
  - eexists. split; [exact N3|]. split; [reflexivity|]. split; [left; split; [reflexivity|constructor]|]. intros _. left. rewrite N5. reflexivity.
Qed.
