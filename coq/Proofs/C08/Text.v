(* C08: characters accumulate in the order received, and a backspace / extended character replaces the preceding
   character — on the model, for every caption whose cursor is at the end of its current row (the situation of all
   three protocols while a row is being written).  The file starts with what the other files need about lists and
   dictionaries (dget / dset / ddel). *)
From Coq Require Import QArith.
From TT Require Import Base.Prelude Base.SccTypes Base.SccDoc Gen.SccTables Model.SccWord Model.TimeCode Model.SccReader.
Open Scope Z_scope.

Definition line_text (l : cline) : text := flat_map t_text (l_texts l).
Fixpoint sum_len (ts : list ctext) : Z := match ts with [] => 0 | t :: ts' => text_len t + sum_len ts' end.
Lemma line_length_sum l : line_length l = sum_len (l_texts l).
Proof. unfold line_length. induction (l_texts l); cbn; [reflexivity|]. now rewrite IHl0. Qed.
Lemma sum_len_nonneg ts : 0 <= sum_len ts.
Proof. induction ts; cbn; [lia|]. unfold text_len, zlen. lia. Qed.
Lemma sum_len_app ts us : sum_len (ts ++ us) = sum_len ts + sum_len us.
Proof. induction ts; cbn; [reflexivity|]. rewrite IHts. lia. Qed.
Lemma sum_len_flat ts : sum_len ts = zlen (flat_map t_text ts).
Proof. induction ts as [|t ts IH]; cbn; [reflexivity|]. unfold zlen in *. rewrite app_length, Nat2Z.inj_add, <- IH. reflexivity. Qed.
Lemma line_length_text l : line_length l = zlen (line_text l).
Proof. rewrite line_length_sum. apply sum_len_flat. Qed.

Lemma upd_nth_last {A} (f : A -> A) ts t : upd_nth (length ts) f (ts ++ [t]) = ts ++ [f t].
Proof. induction ts as [|x ts IH]; cbn; [reflexivity|]. now rewrite IH. Qed.
Lemma nth_last {A} ts (t d : A) : nth (length ts) (ts ++ [t]) d = t.
Proof. induction ts; cbn; auto. Qed.
Lemma firstn_zlen {A} (l : list A) : firstn (Z.to_nat (zlen l)) l = l.
Proof. unfold zlen. rewrite Nat2Z.id. apply firstn_all. Qed.
Lemma removelast_len {A} (l : list A) : l <> [] -> zlen (removelast l) = zlen l - 1.
Proof.
  intros H. destruct (exists_last H) as (l' & x & ->). rewrite removelast_last. unfold zlen. rewrite app_length. cbn. lia.
Qed.

Lemma dget_dset_same {A} k (v : A) d : dget k (dset k v d) = Some v.
Proof. induction d as [|[k' v'] d IH]; cbn; [now rewrite Z.eqb_refl|]. destruct (k =? k') eqn:E; cbn; [now rewrite Z.eqb_refl|now rewrite E]. Qed.
Lemma dget_ddel_nodup {A} k (d : list (Z * A)) : NoDup (map fst d) -> dget k (ddel k d) = None.
Proof.
  induction d as [|[k' v] d IH]; cbn; [reflexivity|]. intros H. inversion H; subst.
  destruct (k =? k') eqn:E.
  - apply Z.eqb_eq in E. subst k'. clear IH H. induction d as [|[k2 v2] d IH]; cbn; [reflexivity|].
    destruct (k =? k2) eqn:E2; [apply Z.eqb_eq in E2; subst; exfalso; apply H2; now left|].
    apply IH; [intros Hin; apply H2; now right|]. inversion H3; assumption.
  - cbn. rewrite E. now apply IH.
Qed.
Lemma dset_keys_present {A} k (v x : A) d : dget k d = Some x -> map fst (dset k v d) = map fst d.
Proof.
  induction d as [|[k' v'] d IH]; cbn; [discriminate|]. destruct (k =? k') eqn:E; cbn; [intros _; apply Z.eqb_eq in E; now subst|].
  intros H. now rewrite IH.
Qed.
Lemma dget_dset {A} k k' (v : A) d : dget k (dset k' v d) = if k =? k' then Some v else dget k d.
Proof.
  destruct (k =? k') eqn:E.
  - assert (k = k') by lia. subst. apply dget_dset_same.
  - induction d as [|[k2 v2] d IH]; cbn.
    + now rewrite E.
    + destruct (k' =? k2) eqn:E2; cbn.
      * assert (k' = k2) by lia. subst. rewrite E. reflexivity.
      * destruct (k =? k2); [reflexivity|exact IH].
Qed.
Lemma dget_ddel_other {A} k k' (d : list (Z * A)) : k <> k' -> dget k (ddel k' d) = dget k d.
Proof.
  intros Hn. induction d as [|[k2 v2] d IH]; cbn; [reflexivity|].
  destruct (k' =? k2) eqn:E2; cbn.
  - assert (k' = k2) by lia. subst. destruct (k =? k2) eqn:E; [lia|reflexivity].
  - destruct (k =? k2); [reflexivity|exact IH].
Qed.
Lemma dget_ddel {A} k k' (d : list (Z * A)) : NoDup (map fst d) -> dget k (ddel k' d) = if k =? k' then None else dget k d.
Proof.
  intros Hn. destruct (k =? k') eqn:E.
  - assert (k = k') by lia. subst. now apply dget_ddel_nodup.
  - apply dget_ddel_other. lia.
Qed.
Lemma dget_in_keys {A} k (d : list (Z * A)) v : dget k d = Some v -> In k (map fst d).
Proof.
  induction d as [|[k2 v2] d IH]; cbn; [discriminate|]. destruct (k =? k2) eqn:E; [intros _; left; lia|intros H; right; auto].
Qed.
Lemma dget_none_keys {A} k (d : list (Z * A)) : dget k d = None -> ~ In k (map fst d).
Proof.
  induction d as [|[k2 v2] d IH]; cbn; [auto|]. destruct (k =? k2) eqn:E; [discriminate|]. intros H [H1|H1]; [lia|now apply IH].
Qed.
Lemma keys_dset_new {A} k (v : A) d : dget k d = None -> map fst (dset k v d) = map fst d ++ [k].
Proof.
  induction d as [|[k2 v2] d IH]; cbn; [reflexivity|]. destruct (k =? k2) eqn:E; [discriminate|]. intros H. cbn. now rewrite IH.
Qed.
Lemma keys_ddel_incl {A} k (d : list (Z * A)) : incl (map fst (ddel k d)) (map fst d).
Proof.
  induction d as [|[k2 v2] d IH]; cbn; [apply incl_refl|]. destruct (k =? k2); [apply incl_tl, incl_refl|].
  cbn. intros x [H|H]; [now left|right; now apply IH].
Qed.
Lemma nodup_ddel {A} k (d : list (Z * A)) : NoDup (map fst d) -> NoDup (map fst (ddel k d)).
Proof.
  induction d as [|[k2 v2] d IH]; cbn; [auto|]. intros H. inversion H; subst. destruct (k =? k2); [assumption|].
  cbn. constructor; [|auto]. intros Hin. apply H2. now apply (keys_ddel_incl k d).
Qed.
Lemma nodup_dset_new {A} k (v : A) d : dget k d = None -> NoDup (map fst d) -> NoDup (map fst (dset k v d)).
Proof. intros Hg Hn. rewrite keys_dset_new by exact Hg. apply nodup_snoc; [exact Hn|now apply dget_none_keys]. Qed.
Lemma dset_dset {A} k (v v' : A) d : dset k v (dset k v' d) = dset k v d.
Proof.
  induction d as [|[k2 v2] d IH]; cbn; [now rewrite Z.eqb_refl|].
  destruct (k =? k2) eqn:E; cbn; [now rewrite Z.eqb_refl|]. rewrite E. now rewrite IH.
Qed.
Lemma nodup_dset {A} k (v : A) d : NoDup (map fst d) -> NoDup (map fst (dset k v d)).
Proof.
  intros H. destruct (dget k d) as [x|] eqn:E; [rewrite (dset_keys_present k v x d E); exact H|now apply nodup_dset_new].
Qed.
Lemma dset_same {A} k (v : A) d : dget k d = Some v -> dset k v d = d.
Proof.
  induction d as [|[k2 v2] d IH]; cbn; [discriminate|]. destruct (k =? k2) eqn:E.
  - intros H. injection H as <-. assert (k = k2) by lia. subst. reflexivity.
  - intros H. now rewrite IH.
Qed.
Lemma len_dset {A} k (v : A) d : (length (dset k v d) <= length d + 1)%nat.
Proof. induction d as [|[k' v'] d IH]; cbn; [lia|]. destruct (k =? k'); cbn; lia. Qed.
Lemma len_dset_present {A} k (v x : A) d : dget k d = Some x -> length (dset k v d) = length d.
Proof. induction d as [|[k' v'] d IH]; cbn; [discriminate|]. destruct (k =? k'); cbn; [reflexivity|]. intros H. now rewrite IH. Qed.
Lemma len_ddel {A} k (d : list (Z * A)) : (length (ddel k d) <= length d)%nat.
Proof. induction d as [|[k' v'] d IH]; cbn; [lia|]. destruct (k =? k'); cbn; lia. Qed.
Lemma len_ddel_present {A} k (x : A) d : dget k d = Some x -> S (length (ddel k d)) = length d.
Proof. induction d as [|[k' v'] d IH]; cbn; [discriminate|]. destruct (k =? k'); cbn; [reflexivity|]. intros H. now rewrite IH. Qed.

Definition at_end (l : cline) : Prop :=
  exists ts t, l_texts l = ts ++ [t] /\ l_cur l = length ts /\ t_cur t = text_len t /\ l_cursor l = line_length l.

(* the loop of set_cursor stops in the last text when asked for the length of the row *)
Lemma sel_text_end ts : forall t idx, sel_text (ts ++ [t]) idx (sum_len ts + text_len t) = Some ((idx + length ts)%nat, text_len t).
Proof.
  induction ts as [|x ts IH]; intros t idx; cbn [app sel_text sum_len length is_nil].
  - rewrite Z.add_0_l, Z.ltb_irrefl, Z.eqb_refl. cbn. now rewrite Nat.add_0_r.
  - pose proof (sum_len_nonneg ts). assert (Ht : 0 <= text_len t) by (unfold text_len, zlen; lia).
    replace ((text_len x <? text_len x + sum_len ts + text_len t) || ((text_len x + sum_len ts + text_len t =? text_len x) && negb (is_nil (ts ++ [t]))))
      with true.
    + replace (text_len x + sum_len ts + text_len t - text_len x) with (sum_len ts + text_len t) by lia.
      rewrite IH. f_equal. f_equal. lia.
    + symmetry. destruct (text_len x <? text_len x + sum_len ts + text_len t) eqn:E; [reflexivity|].
      cbn [orb]. apply Z.ltb_ge in E. replace (text_len x + sum_len ts + text_len t =? text_len x) with true by (symmetry; apply Z.eqb_eq; lia).
      destruct ts; reflexivity.
Qed.
(* set_cursor(total length) on a line with at least one text element: the last element becomes the current one, its
   cursor is put at its end *)
Lemma line_set_cursor_total_eq l ts t : l_texts l = ts ++ [t] ->
  line_set_cursor l (line_length l) = mkL (l_row l) (l_indent l) (line_length l) (ts ++ [text_set_cur t (text_len t)]) (length ts).
Proof.
  intros Ets. unfold line_set_cursor. rewrite Z.ltb_irrefl.
  assert (Esel : sel_text (l_texts l) 0 (line_length l) = Some (length ts, text_len t)).
  { rewrite line_length_sum, Ets, sum_len_app. cbn [sum_len]. rewrite Z.add_0_r. apply sel_text_end. }
  rewrite Esel, Ets, upd_nth_last. reflexivity.
Qed.
Lemma line_set_cursor_total l ts t : l_texts l = ts ++ [t] ->
  at_end (line_set_cursor l (line_length l)) /\ line_text (line_set_cursor l (line_length l)) = line_text l /\
  l_indent (line_set_cursor l (line_length l)) = l_indent l /\ l_row (line_set_cursor l (line_length l)) = l_row l /\
  line_length (line_set_cursor l (line_length l)) = line_length l.
Proof.
  intros Ets. rewrite (line_set_cursor_total_eq l ts t Ets). cbn [l_indent l_row]. repeat split.
  - exists ts, (text_set_cur t (text_len t)). cbn [l_texts l_cur l_cursor]. repeat split.
    rewrite !line_length_sum. cbn [l_texts]. rewrite Ets, !sum_len_app. reflexivity.
  - unfold line_text. cbn [l_texts]. rewrite Ets, !flat_map_app. reflexivity.
  - rewrite !line_length_sum. cbn [l_texts]. rewrite Ets, !sum_len_app. reflexivity.
Qed.
Lemma text_append_end_eq t s : t_cur t = text_len t ->
  text_append t s = mkT (t_begin t) (t_text t ++ s) (text_len t + zlen s) (t_sty t).
Proof.
  intros H. unfold text_append. assert (H0 : 0 <= text_len t) by (unfold text_len, zlen; lia).
  rewrite H. destruct (text_len t <? 0) eqn:E; [lia|]. unfold py_to, py_from.
  destruct (0 <=? text_len t) eqn:E1; [|lia]. destruct (0 <=? text_len t + zlen s) eqn:E2; [|unfold zlen in *; lia].
  unfold text_len in *. rewrite firstn_zlen. rewrite skipn_all2 by (unfold zlen; lia). now rewrite app_nil_r.
Qed.
(* add_text(str) at the end of a row appends the characters and leaves the cursor at the end: the while loop is not entered
   (the current text is the last one), the remainder goes through _append_text *)
Lemma line_add_str_at l ts t s : l_texts l = ts ++ [t] -> l_cur l = length ts -> t_cur t = text_len t -> l_cursor l = line_length l -> s <> [] ->
  line_add_str l s = mkL (l_row l) (l_indent l) (line_length l + zlen s)
                         (ts ++ [mkT (t_begin t) (t_text t ++ s) (text_len t + zlen s) (t_sty t)]) (length ts).
Proof.
  intros Ets Ecur Etc Elc Hs.
  assert (Hlast : line_cur_is_last l = true).
  { unfold line_cur_is_last. rewrite Ets, Ecur, app_length. cbn [length]. rewrite Nat.add_1_r. apply Nat.eqb_refl. }
  unfold line_add_str. assert (Hloop : line_add_loop (2 * length s + 4) l s = (l, s)).
  { replace (2 * length s + 4)%nat with (S (2 * length s + 3)) by lia. cbn [line_add_loop]. rewrite Hlast. reflexivity. }
  rewrite Hloop. destruct s as [|ch s']; [contradiction|]. cbn [is_nil]. set (s := ch :: s') in *.
  unfold line_append_raw, line_upd_cur_text. cbn [l_row l_indent l_cursor l_texts l_cur].
  rewrite Ets, Ecur, upd_nth_last. rewrite (text_append_end_eq t s Etc).
  set (t' := mkT (t_begin t) (t_text t ++ s) (text_len t + zlen s) (t_sty t)).
  assert (Elen' : text_len t' = text_len t + zlen s) by (unfold t', text_len, zlen; cbn [t_text]; rewrite app_length; lia).
  pose proof (sum_len_nonneg (l_texts l)) as Hnn. rewrite <- line_length_sum, <- Elc in Hnn.
  replace (l_cursor l <? 0) with false by lia.
  set (l2 := mkL (l_row l) (l_indent l) (l_cursor l) (ts ++ [t']) (length ts)).
  assert (Elen2 : line_length l2 = l_cursor l + zlen s).
  { rewrite line_length_sum. unfold l2. cbn [l_texts]. rewrite sum_len_app. cbn [sum_len]. rewrite Elen'.
    rewrite Elc, line_length_sum, Ets, sum_len_app. cbn [sum_len]. lia. }
  rewrite <- Elen2, (line_set_cursor_total_eq l2 ts t' eq_refl), Elen2, Elc, Elen'. reflexivity.
Qed.
Lemma line_add_str_end l s : at_end l -> s <> [] -> at_end (line_add_str l s) /\ line_text (line_add_str l s) = line_text l ++ s /\
  l_indent (line_add_str l s) = l_indent l /\ l_row (line_add_str l s) = l_row l.
Proof.
  intros (ts & t & Ets & Ecur & Etc & Elc) Hs. rewrite (line_add_str_at l ts t s Ets Ecur Etc Elc Hs). cbn [l_indent l_row].
  repeat split.
  - eexists ts, _. cbn [l_texts l_cur l_cursor t_cur]. repeat split.
    + unfold text_len, zlen. cbn [t_text t_cur]. rewrite app_length. lia.
    + rewrite !line_length_sum. cbn [l_texts]. rewrite Ets, !sum_len_app. cbn [sum_len]. unfold text_len, zlen. cbn [t_text]. rewrite app_length. lia.
  - unfold line_text. cbn [l_texts]. rewrite Ets, !flat_map_app. cbn [flat_map t_text]. now rewrite !app_nil_r, app_assoc.
Qed.

(* a caption whose cursor is at the end of the row it is writing *)
Definition row_ready (p : para) : Prop :=
  exists r l, p_cur p = Att r /\ dget r (p_lines p) = Some l /\ at_end l /\ l_row l = r /\
              p_cursor p = (r, l_indent l + line_length l).
Definition row_text (p : para) : text := line_text (cur_line p).

Lemma cur_line_at p r l : p_cur p = Att r -> dget r (p_lines p) = Some l -> cur_line p = l.
Proof. intros Hc Hg. unfold cur_line. now rewrite Hc, Hg. Qed.
Lemma upd_cur_line_att p r l f : p_cur p = Att r -> dget r (p_lines p) = Some l ->
  upd_cur_line p f = set_plines p (dset r (f l) (p_lines p)).
Proof. intros Hc Hg. unfold upd_cur_line. now rewrite Hc, Hg. Qed.
(* a change of the current line that keeps its place, its length and its cursor at the end *)
Lemma upd_cur_line_ready p r l f : p_cur p = Att r -> dget r (p_lines p) = Some l -> l_row l = r ->
  p_cursor p = (r, l_indent l + line_length l) ->
  at_end (f l) -> l_row (f l) = l_row l -> l_indent (f l) = l_indent l -> line_length (f l) = line_length l ->
  row_ready (upd_cur_line p f) /\ row_text (upd_cur_line p f) = line_text (f l).
Proof.
  intros Hc Hg Hr Hcur He Er Ei El. rewrite (upd_cur_line_att p r l f Hc Hg). split.
  - exists r, (f l). split; [exact Hc|]. split; [apply dget_dset_same|]. split; [exact He|]. split; [now rewrite Er|].
    rewrite Ei, El. exact Hcur.
  - unfold row_text. now rewrite (cur_line_at (set_plines p (dset r (f l) (p_lines p))) r (f l) Hc (dget_dset_same _ _ _)).
Qed.
(* _update_current_line_cursor when the caption's cursor column is the end of the current line: no indent, no gap to
   fill, only the line's own cursor is set *)
Lemma update_line_cursor_eq q r l : p_cur q = Att r -> dget r (p_lines q) = Some l -> snd (p_cursor q) = l_indent l + line_length l ->
  update_line_cursor q = upd_cur_line q (fun l0 => line_set_cursor l0 (line_length l)).
Proof.
  intros Hc Hg Hcol. pose proof (sum_len_nonneg (l_texts l)) as Hnn. rewrite <- line_length_sum in Hnn.
  unfold update_line_cursor. cbv zeta. rewrite (cur_line_at q r l Hc Hg), Hcol.
  replace (l_indent l + line_length l - l_indent l) with (line_length l) by lia.
  replace (line_length l <? 0) with false by lia. now rewrite (cur_line_at q r l Hc Hg), Z.sub_diag.
Qed.
Lemma update_line_cursor_end q r l ts t : p_cur q = Att r -> dget r (p_lines q) = Some l -> l_texts l = ts ++ [t] ->
  p_cursor q = (r, l_indent l + line_length l) -> l_row l = r ->
  row_ready (update_line_cursor q) /\ row_text (update_line_cursor q) = line_text l.
Proof.
  intros Hc Hg Ets Hcur Hr. rewrite (update_line_cursor_eq q r l Hc Hg) by now rewrite Hcur.
  destruct (line_set_cursor_total l ts t Ets) as (He2 & Ht2 & Hi2 & Hr2 & Hl2).
  rewrite <- Ht2. now apply (upd_cur_line_ready q r l (fun l0 => line_set_cursor l0 (line_length l))).
Qed.

Definition writes (s : text) (f : para -> para) : Prop :=
  forall p, row_ready p -> row_ready (f p) /\ row_text (f p) = row_text p ++ s.
Lemma writes_comp s s' f g : writes s f -> writes s' g -> writes (s ++ s') (fun p => g (f p)).
Proof. intros Hf Hg p Hp. destruct (Hf p Hp) as [H1 H2]. destruct (Hg _ H1) as [H3 H4]. split; [exact H3|]. now rewrite H4, H2, app_assoc. Qed.
Lemma writes_then s f g : writes s f -> writes [] g -> writes s (fun p => g (f p)).
Proof. intros Hf Hg. rewrite <- (app_nil_r s). now apply writes_comp. Qed.

Lemma append_text_ready s : s <> [] -> writes s (fun p => append_text p s).
Proof.
  intros Hs p (r & l & Hc & Hg & He & Hr & Hcur).
  destruct (line_add_str_end l s He Hs) as (He1 & Ht1 & Hi1 & Hr1). set (l1 := line_add_str l s) in *.
  assert (Hlen1 : line_length l1 = line_length l + zlen s) by (rewrite !line_length_text, Ht1; unfold zlen; rewrite app_length; lia).
  unfold append_text. rewrite (upd_cur_line_att p r l _ Hc Hg). fold l1.
  unfold indent_cursor. cbn [p_cursor set_cursor set_plines fst snd]. rewrite Hcur. cbn [fst snd].
  set (q1 := set_cursor (set_plines p (dset r l1 (p_lines p))) (r, l_indent l + line_length l + zlen s)).
  assert (Hg1 : dget r (p_lines q1) = Some l1) by apply dget_dset_same.
  rewrite (cur_line_at q1 r l1 Hc Hg1).
  replace (line_is_empty l1) with false.
  2:{ symmetry. apply Z.eqb_neq. pose proof (sum_len_nonneg (l_texts l)). rewrite <- line_length_sum in *.
      destruct s; [contradiction|]. unfold zlen in Hlen1. cbn [length] in Hlen1. lia. }
  destruct He1 as (ts1 & t1 & Ets1 & _).
  destruct (update_line_cursor_end q1 r l1 ts1 t1 Hc Hg1 Ets1) as [H1 H2]; [cbn; f_equal; lia|now rewrite Hr1|].
  split; [exact H1|]. unfold row_text at 2. now rewrite H2, Ht1, (cur_line_at p r l Hc Hg).
Qed.
(* attributes and time stamps of the current text do not touch the characters *)
Lemma upd_cur_text_ready f : (forall t, t_text (f t) = t_text t /\ t_cur (f t) = t_cur t) -> writes [] (fun p => upd_cur_text p f).
Proof.
  intros Hf p (r & l & Hc & Hg & (ts & t & Ets & Ecur & Etc & Elc) & Hr & Hcur). destruct (Hf t) as [Hft Hfc].
  assert (E1 : l_texts (line_upd_cur_text l f) = ts ++ [f t]) by (cbn; rewrite Ets, Ecur; apply upd_nth_last).
  assert (Elen : line_length (line_upd_cur_text l f) = line_length l).
  { rewrite !line_length_sum, E1, Ets, !sum_len_app. cbn [sum_len]. unfold text_len. now rewrite Hft. }
  destruct (upd_cur_line_ready p r l (fun l => line_upd_cur_text l f) Hc Hg Hr Hcur) as [H1 H2]; try reflexivity; [|exact Elen|].
  - exists ts, (f t). split; [exact E1|]. split; [exact Ecur|]. split; [unfold text_len; now rewrite Hfc, Hft|now rewrite Elen].
  - split; [exact H1|]. unfold upd_cur_text. rewrite H2, app_nil_r. unfold row_text, line_text.
    rewrite (cur_line_at p r l Hc Hg), E1, Ets, !flat_map_app. cbn [flat_map]. now rewrite Hft.
Qed.
Lemma new_caption_text_ready : writes [] new_caption_text.
Proof.
  intros p (r & l & Hc & Hg & (ts & t & Ets & Ecur & Etc & Elc) & Hr & Hcur).
  assert (Elen : line_length (line_add_obj l text_new) = line_length l).
  { rewrite !line_length_sum. cbn [line_add_obj l_texts]. rewrite sum_len_app. cbn. lia. }
  destruct (upd_cur_line_ready p r l (fun l => line_add_obj l text_new) Hc Hg Hr Hcur) as [H1 H2]; try reflexivity; [|exact Elen|].
  - exists (l_texts l), text_new. cbn [line_add_obj l_texts l_cur l_cursor]. repeat split.
  - split; [exact H1|]. unfold new_caption_text. rewrite H2, app_nil_r. unfold row_text, line_text.
    rewrite (cur_line_at p r l Hc Hg). cbn [line_add_obj l_texts]. rewrite flat_map_app. cbn. now rewrite app_nil_r.
Qed.
Lemma writes_styled c s f : writes s f -> writes s (fun p => style_cur_text c (f p)).
Proof. intros H. apply (writes_then s f _ H), upd_cur_text_ready. intros; split; reflexivity. Qed.
Lemma writes_begun t s f : writes s f -> writes s (fun p => upd_cur_text (f p) (fun x => text_set_begin x t)).
Proof. intros H. apply (writes_then s f (fun q => upd_cur_text q _) H), upd_cur_text_ready. intros; split; reflexivity. Qed.

Lemma p_style_upd_cur_line p f : p_style (upd_cur_line p f) = p_style p.
Proof. unfold upd_cur_line. destruct (p_cur p); [destruct (dget _ _)|]; reflexivity. Qed.
Lemma p_style_update_line_cursor q : p_style (update_line_cursor q) = p_style q.
Proof.
  unfold update_line_cursor. rewrite p_style_upd_cur_line.
  set (q1 := if _ <? 0 then _ else q).
  assert (E1 : p_style q1 = p_style q) by (unfold q1; destruct (_ <? 0); [apply p_style_upd_cur_line|reflexivity]).
  clearbody q1. destruct (0 <? _); [rewrite p_style_upd_cur_line|]; exact E1.
Qed.
Lemma p_style_append a w : p_style (append_text a w) = p_style a.
Proof.
  unfold append_text, indent_cursor.
  set (q := upd_cur_line a _). assert (Eq : p_style q = p_style a) by apply p_style_upd_cur_line. clearbody q.
  set (q1 := set_cursor q _). assert (E1 : p_style q1 = p_style a) by exact Eq. clearbody q1.
  destruct (line_is_empty _); [now rewrite p_style_upd_cur_line|now rewrite p_style_update_line_cursor].
Qed.
Lemma p_style_style_cur_text c p : p_style (style_cur_text c p) = p_style p.
Proof. apply p_style_upd_cur_line. Qed.
Lemma p_style_set_cursor_at p row ind : p_style (set_cursor_at p row ind) = p_style p.
Proof.
  unfold set_cursor_at.
  set (p1 := match dget _ (p_lines p) with Some l => _ | None => p end).
  assert (E1 : p_style p1 = p_style p). { unfold p1. destruct (dget _ _); [|reflexivity]. destruct (line_is_empty _); reflexivity. }
  clearbody p1. set (p2 := set_cursor p1 _). assert (E2 : p_style p2 = p_style p) by exact E1. clearbody p2.
  set (p3 := match dget row (p_lines p2) with None => _ | Some _ => p2 end).
  assert (E3 : p_style p3 = p_style p). { unfold p3. destruct (dget row _); [exact E2|]. unfold new_caption_line. destruct (p_cursor p2). exact E2. }
  clearbody p3. destruct (ind =? -1); [exact E3|]. rewrite p_style_update_line_cursor. exact E3.
Qed.

(* the caption characters are written to, by style *)
Definition target (c : ctx) : option para := if c_style c =? sPopOn then Some (c_buf c) else c_act c.
Definition target_ready (c : ctx) : Prop := match target c with Some p => row_ready p | None => False end.
Definition target_text (c : ctx) : text := match target c with Some p => row_text p | None => [] end.
Lemma target_sync_acur c : target (sync_acur c) = target c.
Proof. unfold sync_acur. destruct (c_act c) eqn:E; reflexivity. Qed.
Lemma target_upd_cap c f p : target c = Some p -> target (upd_cap c f) = Some (f p) /\ c_style (upd_cap c f) = c_style c.
Proof.
  unfold target, upd_cap. destruct (c_style c =? sPopOn) eqn:E.
  - intros H; inversion H; subst. cbn [c_style c_buf with_buf]. rewrite E. split; reflexivity.
  - intros H. unfold upd_act. rewrite H. cbn [c_style c_act with_act]. rewrite E. split; reflexivity.
Qed.
(* the caption being processed is the buffer in pop-on style, the displayed caption in roll-up style *)
Lemma cap_pop c : c_style c = sPopOn -> cap_to_process c = Some (c_buf c).
Proof. intros H. unfold cap_to_process. rewrite H. reflexivity. Qed.
Lemma upd_cap_pop c f : c_style c = sPopOn -> upd_cap c f = with_buf c (f (c_buf c)).
Proof. intros H. unfold upd_cap. rewrite H. reflexivity. Qed.
Lemma cap_ru c a : c_style c = sRollUp -> c_act c = Some a -> cap_to_process c = Some a.
Proof. intros H Ha. unfold cap_to_process. rewrite H. exact Ha. Qed.
Lemma upd_cap_ru c a f : c_style c = sRollUp -> c_act c = Some a -> upd_cap c f = with_act c (Some (f a)).
Proof. intros H Ha. unfold upd_cap, upd_act. rewrite H, Ha. reflexivity. Qed.
Lemma process_text_cap c p word : c_style c = sPopOn \/ c_style c = sRollUp -> cap_to_process c = Some p ->
  process_text c word = sync_acur (upd_cap c (fun a => style_cur_text c (append_text a word))).
Proof.
  unfold cap_to_process, process_text, upd_cap. intros [H|H] Hp; rewrite H in *; [reflexivity|].
  cbn [Z.eqb sPopOn sRollUp sPaintOn Pos.eqb] in *. rewrite Hp. reflexivity.
Qed.
(* outside pop-on style upd_act is upd_cap *)
Lemma target_upd_act c f p : (c_style c =? sPopOn) = false -> target c = Some p ->
  target (upd_act c f) = Some (f p) /\ c_style (upd_act c f) = c_style c.
Proof. intros Hs H. pose proof (target_upd_cap c f p H) as H1. unfold upd_cap in H1. now rewrite Hs in H1. Qed.
Lemma upd_act_twice c f g : upd_act (upd_act c f) g = upd_act c (fun a => g (f a)).
Proof. unfold upd_act. destruct (c_act c) eqn:E; cbn [c_act with_act]; [destruct c; reflexivity|now rewrite E]. Qed.
Lemma writes_target c c' p f s : target c = Some p -> row_ready p -> writes s f -> target c' = Some (f p) ->
  target_ready c' /\ target_text c' = target_text c ++ s.
Proof. intros Hc Hp Hf Hc'. unfold target_ready, target_text. rewrite Hc, Hc'. exact (Hf p Hp). Qed.

(* text accumulates as received: in pop-on style (buffer), in roll-up style and in paint-on style (displayed caption,
   paint-on styled), a run of characters is appended to the row being written *)
Lemma text_accumulates c word :
  (c_style c = sPopOn \/ c_style c = sRollUp \/ (c_style c = sPaintOn /\ exists a, c_act c = Some a /\ p_style a = sPaintOn)) ->
  target_ready c -> word <> [] ->
  target_ready (process_text c word) /\ target_text (process_text c word) = target_text c ++ word.
Proof.
  intros Hst Hr Hw. pose proof (append_text_ready word Hw) as Wa.
  assert (Ws : forall c', writes word (fun a => style_cur_text c' (append_text a word)))
    by (intros c'; apply writes_styled, Wa).
  unfold target_ready in Hr. destruct (target c) as [p|] eqn:Et; [|contradiction].
  (* outside pop-on style the word goes through upd_act on the displayed caption, and the current style is applied last *)
  assert (Hact : (c_style c =? sPopOn) = false -> forall f, writes word f ->
            target_ready (sync_acur (upd_act c f)) /\ target_text (sync_acur (upd_act c f)) = target_text c ++ word).
  { intros Hs f Wf. apply (writes_target c _ p f word Et Hr Wf). rewrite target_sync_acur. now apply target_upd_act. }
  assert (Hcap : c_style c = sPopOn \/ c_style c = sRollUp ->
            target_ready (process_text c word) /\ target_text (process_text c word) = target_text c ++ word).
  { intros Hs. rewrite (process_text_cap c p word Hs Et). apply (writes_target c _ p _ word Et Hr (Ws c)).
    rewrite target_sync_acur. exact (proj1 (target_upd_cap c _ p Et)). }
  destruct Hst as [Hs|[Hs|(Hs & a & Ha & Hpa)]]; [apply Hcap; now left|apply Hcap; now right|].
  unfold process_text. rewrite Hs. cbn [Z.eqb sPopOn sRollUp sPaintOn Pos.eqb].
  assert (Hs' : (c_style c =? sPopOn) = false) by now rewrite Hs.
  assert (Ep : p = a) by (unfold target in Et; rewrite Hs', Ha in Et; congruence). subst p. rewrite Ha. cbv zeta. cbv beta iota. rewrite Ha, Hpa. cbn [negb Z.eqb sPaintOn Pos.eqb].
  assert (E2 : c_act (upd_act c (fun a0 => style_cur_text c (append_text a0 word))) = Some (style_cur_text c (append_text a word)))
    by (unfold upd_act; now rewrite Ha).
  rewrite E2, p_style_style_cur_text, p_style_append, Hpa. cbn [negb Z.eqb sPaintOn Pos.eqb].
  destruct (starts_with_space word); [|destruct (ends_with_space word)]; rewrite ?upd_act_twice; apply (Hact Hs').
  - apply writes_styled, writes_begun. exact (writes_comp [] word _ _ new_caption_text_ready Wa).
  - apply writes_styled, writes_begun. exact (writes_then _ _ _ (Ws c) new_caption_text_ready).
  - apply writes_styled, Wa.
Qed.

(* the cursor is at the end of a row whose last text element holds at least one character *)
Definition row_ready_ne (p : para) : Prop :=
  exists r l ts t, p_cur p = Att r /\ dget r (p_lines p) = Some l /\ l_texts l = ts ++ [t] /\ l_cur l = length ts /\
    t_text t <> [] /\ t_cur t = text_len t /\ l_row l = r /\ p_cursor p = (r, l_indent l + line_length l) /\
    0 <= l_indent l /\ NoDup (map fst (p_lines p)).
(* the caption part of SccContext.backspace *)
Definition para_backspace (p : para) : para :=
  let p1 := upd_cur_text p text_backspace in
  set_cursor_at p1 (fst (p_cursor p1)) (Z.max (snd (p_cursor p1) - 1) 0).
Lemma para_backspace_ready p : row_ready_ne p -> row_ready (para_backspace p) /\ row_text (para_backspace p) = removelast (row_text p).
Proof.
  intros (r & l & ts & t & Hc & Hg & Ets & Ecur & Hne & Etc & Hr & Hcur & Hind & Hnd).
  set (l1 := line_upd_cur_text l text_backspace).
  assert (E1 : l_texts l1 = ts ++ [text_backspace t]) by (cbn; rewrite Ets, Ecur; apply upd_nth_last).
  assert (Etext1 : line_text l1 = removelast (line_text l)).
  { unfold line_text. rewrite E1, Ets, !flat_map_app. cbn [flat_map]. rewrite !app_nil_r. symmetry. now apply removelast_app. }
  assert (Hne1 : line_text l <> []).
  { unfold line_text. rewrite Ets, flat_map_app. cbn [flat_map]. rewrite app_nil_r. intros E. now apply app_eq_nil in E. }
  assert (EL1 : line_length l1 = line_length l - 1) by (rewrite !line_length_text, Etext1; now apply removelast_len).
  assert (HL : 1 <= line_length l) by (rewrite line_length_text; unfold zlen; destruct (line_text l); [contradiction|cbn [length]; lia]).
  unfold row_text at 2. rewrite (cur_line_at p r l Hc Hg), <- Etext1.
  unfold para_backspace, upd_cur_text. rewrite (upd_cur_line_att p r l _ Hc Hg). fold l1.
  set (p1 := set_plines p (dset r l1 (p_lines p))).
  change (p_cursor p1) with (p_cursor p). rewrite Hcur. cbn [fst snd].
  replace (Z.max (l_indent l + line_length l - 1) 0) with (l_indent l + line_length l - 1) by lia.
  set (c' := l_indent l + line_length l - 1).
  assert (Hg1 : dget r (p_lines p1) = Some l1) by apply dget_dset_same.
  unfold set_cursor_at. rewrite (cur_line_at p1 r l1 Hc Hg1). change (l_row l1) with (l_row l). rewrite Hr, Hg1.
  replace (c' =? -1) with false by (unfold c'; lia).
  destruct (line_is_empty l1) eqn:Hemp.
  - (* the row held one character: the line is removed and created again, empty *)
    assert (Hnodup : NoDup (map fst (p_lines p1))) by (unfold p1; cbn [p_lines set_plines]; rewrite (dset_keys_present r l1 l _ Hg); exact Hnd).
    set (p2 := set_cursor _ (r, c')).
    replace (dget r (p_lines p2)) with (@None cline) by (symmetry; now apply dget_ddel_nodup).
    destruct (update_line_cursor_end (set_cur (new_caption_line p2) (Att r)) r (line_new r c') [] text_new) as [H1 H2]; try reflexivity.
    + unfold new_caption_line. change (p_cursor p2) with (r, c'). apply dget_dset_same.
    + unfold new_caption_line. change (p_cursor p2) with (r, c'). cbn. f_equal. lia.
    + split; [exact H1|]. rewrite H2. apply Z.eqb_eq in Hemp. rewrite line_length_text in Hemp.
      destruct (line_text l1); [reflexivity|discriminate].
  - (* otherwise the line cursor moves to the new end of the row *)
    set (p2 := set_cursor (set_cur p1 (Att r)) (r, c')). change (dget r (p_lines p2)) with (dget r (p_lines p1)). rewrite Hg1.
    apply (update_line_cursor_end (set_cur p2 (Att r)) r l1 ts (text_backspace t)); try reflexivity; try assumption.
    cbn [p_cursor p2 set_cur set_cursor]. f_equal. unfold c'. change (l_indent l1) with (l_indent l). lia.
Qed.
Lemma p_style_para_backspace p : p_style (para_backspace p) = p_style p.
Proof. unfold para_backspace. rewrite p_style_set_cursor_at. unfold upd_cur_text. apply p_style_upd_cur_line. Qed.
Lemma backspace_is c p : target c = Some p -> backspace c = upd_cap c para_backspace.
Proof. intros H. unfold backspace. change (cap_to_process c) with (target c). rewrite H. reflexivity. Qed.
(* backspace: the preceding character is removed and the cursor is at the end of the row again *)
Lemma backspace_removes_last c p : target c = Some p -> row_ready_ne p ->
  exists p', target (backspace c) = Some p' /\ row_ready p' /\ row_text p' = removelast (row_text p) /\
             c_style (backspace c) = c_style c /\ p_style p' = p_style p.
Proof.
  intros Ht Hr. rewrite (backspace_is c p Ht). destruct (target_upd_cap c para_backspace p Ht) as [E1 E2].
  destruct (para_backspace_ready p Hr) as [H1 H2].
  exists (para_backspace p). repeat split; try assumption. apply p_style_para_backspace.
Qed.
(* extended characters replace the preceding character: SccLine.process calls backspace() and then writes the character *)
Lemma extended_replaces c p ch : target c = Some p -> row_ready_ne p ->
  (c_style c = sPopOn \/ c_style c = sRollUp \/ (c_style c = sPaintOn /\ p_style p = sPaintOn)) ->
  target_ready (process_text (backspace c) [ch]) /\
  target_text (process_text (backspace c) [ch]) = removelast (row_text p) ++ [ch].
Proof.
  intros Ht Hr Hst. destruct (backspace_removes_last c p Ht Hr) as (p' & Ht' & Hr' & Htx & Hs' & Hps).
  assert (Hready : target_ready (backspace c)) by (unfold target_ready; now rewrite Ht').
  assert (Htext : target_text (backspace c) = removelast (row_text p)) by (unfold target_text; now rewrite Ht').
  rewrite <- Htext. apply text_accumulates; [|exact Hready|discriminate].
  rewrite Hs'. destruct Hst as [H|[H|[H1 H2]]]; [now left|right; now left|right; right].
  split; [exact H1|]. exists p'. split; [|now rewrite Hps].
  unfold target in Ht'. rewrite Hs', H1 in Ht'. exact Ht'.
Qed.
