(* C08: every time code stored by the reader (paragraph begin / end, span begin) is one of the stamps
   T+1 .. T+len+1 of the line being processed, whatever the words are.  The invariant is parametric in a
   predicate P on time codes: all stamps reachable in the state satisfy P provided the two values a step can
   introduce (the line's time code after add_frames, and one frame later for EDM) do.  The same pass over
   SccLine.process shows that a word touches neither the line's time code (but for add_frames) nor the
   exception flag; hence to_model raises exactly when a line is malformed.  Read as times, the stamps lie on the frame
   grid of their line, after the line's own time code, and none is negative. *)
From Coq Require Import QArith.
From TT Require Import Base.Prelude Base.SccTypes Base.SccDoc Gen.SccTables Model.SccWord Model.TimeCode Model.SccReader.
Open Scope Z_scope.

(* the test by which SccLine.process drops the second copy of a doubled code: the very term that `step` contains *)
Definition is_dup (c : ctx) (w : Z) : bool :=
  match c_prev c with Some pv => (pv =? value w) && is_code (pv / 256) | None => false end.

Lemma Forall_upd_nth {A} (Q : A -> Prop) f i (l : list A) : (forall x, Q x -> Q (f x)) -> Forall Q l -> Forall Q (upd_nth i f l).
Proof.
  intros Hf. revert i. induction l as [|x l IH]; intros i H; [destruct i; constructor|].
  inversion H; subst. destruct i; cbn; constructor; auto.
Qed.
Lemma Forall_nth_d {A} (Q : A -> Prop) (l : list A) i d : Q d -> Forall Q l -> Q (nth i l d).
Proof. intros Hd H. revert i. induction H; intros [|i]; cbn; auto. Qed.
Lemma fold_left_inv {A B} (Q : A -> Prop) (R : B -> Prop) (f : A -> B -> A) l :
  (forall a b, Q a -> R b -> Q (f a b)) -> Forall R l -> forall a, Q a -> Q (fold_left f l a).
Proof. intros Hf H. induction H; intros a Ha; cbn; auto. Qed.

Section Inv.
Variable P : tcv -> Prop.

Definition ot (o : option tcv) : Prop := match o with Some t => P t | None => True end.
Definition T_ok (t : ctext) : Prop := ot (t_begin t).
Definition L_ok (l : cline) : Prop := Forall T_ok (l_texts l).
Definition D_ok (d : list (Z * cline)) : Prop := Forall (fun kv => L_ok (snd kv)) d.
Definition K_ok (k : curline) : Prop := match k with Att _ => True | Det l => L_ok l end.
Definition P_ok (p : para) : Prop := ot (p_begin p) /\ ot (p_end p) /\ K_ok (p_cur p) /\ D_ok (p_lines p).
Definition Ch_ok (c : child) : Prop := match c with CBr => True | CSpan b _ _ => ot b end.
Definition O_ok (o : outp) : Prop := ot (o_begin o) /\ ot (o_end o) /\ Forall Ch_ok (o_children o).
Definition A_ok (a : option para) : Prop := match a with Some p => P_ok p | None => True end.
Definition C_ok (c : ctx) : Prop := P_ok (c_buf c) /\ A_ok (c_act c) /\ Forall O_ok (c_out c).

(* texts and lines: text_set_begin is the only operation that writes a stamp; append, backspace, the cursor and
   the style leave t_begin alone, so T_ok of their result is T_ok of their argument by computation *)
Lemma T_ok_new : T_ok text_new.  Proof. exact I. Qed.
Lemma T_ok_of s : T_ok (text_of s).  Proof. unfold text_of. destruct (is_nil s); exact I. Qed.

Lemma L_ok_new r i : L_ok (line_new r i).  Proof. repeat constructor. Qed.
Lemma L_ok_upd_cur_text l f : (forall t, T_ok t -> T_ok (f t)) -> L_ok l -> L_ok (line_upd_cur_text l f).
Proof. intros Hf H. unfold L_ok, line_upd_cur_text; cbn. now apply Forall_upd_nth. Qed.
Lemma L_ok_cur_text l : L_ok l -> T_ok (line_cur_text l).
Proof. apply Forall_nth_d. exact I. Qed.
Lemma L_ok_set_cursor l c : L_ok l -> L_ok (line_set_cursor l c).
Proof.
  intros H. unfold line_set_cursor. destruct (sel_text _ _ _) as [[i d]|]; [|exact H].
  apply Forall_upd_nth; [exact (fun _ Ht => Ht)|exact H].
Qed.
Lemma L_ok_append_raw l s : L_ok l -> L_ok (line_append_raw l s).
Proof. intros H. apply L_ok_set_cursor, (L_ok_upd_cur_text l); [exact (fun _ Ht => Ht)|exact H]. Qed.
Lemma L_ok_add_loop fuel : forall l rem, L_ok l -> L_ok (fst (line_add_loop fuel l rem)).
Proof.
  induction fuel as [|k IH]; intros l rem H; cbn [line_add_loop]; [exact H|].
  destruct (line_cur_is_last l || is_nil rem); [exact H|]. apply IH. now apply L_ok_append_raw.
Qed.
Lemma L_ok_add_str l s : L_ok l -> L_ok (line_add_str l s).
Proof.
  intros H. unfold line_add_str. pose proof (L_ok_add_loop (2 * length s + 4) l s H) as H1.
  destruct (line_add_loop _ l s) as [l1 rem]. destruct (is_nil rem); [exact H1|now apply L_ok_append_raw].
Qed.
Lemma L_ok_add_obj l t : L_ok l -> T_ok t -> L_ok (line_add_obj l t).
Proof. intros H Ht. apply Forall_app. split; [exact H|now constructor]. Qed.
Lemma L_ok_clear l : L_ok (line_clear l).
Proof. apply L_ok_set_cursor. repeat constructor. Qed.
Lemma L_ok_delete_to_end l : L_ok l -> L_ok (line_delete_to_end l).
Proof. intros H. apply Forall_upd_nth; [exact (fun _ Ht => Ht)|]. now apply Forall_firstn. Qed.
Lemma L_ok_copy l : L_ok (copy_line l).
Proof.
  apply (fold_left_inv L_ok (fun _ => True)); [|apply Forall_forall; trivial|apply L_ok_new].
  intros acc t H _. apply L_ok_add_obj; [exact H|apply T_ok_of].
Qed.

Lemma D_ok_get k d l : D_ok d -> dget k d = Some l -> L_ok l.
Proof.
  intros H. induction H as [|[k' v] d Hv Hd IH]; cbn; [discriminate|].
  destruct (k =? k'); [intros E; inversion E; subst; exact Hv|exact IH].
Qed.
Lemma D_ok_set k l d : D_ok d -> L_ok l -> D_ok (dset k l d).
Proof.
  intros H Hl. induction H as [|[k' v] d Hv Hd IH]; cbn; [repeat constructor; exact Hl|].
  destruct (k =? k'); constructor; auto.
Qed.
Lemma D_ok_del k d : D_ok d -> D_ok (ddel k d).
Proof.
  intros H. induction H as [|[k' v] d Hv Hd IH]; cbn; [constructor|].
  destruct (k =? k'); [exact Hd|constructor; auto].
Qed.
Lemma D_ok_kinsert kv d : L_ok (snd kv) -> D_ok d -> D_ok (kinsert kv d).
Proof.
  intros Hk H. induction H as [|x d Hx Hd IH]; cbn; [repeat constructor; exact Hk|].
  destruct (fst kv <=? fst x); repeat constructor; assumption.
Qed.
Lemma D_ok_ksort d : D_ok d -> D_ok (ksort d).
Proof. intros H. unfold ksort. induction H; cbn; [constructor|]. now apply D_ok_kinsert. Qed.

Lemma P_ok_new s : P_ok (para_new s).
Proof. repeat split; auto. repeat constructor. Qed.
Lemma P_ok_set_begin p x : ot x -> P_ok p -> P_ok (set_begin p x).
Proof. intros Hx (A & B & C & D). repeat split; assumption. Qed.
Lemma P_ok_set_end p x : ot x -> P_ok p -> P_ok (set_end p x).
Proof. intros Hx (A & B & C & D). repeat split; assumption. Qed.
Lemma P_ok_set_cur p k : K_ok k -> P_ok p -> P_ok (set_cur p k).
Proof. intros Hx (A & B & C & D). repeat split; assumption. Qed.
Lemma P_ok_set_plines p d : D_ok d -> P_ok p -> P_ok (set_plines p d).
Proof. intros Hx (A & B & C & D). repeat split; assumption. Qed.
Lemma P_ok_cur_line p : P_ok p -> L_ok (cur_line p).
Proof.
  intros (A & B & C & D). unfold cur_line. destruct (p_cur p) as [r|l]; [|exact C].
  destruct (dget r (p_lines p)) eqn:E; [eapply D_ok_get; eauto|apply L_ok_new].
Qed.
Lemma P_ok_cur_text p : P_ok p -> T_ok (cur_text p).
Proof. intros H. apply L_ok_cur_text, P_ok_cur_line, H. Qed.
Lemma P_ok_upd_cur_line p f : (forall l, L_ok l -> L_ok (f l)) -> P_ok p -> P_ok (upd_cur_line p f).
Proof.
  intros Hf H. pose proof H as (A & B & C & D). unfold upd_cur_line. destruct (p_cur p) as [r|l] eqn:E.
  - destruct (dget r (p_lines p)) eqn:E2; [|exact H]. apply P_ok_set_plines; [|exact H].
    apply D_ok_set; [exact D|]. apply Hf. eapply D_ok_get; eauto.
  - apply P_ok_set_cur; [|exact H]. apply Hf, C.
Qed.
Lemma P_ok_upd_cur_text p f : (forall t, T_ok t -> T_ok (f t)) -> P_ok p -> P_ok (upd_cur_text p f).
Proof. intros Hf. apply P_ok_upd_cur_line. intros l. now apply L_ok_upd_cur_text. Qed.

(* The operations of SccCaptionParagraph are compositions of the above (set_id, set_cursor, set_pstyle and set_align
   leave the four stamped fields alone: P_ok of their result is P_ok of their argument by computation). *)
Hint Resolve L_ok_new L_ok_set_cursor L_ok_add_str L_ok_add_obj L_ok_clear L_ok_delete_to_end T_ok_new T_ok_of
  D_ok_get D_ok_set D_ok_del D_ok_ksort P_ok_new P_ok_set_begin P_ok_set_end P_ok_set_cur P_ok_set_plines P_ok_cur_line
  P_ok_upd_cur_line P_ok_upd_cur_text : stamps.
Hint Extern 0 (K_ok (Att _)) => exact I : stamps.

Lemma P_ok_new_caption_line p : P_ok p -> P_ok (new_caption_line p).
Proof.
  intros H. unfold new_caption_line. destruct (p_cursor p) as [r i]. pose proof H as (_ & _ & _ & D).
  auto with stamps.
Qed.
Lemma P_ok_new_caption_text p : P_ok p -> P_ok (new_caption_text p).
Proof. unfold new_caption_text. auto 6 with stamps. Qed.
Lemma P_ok_update_line_cursor p : P_ok p -> P_ok (update_line_cursor p).
Proof.
  intros H. unfold update_line_cursor. apply P_ok_upd_cur_line; [auto with stamps|].
  set (p1 := if _ <? 0 then _ else p).
  assert (H1 : P_ok p1) by (unfold p1; destruct (_ <? 0); [apply P_ok_upd_cur_line; [exact (fun _ Hl => Hl)|]|]; exact H).
  clearbody p1. destruct (0 <? _); auto 6 with stamps.
Qed.
Lemma P_ok_indent_cursor p n : P_ok p -> P_ok (indent_cursor p n).
Proof.
  intros H. unfold indent_cursor. destruct (line_is_empty _).
  - apply P_ok_upd_cur_line; [exact (fun _ Hl => Hl)|exact H].
  - apply P_ok_update_line_cursor, H.
Qed.
Lemma P_ok_append_text p s : P_ok p -> P_ok (append_text p s).
Proof. intros H. apply P_ok_indent_cursor. auto with stamps. Qed.
Lemma P_ok_set_cursor_at p row indent : P_ok p -> P_ok (set_cursor_at p row indent).
Proof.
  intros H. unfold set_cursor_at.
  set (p1 := match dget (l_row (cur_line p)) (p_lines p) with Some l => _ | None => p end).
  assert (H1 : P_ok p1).
  { unfold p1. destruct (dget _ _) as [l|] eqn:E; [|exact H]. pose proof H as (_ & _ & _ & D).
    destruct (line_is_empty l); [apply P_ok_set_cur; [exact (D_ok_get _ _ _ D E)|]|]; auto 6 with stamps. }
  clearbody p1. set (p2 := set_cursor p1 _). assert (H2 : P_ok p2) by exact H1. clearbody p2.
  set (p3 := match dget row (p_lines p2) with None => new_caption_line p2 | Some _ => p2 end).
  assert (H3 : P_ok p3) by (unfold p3; destruct (dget row _); [exact H2|now apply P_ok_new_caption_line]).
  clearbody p3. destruct (indent =? -1); [|apply P_ok_update_line_cursor]; now apply P_ok_set_cur.
Qed.
Lemma D_ok_copy_lines p : D_ok (copy_lines p).
Proof. apply Forall_map, Forall_forall. intros kv _. apply L_ok_copy. Qed.
Lemma P_ok_detach p : P_ok p -> P_ok (detach p).
Proof. intros H. apply P_ok_set_cur; [now apply P_ok_cur_line|exact H]. Qed.
Lemma P_ok_set_lines_list ls p : Forall L_ok ls -> P_ok p -> P_ok (set_lines_list p ls).
Proof.
  intros Hl. apply (fold_left_inv P_ok L_ok); [|exact Hl]. clear. intros q l H Hl.
  set (q1 := match p_cur q with Att r => _ | Det _ => q end).
  assert (H1 : P_ok q1) by (unfold q1; destruct (p_cur q); [destruct (_ =? _); [apply P_ok_detach|]|]; exact H).
  pose proof H1 as (_ & _ & _ & D). auto with stamps.
Qed.
Lemma P_ok_roll_up p : P_ok p -> P_ok (roll_up p).
Proof.
  intros H. unfold roll_up. pose proof (P_ok_detach p H) as H0. apply P_ok_set_plines; [|exact H0]. destruct H0 as (_ & _ & _ & D).
  apply (fold_left_inv D_ok (fun kv => L_ok (snd kv))); [|now apply D_ok_ksort|exact D].
  intros d kv Hd Hkv. destruct (fst kv =? 0); auto with stamps.
Qed.
Lemma L_ok_last_lines p n : P_ok p -> Forall L_ok (last_lines p n).
Proof.
  intros (_ & _ & _ & D). unfold last_lines. destruct (n <=? 0); [constructor|]. unfold py_from.
  destruct (0 <=? - n); apply Forall_skipn, Forall_map, D_ok_ksort, D.
Qed.
Hint Resolve P_ok_new_caption_line P_ok_new_caption_text P_ok_indent_cursor P_ok_append_text P_ok_set_cursor_at
  D_ok_copy_lines P_ok_detach P_ok_set_lines_list P_ok_roll_up L_ok_last_lines : stamps.

Lemma Ch_ok_children d : forall last, D_ok d -> Forall Ch_ok (para_children d last).
Proof.
  induction d as [|[row l] d IH]; intros last H; cbn; [constructor|]. inversion H as [|? ? Hl Hd]; subst.
  apply Forall_app; split; [destruct last; [induction (Z.to_nat _); repeat constructor; assumption|constructor]|].
  apply Forall_app; split; [|now apply IH].
  apply Forall_flat_map. refine (Forall_impl _ _ Hl). intros t Ht. destruct (is_nil (t_text t)); repeat constructor. exact Ht.
Qed.
Lemma O_ok_to_paragraph p rs : P_ok p -> O_ok (snd (to_paragraph p rs)).
Proof.
  intros H. unfold to_paragraph. destruct (get_region p rs) as [rs' rid].
  repeat split; try apply H. apply Ch_ok_children, D_ok_ksort, H.
Qed.

(* `kept c c'`: c' continues c inside SccLine.process - same line time code, same exception flag,
   and the invariant is carried over.  Every function of SccContext is kept; with_count, with_prev, with_prev_type,
   with_style, with_chan, with_depth, with_acur and with_attrs are so by computation. *)
Definition kept (c c' : ctx) : Prop := c_tc c' = c_tc c /\ c_err c' = c_err c /\ (C_ok c -> C_ok c').
Lemma kept_refl c : kept c c.
Proof. exact (conj eq_refl (conj eq_refl (fun H => H))). Qed.
Lemma kept_trans c c1 c2 : kept c c1 -> kept c1 c2 -> kept c c2.
Proof. intros (A & B & D) (A' & B' & D'). exact (conj (eq_trans A' A) (conj (eq_trans B' B) (fun H => D' (D H)))). Qed.
Lemma kept_ok c c' : kept c c' -> C_ok c -> C_ok c'.
Proof. exact (fun H => proj2 (proj2 H)). Qed.
Lemma C_ok_tc c x : C_ok c -> C_ok (with_tc c x).  Proof. exact (fun H => H). Qed.
Lemma C_ok_err c : C_ok c -> C_ok (with_err c).  Proof. exact (fun H => H). Qed.

Lemma kept_buf c c' x : (C_ok c -> P_ok x) -> kept c c' -> kept c (with_buf c' x).
Proof. intros Hx (A & B & D). split; [exact A|split; [exact B|]]. intros H. split; [exact (Hx H)|apply (D H)]. Qed.
Lemma kept_act c c' x : (C_ok c -> A_ok x) -> kept c c' -> kept c (with_act c' x).
Proof. intros Hx (A & B & D). split; [exact A|split; [exact B|]]. intros H. split; [apply (D H)|split; [exact (Hx H)|apply (D H)]]. Qed.
Lemma kept_upd_act c c' f : (C_ok c -> forall a, P_ok a -> P_ok (f a)) -> kept c c' -> kept c (upd_act c' f).
Proof.
  intros Hf H. unfold upd_act. destruct (c_act c') as [a|] eqn:E; [|exact H].
  apply kept_act; [|exact H]. intros H0. destruct (kept_ok _ _ H H0) as (_ & B & _). rewrite E in B. apply (Hf H0), B.
Qed.
Lemma kept_upd_cap c c' f : (C_ok c -> forall a, P_ok a -> P_ok (f a)) -> kept c c' -> kept c (upd_cap c' f).
Proof.
  intros Hf H. unfold upd_cap. destruct (c_style c' =? sPopOn); [|now apply kept_upd_act].
  apply kept_buf; [|exact H]. intros H0. apply (Hf H0), (kept_ok _ _ H H0).
Qed.
Lemma kept_sync_acur c c' : kept c c' -> kept c (sync_acur c').
Proof. intros H. unfold sync_acur. destruct (c_act c'); exact H. Qed.
Lemma kept_new_active c c' b s : P b -> kept c c' -> kept c (new_active_caption c' b s).
Proof. intros Hb H. apply kept_act; [intros _|exact H]. apply P_ok_set_begin; [exact Hb|exact (P_ok_new s)]. Qed.
Lemma tc_new_buffered c : c_tc (new_buffered_caption c) = c_tc c.  Proof. reflexivity. Qed.
Lemma noerr_new_buffered c : c_err (new_buffered_caption c) = c_err c.  Proof. reflexivity. Qed.
Lemma kept_new_buffered c c' : kept c c' -> kept c (new_buffered_caption c').
Proof. apply kept_buf. auto with stamps. Qed.
Lemma kept_push_active c c' e clear : ot e -> kept c c' -> kept c (push_active c' e clear).
Proof.
  intros He H. unfold push_active. destruct (c_act c') as [a|] eqn:E; [|exact H].
  assert (Hp : C_ok c -> P_ok (set_end a e)).
  { intros H0. destruct (kept_ok _ _ H H0) as (_ & B & _). rewrite E in B. auto with stamps. }
  set (c2 := with_act _ _).
  assert (H2 : kept c c2) by (apply kept_act; [destruct clear; [exact (fun _ => I)|exact Hp]|exact H]).
  destruct (para_is_empty _); [exact H2|].
  pose proof (O_ok_to_paragraph (set_end a e) (c_regions c2)) as Ho. destruct (to_paragraph _ _) as [rs o].
  destruct H2 as (A & B & D). split; [exact A|split; [exact B|]]. intros H0. destruct (D H0) as (D1 & D2 & D3).
  split; [exact D1|split; [exact D2|]]. constructor; [exact (Ho (Hp H0))|exact D3].
Qed.
Lemma kept_flip c c' t : P t -> kept c c' -> kept c (flip c' t).
Proof.
  intros Ht H. unfold flip.
  set (temp := match c_act c' with Some a => Some (set_end a (Some t)) | None => None end).
  assert (Htemp : C_ok c -> A_ok temp).
  { intros H0. destruct (kept_ok _ _ H H0) as (_ & B & _). unfold temp. destruct (c_act c'); cbn; auto with stamps. }
  clearbody temp.
  pose proof (kept_push_active c c' (Some t) true Ht H) as H1. set (c1 := push_active c' (Some t) true) in *. clearbody c1.
  set (c2 := match p_id (c_buf c1) with Some _ => c1 | None => _ end).
  assert (H2 : kept c c2).
  { unfold c2. destruct (p_id (c_buf c1)); [exact H1|]. apply kept_buf; [|exact H1]. intros H0. apply (kept_ok _ _ H1 H0). }
  clearbody c2.
  assert (H3 : kept c (with_act c2 (Some (c_buf c2)))) by (apply kept_act; [intros H0; apply (kept_ok _ _ H2 H0)|exact H2]).
  destruct temp as [tp|]; [apply kept_buf; [exact Htemp|exact H3]|now apply kept_new_buffered].
Qed.
Lemma kept_backspace c c' : kept c c' -> kept c (backspace c').
Proof.
  intros H. unfold backspace. destruct (cap_to_process c'); [|exact H].
  apply kept_upd_cap; [|exact H]. intros _ a Ha. apply P_ok_set_cursor_at, P_ok_upd_cur_text; [exact (fun _ Ht => Ht)|exact Ha].
Qed.
Lemma kept_paint_on c c' t : P t -> kept c c' -> kept c (paint_on_active_caption c' t).
Proof.
  intros Ht H. unfold paint_on_active_caption.
  destruct (c_act c') as [a|]; (apply kept_upd_act; [auto with stamps|]).
  - pose proof (kept_new_active _ _ t (p_style a) Ht (kept_push_active c c' (Some t) true Ht H)) as H2.
    destruct (is_nil (copy_lines a)); [exact H2|].
    apply kept_upd_act; [|exact H2]. intros _ x Hx. apply P_ok_set_plines; auto with stamps.
  - now apply kept_new_active.
Qed.

Lemma P_ok_set_begin_cur p t : P t -> P_ok p -> P_ok (upd_cur_text p (fun x => text_set_begin x t)).
Proof. intros Ht. apply P_ok_upd_cur_text. intros x _. exact Ht. Qed.
Lemma P_ok_style_cur_text c p : P_ok p -> P_ok (style_cur_text c p).
Proof. apply P_ok_upd_cur_text. exact (fun _ Ht => Ht). Qed.
Hint Resolve P_ok_set_begin_cur P_ok_style_cur_text : stamps.

Lemma kept_process_pac c d : P (c_tc c) -> kept c (process_pac c d).
Proof.
  intros Ht. unfold process_pac.
  assert (Hattrs : forall c', kept c c' -> kept c (sync_acur (with_attrs c' (d_color d) (d_italic d) (d_under d))))
    by (intros c' Hc; apply kept_sync_acur; exact Hc).
  destruct (c_style c =? sPaintOn).
  { apply Hattrs, kept_upd_act; [auto with stamps|]. apply kept_upd_act; [|apply kept_paint_on; [exact Ht|apply kept_refl]].
    intros _ a Ha. destruct (p_style a =? sPaintOn); [|exact Ha]. destruct (dget _ _); [|exact Ha].
    pose proof Ha as (_ & _ & _ & D). auto with stamps. }
  destruct (c_style c =? sRollUp).
  { set (c1 := match c_act c with None => _ | Some _ => c end).
    assert (H1 : kept c c1) by (unfold c1; destruct (c_act c); [apply kept_refl|apply kept_new_active; [exact Ht|apply kept_refl]]).
    clearbody c1. set (c2 := upd_act c1 _).
    assert (H2 : kept c c2).
    { apply kept_upd_act; [|exact H1]. intros _ a Ha. destruct (p_begin a); [exact Ha|]. now apply P_ok_set_begin. }
    clearbody c2.
    destruct ((5 <=? d_row d) && (d_row d <? 12)); [|apply Hattrs]; (apply kept_upd_act; [auto with stamps|exact H2]). }
  destruct (c_style c =? sPopOn); apply Hattrs; [|exact (kept_refl c)].
  apply kept_buf; [|exact (kept_refl c)]. intros (A & _). auto with stamps.
Qed.
Lemma kept_process_mid_row c d : P (c_tc c) -> kept c (process_mid_row c d).
Proof.
  intros Ht. pose proof (kept_refl c) as H. unfold process_mid_row.
  set (c1 := if negb (c_prev_type c =? cMidRow) then _ else _).
  assert (H1 : kept c c1).
  { unfold c1. destruct (negb (c_prev_type c =? cMidRow)); [|apply kept_upd_cap; [auto with stamps|exact H]].
    destruct (cap_to_process c) as [p|]; [|exact H].
    assert (Hsp : forall f, (C_ok c -> forall a, P_ok a -> P_ok (f a)) ->
              kept c (with_attrs (upd_cap c f) (if d_color d =? -1 then c_color c else d_color d) (d_italic d) (d_under d)))
      by (intros f Hf; exact (kept_upd_cap c c f Hf H)).
    destruct (negb (is_nil (t_text (cur_text p)))); [|auto with stamps].
    destruct ((c_style c =? sPaintOn) && _); [auto with stamps|]. destruct (negb (d_under d)); auto with stamps. }
  clearbody c1.
  destruct (cap_to_process c1) as [p|]; [|exact H1]. destruct (p_style p =? sPaintOn); [|exact H1].
  apply kept_upd_cap; [auto with stamps|exact H1].
Qed.
Lemma kept_process_attribute c d : kept c (process_attribute c d).
Proof.
  unfold process_attribute. destruct (cap_to_process c); [|apply kept_refl].
  apply kept_upd_cap; [|apply kept_refl]. intros _ a Ha.
  apply P_ok_upd_cur_text; [exact (fun _ Ht => Ht)|]. destruct (negb _); auto with stamps.
Qed.
Lemma kept_process_text c c' word : P (c_tc c) -> kept c c' -> kept c (process_text c' word).
Proof.
  intros Ht H. unfold process_text. rewrite (proj1 H). apply kept_sync_acur.
  destruct (c_style c' =? sPaintOn).
  { set (c1 := match c_act c' with None => _ | Some _ => c' end).
    assert (H1 : kept c c1) by (unfold c1; destruct (c_act c'); [exact H|now apply kept_paint_on]).
    clearbody c1. apply kept_upd_act; [auto with stamps|].
    destruct (starts_with_space word).
    - destruct (negb _); (apply kept_upd_act; [auto with stamps|]); [now apply kept_paint_on|exact H1].
    - destruct (ends_with_space word); [|apply kept_upd_act; [auto with stamps|exact H1]].
      assert (H' : kept c (upd_act c1 (fun a => style_cur_text c1 (append_text a word)))) by (apply kept_upd_act; [auto with stamps|exact H1]).
      destruct (negb _); [now apply kept_paint_on|]. apply kept_upd_act; [auto with stamps|exact H']. }
  destruct (c_style c' =? sRollUp).
  { apply kept_upd_act; [auto with stamps|]. destruct (c_act c'); [exact H|now apply kept_new_active]. }
  destruct (c_style c' =? sPopOn); [|exact H].
  apply kept_buf; [|exact H]. intros H0. destruct (kept_ok _ _ H H0) as (A & _). auto with stamps.
Qed.
Lemma kept_process_control c code : P (c_tc c) -> P (tc_next (c_tc c)) -> kept c (process_control c code).
Proof.
  intros Ht Ht2. pose proof (kept_refl c) as H. unfold process_control.
  destruct (code =? kRCL); [exact H|]. destruct (code =? kRDC); [exact H|].
  destruct ((code =? kRU2) || (code =? kRU3) || (code =? kRU4)).
  { set (c1 := with_depth _ _). assert (H1 : kept c c1) by exact H. clearbody c1.
    destruct (c_act c1); [exact H1|]. apply kept_sync_acur, kept_upd_act; [auto 6 with stamps|now apply kept_new_active]. }
  destruct (code =? kEOC).
  { apply kept_upd_act; [exact (fun _ _ Ha => Ha)|]. apply kept_flip; [exact Ht|].
    apply kept_buf; [|exact H]. intros (A & _). auto with stamps. }
  destruct (code =? kEDM); [destruct (c_act c); [now apply kept_push_active|exact H]|].
  destruct (code =? kENM); [now apply kept_new_buffered|].
  destruct ((code =? kTO1) || (code =? kTO2) || (code =? kTO3)).
  { destruct (cap_to_process c); [|exact H]. apply kept_upd_cap; [auto with stamps|exact H]. }
  destruct (code =? kCR).
  { destruct (c_act c) as [a|]; [|exact H].
    destruct (negb (p_style a =? sRollUp)); [now apply kept_push_active|].
    destruct (para_is_empty a).
    - apply kept_upd_act; [auto with stamps|]. now apply kept_new_active.
    - set (c1 := upd_act _ roll_up).
      assert (H1 : kept c c1) by (apply kept_upd_act; [auto with stamps|now apply kept_push_active]).
      assert (Hl : C_ok c -> Forall L_ok (match c_act c1 with Some a1 => last_lines a1 (c_depth c1 - 1) | None => [] end)).
      { intros H0. destruct (kept_ok _ _ H1 H0) as (_ & B & _). destruct (c_act c1); [auto with stamps|constructor]. }
      clearbody c1. apply kept_upd_act; [auto with stamps|now apply kept_new_active]. }
  destruct (code =? kDER).
  { destruct (cap_to_process c); [|exact H]. apply kept_upd_cap; [auto with stamps|exact H]. }
  destruct (code =? kBS); [now apply kept_backspace|exact H].
Qed.

(* one word: after add_frames the context is kept; the only new stamps are the line's time code after add_frames and
   (EDM) the frame after it *)
Lemma kept_step c w : P (tc_next (c_tc c)) -> P (tc_next (tc_next (c_tc c))) ->
  kept (if c_err c || is_dup c w then c else with_tc c (tc_next (c_tc c))) (step c w).
Proof.
  intros Ht Ht2. unfold step, is_dup. destruct (c_err c); [exact (kept_refl c)|]. cbn [orb].
  destruct (match c_prev c with Some pv => _ | None => false end); [exact (kept_refl c)|].
  set (c1 := with_tc c _). pose proof (kept_refl c1) as H1. change (P (c_tc c1)) in Ht. change (P (tc_next (c_tc c1))) in Ht2. clearbody c1.
  destruct (value w =? 0); [exact H1|].
  destruct (byte1 w <? 32); [|destruct (negb (c_chan c1 =? 1)); [exact H1|exact (kept_process_text c1 c1 _ Ht H1)]].
  destruct (negb (d_chan (decode w) =? 1)); [exact H1|].
  apply (kept_trans c1 (with_chan c1 1)); [exact H1|]. set (c2 := with_chan c1 1). pose proof (kept_refl c2) as H2.
  change (P (c_tc c2)) in Ht. change (P (tc_next (c_tc c2))) in Ht2. clearbody c2.
  destruct (d_cls (decode w) =? cPac); [exact (kept_process_pac c2 _ Ht)|].
  destruct (d_cls (decode w) =? cAttr); [exact (kept_process_attribute c2 _)|].
  destruct (d_cls (decode w) =? cMidRow); [exact (kept_process_mid_row c2 _ Ht)|].
  destruct (d_cls (decode w) =? cControl); [exact (kept_process_control c2 _ Ht Ht2)|].
  destruct (d_cls (decode w) =? cSpecial); [exact (kept_process_text c2 c2 _ Ht H2)|].
  destruct (d_cls (decode w) =? cExtended); [|exact H2].
  exact (kept_process_text c2 _ _ Ht (kept_backspace c2 c2 H2)).
Qed.
End Inv.

Lemma tc_step c w : c_tc (step c w) = if c_err c || is_dup c w then c_tc c else tc_next (c_tc c).
Proof. rewrite (proj1 (kept_step (fun _ => True) c w I I)). destruct (c_err c || is_dup c w); reflexivity. Qed.
Lemma noerr_step c w : c_err (step c w) = c_err c.
Proof. rewrite (proj1 (proj2 (kept_step (fun _ => True) c w I I))). destruct (c_err c || is_dup c w); reflexivity. Qed.
Lemma noerr_steps ws : forall c, c_err (fold_left step ws c) = c_err c.
Proof. induction ws as [|w ws IH]; intros c; cbn [fold_left]; [reflexivity|]. rewrite IH. apply noerr_step. Qed.

Lemma iter_shift {A} (f : A -> A) k x : iter_n k f (f x) = iter_n (S k) f x.
Proof. induction k as [|k IH]; cbn; [reflexivity|]. rewrite IH. reflexivity. Qed.

Lemma C_ok_steps (P : tcv -> Prop) (ws : list Z) : forall c,
  (forall k, (1 <= k <= length ws + 1)%nat -> P (iter_n k tc_next (c_tc c))) -> C_ok P c -> C_ok P (fold_left step ws c).
Proof.
  induction ws as [|w ws IH]; intros c Hk H; cbn [fold_left]; [exact H|]. cbn [length] in Hk.
  apply IH.
  - intros k Hr. rewrite tc_step. destruct (c_err c || is_dup c w); [|rewrite iter_shift]; apply Hk; lia.
  - apply (kept_ok P _ _ (kept_step P c w (Hk 1%nat ltac:(lia)) (Hk 2%nat ltac:(lia)))). destruct (c_err c || is_dup c w); exact H.
Qed.

(* a stamp of the file: the time code of one of its lines after k additions of one frame, 1 <= k <= len + 1 *)
Definition line_stamp (lines : list text) (x : tcv) : Prop :=
  exists line t ws k, In line lines /\ from_str line = LOk t ws /\ (1 <= k <= length ws + 1)%nat /\ x = iter_n k tc_next t.

Lemma C_ok_process_line lines c line : C_ok (line_stamp lines) c -> In line lines -> C_ok (line_stamp lines) (process_line c line).
Proof.
  intros H Hin. unfold process_line. destruct (c_err c); [exact H|].
  destruct (from_str line) as [| |t ws] eqn:E; [exact H|exact H|].
  apply C_ok_steps; [|exact H]. intros k Hk. now exists line, t, ws, k.
Qed.
(* every stamp of every pushed paragraph is a stamp of the file, for all inputs *)
Lemma stamps_run talign lines : C_ok (line_stamp lines) (run_lines talign lines).
Proof.
  unfold run_lines, flush. set (P := line_stamp lines).
  refine (kept_ok P _ _ (kept_new_buffered P _ _ (kept_push_active P _ _ None true I (kept_refl P _))) _).
  apply (fold_left_inv (C_ok P) (fun l => In l lines)); [apply C_ok_process_line|now apply Forall_forall|].
  split; [apply P_ok_new|split; [exact I|constructor]].
Qed.

Definition bad_line (line : text) : bool := match from_str line with LErr => true | _ => false end.
Lemma err_process_line c line : c_err (process_line c line) = c_err c || bad_line line.
Proof.
  unfold process_line, bad_line. destruct (c_err c) eqn:He; [exact He|].
  destruct (from_str line) as [| |t ws]; [exact He|reflexivity|]. rewrite noerr_steps. exact He.
Qed.
Lemma err_process_lines lines : forall c, c_err (fold_left process_line lines c) = c_err c || existsb bad_line lines.
Proof.
  induction lines as [|l lines IH]; intros c; cbn [fold_left existsb]; [now rewrite orb_false_r|].
  rewrite IH, err_process_line, orb_assoc. reflexivity.
Qed.
Lemma err_run_lines ta lines : c_err (run_lines ta lines) = existsb bad_line lines.
Proof.
  unfold run_lines, flush. rewrite noerr_new_buffered, (proj1 (proj2 (kept_push_active (fun _ => True) _ _ None true I (kept_refl _ _)))).
  apply err_process_lines.
Qed.
Lemma to_model_raises_iff ta lines : to_model ta lines = DocErr <-> exists l, In l lines /\ from_str l = LErr.
Proof.
  unfold to_model, finish. rewrite err_run_lines. split.
  - destruct (existsb bad_line lines) eqn:E; [|discriminate]. intros _.
    apply existsb_exists in E as (l & Hl & Hb). exists l. split; [exact Hl|]. unfold bad_line in Hb.
    destruct (from_str l); try discriminate. reflexivity.
  - intros (l & Hl & Hb). replace (existsb bad_line lines) with true; [reflexivity|].
    symmetry. apply existsb_exists. exists l. split; [exact Hl|]. unfold bad_line. now rewrite Hb.
Qed.
(* when no caption is being processed a backspace or a tab offset is ignored, and an extended character is the character alone *)
Lemma no_caption_ignored c : cap_to_process c = None ->
  backspace c = c /\ (forall k, k = kTO1 \/ k = kTO2 \/ k = kTO3 -> process_control c k = c) /\
  process_control c kBS = c.
Proof.
  intros H. assert (Hb : backspace c = c) by (unfold backspace; now rewrite H).
  split; [exact Hb|]. split.
  - intros k [-> | [-> | ->]]; unfold process_control; cbn; now rewrite H.
  - unfold process_control. cbn. exact Hb.
Qed.

From TT Require Import Proofs.C12.Integer Proofs.C12.DropFrame.

Lemma two_digits_range a b x : two_digits a b = Some x -> 0 <= x <= 99.
Proof. unfold two_digits, is_digit. destruct (_ && _) eqn:E; [|discriminate]. intros H; inversion H; subst. lia. Qed.
Lemma match_tc_range sep t h m s f : match_tc sep t = Some (h, m, s, f) -> 0 <= h <= 99 /\ 0 <= m <= 99 /\ 0 <= s <= 99 /\ 0 <= f <= 99.
Proof.
  unfold match_tc.
  do 11 (destruct t as [|? t]; [discriminate|]).
  destruct (_ && _ && _); [|discriminate].
  destruct (two_digits z z0) eqn:E1; [|discriminate]. destruct (two_digits z2 z3) eqn:E2; [|discriminate].
  destruct (two_digits z5 z6) eqn:E3; [|discriminate]. destruct (two_digits z8 z9) eqn:E4; [|discriminate].
  intros H; inversion H; subst.
  apply two_digits_range in E1, E2, E3, E4. lia.
Qed.
Lemma parse_tc_30 t : parse_tc t r30 =
  match match_tc (fun c => c =? colon) t with
  | Some l => Some (l, r30)
  | None => match match_tc (fun c => negb (c =? newline)) t with Some l => Some (l, r2997) | None => None end
  end.
Proof. reflexivity. Qed.
(* the rate of an SCC line is 30 or 30000/1001 and its frame count is not negative *)
Lemma parse_tc_rate t l r : parse_tc t r30 = Some (l, r) -> (r = r30 \/ r = r2997) /\ 0 <= to_frames r l.
Proof.
  rewrite parse_tc_30. destruct (match_tc (fun c => c =? colon) t) as [[[[h m] s] f]|] eqn:E.
  - intros H; inversion H; subst. apply match_tc_range in E. split; [now left|].
    unfold to_frames. change (is_df r30) with false. cbn [rn rd r30]. rewrite Z.div_1_r. lia.
  - destruct (match_tc (fun c => negb (c =? newline)) t) as [[[[h m] s] f]|] eqn:E2; [|intros H; discriminate H].
    intros H; inversion H; subst. apply match_tc_range in E2. split; [now right|].
    unfold to_frames. change (is_df r2997) with true. cbv iota.
    change (drop_per_minute r2997) with 2. change (ndf r2997) with 30. lia.
Qed.
Lemma from_str_rate line l r ws : from_str line = LOk (l, r) ws -> (r = r30 \/ r = r2997) /\ 0 <= to_frames r l.
Proof.
  unfold from_str. destruct (is_nil line); [discriminate|].
  destruct (parse_tc line r30) as [[l' r']|] eqn:E; [|discriminate].
  destruct (negb _); [discriminate|]. destruct (words_of _); [|discriminate].
  intros H; inversion H; subst. now apply parse_tc_rate with (t := line).
Qed.
(* k additions of one frame give frame count + k at the same rate (C12 round trip) *)
Lemma frames_iter r l : (r = r30 \/ r = r2997) -> 0 <= to_frames r l ->
  forall k, tc_frames (iter_n k tc_next (l, r)) = to_frames r l + Z.of_nat k /\ snd (iter_n k tc_next (l, r)) = r.
Proof.
  intros Hr H0 k. induction k as [|k [IH1 IH2]]; [unfold tc_frames; cbn [iter_n fst snd Z.of_nat]; split; [lia|reflexivity]|].
  cbn [iter_n]. destruct (iter_n k tc_next (l, r)) as [l' r'] eqn:E. cbn in IH2. subst r'.
  unfold tc_next, tc_frames in *. cbn [fst snd] in *. split; [|reflexivity].
  unfold add_frames. rewrite IH1. destruct Hr; subst r; [rewrite rt30|rewrite rt2997]; lia.
Qed.

(* a time in seconds that is frame T+k of one of the lines, 1 <= k <= len+1, at the line's rate *)
Definition on_line_grid (lines : list text) (q : Q) : Prop :=
  exists line lab r ws k, In line lines /\ from_str line = LOk (lab, r) ws /\ (r = r30 \/ r = r2997) /\
    1 <= k <= zlen ws + 1 /\ q = Qmake ((to_frames r lab + k) * rd r) (Z.to_pos (rn r)).
Lemma stamp_on_grid lines x : line_stamp lines x -> on_line_grid lines (tc_offset x).
Proof.
  intros (line & [lab r] & ws & k & Hin & Hfs & Hk & ->).
  destruct (from_str_rate _ _ _ _ Hfs) as [Hr H0].
  destruct (frames_iter r lab Hr H0 k) as [E1 E2].
  exists line, lab, r, ws, (Z.of_nat k). repeat split; try assumption; [lia|unfold zlen; lia|].
  unfold tc_offset. rewrite E1, E2. reflexivity.
Qed.

(* the document: begin and end of every paragraph, and the absolute begin of every span; a paint-on span begin is written
   relative to the paragraph's begin and is never negative: max(g - b, 0) *)
Definition span_ok (lines : list text) (pb : option Q) (paint : bool) (ch : childq) : Prop :=
  match ch with
  | QBr => True
  | QSpan None _ _ => True
  | QSpan (Some sb) _ _ =>
      exists g, on_line_grid lines g /\
                (sb = g \/ (paint = true /\ exists b, pb = Some b /\ sb = qmax0 (Qminus g b)))
  end.
Lemma doc_times talign lines rs ps : to_model talign lines = Doc rs ps ->
  forall p, In p ps ->
    (forall b, q_begin p = Some b -> on_line_grid lines b) /\
    (forall e, q_end p = Some e -> on_line_grid lines e) /\
    exists paint, Forall (span_ok lines (q_begin p) paint) (q_children p).
Proof.
  unfold to_model, finish. destruct (c_err _); [discriminate|]. intros H; inversion H; subst. clear H.
  intros p Hp. apply in_map_iff in Hp as (o & <- & Ho). apply in_rev in Ho.
  destruct (stamps_run talign lines) as (_ & _ & Hout).
  rewrite Forall_forall in Hout. destruct (Hout o Ho) as (Hb & He & Hc).
  unfold finish_p; cbn. split; [|split].
  - intros b Eb. destruct (o_begin o); [|discriminate]. inversion Eb; subst. now apply stamp_on_grid.
  - intros e Ee. destruct (o_end o); [|discriminate]. inversion Ee; subst. now apply stamp_on_grid.
  - exists (o_paint o). apply Forall_map. rewrite Forall_forall in *. intros ch Hch. specialize (Hc ch Hch).
    destruct ch as [|[bt|] st tx]; cbn; try exact I. cbn in Hc.
    exists (tc_offset bt). split; [now apply stamp_on_grid|].
    destruct (o_paint o); [|now left]. destruct (o_begin o) as [pbt|]; [|now left].
    right. split; [reflexivity|]. exists (tc_offset pbt). split; reflexivity.
Qed.

(* a whole number of frames at 30 fps or at 30000/1001 fps *)
Lemma grid_multiple lines q : on_line_grid lines q -> exists n : Z, q = Qmake n 30 \/ q = Qmake (n * 1001) 30000.
Proof.
  intros (line & lab & r & ws & k & _ & _ & Hr & _ & ->). exists (to_frames r lab + k).
  destruct Hr; subst r; cbn [rn rd r30 r2997 Z.to_pos]; [left; now rewrite Z.mul_1_r|right; reflexivity].
Qed.
(* later than the time code of the line whose word produced it, and no later than one frame after its last word *)
Lemma not_before_line lines q : on_line_grid lines q ->
  exists line lab r ws, In line lines /\ from_str line = LOk (lab, r) ws /\
    (tc_offset (lab, r) < q)%Q /\ (q <= Qmake ((to_frames r lab + zlen ws + 1) * rd r) (Z.to_pos (rn r)))%Q.
Proof.
  intros (line & lab & r & ws & k & Hin & Hfs & Hr & Hk & ->). exists line, lab, r, ws. repeat split; try assumption.
  - unfold tc_offset, tc_frames, Qlt. cbn [fst snd Qnum Qden]. destruct Hr; subst r; cbn [rn rd r30 r2997 Z.to_pos]; nia.
  - unfold Qle. cbn [Qnum Qden]. destruct Hr; subst r; cbn [rn rd r30 r2997 Z.to_pos]; nia.
Qed.

Lemma qmax0_nonneg x : (0 <= qmax0 x)%Q.
Proof. unfold qmax0. destruct (Qle_bool 0 x) eqn:E; [now apply Qle_bool_iff|apply Qle_refl]. Qed.
Lemma qmax0_pos x : (0 <= x)%Q -> qmax0 x = x.
Proof. intros H. unfold qmax0. apply Qle_bool_iff in H. now rewrite H. Qed.
Lemma qmax0_neg x : (x < 0)%Q -> qmax0 x = 0%Q.
Proof.
  intros H. unfold qmax0. destruct (Qle_bool 0 x) eqn:E; [|reflexivity].
  apply Qle_bool_iff in E. exfalso. exact (Qlt_not_le _ _ H E).
Qed.
Lemma grid_positive lines q : on_line_grid lines q -> (0 < q)%Q.
Proof.
  intros H. destruct (not_before_line lines q H) as (line & lab & r & ws & _ & Hfs & Hlt & _).
  apply Qle_lt_trans with (y := tc_offset (lab, r)); [|exact Hlt].
  destruct (from_str_rate _ _ _ _ Hfs) as [Hr H0].
  unfold tc_offset, tc_frames, Qle. cbn [fst snd Qnum Qden]. destruct Hr; subst r; cbn [rn rd r30 r2997 Z.to_pos]; lia.
Qed.
Definition span_nonneg (ch : childq) : Prop := match ch with QSpan (Some sb) _ _ => (0 <= sb)%Q | _ => True end.
Lemma span_ok_nonneg lines pb paint ch : span_ok lines pb paint ch -> span_nonneg ch.
Proof.
  destruct ch as [|[sb|] st tx]; cbn; try (intros; exact I).
  intros (g & Hg & [->|(_ & b & _ & ->)]); [apply Qlt_le_weak; eapply grid_positive; exact Hg|apply qmax0_nonneg].
Qed.
(* no time of the document is negative; a paint-on span begin is so by the max *)
Lemma doc_times_nonneg talign lines rs ps : to_model talign lines = Doc rs ps ->
  forall p, In p ps ->
    (forall b, q_begin p = Some b -> (0 < b)%Q) /\ (forall e, q_end p = Some e -> (0 < e)%Q) /\
    Forall span_nonneg (q_children p).
Proof.
  intros H p Hp. destruct (doc_times talign lines rs ps H p Hp) as (Hb & He & paint & Hc).
  split; [intros b Eb; eapply grid_positive; eauto|]. split; [intros e Ee; eapply grid_positive; eauto|].
  rewrite Forall_forall in *. intros ch Hch. eapply span_ok_nonneg; eauto.
Qed.

(* no word of the run is dropped as a second copy and no exception is pending *)
Fixpoint run_clean (c : ctx) (ws : list Z) : bool :=
  match ws with [] => true | w :: ws' => negb (c_err c || is_dup c w) && run_clean (step c w) ws' end.
Lemma frames_clean ws : forall c, run_clean c ws = true -> c_tc (fold_left step ws c) = iter_n (length ws) tc_next (c_tc c).
Proof.
  induction ws as [|w ws IH]; intros c H; cbn [fold_left length]; [reflexivity|].
  cbn [run_clean] in H. apply andb_true_iff in H as [H1 H2]. apply negb_true_iff in H1.
  rewrite IH by exact H2. rewrite tc_step, H1. apply iter_shift.
Qed.
(* in general the line's time code has advanced by at most one frame per word: stamps are never late *)
Lemma frames_at_most ws : forall c, exists k, (k <= length ws)%nat /\ c_tc (fold_left step ws c) = iter_n k tc_next (c_tc c).
Proof.
  induction ws as [|w ws IH]; intros c; cbn [fold_left length]; [exists 0%nat; split; [lia|reflexivity]|].
  destruct (IH (step c w)) as (k & Hk & E). rewrite E, tc_step. destruct (c_err c || is_dup c w).
  - exists k. split; [lia|reflexivity].
  - exists (S k). split; [lia|apply iter_shift].
Qed.
