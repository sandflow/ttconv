(* C08, display simulation, roll-up, part 4: carriage return and RUx on the relation; the stream class; the theorem. *)
From Coq Require Import QArith.
From TT Require Import Base.Prelude Base.SccTypes Base.SccDoc Gen.SccTables Model.SccWord Model.TimeCode Model.SccReader Spec.Cea608Screen.
From TT Require Import Proofs.C08.Stamps Proofs.C08.Words Proofs.C08.Protocol Proofs.C08.Text Proofs.C08.ScreenMem Proofs.C08.ScreenLine
                       Proofs.C08.ScreenPara Proofs.C08.ScreenWords Proofs.C08.ScreenPopOn Proofs.C08.ScreenDoc
                       Proofs.C08.ScreenRegion Proofs.C08.ScreenRollMem Proofs.C08.ScreenRollUp Proofs.C08.ScreenRollCR.
Open Scope Z_scope.

Lemma all_rows_in r : In r all_rows -> in_rows r.
Proof. unfold all_rows, in_rows. cbn. lia. Qed.
Lemma contig_keys n a : contig n a <-> p_cur a = Att 15 /\ exists lo, 16 - n <= lo <= 15 /\ keys_between a lo.
Proof. reflexivity. Qed.

Lemma act_push_keep c a e : c_act c = Some a -> c_act (push_active c e false) = Some (set_end a e).
Proof.
  intros Ha. unfold push_active. rewrite Ha. destruct (para_is_empty _); [reflexivity|]. destruct (to_paragraph _ _). reflexivity.
Qed.
Lemma control_cr s n : md s = RollUp n -> control dev0 s kCR = set_pos (set_disp s (roll (disp s) (crow s) n)) (crow s) 0.
Proof. intros D. unfold control. cbn [Z.eqb kCR kRCL kRDC kRU2 kRU4 Pos.eqb andb Z.leb Z.compare Pos.compare Pos.compare_cont]. now rewrite D. Qed.
Lemma ru_cr n c s g : Rub n c s g -> gr_live g = true ->
  acts n c s (process_control c Model.SccReader.kCR) (control dev0 s kCR) (mkGR true true true).
Proof.
  intros Hb Hlive. pose proof Hb as [A B C D E F G H I].
  destruct (c_act c) as [a|] eqn:Ea; [|destruct I as [I _]; congruence]. destruct I as (I1 & I2 & I3 & I4).
  rewrite (process_control_cr c a Ea (pm_style _ _ _ I2)), (control_cr s n D), F.
  destruct (para_is_empty a) eqn:Eemp.
  - (* nothing is displayed: a new caption on the base row *)
    assert (Hblank : forall r k, is_blank (mcell (roll (disp s) 15 n) r k) = true).
    { apply roll_blank, blank_all; try apply H. intros r k. apply (para_empty_blank a _ _ I2 Eemp). }
    destruct (fresh_ru_caption (Some (c_count (with_count c (c_count c - 1)) + 1)) (Some (c_tc c)) (roll (disp s) 15 n) n (-1)
                (pen_of c) E Hblank eq_refl) as (N1 & N2 & N3 & N4 & N5).
    split; [|split; [|repeat split]].
    + eapply (Rub_upd n c s g); try reflexivity; try eassumption; [cbn [md crow nond set_pos set_disp]; now rewrite F|now apply roll_wf, H|intros _; exact N3].
    + intros _. split; [cbn [ccol set_pos]; lia|]. eexists _, _, _, _. split; [reflexivity|]. split; [exact N4|exact N5].
  - (* the displayed caption is written, rolled up, and its last n-1 rows are handed over to a new caption *)
    set (c2 := upd_act (push_active c (Some (c_tc c)) false) roll_up).
    assert (Ea2 : c_act c2 = Some (roll_up (set_end a (Some (c_tc c))))) by (unfold c2, upd_act; rewrite (act_push_keep c a _ Ea); reflexivity).
    assert (Hproj2 : c_err c2 = c_err c /\ c_style c2 = c_style c /\ c_depth c2 = c_depth c /\ c_color c2 = c_color c /\
                     c_italic c2 = c_italic c /\ c_under c2 = c_under c /\ c_chan c2 = c_chan c).
    { unfold c2, upd_act. rewrite (act_push_keep c a _ Ea). cbn [c_err c_style c_depth c_color c_italic c_under c_chan with_act].
      destruct (push_active_proj c (Some (c_tc c)) false) as (Q1 & Q2 & Q3 & Q4 & Q5 & _ & Q7 & Q8). rewrite Q1, Q2, Q3, Q4, Q5, Q7, Q8. repeat split. }
    destruct Hproj2 as (J1 & J2 & J3 & J4 & J5 & J6 & J7).
    cbv zeta. rewrite Ea2, J3, C.
    change (last_lines (roll_up (set_end a (Some (c_tc c)))) (n - 1)) with (last_lines (roll_up a) (n - 1)).
    destruct I3 as (Hcur & lo & Hlo & Hkeys).
    destruct (cr_caption a n lo (Some (c_count c2 + 1)) (Some (c_tc c)) (disp s) all_rows E I2 Hlo Hkeys (proj1 H) all_rows_in in_all_rows)
      as (N1 & N2 & N3 & N4 & N5).
    split; [|split; [|repeat split; assumption]].
    + eapply (Rub_upd n c s g); try reflexivity; try eassumption.
      * cbn [c_err c_style c_depth upd_act new_active_caption c_act with_act with_count]. now rewrite J1, J2, J3.
      * unfold pen_of in *. cbn [c_color c_italic c_under upd_act new_active_caption c_act with_act with_count]. now rewrite J4, J5, J6.
      * cbn [md crow nond set_pos set_disp]. now rewrite F.
      * now apply roll_wf, H.
      * split; [exact N2|]. exists (Z.max (lo - 1) (16 - n)). split; [lia|exact N3].
      * intros _ l Hl. unfold cr_para in N4. rewrite N4 in Hl. injection Hl as <-. reflexivity.
    + intros _. split; [cbn [ccol set_pos]; lia|]. eexists _, _, _, _. split; [reflexivity|]. split; [exact N5|apply elt_ok_new].
Qed.

(* RUx when nothing is displayed *)
Lemma ru_new_model c k : c_act c = None -> kRU2 <= k <= kRU4 ->
  let X := process_control c k in
  c_act X = Some (new_caption_text (new_caption_line (set_cursor_at (set_pstyle (set_begin (set_id (para_new sRollUp) (Some (c_count c + 1))) (Some (c_tc c))) sRollUp) roll_up_base_row 0))) /\
  c_err X = c_err c /\ c_style X = sRollUp /\ c_depth X = ru_depth k /\ c_color X = c_color c /\ c_italic X = c_italic c /\
  c_under X = c_under c /\ c_chan X = c_chan c.
Proof.
  intros Ha Hk. cbv zeta. rewrite (process_control_ru c k Hk). cbv zeta. cbn [c_act with_depth with_style]. rewrite Ha.
  match goal with |- context [sync_acur ?x] => destruct (sync_acur_proj x) as (S1 & S2 & S3 & S4 & S5 & S6 & S7 & S8) end.
  rewrite S1, S2, S3, S4, S5, S7, S8.
  assert (Sd : forall x, c_depth (sync_acur x) = c_depth x) by (intros x; unfold sync_acur; destruct (c_act x); reflexivity).
  rewrite Sd. unfold upd_act, new_active_caption. cbn [c_act c_err c_style c_depth c_color c_italic c_under c_chan with_act with_count with_depth with_style c_count c_tc].
  repeat split.
Qed.
Lemma ru_ru_new n c s g k : Rub n c s g -> kRU2 <= k <= kRU4 -> ru_depth k = n -> gr_live g = false ->
  acts n c s (process_control c k) (control dev0 s k) (mkGR false true true).
Proof.
  intros Hb Hk Hn Hlive. pose proof Hb as [A B C D E F G H I].
  destruct (c_act c) as [a|] eqn:Ea; [destruct I as [I _]; congruence|]. destruct I as (_ & I2).
  destruct (ru_new_model c _ Ea Hk) as (X1 & X2 & X3 & X4 & X5 & X6 & X7 & X8).
  rewrite (control_ru s n _ D Hk), Hn, F.
  destruct (new_ru_caption (Some (c_count c + 1)) (Some (c_tc c)) (trim_window (disp s) 15 n) n (pen_of c) E (trim_blank _ 15 n I2)) as (N1 & N2 & N3 & _).
  split; [|split; [discriminate|repeat split; assumption]].
  eapply (Rub_upd n c s g); try reflexivity; try eassumption; try congruence.
  - unfold pen_of in *. cbn [pcol pita pund set_md set_disp]. congruence.
  - cbn [md crow nond set_md set_disp]. congruence.
  - now apply trim_wf, H.
  - intros _. exact N3.
Qed.
(* the first RUx of a stream: both sides leave the pop-on mode they start in *)
Record Rpre (c : ctx) (s : scr) : Prop := {
  p_err : c_err c = false;
  p_act : c_act c = None;
  p_md : md s = PopOn;
  p_pen : pen_of c = (pcol s, pita s, pund s);
  p_wf : scr_wf s;
  p_link : Rlink c s }.
Lemma Rpre_init ta : Rpre (ctx_init ta) scr0.
Proof.
  split; try reflexivity.
  - split; apply mem_wf_mem0.
  - destruct (Rpop_init ta) as [_ HL]. exact HL.
Qed.
Lemma step_ru_init c s w : Rpre c s -> d_chan (decode w) = 1 -> is_second_copy s w = false ->
  d_cls (decode w) = cControl -> kRU2 <= d_code (decode w) <= kRU4 ->
  Rru (ru_depth (d_code (decode w))) (step c w) (feed dev0 s w) (mkGR true true true).
Proof.
  intros [A Hact Hmd G H HL] Hc Hd Hcls Hk. set (n := ru_depth (d_code (decode w))).
  assert (E : 2 <= n <= 4) by (unfold n, ru_depth, kRU2, kRU4 in *; lia).
  rewrite (step_control c w A (not_dup_code c s w HL Hc Hd) Hc Hcls), (feed_control s w Hc Hd Hcls).
  fold (code_ctx c). set (c1 := code_ctx c). set (s0 := set_chan (set_last s (Some (value w))) 1).
  assert (Ea : c_act c1 = None) by exact Hact.
  destruct (ru_new_model c1 _ Ea Hk) as (X1 & X2 & X3 & X4 & X5 & X6 & X7 & X8).
  assert (Es : control dev0 s0 (d_code (decode w)) = set_pos (set_md (set_nond (set_disp s0 mem0) mem0) (RollUp n)) 15 0).
  { unfold control. unfold kRU2, kRU4 in Hk. unfold kRCL, kRDC, kRU2, kRU4.
    replace (d_code (decode w) =? 0) with false by lia. replace (d_code (decode w) =? 9) with false by lia.
    replace ((5 <=? d_code (decode w)) && (d_code (decode w) <=? 7)) with true by lia. change (md s0) with (md s). rewrite Hmd. reflexivity. }
  rewrite Es.
  assert (Hblank : forall r k, is_blank (mcell mem0 r k) = true) by (intros r k; rewrite mcell_mem0; reflexivity).
  destruct (new_ru_caption (Some (c_count c1 + 1)) (Some (c_tc c1)) mem0 n (pen_of c1) E Hblank) as (N1 & N2 & N3 & l & N4 & N5).
  apply (wrap_code_ru n _ w _ _ cControl Hc); try reflexivity.
  - split.
    + rewrite X2. exact A.
    + exact X3.
    + exact X4.
    + reflexivity.
    + exact E.
    + reflexivity.
    + unfold pen_of. rewrite X5, X6, X7. exact G.
    + split; apply mem_wf_mem0.
    + rewrite X1. cbn [disp set_pos set_md set_nond set_disp gr_live gr_fresh]. split; [reflexivity|]. split; [exact N1|]. split; [exact N2|]. intros _. exact N3.
  - intros _. split; [cbn [ccol set_pos]; lia|]. eexists _, l, _, _. rewrite X1. split; [reflexivity|]. cbn [ccol set_pos]. split; [exact N4|].
    unfold pen_of in *. rewrite X5, X6, X7. exact N5.
  - rewrite X8. reflexivity.
Qed.

Lemma Rru_quiet n c s g c' s' : Rru n c s g ->
  (c_err c', c_style c', c_depth c', c_color c', c_italic c', c_under c', c_act c') =
  (c_err c, c_style c, c_depth c, c_color c, c_italic c, c_under c, c_act c) ->
  (md s', crow s', ccol s', pcol s', pita s', pund s', disp s', nond s') = (md s, crow s, ccol s, pcol s, pita s, pund s, disp s, nond s) ->
  Rlink c' s' -> Rru n c' s' g.
Proof.
  intros (Hb & Hp & _) Ec Es HL. injection Ec as E1 E2 E3 E4 E5 E6 E7. injection Es as F1 F2 F3 F4 F5 F6 F7 F8. split; [|split; [|exact HL]].
  - apply (Rub_same n c s g _ _ Hb); congruence.
  - intros Hg. apply (Rupos_same c s _ _ (Hp Hg)). congruence.
Qed.
Lemma step_ru_pad n c s g w : Rru n c s g -> value w = 0 -> Rru n (step c w) (feed dev0 s w) g.
Proof.
  intros HR Hv. pose proof HR as (Hb & _ & [A B C D]). rewrite (step_pad c w (u_err _ _ _ _ Hb) Hv), (feed_pad dev0 s w Hv).
  apply (Rru_quiet n c s g _ _ HR); [reflexivity..|]. now apply Rlink_forget.
Qed.
Lemma step_ru_other n c s g w : Rru n c s g -> value w <> 0 -> byte1 w < 32 -> d_chan (decode w) = 2 -> Rru n (step c w) (feed dev0 s w) g.
Proof.
  intros HR Hv Hb Hc. pose proof HR as (Hbase & _ & HL). assert (Hn : d_chan (decode w) <> 1) by lia.
  rewrite (step_other c w (u_err _ _ _ _ Hbase) (not_dup_other c s w HL Hn) Hv Hb Hn), (feed_code_cls dev0 s w Hv Hb).
  cbv zeta. rewrite Hc. change (negb (2 =? 1)) with true. change (2 =? 2) with true. cbv iota.
  apply (Rru_quiet n c s g _ _ HR); [reflexivity..|]. now apply (Rlink_other c s w).
Qed.
Lemma step_ru_dup n c s g w : Rru n c s g -> d_chan (decode w) = 1 -> is_second_copy s w = true -> Rru n (step c w) (feed dev0 s w) g.
Proof.
  intros HR Hc Hd. pose proof HR as (Hbase & _ & HL). destruct (ch1_bytes w Hc) as [Hb Hv].
  assert (Hdup : is_dup c w = true) by (rewrite (r_dup _ _ HL w Hc); exact Hd).
  rewrite (step_dup c w (u_err _ _ _ _ Hbase) Hdup), (feed_code_cls dev0 s w) by lia.
  cbv zeta. rewrite Hc, Hd. change (negb (1 =? 1)) with false. cbv iota.
  apply (Rru_quiet n c s g _ _ HR); [reflexivity..|]. apply Rlink_forget; [reflexivity..|exact (r_chan _ _ HL)|exact (r_pmid _ _ HL)].
Qed.
Lemma step_ru_chars_other n c s g w : Rru n c s g -> 32 <= byte1 w -> (chan s =? 1) = false -> Rru n (step c w) (feed dev0 s w) g.
Proof.
  intros HR Hb Hch. pose proof HR as (Hbase & _ & HL). rewrite (step_chars c w (u_err _ _ _ _ Hbase) Hb), (feed_chars dev0 s w Hb). cbv zeta.
  rewrite (r_chan _ _ HL). change (chan (set_last s None)) with (chan s). rewrite Hch. cbn [negb].
  apply (Rru_quiet n c s g _ _ HR); [reflexivity..|]. apply Rlink_forget; [reflexivity..|exact (r_chan _ _ HL)|exact (r_pmid _ _ HL)].
Qed.
(* a carriage return when nothing is displayed (after EDM) *)
Lemma ru_cr_dead n c s g : Rub n c s g -> gr_live g = false ->
  acts n c s (process_control c Model.SccReader.kCR) (control dev0 s kCR) (mkGR false false false).
Proof.
  intros Hb Hlive. pose proof Hb as [A B C D E F G H I].
  destruct (c_act c) as [a|] eqn:Ea; [destruct I as [I _]; congruence|]. destruct I as (_ & I2).
  replace (process_control c Model.SccReader.kCR) with c by (unfold process_control; cbn; now rewrite Ea).
  rewrite (control_cr s n D). split; [|split; [discriminate|repeat split]]. split; try assumption.
  - split; [now apply roll_wf, H|apply H].
  - rewrite Ea. split; [reflexivity|]. now apply roll_blank; [apply H|].
Qed.

(* one word of a roll-up stream of depth n with base row 15: None when it is outside the class.  Accepted: null padding; data
   channel 2; second copies; on channel 1 CR, EDM, RUx of the same depth, a PAC for row 15 while nothing has been written on the
   base row, and - once the cursor is positioned - characters, special and extended characters, mid-row codes, tab offsets, DER.
   Not in the class: a PAC for another row (recorded finding rollup-base-row-forced-15) or on a base row that holds text,
   RCL / RDC / EOC / ENM (other protocols), BS, attribute codes, a change of depth, text after EDM before a CR or PAC
   (recorded finding rollup-text-after-edm-row0). *)
Definition ru_word (n : Z) (s : scr) (g : gru) (w : Z) : option gru :=
  if value w =? 0 then Some g
  else if byte1 w <? 32 then
    let d := decode w in
    if d_chan d =? 2 then Some g
    else if negb (d_chan d =? 1) then None
    else if is_second_copy s w then Some g
    else if d_cls d =? cPac then
      if (d_row d =? 15) && ((d_indent d =? -1) || ((0 <=? d_indent d) && (d_indent d <=? 28))) && gr_live g && gr_fresh g
      then Some (mkGR true true true) else None
    else if d_cls d =? cMidRow then
      if gr_pos g && (ccol s + 1 <=? 31) && (if d_italic d then d_color d =? -1 else negb (d_color d =? -1))
      then Some (mkGR true false (gr_live g)) else None
    else if d_cls d =? cControl then
      let k := d_code d in
      if k =? kCR then Some (if gr_live g then mkGR true true true else mkGR false false false)
      else if k =? kEDM then Some (mkGR false false false)
      else if (kRU2 <=? k) && (k <=? kRU4) then (if ru_depth k =? n then Some (if gr_live g then g else mkGR false true true) else None)
      else if (kTO1 <=? k) && (k <=? kTO1 + 2) then (if gr_pos g && (ccol s + (k - kTO1 + 1) <=? 31) then Some (mkGR true false (gr_live g)) else None)
      else if k =? kDER then (if gr_pos g then Some g else None)
      else None
    else if d_cls d =? cSpecial then (if gr_pos g && (ccol s + 1 <=? 31) then Some (mkGR true false (gr_live g)) else None)
    else if d_cls d =? cExtended then
      (if gr_pos g && (1 <=? ccol s) && negb (is_blank (mcell (disp s) (crow s) (ccol s - 1))) then Some (mkGR true false (gr_live g)) else None)
    else None
  else
    if chan s =? 1 then (if gr_pos g && (ccol s + zlen (to_text w) <=? 31) then Some (mkGR true false (gr_live g)) else None) else Some g.
Lemma step_ru n c s g w g' : Rru n c s g -> ru_word n s g w = Some g' -> Rru n (step c w) (feed dev0 s w) g'.
Proof.
  intros HR Hw. unfold ru_word in Hw.
  destruct (value w =? 0) eqn:Ev.
  { injection Hw as <-. apply step_ru_pad; [exact HR|lia]. }
  destruct (byte1 w <? 32) eqn:Eb.
  2:{ pose proof (byte1_range w). destruct (chan s =? 1) eqn:Ech.
      - destruct (gr_pos g && (ccol s + zlen (to_text w) <=? 31)) eqn:E1; [|discriminate]. injection Hw as <-.
        apply andb_true_iff in E1 as [E1 E2]. apply step_ru_chars; try assumption; lia.
      - injection Hw as <-. apply step_ru_chars_other; try assumption; lia. }
  cbv zeta in Hw.
  destruct (d_chan (decode w) =? 2) eqn:Ec2.
  { injection Hw as <-. apply step_ru_other; try assumption; lia. }
  destruct (d_chan (decode w) =? 1) eqn:Ec1; [|discriminate]. cbn [negb] in Hw.
  assert (Hc : d_chan (decode w) = 1) by lia.
  destruct (is_second_copy s w) eqn:Ed.
  { injection Hw as <-. now apply step_ru_dup. }
  (* a channel-1 code that is acted upon: both sides dispatch on its class; what is left is what the code does *)
  pose proof HR as (Hb & _ & HL).
  rewrite (step_code c w (u_err _ _ _ _ Hb) (not_dup_code c s w HL Hc Ed) Hc), (feed_act s w Hc Ed). cbv zeta. unfold act.
  destruct (d_cls (decode w) =? cPac) eqn:Epac.
  { destruct (_ && _) eqn:E1 in Hw; [|discriminate]. injection Hw as <-.
    apply andb_true_iff in E1 as [E1 E4]. apply andb_true_iff in E1 as [E1 E3]. apply andb_true_iff in E1 as [E1 E2].
    apply Z.eqb_eq in Epac. rewrite Epac. apply (ru_code n c s g w _ _ cPac _ HR Hc). intros Hb1 _. apply (ru_pac n _ _ g); try assumption; lia. }
  destruct (d_cls (decode w) =? cMidRow) eqn:Emid.
  { destruct (_ && _) eqn:E1 in Hw; [|discriminate]. injection Hw as <-.
    apply andb_true_iff in E1 as [E1 E4]. apply andb_true_iff in E1 as [E1 E2].
    apply Z.eqb_eq in Emid. rewrite Emid. change (cMidRow =? cAttr) with false. cbv iota.
    apply (ru_code n c s g w _ _ cMidRow _ HR Hc). intros Hb1 Hp1. apply ru_midrow; try assumption; [now apply Hp1|cbn [ccol set_chan set_last]; lia]. }
  destruct (d_cls (decode w) =? cAttr) eqn:Eattr.
  { apply Z.eqb_eq in Eattr. rewrite Eattr in Hw. discriminate Hw. }
  destruct (d_cls (decode w) =? cControl) eqn:Ectl.
  { apply (ru_code n c s g w _ _ cControl _ HR Hc). intros Hb1 Hp1. set (k := d_code (decode w)) in *.
    destruct (k =? kCR) eqn:K1.
    { injection Hw as <-. replace k with Model.SccReader.kCR by (unfold Model.SccReader.kCR, kCR in *; lia).
      destruct (gr_live g) eqn:El; [now apply (ru_cr n _ _ g)|now apply (ru_cr_dead n _ _ g)]. }
    destruct (k =? kEDM) eqn:K2. { injection Hw as <-. replace k with Model.SccReader.kEDM by (unfold Model.SccReader.kEDM, kEDM in *; lia). now apply (ru_edm n _ _ g). }
    destruct ((kRU2 <=? k) && (k <=? kRU4)) eqn:K3.
    { destruct (ru_depth k =? n) eqn:E1; [|discriminate]. injection Hw as <-.
      destruct (gr_live g) eqn:El; [apply ru_ru_live|apply (ru_ru_new n _ _ g)]; try assumption; lia. }
    destruct ((kTO1 <=? k) && (k <=? kTO1 + 2)) eqn:K5.
    { destruct (gr_pos g && (ccol s + (k - kTO1 + 1) <=? 31)) eqn:E1; [|discriminate]. injection Hw as <-.
      apply andb_true_iff in E1 as [E1 E2]. apply ru_to; try assumption; [now apply Hp1|lia|cbn [ccol set_chan set_last]; lia]. }
    destruct (k =? kDER) eqn:K6; [|discriminate].
    destruct (gr_pos g) eqn:E1; [|discriminate]. injection Hw as <-. replace k with Model.SccReader.kDER by (unfold Model.SccReader.kDER, kDER in *; lia).
    apply ru_der; [assumption|now apply Hp1]. }
  destruct (d_cls (decode w) =? cSpecial) eqn:Esp.
  { destruct (gr_pos g && (ccol s + 1 <=? 31)) eqn:E1; [|discriminate]. injection Hw as <-.
    apply andb_true_iff in E1 as [E1 E2].
    apply (ru_code n c s g w _ _ cSpecial _ HR Hc). intros Hb1 Hp1.
    apply (core_write_ru n _ _ g [d_t1 (decode w)] Hb1 (Rupos_weaken _ _ (Hp1 E1))); [discriminate|unfold zlen; cbn [length ccol set_chan set_last]; lia]. }
  destruct (d_cls (decode w) =? cExtended) eqn:Eext; [|discriminate].
  destruct (_ && _) eqn:E1 in Hw; [|discriminate]. injection Hw as <-.
  apply andb_true_iff in E1 as [E1 E3]. apply andb_true_iff in E1 as [E1 E2].
  apply (ru_code n c s g w _ _ cExtended _ HR Hc). intros Hb1 Hp1.
  apply ru_extended; try assumption; [now apply Hp1|cbn [ccol set_chan set_last]; lia|now apply negb_true_iff in E3].
Qed.

Fixpoint ru_words (n : Z) (s : scr) (g : gru) (ws : list Z) : option (scr * gru) :=
  match ws with
  | [] => Some (s, g)
  | w :: ws' => match ru_word n s g w with Some g' => ru_words n (feed dev0 s w) g' ws' | None => None end
  end.
Fixpoint ru_lines (n : Z) (s : scr) (g : gru) (ls : list (tcv * list Z)) : option (scr * gru) :=
  match ls with
  | [] => Some (s, g)
  | l :: ls' => match ru_words n s g (snd l) with Some (s1, g1) => ru_lines n s1 g1 ls' | None => None end
  end.
Lemma Rru_with_tc n c s g t : Rru n c s g -> Rru n (with_tc c t) s g.
Proof. intros HR. apply (Rru_quiet n c s g _ _ HR); [reflexivity..|]. destruct HR as (_ & _ & [A B C D]). split; assumption. Qed.
Lemma steps_ru n ws : forall c s g s' g', Rru n c s g -> ru_words n s g ws = Some (s', g') ->
  Rru n (fold_left step ws c) s' g' /\ s' = fold_left (feed dev0) ws s.
Proof.
  induction ws as [|w ws IH]; intros c s g s' g' HR Hw; cbn [ru_words fold_left] in *.
  - injection Hw as <- <-. split; [exact HR|reflexivity].
  - destruct (ru_word n s g w) as [g1|] eqn:E; [|discriminate]. apply (IH _ _ _ _ _ (step_ru n c s g w g1 HR E) Hw).
Qed.
Lemma lines_ru n ls : forall c s g s' g', Rru n c s g -> ru_lines n s g ls = Some (s', g') ->
  Rru n (run_words c ls) s' g' /\ s' = fold_left (fun s l => fold_left (feed dev0) (snd l) s) ls s.
Proof.
  induction ls as [|l ls IH]; intros c s g s' g' HR Hl; cbn [ru_lines run_words fold_left] in *.
  - injection Hl as <- <-. split; [exact HR|reflexivity].
  - destruct (ru_words n s g (snd l)) as [[s1 g1]|] eqn:E; [|discriminate].
    destruct (steps_ru n (snd l) (with_tc c (fst l)) s g s1 g1 (Rru_with_tc n c s g (fst l) HR) E) as [H1 H2].
    subst s1. apply (IH _ _ _ _ _ H1 Hl).
Qed.
(* the first word of the stream selects the roll-up mode *)
Definition ru_start (w : Z) : option Z :=
  let d := decode w in
  if (d_chan d =? 1) && (d_cls d =? cControl) && (kRU2 <=? d_code d) && (d_code d <=? kRU4) then Some (ru_depth (d_code d)) else None.
Theorem rollup_memories ta t0 w0 ws0 rest n s1 g1 s' g' : ru_start w0 = Some n ->
  ru_words n (feed dev0 scr0 w0) (mkGR true true true) ws0 = Some (s1, g1) -> ru_lines n s1 g1 rest = Some (s', g') ->
  let c := run_words (ctx_init ta) ((t0, w0 :: ws0) :: rest) in
  s' = fold_left (fun s l => fold_left (feed dev0) (snd l) s) ((t0, w0 :: ws0) :: rest) scr0 /\
  c_err c = false /\ md s' = RollUp n /\
  match c_act c with Some a => shows a (disp s') | None => forall r k, is_blank (mcell (disp s') r k) = true end.
Proof.
  intros Hst Hw Hl. cbv zeta. unfold ru_start in Hst. cbv zeta in Hst.
  destruct ((d_chan (decode w0) =? 1) && (d_cls (decode w0) =? cControl) && (kRU2 <=? d_code (decode w0)) && (d_code (decode w0) <=? kRU4)) eqn:E; [|discriminate].
  injection Hst as <-.
  apply andb_true_iff in E as [E E4]. apply andb_true_iff in E as [E E3]. apply andb_true_iff in E as [E1 E2].
  pose proof (Rpre_init ta) as Hpre.
  assert (Hpre0 : Rpre (with_tc (ctx_init ta) t0) scr0).
  { destruct Hpre as [A B C D F [L1 L2 L3 L4]]. split; try assumption. split; assumption. }
  assert (HR0 : Rru (ru_depth (d_code (decode w0))) (step (with_tc (ctx_init ta) t0) w0) (feed dev0 scr0 w0) (mkGR true true true)).
  { apply step_ru_init; [exact Hpre0|lia|reflexivity|lia|lia]. }
  destruct (steps_ru _ ws0 _ _ _ _ _ HR0 Hw) as [HR1 Es1].
  destruct (lines_ru _ rest _ _ _ _ _ HR1 Hl) as [HR2 Es2].
  cbn [run_words fold_left fst snd]. fold (run_words (fold_left step ws0 (step (with_tc (ctx_init ta) t0) w0)) rest).
  split; [rewrite Es2, Es1; reflexivity|].
  destruct HR2 as ([A B C D E5 F G H I] & _ & _). split; [exact A|]. split; [exact D|].
  destruct (c_act _); [destruct I as (_ & I2 & _); exact (pm_cells _ _ _ I2)|destruct I as (_ & I2); exact I2].
Qed.
