(* C07: the SubRip writer writes at most one cue per snapshot (regions and paragraphs are merged first), so SubRip cues never
   overlap: each ends no later than the next begins.  For snapshots in which every region holds at most one body and the
   children of bodies are divisions — which holds for the snapshots of every document that follows the content model
   (`strict_shape`, proved from `doc_block_wf` below).  Also: every cue gets an end (WebVTT: always; SubRip: for the same
   documents), so the writers fail only on an interval that collapses after rounding to the millisecond. *)
From Coq Require Import Sorting.Sorted.
From TT Require Import Model.Doc Gen.StyleTables Model.Isd Model.SigTimes Model.TimeCode Model.IsdFilters Gen.CueTables Model.CueWriter.
From TT Require Import Model.CueTriggers Spec.IsdSpec Spec.CueSpec Proofs.Common.ElemInd Proofs.C02.Complete.
From TT Require Import Proofs.C06.Filters Proofs.C06.Inline Proofs.C06.Loop Proofs.C06.Text Proofs.C06.Shape Proofs.C07.Settings Proofs.C07.Order.

(* the paragraphs the SubRip dispatch reaches below an element *)
Fixpoint srt_p_count (e : elem) : nat :=
  match e with
  | Elem a cs =>
      match e_kind a with
      | KDiv => (fix go (l : list elem) : nat := match l with [] => O | c :: l' => (srt_p_count c + go l')%nat end) cs
      | KP => 1%nat
      | _ => O
      end
  end.
Definition sum_count (l : list elem) : nat := fold_right (fun c n => (srt_p_count c + n)%nat) O l.
Lemma srt_p_count_node a cs :
  srt_p_count (Elem a cs) = match e_kind a with KDiv => sum_count cs | KP => 1%nat | _ => O end.
Proof. cbn [srt_p_count]. destruct (e_kind a); reflexivity. Qed.
Lemma sum_count_app x y : sum_count (x ++ y) = (sum_count x + sum_count y)%nat.
Proof. unfold sum_count. induction x as [|c x IH]; [reflexivity|]. cbn [app fold_right]. rewrite IH. lia. Qed.

Lemma srt_blocks_count fmt b en l n cs n' : srt_blocks fmt b en l n = (cs, n') -> (length cs <= sum_count l)%nat.
Proof.
  apply (srt_blocks_P O Nat.add (fun m _ cs _ => (length cs <= m)%nat) (fun _ => le_n O)) with (ix := srt_p_count).
  - intros m1 m2 _ x _ y _ Hx Hy. rewrite app_length. lia.
  - intros a cs0 n0 x n1 Hn. rewrite srt_p_count_node. destruct (e_kind a); try (rewrite (proj1 Hn); cbn; lia); [exact Hn|].
    cbv zeta in Hn. rewrite (proj1 Hn). destruct (srt_blank _); cbn; lia.
Qed.

Lemma count_paragraphs : forall e, e_kind (eattrs e) = KDiv -> srt_p_count e = length (get_paragraphs e).
Proof.
  induction e as [a cs IH] using elem_ind2. intros Hk. cbn [eattrs] in Hk. rewrite srt_p_count_node, Hk, get_paragraphs_node.
  induction cs as [|c cs IHcs]; [reflexivity|]. inversion IH as [|? ? Hc Hcs]; subst. cbn [sum_count fold_right flat_map].
  rewrite app_length. fold (sum_count cs). rewrite (IHcs Hcs). f_equal.
  destruct c as [ac cc]. cbn [eattrs] in *. destruct (e_kind ac) eqn:Ek; try (rewrite srt_p_count_node, Ek; reflexivity).
  apply Hc. reflexivity.
Qed.
Definition all_divs (l : list elem) : bool := forallb (is_kind KDiv) l.
Lemma sum_count_paragraphs l : all_divs l = true -> sum_count l = length (flat_map get_paragraphs l).
Proof.
  induction l as [|c l IH]; intros H; [reflexivity|]. cbn [all_divs forallb] in H. apply andb_true_iff in H as [H1 H2].
  cbn [sum_count fold_right flat_map]. rewrite app_length. fold (sum_count l). rewrite (IH H2). f_equal.
  apply count_paragraphs. apply kind_eqb_eq. exact H1.
Qed.
Lemma merge_paragraphs_body_count b : all_divs (echildren b) = true -> (sum_count (echildren (merge_paragraphs_body b)) <= 1)%nat.
Proof.
  intros H. unfold merge_paragraphs_body. destruct (Z.of_nat (length (flat_map get_paragraphs (echildren b))) <=? 1) eqn:E.
  - rewrite (sum_count_paragraphs _ H). lia.
  - cbn. lia.
Qed.
Lemma merge_paragraphs_body_divs b : all_divs (echildren b) = true -> all_divs (echildren (merge_paragraphs_body b)) = true.
Proof. intros H. unfold merge_paragraphs_body. destruct (_ <=? 1); [exact H | reflexivity]. Qed.

(* the style filters keep kinds, hence counts *)
Lemma filter_supported_count cfg : forall e, srt_p_count (filter_supported cfg e) = srt_p_count e.
Proof.
  induction e as [a cs IH] using elem_ind2. rewrite filter_supported_node, !srt_p_count_node. cbn [with_styles e_kind].
  destruct (e_kind a); try reflexivity. induction cs as [|c cs IHcs]; [reflexivity|]. inversion IH as [|? ? Hc Hcs]; subst.
  cbn [map sum_count fold_right]. fold (sum_count (map (filter_supported cfg) cs)) (sum_count cs). rewrite Hc, (IHcs Hcs). reflexivity.
Qed.
Lemma filter_defaults_count dfl : forall e par, srt_p_count (filter_defaults dfl par e) = srt_p_count e.
Proof.
  induction e as [a cs IH] using elem_ind2. intros par. rewrite filter_defaults_node. cbv zeta. rewrite !srt_p_count_node. cbn [with_styles e_kind].
  destruct (e_kind a); try reflexivity. generalize (Some (filter (fun kv => negb (default_removed dfl par kv)) (e_styles a))). intros p'.
  induction cs as [|c cs IHcs]; [reflexivity|]. inversion IH as [|? ? Hc Hcs]; subst.
  cbn [map sum_count fold_right]. fold (sum_count (map (filter_defaults dfl p') cs)) (sum_count cs). rewrite Hc, (IHcs Hcs). reflexivity.
Qed.

(* snapshots in which every region holds at most one body and the children of bodies are divisions *)
Definition strict_shape (rs : list elem) : bool :=
  forallb (fun r => (Z.of_nat (length (echildren r)) <=? 1) && forallb (fun b => all_divs (echildren b)) (echildren r)) rs.
Definition total_count (rs : list elem) : nat := sum_count (body_children rs).

Lemma sum_count_map f l : (forall e, srt_p_count (f e) = srt_p_count e) -> sum_count (map f l) = sum_count l.
Proof. intros H. unfold sum_count. induction l as [|c l IH]; [reflexivity|]. cbn [map fold_right]. rewrite H, IH. reflexivity. Qed.
Lemma fd_region_count d par r :
  sum_count (flat_map echildren (echildren (filter_defaults d par r))) = sum_count (flat_map echildren (echildren r)).
Proof.
  destruct r as [a cs]. rewrite filter_defaults_node. cbv zeta. cbn [echildren].
  generalize (Some (filter (fun kv => negb (default_removed d par kv)) (e_styles a))). intros p1.
  induction cs as [|b cs IH]; [reflexivity|]. cbn [map flat_map]. rewrite !sum_count_app, IH. f_equal.
  destruct b as [ab cb]. rewrite filter_defaults_node. cbv zeta. cbn [echildren]. apply sum_count_map. intros e. apply filter_defaults_count.
Qed.
Lemma fs_region_count c r :
  sum_count (flat_map echildren (echildren (filter_supported c r))) = sum_count (flat_map echildren (echildren r)).
Proof.
  destruct r as [a cs]. rewrite filter_supported_node. cbn [echildren].
  induction cs as [|b cs IH]; [reflexivity|]. cbn [map flat_map]. rewrite !sum_count_app, IH. f_equal.
  destruct b as [ab cb]. rewrite filter_supported_node. cbn [echildren]. apply sum_count_map. apply filter_supported_count.
Qed.
Lemma total_count_map f rs :
  (forall r, sum_count (flat_map echildren (echildren (f r))) = sum_count (flat_map echildren (echildren r))) ->
  total_count (map f rs) = total_count rs.
Proof.
  intros H. unfold total_count, body_children. induction rs as [|r rs IH]; [reflexivity|]. cbn [map flat_map].
  rewrite !sum_count_app, IH, H. reflexivity.
Qed.

Lemma merge_paragraphs_total rs : strict_shape rs = true ->
  (total_count (merge_paragraphs rs) <= length (flat_map echildren rs))%nat.
Proof.
  unfold strict_shape, total_count, body_children, merge_paragraphs. intros H. induction rs as [|r rs IH]; [cbn; lia|].
  cbn [forallb] in H. apply andb_true_iff in H as [Hr Hrs]. apply andb_true_iff in Hr as [_ Hb].
  cbn [map flat_map]. rewrite sum_count_app, app_length. specialize (IH Hrs). cbn [echildren].
  assert (G : (sum_count (flat_map echildren (map merge_paragraphs_body (echildren r))) <= length (echildren r))%nat).
  { clear - Hb. induction (echildren r) as [|b l IHl]; [cbn; lia|]. cbn [forallb] in Hb. apply andb_true_iff in Hb as [H1 H2].
    cbn [map flat_map length]. rewrite sum_count_app. pose proof (merge_paragraphs_body_count b H1). specialize (IHl H2). lia. }
  lia.
Qed.

Lemma fold_left_count rs k : fold_left (fun n r => n + Z.of_nat (length (echildren r))) rs k = k + Z.of_nat (length (flat_map echildren rs)).
Proof.
  revert k. induction rs as [|r rs IH]; intros k; [cbn; lia|]. cbn [fold_left flat_map]. rewrite IH, app_length, Nat2Z.inj_add. lia.
Qed.
Lemma merge_regions_strict rs : strict_shape rs = true ->
  strict_shape (merge_regions rs) = true /\ (length (flat_map echildren (merge_regions rs)) <= 1)%nat.
Proof.
  intros H. unfold merge_regions. rewrite fold_left_count.
  destruct ((Z.of_nat (length rs) <=? 1) || (0 + Z.of_nat (length (flat_map echildren rs)) <=? 1)) eqn:E.
  - split; [exact H|]. apply orb_true_iff in E as [E|E]; [|lia].
    destruct rs as [|r [|r' rs']]; [cbn; lia | | cbn [length] in E; lia].
    cbn [flat_map]. rewrite app_nil_r. unfold strict_shape in H. cbn [forallb] in H. apply andb_true_iff in H as [H _].
    apply andb_true_iff in H as [H _]. lia.
  - split; [|cbn; lia]. unfold strict_shape. cbn [forallb echildren length]. rewrite !andb_true_r. cbn [andb].
    unfold all_divs. apply forallb_forall. intros c Hc. apply in_flat_map in Hc as (r & Hr & Hc). apply in_flat_map in Hc as (b & Hb & Hc).
    unfold strict_shape in H. rewrite forallb_forall in H. specialize (H r Hr). apply andb_true_iff in H as [_ H].
    rewrite forallb_forall in H. specialize (H b Hb). unfold all_divs in H. rewrite forallb_forall in H. apply H, Hc.
Qed.

(* the SubRip filter list leaves at most one paragraph for the dispatch *)
Theorem srt_filters_single rs : strict_shape rs = true -> (total_count (apply_filters srt_filters rs) <= 1)%nat.
Proof.
  intros H. destruct srt_filters_form as (c & d & Hf). rewrite Hf. unfold writer_filters, apply_filters. cbn [app fold_left apply_filter].
  rewrite (total_count_map _ _ (fd_region_count d None)), (total_count_map _ _ (fs_region_count c)).
  destruct (merge_regions_strict rs H) as [Hs Hl]. pose proof (merge_paragraphs_total _ Hs). unfold total_count in *. lia.
Qed.

Theorem srt_snapshot_single fmt b en regions n cs n' : strict_shape regions = true ->
  srt_add_isd fmt b en (apply_filters srt_filters regions) n = (cs, n') -> (length cs <= 1)%nat.
Proof.
  intros Hs H. unfold srt_add_isd in H. fold (body_children (apply_filters srt_filters regions)) in H.
  pose proof (srt_blocks_count _ _ _ _ _ _ _ H) as G. pose proof (srt_filters_single regions Hs). unfold total_count in *. lia.
Qed.

Lemma proc_body_divs d t sel b inh par pb pe r :
  src_body_ok b = true -> proc d t sel inh par pb pe b = Ok (Some r) -> all_divs (echildren r) = true.
Proof.
  unfold src_body_ok, is_kind. intros Hs H. apply andb_true_iff in Hs as [Hk Hs]. apply kind_eqb_eq in Hk.
  destruct (proc_inv _ _ _ _ _ _ _ _ _ H) as [_ Hc]. rewrite Hk in Hc. destruct Hc as (assoc & par' & pb' & pe' & Hsub).
  clear H. unfold all_divs. induction Hsub as [|c cs0 rs _ IHs|c x cs0 rs Hx _ IHs]; [reflexivity | |];
    cbn [forallb] in Hs; apply andb_true_iff in Hs as [Hs1 Hs2]; [apply IHs, Hs2|].
  cbn [forallb]. rewrite (IHs Hs2), andb_true_r. apply andb_true_iff in Hs1 as [Hk1 _].
  destruct (proc_inv _ _ _ _ _ _ _ _ _ Hx) as [Hkx _]. unfold is_kind in *. rewrite Hkx. exact Hk1.
Qed.
Lemma proc_region_strict d t sel r res :
  e_kind (eattrs r) = KRegion -> match d_body d with Some b => src_body_ok b = true | None => True end ->
  proc_region d t sel r = Ok (Some res) ->
  (Z.of_nat (length (echildren res)) <=? 1) && forallb (fun b => all_divs (echildren b)) (echildren res) = true.
Proof.
  intros Hk Hb H. unfold proc_region in H. destruct (negb (active_at t _)); [discriminate|].
  destruct (style_phase d t _ None _) as [st|]; [|discriminate]. cbn [bind] in H.
  destruct (display_none st); [discriminate|].
  match type of H with bind ?g _ = _ => destruct g as [children|] eqn:Eg end; [|discriminate]. cbn [bind] in H.
  destruct (finish_element_kind _ _ _ _ H) as [_ Hc]. rewrite Hk in Hc. rewrite Hc.
  destruct (d_body d) as [b|]; [|injection Eg as <-; reflexivity].
  destruct (proc d t sel None _ None None b) as [[x|]|] eqn:Eb; cbn [bind] in Eg; try discriminate; injection Eg as <-; [|reflexivity].
  cbn [length forallb]. rewrite (proc_body_divs _ _ _ _ _ _ _ _ _ Hb Eb). reflexivity.
Qed.
Theorem isd_strict d t rs : doc_block_wf d = true -> isd d t = Ok rs -> strict_shape rs = true.
Proof.
  intros Hw H. apply forallb_forall, Forall_forall. revert H. apply isd_forall. intros r x Hr Hx.
  exact (proc_region_strict d t _ r x (doc_wf_regions _ d Hw r Hr) (doc_wf_body _ d Hw) Hx).
Qed.
Theorem sequence_strict d seq : doc_block_wf d = true -> isd_sequence d = Ok seq -> forallb (fun x => strict_shape (snd x)) seq = true.
Proof.
  intros Hw H. apply forallb_forall. refine (sequence_all (fun d => doc_block_wf d = true) strict_shape cached_docs_wf isd_strict eq_refl _ d seq Hw H).
  intros a b Ha Hb. unfold strict_shape. rewrite forallb_app. fold (strict_shape a) (strict_shape b). rewrite Ha, Hb. reflexivity.
Qed.

Definition single_ok (t : Q) (next : option Q) (regions : list elem) (cs : list cue) : Prop :=
  Forall (times_ok t next) cs /\ Forall (kept srt_blank) cs /\ (length cs <= 1)%nat.

Lemma srt_loop_single fmt seq n cs :
  forallb (fun x => strict_shape (snd x)) seq = true -> srt_loop fmt seq n = Ok cs -> cue_groups single_ok seq cs.
Proof.
  intros Hs H. apply (srt_loop_by fmt (fun b en regions cs => cues_at srt_blank b en cs /\ (strict_shape regions = true -> (length cs <= 1)%nat))) in H.
  2: { intros b en regions n0 x n' Hx. split; [exact (proj1 (srt_add_isd_spec _ _ _ _ _ _ _ Hx)) | intros Hst; exact (srt_snapshot_single _ _ _ _ _ _ _ Hst Hx)]. }
  induction H as [|t regions seq b en cs rest Eb Een [Hat Hl] _ IH]; [constructor|]. cbn [forallb snd] in Hs. apply andb_true_iff in Hs as [Hs1 Hs2].
  constructor; [|exact (IH Hs2)]. apply q_ms_round in Eb. apply oq_ms_round in Een. subst b en. split; [|split; [|exact (Hl Hs1)]].
  - eapply Forall_impl; [|exact Hat]. intros c (Hc1 & Hc2 & _). split; [exact Hc1|]. destruct (next_time seq); cbn [option_map] in Hc2; [exact Hc2 | right; exact Hc2].
  - eapply Forall_impl; [|exact Hat]. intros c (_ & _ & Hc). exact Hc.
Qed.
Lemma finish_single fill : forall seq cs, cue_groups single_ok seq cs -> cue_groups single_ok seq (finish_cues fill srt_blank cs).
Proof.
  intros seq cs G. induction G as [|t regions seq cs rest (Hr & Hk & Hl) G IH]; [constructor|].
  destruct rest as [|r0 rest'].
  - rewrite app_nil_r. rewrite <- (app_nil_r (finish_cues fill srt_blank cs)). constructor; [|exact G].
    destruct (finish_last_group fill srt_blank t (next_time seq) (cue_blank_items _ _) cs Hr Hk) as (F1 & F2 & F3).
    split; [exact F1|]. split; [exact F2|]. rewrite <- (map_length cue_chars), F3, map_length. exact Hl.
  - rewrite finish_cues_app by discriminate. constructor; [|exact IH].
    destruct (next_time seq) as [t'|] eqn:En; [|destruct seq as [|[t1 r1] seq']; [inversion G | discriminate En]].
    assert (E : map (fun c => if fill then default_end c else c) cs = cs).
    { destruct fill; [|apply map_id]. clear - Hr. induction cs as [|c cs IHc]; [reflexivity|]. inversion Hr as [|? ? Hc Hcs]; subst.
      cbn [map]. rewrite (default_end_bounded _ _ _ Hc), (IHc Hcs). reflexivity. }
    rewrite E. split; [exact Hr|]. split; assumption.
Qed.

(* an earlier cue ends no later than a later cue begins *)
Definition strictly_before (c1 c2 : cue) : Prop := forall e1, c_end c1 = Some e1 -> e1 <= c_begin c2.

Theorem single_groups_ordered : forall seq cs, cue_groups single_ok seq cs -> StronglySorted Qlt (map fst seq) ->
  Forall (fun c => c_end c <> None) cs -> ForallOrdPairs strictly_before cs.
Proof.
  intros seq cs G. induction G as [|t regions seq cs rest (Hr & _ & Hl) G IH]; intros Hs Hne; [constructor|].
  cbn [map fst] in Hs. inversion Hs as [|? ? Hs' Hlt]; subst. apply Forall_app in Hne as [Hne1 Hne2]. apply FOP_app; [|exact (IH Hs' Hne2)|].
  - destruct cs as [|c [|c' cs']]; [constructor | constructor; constructor | cbn [length] in Hl; lia].
  - intros c1 c2 H1 H2 e1 E1. rewrite Forall_forall in Hr. destruct (Hr c1 H1) as [_ He1].
    destruct seq as [|[t1 r1] seq'] eqn:Eseq; [inversion G; subst; destruct H2|].
    cbn [next_time] in He1. rewrite E1 in He1. injection He1 as ->.
    assert (G' : cue_groups times_only ((t1, r1) :: seq') rest) by (eapply cue_groups_impl; [|exact G]; intros ? ? ? ? [Hx _]; exact Hx).
    pose proof (groups_lower_bound _ _ G' Hs' t1 (ex_intro _ r1 (ex_intro _ seq' eq_refl))) as L. rewrite Forall_forall in L. apply L, H2.
Qed.

Theorem srt_cues_strict d fmt seq cs ss :
  doc_block_wf d = true -> isd_sequence d = Ok seq -> srt_cues fmt seq = Ok cs -> srt_strings 1 cs = Ok ss ->
  ForallOrdPairs strictly_before cs.
Proof.
  intros Hw Hd Hc Hs. unfold srt_cues in Hc. destruct (srt_loop fmt seq 0) as [cs0|] eqn:E; [|discriminate]. cbn [bind] in Hc.
  injection Hc as <-. apply (single_groups_ordered seq).
  - apply finish_single. exact (srt_loop_single fmt seq 0 cs0 (sequence_strict d seq Hw Hd) E).
  - exact (sequence_sorted d seq Hd).
  - eapply Forall_impl; [|exact (srt_strings_spans _ _ _ Hs)]. intros c (e & He & _). rewrite He. discriminate.
Qed.

(* every cue gets an end: the writers fail only on a collapsed interval *)
Definition has_end (c : cue) : Prop := c_end c <> None.
Lemma default_end_has_end c : has_end (default_end c).
Proof. unfold has_end, default_end. destruct (c_end c) eqn:E; [rewrite E|]; discriminate. Qed.
Lemma has_end_unbounded cs : Forall has_end cs -> trig_unbounded cs = false.
Proof.
  intros H. unfold trig_unbounded. apply not_true_iff_false. intros E. apply existsb_exists in E as (c & Hc & E).
  rewrite Forall_forall in H. specialize (H c Hc). unfold has_end in H. destruct (c_end c); [discriminate | contradiction].
Qed.
(* WebVTT: finish() reaches every cue *)
Theorem vtt_cues_bounded cfg seq cs css : vtt_cues cfg seq = Ok (cs, css) -> trig_unbounded cs = false.
Proof.
  intros H. destruct (vtt_cues_inv _ _ _ _ H) as (fs & cs0 & st & _ & E & ->). rewrite (finish_fill _ _ (vtt_loop_nonblank _ _ _ _ _ _ E)).
  apply has_end_unbounded, Forall_forall. intros c Hc. apply in_map_iff in Hc as (c0 & <- & _). apply default_end_has_end.
Qed.
(* SubRip: finish() looks at the last cue only, and the unbounded last interval has at most one *)
Lemma finish_single_ends : forall seq cs, cue_groups single_ok seq cs -> Forall has_end (finish_cues false srt_blank cs).
Proof.
  intros seq cs G. induction G as [|t regions seq cs rest (Hr & Hk & Hl) G IH]; [constructor|].
  destruct rest as [|r0 rest'].
  - rewrite app_nil_r. destruct cs as [|c [|c' cs']]; [constructor | | cbn [length] in Hl; lia].
    cbn [finish_cues]. inversion Hk as [|? ? [Kc _] _]; subst. destruct (c_end c) eqn:E; [constructor; [unfold has_end; rewrite E; discriminate | constructor]|].
    rewrite Kc. constructor; [apply default_end_has_end | constructor].
  - rewrite finish_cues_app by discriminate. rewrite map_id. apply Forall_app. split; [|exact IH].
    destruct (next_time seq) as [t'|] eqn:En; [|destruct seq as [|[t1 r1] seq']; [inversion G | discriminate En]].
    eapply Forall_impl; [|exact Hr]. intros c [_ Hc]. unfold has_end. rewrite Hc. discriminate.
Qed.
Theorem srt_cues_bounded d fmt seq cs :
  doc_block_wf d = true -> isd_sequence d = Ok seq -> srt_cues fmt seq = Ok cs -> trig_unbounded cs = false.
Proof.
  intros Hw Hd Hc. unfold srt_cues in Hc. destruct (srt_loop fmt seq 0) as [cs0|] eqn:E; [|discriminate]. cbn [bind] in Hc.
  injection Hc as <-. apply has_end_unbounded, (finish_single_ends seq). exact (srt_loop_single fmt seq 0 cs0 (sequence_strict d seq Hw Hd) E).
Qed.
(* hence: the writers return a string unless an interval collapses after rounding to the millisecond *)
Theorem vtt_total_collapsed cfg seq cs css : vtt_cues cfg seq = Ok (cs, css) -> trig_collapsed cs = false -> exists out, vtt_of_seq cfg (Ok seq) = Ok out.
Proof. intros Hc H1. exact (vtt_total cfg seq cs css Hc H1 (vtt_cues_bounded cfg seq cs css Hc)). Qed.
Theorem srt_total_collapsed d fmt seq cs :
  doc_block_wf d = true -> isd_sequence d = Ok seq -> srt_cues fmt seq = Ok cs -> trig_collapsed cs = false -> exists out, srt_of_seq fmt (Ok seq) = Ok out.
Proof. intros Hw Hd Hc H1. exact (srt_total fmt seq cs Hc H1 (srt_cues_bounded d fmt seq cs Hw Hd Hc)). Qed.
