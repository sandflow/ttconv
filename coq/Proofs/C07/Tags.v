(* C07: what every cue of both writers carries — structural facts, for every snapshot sequence:
   tags come in matching open/close pairs, properly nested, around the content of the span that produced them;
   no tag at all when SRT text formatting is disabled. *)
From TT Require Import Model.Doc Gen.StyleTables Model.Isd Model.SigTimes Model.TimeCode Model.IsdFilters Gen.CueTables Model.CueWriter.
From TT Require Import Model.CueTriggers Proofs.Common.ElemInd Proofs.C06.Inline Proofs.C06.Loop Proofs.C07.Settings.

Section CueItems.
  Variable R : list item -> Prop.
  Let Q (c : cue) : Prop := R (c_items c).

  Lemma srt_blocks_items fmt b en : (forall cs0, R (flat_map (srt_inline fmt) cs0)) ->
    forall l n cs n', srt_blocks fmt b en l n = (cs, n') -> Forall Q cs.
  Proof.
    intros HQ. apply (srt_blocks_P tt (fun _ _ => tt) (fun _ _ cs _ => Forall Q cs) (fun _ => Forall_nil Q)
                        (fun _ _ _ _ _ _ _ Hx Hy => proj2 (Forall_app Q _ _) (conj Hx Hy)) fmt b en (fun _ => tt)).
    intros a cs0 n x n' Hn. destruct (e_kind a); try (rewrite (proj1 Hn); constructor); [exact Hn|].
    cbv zeta in Hn. rewrite (proj1 Hn). destruct (srt_blank _); repeat constructor. apply HQ.
  Qed.
  Theorem srt_cues_items fmt : (forall cs0, R (flat_map (srt_inline fmt) cs0)) ->
    forall seq cs, srt_cues fmt seq = Ok cs -> Forall Q cs.
  Proof.
    intros HQ seq cs H. unfold srt_cues in H. destruct (srt_loop fmt seq 0) as [cs0|] eqn:E; [|discriminate]. cbn [bind] in H.
    injection H as <-. apply finish_forall; [intros c; unfold Q, default_end; destruct (c_end c); exact (fun Hc => Hc)|].
    apply (by_snapshot_forall Q seq). revert E. apply srt_loop_by. intros b en regions n x n'. apply (srt_blocks_items fmt b en HQ).
  Qed.

  Theorem vtt_cues_items cfg : (forall l s, R (fst (vtt_inlines l s))) ->
    forall seq cs css, vtt_cues cfg seq = Ok (cs, css) -> Forall Q cs.
  Proof.
    intros HQ. apply vtt_cues_forall; [|intros c; unfold Q, default_end; destruct (c_end c); exact (fun Hc => Hc)].
    intros ra b en p st x s1 Hx. destruct (vtt_process_p_inv _ _ _ _ _ _ _ _ Hx) as (line & _ & -> & _).
    destruct (vtt_blank _); repeat constructor. apply HQ.
  Qed.
End CueItems.

(* the two closing tags the WebVTT writer writes in the reverse of nesting order (`vtt_span_pairs`) *)
Lemma vtt_out_tags_equal : vtt_COLOR_TAG_OUT = vtt_BG_COLOR_TAG_OUT.
Proof. reflexivity. Qed.

(* `pair o c`: c is the closing tag of the opening tag o *)
Inductive nested (pair : text -> text -> Prop) : list item -> Prop :=
| n_nil : nested pair []
| n_chr c : nested pair [IChr c]
| n_app l1 l2 : nested pair l1 -> nested pair l2 -> nested pair (l1 ++ l2)
| n_tag o c l : pair o c -> nested pair l -> nested pair (ITag o :: l ++ [ITag c]).

Definition srt_pair (o c : text) : Prop :=
  (o = srt_BOLD_TAG_IN /\ c = srt_BOLD_TAG_OUT) \/ (o = srt_ITALIC_TAG_IN /\ c = srt_ITALIC_TAG_OUT) \/
  (o = srt_UNDERLINE_TAG_IN /\ c = srt_UNDERLINE_TAG_OUT) \/
  (exists rgba, o = srt_FONT_COLOR_TAG_IN_pre ++ color_string rgba ++ srt_FONT_COLOR_TAG_IN_suf /\ c = srt_FONT_COLOR_TAG_OUT).
Definition vtt_pair (o c : text) : Prop :=
  (o = vtt_BOLD_TAG_IN /\ c = vtt_BOLD_TAG_OUT) \/ (o = vtt_ITALIC_TAG_IN /\ c = vtt_ITALIC_TAG_OUT) \/
  (o = vtt_UNDERLINE_TAG_IN /\ c = vtt_UNDERLINE_TAG_OUT) \/
  (exists rgba, o = vtt_COLOR_TAG_IN_pre ++ class_name false rgba ++ vtt_COLOR_TAG_IN_suf /\ c = vtt_COLOR_TAG_OUT) \/
  (exists rgba, o = vtt_BG_COLOR_TAG_IN_pre ++ class_name true rgba ++ vtt_BG_COLOR_TAG_IN_suf /\ c = vtt_BG_COLOR_TAG_OUT).

Lemma nested_wraps pair ps l : Forall (fun p => pair (fst p) (snd p)) ps -> nested pair l -> nested pair (wraps ps l).
Proof.
  intros H Hl. induction H as [|p ps Hp _ IH]; [rewrite wraps_nil; exact Hl|]. rewrite wraps_cons. apply n_tag; assumption.
Qed.
Lemma srt_pairs_ok fmt a : Forall (fun p => srt_pair (fst p) (snd p)) (srt_span_pairs fmt a).
Proof.
  apply srt_span_pairs_forall; unfold srt_pair; cbn [fst snd]; [intros c; do 3 right; exists c | left | right; left | do 2 right; left];
    split; reflexivity.
Qed.
Lemma vtt_pairs_ok a : Forall (fun p => vtt_pair (fst p) (snd p)) (vtt_span_pairs a).
Proof.
  apply vtt_span_pairs_forall; unfold vtt_pair; cbn [fst snd];
    [intros c; do 3 right; left; exists c | intros c; do 4 right; exists c | left | right; left | do 2 right; left]; split; reflexivity.
Qed.
Theorem srt_inlines_nested fmt l : nested srt_pair (flat_map (srt_inline fmt) l).
Proof.
  apply (inlines_shape _ _ (srt_inline_wraps fmt)); [constructor | constructor | apply n_app|].
  intros a l0 H. apply nested_wraps; [apply srt_pairs_ok | exact H].
Qed.
Theorem vtt_inlines_nested l s : nested vtt_pair (fst (vtt_inlines l s)).
Proof.
  rewrite vtt_inlines_indep. apply (inlines_shape _ _ vtt_items_wraps); [constructor | constructor | apply n_app|].
  intros a l0 H. apply nested_wraps; [apply vtt_pairs_ok | exact H].
Qed.

Theorem srt_cues_nested fmt seq cs : srt_cues fmt seq = Ok cs -> Forall (fun c => nested srt_pair (c_items c)) cs.
Proof. apply srt_cues_items, srt_inlines_nested. Qed.
Theorem vtt_cues_nested cfg seq cs css : vtt_cues cfg seq = Ok (cs, css) -> Forall (fun c => nested vtt_pair (c_items c)) cs.
Proof. apply vtt_cues_items, vtt_inlines_nested. Qed.

Definition no_tags (l : list item) : Prop := Forall (fun i => is_tag i = false) l.
Lemma no_tags_flat l : no_tags l -> flat esc_none l = chars_of l.
Proof.
  induction l as [|[t|c] l IH]; intros H; [reflexivity | inversion H; discriminate |]. inversion H; subst.
  unfold flat, chars_of in *. cbn [flat_map]. rewrite IH by assumption. reflexivity.
Qed.
Theorem srt_inlines_no_tags l : no_tags (flat_map (srt_inline false) l).
Proof.
  apply (inlines_shape _ _ (srt_inline_wraps false)); [constructor | repeat constructor | intros x y Hx Hy; apply Forall_app; split; assumption|].
  intros a l0 H. rewrite wraps_nil. exact H.
Qed.
Theorem srt_cues_no_tags seq cs : srt_cues false seq = Ok cs ->
  Forall (fun c => no_tags (c_items c) /\ cue_text esc_none c = normalize_eol (cue_chars c)) cs.
Proof.
  apply (srt_cues_items (fun l => no_tags l /\ normalize_eol (flat esc_none l) = normalize_eol (chars_of l)) false).
  intros cs0. pose proof (srt_inlines_no_tags cs0) as G. split; [exact G|]. rewrite (no_tags_flat _ G). reflexivity.
Qed.
