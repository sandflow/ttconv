(* C07: the WebVTT file the model prints is accepted by the file-level recogniser vtt_wf of Spec/CueSpec.v (strict: cue settings are
   read back too) — WEBVTT line, blank line, STYLE block before any cue, cue blocks with or without identifier, timing line read back to
   the very millisecond counts, settings, payload lines, identifiers 1, 2, 3, ..., begin < end, order, tags — outside the recorded
   findings (a payload line that is empty or holds "-->"), for payloads without carriage return, and for numbers within the digits the
   model's printers provide.  Every cue settings text the writer can produce (align: 3 values; line: 0..100 x 3 alignments) is accepted:
   it is a list of words the recogniser knows, and the percentage is a printed number. *)
From Coq Require Import Sorting.Sorted.
From TT Require Import Model.Doc Gen.StyleTables Model.Isd Model.SigTimes Model.TimeCode Model.IsdFilters Gen.CueTables Model.CueWriter.
From TT Require Import Model.CueTriggers Spec.IsdSpec Spec.CueSpec Proofs.C12.Derived.
From TT Require Import Proofs.C06.Filters Proofs.C06.Inline Proofs.C06.Strip Proofs.C06.Loop Proofs.C06.Text Proofs.C06.Shape.
From TT Require Import Proofs.C07.Order Proofs.C07.Single Proofs.C07.Settings Proofs.C07.Runs Proofs.C07.Wf Proofs.C06.Fixed.

Definition vtt_settings_text (ta : option Z) (line : option (Z * Z)) : text :=
  (match ta with Some k => [32; 97; 108; 105; 103; 110; 58] ++ nth (Z.to_nat k) vtt_text_alignment [] | None => [] end) ++
  (match line with
   | Some (l, k) => [32; 108; 105; 110; 101; 58] ++ print_z l ++ [37; 44] ++ nth (Z.to_nat k) vtt_line_alignment []
   | None => []
   end).
Definition settings_good (s : text) : bool :=
  settings_ok s && (match s with [] => true | c :: _ => is_blank_sp c end) && forallb (fun x => negb (is_eol x) && negb (x =? 62)) s.
Definition ta_domain : list (option Z) := [None; Some 0; Some 1; Some 2].
Definition line_domain : list (option (Z * Z)) := None :: flat_map (fun n => [Some (n, 0); Some (n, 1); Some (n, 2)]) (zseq 0 101).
(* a settings text is a list of words, each after a space; it is good when every word is a setting the recogniser knows, the
   names differ, and no word holds white space, a line terminator or ">" *)
Definition word_char (x : Z) : bool := negb (is_blank_sp x) && negb (is_eol x) && negb (x =? 62).
Lemma split_on_go_app sep : forall a cur b, forallb (fun x => negb (x =? sep)) a = true ->
  split_on_go sep cur (a ++ sep :: b) = (rev cur ++ a) :: split_on_go sep [] b.
Proof.
  induction a as [|c a IH]; intros cur b H; cbn [app split_on_go].
  - rewrite Z.eqb_refl, app_nil_r. reflexivity.
  - cbn [forallb] in H. apply andb_true_iff in H as [H1 H2]. apply negb_true_iff in H1. rewrite H1, (IH _ _ H2). cbn [rev]. rewrite <- app_assoc. reflexivity.
Qed.
Lemma split_on_plain sep a : forallb (fun x => negb (x =? sep)) a = true -> split_on sep a = [a].
Proof.
  intros H. unfold split_on. apply split_on_go_none. intros Hx. rewrite forallb_forall in H. specialize (H sep Hx). rewrite Z.eqb_refl in H. discriminate.
Qed.
Lemma split_on_words : forall ws w cur, forallb word_char w = true -> Forall (fun w => forallb word_char w = true) ws ->
  split_on_go 32 cur (w ++ flat_map (fun w => 32 :: w) ws) = (rev cur ++ w) :: ws.
Proof.
  assert (N : forall w, forallb word_char w = true -> forallb (fun x => negb (x =? 32)) w = true).
  { intros w H. apply forallb_forall. intros x Hx. rewrite forallb_forall in H. specialize (H x Hx). unfold word_char, is_blank_sp in H. lia. }
  induction ws as [|w' ws IH]; intros w cur Hw H; cbn [flat_map app].
  - rewrite app_nil_r. apply split_on_go_none. intros Hx. specialize (N w Hw). rewrite forallb_forall in N. discriminate (N 32 Hx).
  - inversion H; subst. rewrite (split_on_go_app 32 w cur _ (N w Hw)), IH by assumption. reflexivity.
Qed.
Lemma settings_good_words ws names : Forall (fun w => forallb word_char w = true) ws -> ~ In [] ws ->
  all_some (map setting_ok ws) = Some names -> no_dup_text names = true -> settings_good (flat_map (fun w => 32 :: w) ws) = true.
Proof.
  intros Hw Hne Hall Hnd. set (t := flat_map (fun w => 32 :: w) ws).
  assert (Ht : forall x, In x t -> x <> 9 /\ is_eol x = false /\ x <> 62).
  { intros x Hx. apply in_flat_map in Hx as (w & Hin & [<-|Hx]); [repeat split; discriminate|]. rewrite Forall_forall in Hw. specialize (Hw w Hin).
    rewrite forallb_forall in Hw. specialize (Hw x Hx). unfold word_char, is_blank_sp, is_eol in *. repeat split; lia. }
  unfold settings_good. rewrite !andb_true_iff. split; [split|].
  - unfold settings_ok, split_ws. rewrite (map_ext_in _ (fun c => c)), map_id by (intros x Hx; destruct (Ht x Hx) as [E _]; apply Z.eqb_neq in E; rewrite E; reflexivity).
    pose proof (split_on_words ws [] [] eq_refl Hw) as S. cbn [rev app] in S. unfold split_on, t. rewrite S. cbn [filter].
    replace (filter _ ws) with ws; [rewrite Hall; exact Hnd|]. clear - Hne. induction ws as [|w ws IH]; [reflexivity|]. cbn [filter].
    destruct w; [exfalso; apply Hne; left; reflexivity|]. f_equal. apply IH. intros H. apply Hne. right. exact H.
  - unfold t. destruct ws; reflexivity.
  - apply forallb_forall. intros x Hx. destruct (Ht x Hx) as (_ & E & F). rewrite E. apply Z.eqb_neq in F. rewrite F. reflexivity.
Qed.

Lemma dig_chars (f : Z -> bool) t : (forall x, is_dig x = true -> f x = true) -> forallb is_dig t = true -> forallb f t = true.
Proof. intros Hf H. apply forallb_forall. intros x Hx. rewrite forallb_forall in H. apply Hf, H, Hx. Qed.
Definition align_word (k : Z) : text := [97; 108; 105; 103; 110; 58] ++ nth (Z.to_nat k) vtt_text_alignment [].
Definition line_word (l k : Z) : text := [108; 105; 110; 101; 58] ++ print_z l ++ [37; 44] ++ nth (Z.to_nat k) vtt_line_alignment [].
Lemma align_word_ok k : 0 <= k <= 2 -> setting_ok (align_word k) = Some [97; 108; 105; 103; 110] /\ forallb word_char (align_word k) = true.
Proof. intros H. assert (k = 0 \/ k = 1 \/ k = 2) as [ -> | [ -> | -> ] ] by lia; split; reflexivity. Qed.
(* the percentage is the printed number: digits, no leading separator, value at most 100 *)
Lemma line_word_ok l k : 0 <= l <= 100 -> 0 <= k <= 2 -> setting_ok (line_word l k) = Some [108; 105; 110; 101] /\ forallb word_char (line_word l k) = true.
Proof.
  intros Hl Hk. destruct (print_z_ok l) as (D1 & D2 & D3 & _); [lia|]. unfold line_word. set (pz := print_z l) in *.
  assert (Hd : forall f, (forall x, is_dig x = true -> f x = true) -> forallb f pz = true) by (intros f Hf; exact (dig_chars f pz Hf D1)).
  assert (P : pct_ok (pz ++ [37]) = true).
  { unfold pct_ok. rewrite rev_unit, rev_involutive, split_on_plain by (apply Hd; unfold is_dig; lia).
    unfold all_digits. destruct pz; [contradiction|]. rewrite D1, D2. lia. }
  set (a := nth (Z.to_nat k) vtt_line_alignment []).
  assert (Ha : forallb word_char a = true /\ forallb (fun x => negb (x =? 58)) a = true /\ forallb (fun x => negb (x =? 44)) a = true /\ mem_text a line_align_values = true)
    by (unfold a; assert (k = 0 \/ k = 1 \/ k = 2) as [ -> | [ -> | -> ] ] by lia; repeat split; reflexivity).
  destruct Ha as (A1 & A2 & A3 & A4). split.
  - unfold setting_ok. change ([108; 105; 110; 101; 58] ++ pz ++ [37; 44] ++ a) with ([108; 105; 110; 101] ++ 58 :: (pz ++ [37; 44] ++ a)).
    unfold split_on at 1. rewrite split_on_go_app by reflexivity. fold (split_on 58 (pz ++ [37; 44] ++ a)).
    rewrite split_on_plain by (rewrite !forallb_app, A2, Hd by (unfold is_dig; lia); reflexivity).
    cbn [rev app text_eqb Z.eqb Pos.eqb andb]. replace (pz ++ 37 :: 44 :: a) with ((pz ++ [37]) ++ 44 :: a) by (rewrite <- app_assoc; reflexivity). unfold split_on at 1.
    rewrite split_on_go_app by (rewrite forallb_app, Hd by (unfold is_dig; lia); reflexivity). fold (split_on 44 a). rewrite (split_on_plain 44 a A3).
    cbn [rev app]. rewrite P, A4. reflexivity.
  - rewrite !forallb_app, A1, Hd by (unfold is_dig, word_char, is_blank_sp, is_eol; lia). reflexivity.
Qed.
Lemma settings_good_range ta line :
  (match ta with Some k => 0 <= k <= 2 | None => True end) ->
  (match line with Some (n, k) => 0 <= n <= 100 /\ 0 <= k <= 2 | None => True end) ->
  settings_good (vtt_settings_text ta line) = true.
Proof.
  intros Ha Hl.
  replace (vtt_settings_text ta line) with (flat_map (fun w => 32 :: w)
    ((match ta with Some k => [align_word k] | None => [] end) ++ (match line with Some (l, k) => [line_word l k] | None => [] end)))
    by (unfold vtt_settings_text, align_word, line_word; destruct ta, line as [[l k]|]; cbn [flat_map app]; rewrite ?app_nil_r; reflexivity).
  destruct ta as [ka|]; [destruct (align_word_ok ka Ha) as [A1 A2]|]; (destruct line as [[l kl]|]; [destruct Hl as [Hl Hk]; destruct (line_word_ok l kl Hl Hk) as [L1 L2]|]).
  all: eapply settings_good_words; cbn [app map all_some In]; rewrite ?A1, ?L1; try reflexivity; repeat constructor; try assumption.
  all: unfold align_word, line_word; intros H; repeat destruct H as [H|H]; discriminate || exact H.
Qed.
Lemma zseq_range : forall n a x, In x (zseq a n) -> a <= x < a + Z.of_nat n.
Proof.
  induction n as [|n IHn]; intros a x Hx; [destruct Hx|]. cbn [zseq] in Hx. rewrite Nat2Z.inj_succ. destruct Hx as [<-|Hx]; [lia|]. specialize (IHn _ _ Hx). lia.
Qed.
Lemma settings_domain_good :
  forallb (fun ta => forallb (fun ln => settings_good (vtt_settings_text ta ln)) line_domain) ta_domain = true.
Proof.
  apply forallb_forall. intros ta Hta. apply forallb_forall. intros ln Hln. apply settings_good_range.
  - cbn [ta_domain In] in Hta. repeat destruct Hta as [<-|Hta]; try exact I; lia.
  - destruct Hln as [<-|Hln]; [exact I|]. apply in_flat_map in Hln as (n & Hn & Hln). apply zseq_range in Hn.
    cbn [In] in Hln. repeat destruct Hln as [<-|Hln]; lia.
Qed.
Lemma clamp_pct_range n : 0 <= clamp_pct n <= 100.
Proof. unfold clamp_pct. lia. Qed.
Lemma line_setting_range ra x : line_setting ra = Ok x -> 0 <= fst x <= 100 /\ 0 <= snd x <= 2.
Proof.
  unfold line_setting. destruct (sget (e_styles ra) p_Position) as [[]|]; try discriminate. destruct (sget (e_styles ra) p_Extent) as [[]|]; try discriminate.
  destruct (sget (e_styles ra) p_DisplayAlign) as [[]|];
    repeat match goal with |- context [if ?b then _ else _] => destruct b end; intros H; injection H as <-; cbn [fst snd]; split; try apply clamp_pct_range; lia.
Qed.
Lemma textalign_setting_range p k : textalign_setting p = Some k -> 0 <= k <= 2.
Proof.
  unfold textalign_setting. destruct (sget (e_styles p) p_TextAlign) as [[]|]; try discriminate.
  repeat match goal with |- context [if ?b then _ else _] => destruct b end; intros H; try discriminate; injection H as <-; lia.
Qed.

Lemma no_gt_no_arrow l : ~ In 62 l -> contains arrow3 l = false.
Proof.
  induction l as [|c l IH]; intros H; [reflexivity|]. cbn [contains]. rewrite IH by (intros Hx; apply H; right; exact Hx). rewrite orb_false_r.
  unfold arrow3. cbn [has_prefix]. destruct (45 =? c) eqn:E1; [|reflexivity]. destruct l as [|c2 l]; [reflexivity|]. destruct (45 =? c2) eqn:E2; [|reflexivity].
  destruct l as [|c3 l]; [reflexivity|]. replace (62 =? c3) with false; [reflexivity|]. symmetry. apply Z.eqb_neq. intros E. apply H. right. right. left. symmetry. exact E.
Qed.

Record vrec := mkVRec { vr_id : option Z ; vr_b : Z ; vr_e : Z ; vr_set : text ; vr_t : text }.
Definition vr_timing (r : vrec) : text := print_ms 46 (vr_b r) ++ arrow ++ print_ms 46 (vr_e r) ++ vr_set r.
Definition vr_idline (r : vrec) : list text := match vr_id r with Some k => [print_z k] | None => [] end.
Definition vr_string (r : vrec) : text :=
  (match vr_id r with Some k => print_z k ++ [10] | None => [] end) ++ vr_timing r ++ [10] ++ vr_t r ++ [10].
Definition vr_group (r : vrec) : list text := vr_idline r ++ [vr_timing r] ++ split_lines (vr_t r).
Definition vpayload_ok (t : text) : Prop :=
  no_cr t /\ forallb (fun l => negb (vtt_blank_line l) && negb (contains arrow3 l)) (split_lines t) = true /\ vtt_runs t <> None.
Definition vrec_ok (r : vrec) : Prop :=
  (match vr_id r with Some k => 0 <= k < 10 ^ 40 | None => True end) /\ ms_ok (vr_b r) /\ ms_ok (vr_e r) /\ settings_good (vr_set r) = true /\ vpayload_ok (vr_t r).

Lemma vr_timing_facts r : ms_ok (vr_b r) -> ms_ok (vr_e r) -> settings_good (vr_set r) = true ->
  no_eol_t (vr_timing r) /\ (exists c t, vr_timing r = c :: t /\ is_dig c = true) /\ contains arrow3 (vr_timing r) = true.
Proof.
  intros Hb He Hs. apply (timing_line_facts 46 _ _ _ Hb He); try discriminate.
  unfold settings_good in Hs. apply andb_true_iff in Hs as [_ Hs]. rewrite forallb_forall in Hs. intros x Hx. specialize (Hs x Hx). unfold is_eol in Hs. lia.
Qed.

Definition vr_cue (r : vrec) : rcue :=
  mkRCue (match vr_id r with Some k => Some (print_z k) | None => None end) (vr_b r) (vr_e r) (vr_set r) (split_lines (vr_t r)).
Lemma digit_line c t : is_dig c = true -> text_eqb (c :: t) style_kw = false /\ has_prefix note_kw (c :: t) = false.
Proof.
  intros H. unfold is_dig in H. unfold style_kw, note_kw. cbn [text_eqb has_prefix].
  replace (c =? 83) with false by (symmetry; apply Z.eqb_neq; lia). replace (78 =? c) with false by (symmetry; apply Z.eqb_neq; lia). split; reflexivity.
Qed.
Lemma vr_group_ok r : vrec_ok r -> lines_ok vtt_blank_line (vr_group r).
Proof.
  intros (Hk & Hb & He & Hs & Hcr & Hl & _). destruct (vr_timing_facts r Hb He Hs) as (_ & (c & t & Et & _) & _).
  split; [unfold vr_group, vr_idline; destruct (vr_id r); discriminate|]. unfold vr_group. rewrite !forallb_app. apply andb_true_iff. split; [|apply andb_true_iff; split].
  - unfold vr_idline. destruct (vr_id r) as [k|]; [|reflexivity]. destruct (print_z_line _ Hk) as (_ & _ & d & ds & -> & _). reflexivity.
  - cbn [forallb]. rewrite Et. reflexivity.
  - apply forallb_forall. intros l Hin. rewrite forallb_forall in Hl. specialize (Hl l Hin). apply andb_true_iff in Hl as [Hl _]. exact Hl.
Qed.
Lemma vr_block_cue r : vrec_ok r -> vtt_block true (vr_group r) = Some (VCue (vr_cue r)).
Proof.
  intros (Hk & Hb & He & Hs & Hcr & Hl & _). destruct (vr_timing_facts r Hb He Hs) as (_ & (c & t & Et & Hc) & Harr).
  assert (Hpay : existsb (contains arrow3) (split_lines (vr_t r)) = false).
  { apply not_true_iff_false. intros E. apply existsb_exists in E as (l & Hin & E). rewrite forallb_forall in Hl. specialize (Hl l Hin). rewrite E in Hl.
    rewrite andb_false_r in Hl. discriminate. }
  unfold settings_good in Hs. apply andb_true_iff in Hs as [Hs _]. apply andb_true_iff in Hs as [S2 S1].
  assert (S3 : match vr_set r with c0 :: _ => is_dig c0 = false | [] => True end)
    by (destruct (vr_set r) as [|c0 s0]; [exact I | unfold is_blank_sp in S1; unfold is_dig; lia]).
  pose proof (parse_print_timing_rest 46 _ _ _ Hb He S3 : parse_timing 46 (vr_timing r) = Some (vr_b r, vr_e r, vr_set r)) as Hpt.
  unfold vr_group, vr_idline, vr_cue. destruct (vr_id r) as [k|].
  - destruct (print_z_line _ Hk) as (_ & D1 & d & ds & Ep & Dd). rewrite Ep in *. destruct (digit_line d ds Dd) as [K1 K2].
    cbn [app]. unfold vtt_block. rewrite K1, K2. cbn [andb].
    rewrite (no_gt_no_arrow (d :: ds)) by (intros Hx; rewrite forallb_forall in D1; discriminate (D1 62 Hx)).
    cbn [negb]. rewrite Hpt, S1, S2, Hpay. reflexivity.
  - cbn [app]. unfold vtt_block. rewrite Et. destruct (digit_line c t Hc) as [K1 K2]. rewrite K1, K2. cbn [andb]. rewrite <- Et, Harr. cbn [negb].
    rewrite Hpt, S1, S2, Hpay. reflexivity.
Qed.

Lemma vr_string_lines r Z0 : vrec_ok r -> split_lines (vr_string r ++ Z0) = vr_group r ++ split_lines Z0.
Proof.
  intros (Hk & Hb & He & Hs & Hcr & _). destruct (vr_timing_facts r Hb He Hs) as (Hne & _ & _). unfold vr_string, vr_group, vr_idline.
  assert (G : split_lines (vr_timing r ++ 10 :: vr_t r ++ 10 :: Z0) = [vr_timing r] ++ split_lines (vr_t r) ++ split_lines Z0).
  { rewrite split_lines_line by exact Hne. unfold split_lines at 1. rewrite split_lines_go_app by exact Hcr. reflexivity. }
  destruct (vr_id r) as [k|].
  - destruct (print_z_line _ Hk) as (_ & D1 & _). repeat (rewrite <- app_assoc; cbn [app]). rewrite split_lines_line by (apply dig_not_eol, D1).
    rewrite G. reflexivity.
  - cbn [app]. repeat (rewrite <- app_assoc; cbn [app]). rewrite G. reflexivity.
Qed.
Lemma vfile_lines rs : Forall vrec_ok rs -> rs <> [] ->
  split_lines (join_text [10] (map vr_string rs)) = flat_map (fun G => G ++ [[]]) (map vr_group rs).
Proof. intros H. rewrite Forall_forall in H. apply file_lines. intros r Hr Z0. apply vr_string_lines, H, Hr. Qed.

Lemma split_join_lines : forall SL Z0, SL <> [] -> Forall no_eol_t SL -> split_lines (join_text [10] SL ++ 10 :: Z0) = SL ++ split_lines Z0.
Proof.
  induction SL as [|x SL IH]; intros Z0 Hne H; [contradiction|]. inversion H as [|? ? Hx Hs]; subst. destruct SL as [|y l].
  - cbn [join_text app]. apply split_lines_line, Hx.
  - change (join_text [10] (x :: y :: l)) with (x ++ [10] ++ join_text [10] (y :: l)). rewrite <- !app_assoc. cbn [app].
    rewrite split_lines_line by exact Hx. rewrite (IH Z0) by (discriminate || exact Hs). reflexivity.
Qed.
Lemma join_text_app sep : forall a b, a <> [] -> b <> [] -> join_text sep (a ++ b) = join_text sep a ++ sep ++ join_text sep b.
Proof.
  induction a as [|x a IH]; intros b Ha Hb; [contradiction|]. destruct a as [|y a'].
  - cbn [app]. destruct b as [|z b']; [contradiction|]. reflexivity.
  - change (join_text sep ((x :: y :: a') ++ b)) with (x ++ sep ++ join_text sep ((y :: a') ++ b)). rewrite IH by (discriminate || exact Hb).
    change (join_text sep (x :: y :: a')) with (x ++ sep ++ join_text sep (y :: a')). rewrite <- !app_assoc. reflexivity.
Qed.
Lemma join_flat_map {A} sep (f : A -> list text) : (forall x, f x <> []) -> forall l,
  join_text sep (flat_map f l) = join_text sep (map (fun x => join_text sep (f x)) l).
Proof.
  intros Hf. induction l as [|x l IH]; [reflexivity|]. destruct l as [|y l'].
  - cbn [flat_map map join_text]. rewrite app_nil_r. reflexivity.
  - change (flat_map f (x :: y :: l')) with (f x ++ flat_map f (y :: l')).
    rewrite join_text_app; [|apply Hf | cbn [flat_map]; intros E; apply app_eq_nil in E as [E _]; exact (Hf y E)].
    rewrite IH. reflexivity.
Qed.

Definition css_lines (x : bool * Z) : list text :=
  let '(bg, c) := x in
  [ [58; 58; 99; 117; 101; 40; 46] ++ class_name bg c ++ [41; 32; 123];
    [32; 32] ++ (if bg then [98; 97; 99; 107; 103; 114; 111; 117; 110; 100; 45; 99; 111; 108; 111; 114] else [99; 111; 108; 111; 114]) ++ [58; 32] ++ color_string c ++ [59];
    [125] ].
Lemma css_class_string_lines x : css_class_string x = join_text [10] (css_lines x).
Proof. destruct x as [bg c]. unfold css_class_string, css_lines. cbn [join_text]. rewrite <- !app_assoc. cbn [app]. reflexivity. Qed.
Definition style_lines (s : css_state) : list text :=
  [ [83; 84; 89; 76; 69]; [58; 58; 99; 117; 101; 32; 123];
    [32; 32; 98; 97; 99; 107; 103; 114; 111; 117; 110; 100; 45; 99; 111; 108; 111; 114; 58; 32; 116; 114; 97; 110; 115; 112; 97; 114; 101; 110; 116; 59];
    [125] ] ++ flat_map css_lines s.
Lemma style_block_lines s : s <> [] -> style_block s = join_text [10] (style_lines s) ++ [10; 10].
Proof.
  intros Hs. unfold style_block, style_lines. destruct s as [|x s']; [contradiction|]. set (s := x :: s') in *.
  rewrite join_text_app by (discriminate || (unfold s; cbn [flat_map]; destruct x as [bg c]; discriminate)).
  rewrite (join_flat_map [10] css_lines) by (intros [bg c]; discriminate).
  rewrite (map_ext _ _ (fun y => eq_sym (css_class_string_lines y))). cbn [join_text]. rewrite <- !app_assoc. cbn [app]. reflexivity.
Qed.
Definition plain_line_b (l : text) : bool := negb (match l with [] => true | _ => false end) && forallb (fun x => negb (is_eol x) && negb (x =? 62)) l.
Lemma plain_line_facts l : plain_line_b l = true -> l <> [] /\ no_eol_t l /\ ~ In 62 l.
Proof.
  unfold plain_line_b. intros H. apply andb_true_iff in H as [H1 H2]. rewrite forallb_forall in H2. split; [destruct l; discriminate|]. split.
  - intros x Hx. specialize (H2 x Hx). unfold is_eol in H2. lia.
  - intros Hx. discriminate (H2 62 Hx).
Qed.
Lemma plain_line_pre a rest : a <> [] -> forallb (fun x => negb (is_eol x) && negb (x =? 62)) a = true ->
  forallb (fun x => negb (is_eol x) && negb (x =? 62)) rest = true -> plain_line_b (a ++ rest) = true.
Proof. intros Ha H1 H2. unfold plain_line_b. rewrite forallb_app, H1, H2. destruct a; [contradiction | reflexivity]. Qed.
Lemma css_lines_plain x : forallb plain_line_b (css_lines x) = true.
Proof.
  destruct x as [bg c]. unfold css_lines. cbn [forallb]. rewrite andb_true_r.
  assert (Hn : forallb (fun x => negb (is_eol x) && negb (x =? 62)) (class_name bg c) = true).
  { destruct (class_name_ok bg c) as [_ Hc]. apply forallb_forall. intros x Hx. rewrite forallb_forall in Hc. specialize (Hc x Hx).
    unfold name_char_b, is_eol in *. lia. }
  assert (Hh : forallb (fun x => negb (is_eol x) && negb (x =? 62)) (color_string c) = true).
  { apply forallb_forall. intros x Hx. pose proof (color_string_plain c) as Hp. rewrite Forall_forall in Hp. destruct (Hp x Hx) as (_ & _ & A & B & C).
    unfold is_eol. lia. }
  apply andb_true_iff. split.
  - apply plain_line_pre; [discriminate | reflexivity|]. rewrite forallb_app, Hn. reflexivity.
  - apply plain_line_pre; [discriminate | reflexivity|]. rewrite !forallb_app, Hh. destruct bg; reflexivity.
Qed.
Lemma style_lines_plain s : forallb plain_line_b (style_lines s) = true.
Proof.
  unfold style_lines. rewrite forallb_app. apply andb_true_iff. split; [reflexivity|]. induction s as [|x s IH]; [reflexivity|].
  change (flat_map css_lines (x :: s)) with (css_lines x ++ flat_map css_lines s). rewrite forallb_app. apply andb_true_iff.
  split; [apply css_lines_plain | exact IH].
Qed.

Definition vtt_file (css : css_state) (rs : list vrec) : text := webvtt_header ++ style_block css ++ join_text [10] (map vr_string rs).
Definition style_groups (css : css_state) : list (list text) := match css with [] => [] | _ => [style_lines css] end.
Lemma vtt_file_lines css rs : Forall vrec_ok rs -> rs <> [] ->
  split_lines (vtt_file css rs) = [87; 69; 66; 86; 84; 84] :: [] :: flat_map (fun G => G ++ [[]]) (style_groups css ++ map vr_group rs).
Proof.
  intros H Hne. unfold vtt_file, webvtt_header. change ([87; 69; 66; 86; 84; 84; 10; 10] ++ style_block css ++ join_text [10] (map vr_string rs))
    with ([87; 69; 66; 86; 84; 84] ++ 10 :: 10 :: style_block css ++ join_text [10] (map vr_string rs)).
  rewrite split_lines_line by (intros x Hx; cbn [In] in Hx; repeat (destruct Hx as [<-|Hx]; [split; discriminate|]); destruct Hx).
  change (split_lines (10 :: style_block css ++ join_text [10] (map vr_string rs))) with ([] :: split_lines (style_block css ++ join_text [10] (map vr_string rs))).
  f_equal. f_equal. unfold style_groups. destruct css as [|x css'].
  - cbn [style_block app]. apply (vfile_lines rs H Hne).
  - set (css := x :: css') in *. rewrite (style_block_lines css) by discriminate. rewrite <- app_assoc.
    change ([10; 10] ++ join_text [10] (map vr_string rs)) with (10 :: 10 :: join_text [10] (map vr_string rs)).
    rewrite split_join_lines.
    + change (split_lines (10 :: join_text [10] (map vr_string rs))) with ([] :: split_lines (join_text [10] (map vr_string rs))).
      rewrite (vfile_lines rs H Hne). cbn [app flat_map]. rewrite <- app_assoc. reflexivity.
    + discriminate.
    + apply Forall_forall. intros l Hl. pose proof (style_lines_plain css) as P. rewrite forallb_forall in P. apply (plain_line_facts l (P l Hl)).
Qed.

Definition style_vblocks (css : css_state) : list vblock := match css with [] => [] | _ => [VStyle (tl (style_lines css))] end.
Theorem vtt_parse_file css rs : Forall vrec_ok rs -> rs <> [] ->
  vtt_parse_blocks true (vtt_file css rs) = Some (style_vblocks css ++ map (fun r => VCue (vr_cue r)) rs).
Proof.
  intros H Hne. unfold vtt_parse_blocks. rewrite (vtt_file_lines css rs H Hne).
  change (has_prefix webvtt_sig [87; 69; 66; 86; 84; 84] && match skipn 6 [87; 69; 66; 86; 84; 84] with [] => true | c :: _ => is_blank_sp c end) with true.
  cbv iota. change (vtt_blank_line []) with true. cbv iota.
  set (Gs := style_groups css ++ map vr_group rs).
  assert (HG : Forall (lines_ok vtt_blank_line) Gs).
  { unfold Gs. apply Forall_app. split.
    - unfold style_groups. destruct css as [|x css']; [constructor|]. constructor; [|constructor]. split; [discriminate|].
      apply forallb_forall. intros l Hl. pose proof (style_lines_plain (x :: css')) as P. rewrite forallb_forall in P.
      destruct (plain_line_facts l (P l Hl)) as (A & _). destruct l; [contradiction | reflexivity].
    - apply Forall_forall. intros G HG. apply in_map_iff in HG as (r & <- & Hr). rewrite Forall_forall in H. apply vr_group_ok, H, Hr. }
  assert (B : blocks vtt_blank_line ([] :: flat_map (fun G => G ++ [[]]) Gs) = Gs).
  { unfold blocks. cbn [length]. rewrite (blocks_fuel_skip vtt_blank_line eq_refl).
    apply blocks_groups; [reflexivity | exact HG | apply Nat.lt_lt_succ_r, groups_fuel]. }
  rewrite B. unfold Gs. rewrite map_app.
  assert (S1 : all_some (map (vtt_block true) (style_groups css)) = Some (style_vblocks css)).
  { unfold style_groups, style_vblocks. destruct css as [|x css']; [reflexivity|]. cbn [map all_some]. set (css := x :: css').
    assert (E : vtt_block true (style_lines css) = Some (VStyle (tl (style_lines css)))).
    { unfold style_lines. cbn [app tl]. unfold vtt_block. change (text_eqb [83; 84; 89; 76; 69] style_kw) with true. cbv iota.
      replace (existsb (contains arrow3) _) with false; [reflexivity|]. symmetry. apply not_true_iff_false. intros Ex. apply existsb_exists in Ex as (l & Hl & Ex).
      pose proof (style_lines_plain css) as P. rewrite forallb_forall in P. assert (Hin : In l (style_lines css)) by (unfold style_lines; cbn [app]; right; exact Hl).
      destruct (plain_line_facts l (P l Hin)) as (_ & _ & C). rewrite (no_gt_no_arrow l C) in Ex. discriminate. }
    rewrite E. reflexivity. }
  assert (S2 : all_some (map (vtt_block true) (map vr_group rs)) = Some (map (fun r => VCue (vr_cue r)) rs))
    by (rewrite map_map; apply all_some_map; intros r Hr; rewrite Forall_forall in H; apply vr_block_cue, H, Hr).
  assert (AS : forall (a b : list (option vblock)) x y, all_some a = Some x -> all_some b = Some y -> all_some (a ++ b) = Some (x ++ y)).
  { induction a as [|[v|] a IHa]; intros b x y Ha Hb; cbn [all_some app] in *; [injection Ha as <-; exact Hb | | discriminate].
    destruct (all_some a) as [r|] eqn:Er; [|discriminate]. injection Ha as <-. rewrite (IHa b r y eq_refl Hb). reflexivity. }
  exact (AS _ _ _ _ S1 S2).
Qed.

Lemma cues_of_blocks_file css rs : cues_of_blocks (style_vblocks css ++ map (fun r => VCue (vr_cue r)) rs) = map vr_cue rs.
Proof.
  unfold cues_of_blocks. rewrite flat_map_app. assert (E : flat_map (fun b => match b with VCue c => [c] | _ => [] end) (style_vblocks css) = []) by (destruct css; reflexivity).
  rewrite E. cbn [app]. induction rs as [|r rs IH]; [reflexivity|]. cbn [map flat_map app]. rewrite IH. reflexivity.
Qed.
Lemma styles_first_file css rs : styles_first false (style_vblocks css ++ map (fun r => VCue (vr_cue r)) rs) = true.
Proof.
  assert (G : forall b, styles_first b (map (fun r => VCue (vr_cue r)) rs) = true) by (induction rs as [|r rs IH]; intros b; [reflexivity | cbn [map styles_first]; apply IH]).
  destruct css; cbn [style_vblocks app styles_first negb andb]; apply G.
Qed.
Definition ids_ok (rs : list vrec) : Prop := Forall (fun r => vr_id r = None) rs \/ map vr_id rs = map Some (zseq 1 (length rs)).
Lemma vcounters_records : forall rs k, Forall vrec_ok rs -> 1 <= k -> map vr_id rs = map Some (zseq k (length rs)) -> counters_from k (map vr_cue rs) = true.
Proof.
  induction rs as [|r rs IH]; intros k H Hk Hs; [reflexivity|]. inversion H as [|? ? (Hr & _) Hrs]; subst. cbn [map length zseq] in Hs. injection Hs as E1 E2.
  cbn [map counters_from vr_cue r_ident]. rewrite E1 in *. rewrite counter_ok by lia. apply IH; [exact Hrs | lia | exact E2].
Qed.
Theorem vtt_wf_records css rs : Forall vrec_ok rs -> rs <> [] -> ids_ok rs -> Forall (fun r => vr_b r < vr_e r) rs ->
  ForallOrdPairs (fun r1 r2 => vr_e r1 <= vr_b r2 \/ (vr_b r1 = vr_b r2 /\ vr_e r1 = vr_e r2)) rs -> vtt_wf (vtt_file css rs) = true.
Proof.
  intros H Hne Hid Hs Ho. unfold vtt_wf. rewrite (vtt_parse_file css rs H Hne), styles_first_file, cues_of_blocks_file. cbn [andb].
  rewrite (ordered_records vr_cue _ true (fun r1 r2 Hr => match Hr with or_introl A => or_introl A | or_intror B => or_intror (conj eq_refl B) end) rs None Hs Ho I).
  assert (I1 : identifiers_ok (map vr_cue rs) = true).
  { unfold identifiers_ok. destruct Hid as [Hn|Hk].
    - replace (forallb _ (map vr_cue rs)) with true; [reflexivity|]. symmetry. apply forallb_forall. intros c Hc. apply in_map_iff in Hc as (r & <- & Hr).
      rewrite Forall_forall in Hn. unfold vr_cue. cbn [r_ident]. rewrite (Hn r Hr). reflexivity.
    - rewrite (vcounters_records rs 1 H ltac:(lia) Hk). apply orb_true_r. }
  rewrite I1. cbn [andb]. apply forallb_forall. intros c Hc. apply in_map_iff in Hc as (r & <- & Hr). rewrite Forall_forall in H.
  destruct (H r Hr) as (_ & _ & _ & _ & Hcr & _ & Hrun). unfold vr_cue. rewrite (payload_lines _ _ _ _ _ Hcr). destruct (vtt_runs (vr_t r)); [reflexivity | contradiction].
Qed.

(* the settings a cue carries are in the finite domain; without cue identifiers no cue has one *)
Definition cue_fields_ok (cfg : vtt_config) (c : cue) : Prop :=
  (match c_textalign c with Some k => 0 <= k <= 2 | None => True end) /\
  (match c_line c with Some (n, k) => 0 <= n <= 100 /\ 0 <= k <= 2 | None => True end) /\
  (cue_id cfg = false -> c_id c = None).
Lemma vtt_cues_fields cfg seq cs css : vtt_cues cfg seq = Ok (cs, css) -> Forall (cue_fields_ok cfg) cs.
Proof.
  apply vtt_cues_forall.
  - intros ra b en p st x s1 H. destruct (vtt_process_p_inv _ _ _ _ _ _ _ _ H) as (line & Hl & -> & _). destruct (vtt_blank _); repeat constructor.
    + destruct (text_align cfg); [|exact I]. destruct (textalign_setting (eattrs p)) as [k|] eqn:Et; [exact (textalign_setting_range _ _ Et) | exact I].
    + destruct (line_position cfg); [|rewrite Hl; exact I]. destruct Hl as ([n k] & Hv & ->). exact (line_setting_range ra (n, k) Hv).
    + intros Hid. cbn [c_id]. rewrite Hid. reflexivity.
  - intros c (H1 & H2 & H3). unfold cue_fields_ok, default_end. destruct (c_end c); cbn [c_textalign c_line c_id]; repeat split; assumption.
Qed.

Definition vtt_cue_printable (c : cue) : bool :=
  let t := cue_text esc_vtt c in
  negb (existsb (Z.eqb 13) t) && forallb (fun l => negb (vtt_blank_line l) && negb (contains arrow3 l)) (split_lines t) &&
  (0 <=? c_begin c) && match c_end c with Some e => e <? 3600000 * 10 ^ 20 | None => false end.
Definition vrecord (c : cue) : vrec :=
  mkVRec (c_id c) (c_begin c) (match c_end c with Some e => e | None => 0 end) (vtt_settings_text (c_textalign c) (c_line c)) (cue_text esc_vtt c).
Lemma vtt_strings_records : forall cs ss, vtt_strings cs = Ok ss -> Forall (fun c => cue_text esc_vtt c <> []) cs -> ss = map (fun c => vr_string (vrecord c)) cs.
Proof.
  induction cs as [|c cs IH]; intros ss H Hne; cbn [vtt_strings] in H; [injection H as <-; reflexivity|]. inversion Hne as [|? ? Hc Hcs]; subst.
  destruct (vtt_to_string c) as [s|] eqn:Es; [|discriminate]. cbn [bind] in H. destruct (vtt_strings cs) as [r|] eqn:Er; [|discriminate].
  cbn [bind] in H. injection H as <-. cbn [map]. rewrite <- (IH _ eq_refl Hcs). f_equal.
  unfold vtt_to_string in Es. destruct (checked_end c) as [e|] eqn:Ee; [|discriminate]. cbn [bind] in Es. injection Es as <-.
  apply checked_end_ok in Ee as [Ee _]. unfold vr_string, vr_timing, vrecord, vtt_settings_text. cbn [vr_id vr_b vr_e vr_set vr_t]. rewrite Ee.
  destruct (cue_text esc_vtt c) as [|x t] eqn:Et; [contradiction|].
  rewrite <- !app_assoc. reflexivity.
Qed.

Theorem vtt_wf_model d cfg seq cs css out :
  isd_sequence d = Ok seq -> vtt_cues cfg seq = Ok (cs, css) -> vtt_of_seq cfg (Ok seq) = Ok out ->
  forallb vtt_cue_printable cs = true -> Z.of_nat (length cs) < 10 ^ 40 -> cs <> [] -> vtt_wf out = true.
Proof.
  intros Hd Hc Ho Hp Hlen Hne0. destruct (vtt_file_shape cfg seq out Ho) as (cs' & css' & ss & Hc' & Hss & ->). rewrite Hc in Hc'. injection Hc' as <- <-.
  destruct (vtt_cues_filters _ _ _ Hc) as [fs Hfs]. pose proof (groups_kept _ _ _ _ _ (vtt_cues_groups cfg fs seq cs css Hfs Hc)) as Hkept.
  assert (Hne : Forall (fun c => cue_text esc_vtt c <> []) cs) by (eapply Forall_impl; [|exact Hkept]; intros c; apply kept_text; reflexivity).
  rewrite (vtt_strings_records cs ss Hss Hne), <- map_map. fold (vtt_file css (map vrecord cs)).
  destruct (vtt_cues_wf d cfg seq cs css ss Hd Hc Hss) as (Hspan & Hord & Hids & _).
  pose proof (vtt_cues_runs cfg seq cs css Hc) as Hruns. pose proof (vtt_cues_fields cfg seq cs css Hc) as Hf. rewrite forallb_forall in Hp.
  apply vtt_wf_records.
  - (* every record is fine *)
    apply Forall_forall. intros r Hr. apply in_map_iff in Hr as (c & <- & Hin).
    rewrite Forall_forall in Hspan, Hruns, Hf. destruct (Hspan c Hin) as (e & He & Hbe). destruct (Hf c Hin) as (F1 & F2 & F3).
    specialize (Hp c Hin). unfold vtt_cue_printable in Hp. cbv zeta in Hp. rewrite He in Hp. repeat (apply andb_true_iff in Hp as [Hp ?]).
    repeat match goal with H : negb _ = true |- _ => apply negb_true_iff in H end.
    unfold vrec_ok, vrecord. cbn [vr_id vr_b vr_e vr_set vr_t]. rewrite He. split; [|split; [unfold ms_ok; lia | split; [unfold ms_ok; lia | split]]].
    + destruct (c_id c) as [k|] eqn:Ek; [|exact I]. destruct (cue_id cfg) eqn:Eid; [|discriminate (F3 eq_refl)].
      specialize (Hids eq_refl). assert (Hk : In (Some k) (map Some (zseq 1 (length cs)))) by (rewrite <- Hids, <- Ek; apply in_map, Hin).
      apply in_map_iff in Hk as (k' & Ek' & Hk'). injection Ek' as ->.
      apply zseq_range in Hk'. lia.
    + exact (settings_good_range _ _ F1 F2).
    + split; [unfold no_cr; apply not_in_existsb; assumption|].
      split; [assumption|]. destruct (Hruns c Hin) as (cs0 & r & _ & Hrr & _). rewrite Hrr. discriminate.
  - destruct cs; [contradiction | discriminate].
  - unfold ids_ok. destruct (cue_id cfg) eqn:Eid.
    + right. rewrite map_map, map_length. cbn [vrecord vr_id]. exact (Hids eq_refl).
    + left. apply Forall_forall. intros r Hr. apply in_map_iff in Hr as (c & <- & Hin). rewrite Forall_forall in Hf. destruct (Hf c Hin) as (_ & _ & F3). exact (F3 Eid).
  - apply Forall_forall. intros r Hr. apply in_map_iff in Hr as (c & <- & Hin). rewrite Forall_forall in Hspan. destruct (Hspan c Hin) as (e & He & Hbe).
    cbn [vrecord vr_b vr_e]. rewrite He. exact Hbe.
  - clear - Hspan Hord. induction cs as [|c cs IH]; [constructor|]. inversion Hspan as [|? ? (e & He & Hbe) Hs]; subst. inversion Hord as [|? ? Hfo Ho]; subst.
    cbn [map]. constructor; [|apply IH; assumption]. clear - Hfo He Hs. induction cs as [|c2 cs IH]; [constructor|]. inversion Hfo as [|? ? H2 Hf']; subst.
    inversion Hs as [|? ? (e2 & He2 & _) Hs']; subst. cbn [map]. constructor; [|apply IH; assumption]. cbn [vrecord vr_b vr_e]. rewrite He, He2.
    destruct (H2 e e2 He He2) as [[A B]|A]; [right; split; assumption | left; exact A].
Qed.

(* the hypotheses are satisfiable: the line-range witness document (line_position = True, one region beyond the root container) *)
Lemma vtt_wf_example : exists seq cs css out,
  isd_sequence w_linerange = Ok seq /\ vtt_cues lp seq = Ok (cs, css) /\ vtt_of_seq lp (Ok seq) = Ok out /\
  forallb vtt_cue_printable cs = true /\ cs <> [] /\ vtt_wf out = true.
Proof.
  exists linerange_seq. eexists. eexists. eexists. split; [exact linerange_seq_eq|]. split; [vm_compute; reflexivity|]. split; [vm_compute; reflexivity|].
  split; [vm_compute; reflexivity|]. split; [discriminate | vm_compute; reflexivity].
Qed.

