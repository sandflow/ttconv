(* C07: the payload of every cue, read back by the lexers and the tag-stack walk of Spec/CueSpec.v (`srt_runs`, `vtt_runs`), gives
   every character the style of the tags of its enclosing spans — for every paragraph, for both writers:
     srt_runs (cue_text esc_none c) = Some r   and   visible_only r = visible_only (the characters of the paragraph, each with the
                                                      style of the stack of the tags of the spans that enclose it)
   i.e. the tags are balanced, properly nested, recognised by the format's grammar, and enclose exactly the characters of the spans
   that carry the style value.  WebVTT: for every text (it is escaped).  SubRip: for text without "<" (no escape mechanism).
   Layers: (1) the lexers map the flattened item list back to one token per item; (2) normalize_eol only deletes line terminators,
   which no comparison looks at; (3) the tag-stack walk over the tokens of a span is the walk over its children under the span's
   tags. *)
From TT Require Import Model.Doc Gen.StyleTables Model.Isd Model.SigTimes Model.TimeCode Model.IsdFilters Gen.CueTables Model.CueWriter.
From TT Require Import Model.CueTriggers Spec.IsdSpec Spec.CueSpec Proofs.Common.ElemInd.
From TT Require Import Proofs.C06.Filters Proofs.C06.Inline Proofs.C06.Strip Proofs.C06.Loop Proofs.C07.Tags.

Definition item_tok (tok : text -> ptok) (i : item) : ptok := match i with ITag t => tok t | IChr c => PChar c end.
Definition toks (tok : text -> ptok) (l : list item) : list ptok := map (item_tok tok) l.
Lemma toks_app tok a b : toks tok (a ++ b) = toks tok a ++ toks tok b.
Proof. apply map_app. Qed.

(* the token a tag string stands for: what the format's tag recogniser says about the text between "<" and ">" *)
Definition tag_inner (t : text) : text := removelast (tl t).
Definition srt_tok (t : text) : ptok := match srt_tag (tag_inner t) with Some p => p | None => PChar 0 end.
Definition vtt_tok (t : text) : ptok := match vtt_tag (tag_inner t) with Some p => p | None => PChar 0 end.

Lemma srt_lex_ltag : forall inner buf rest, (forall x, In x inner -> x <> 60 /\ x <> 62) ->
  srt_lex (LTag buf) (inner ++ 62 :: rest) =
  match srt_tag (rev buf ++ inner) with
  | Some p => p :: srt_lex LText rest
  | None => chars_of_buf (rev inner ++ buf) ++ PChar 62 :: srt_lex LText rest
  end.
Proof.
  induction inner as [|c inner IH]; intros buf rest H.
  - cbn [app srt_lex Z.eqb Pos.eqb]. rewrite app_nil_r. reflexivity.
  - destruct (H c (or_introl eq_refl)) as [H1 H2]. cbn [app srt_lex].
    replace (c =? 62) with false by (symmetry; apply Z.eqb_neq; exact H2).
    replace (c =? 60) with false by (symmetry; apply Z.eqb_neq; exact H1).
    rewrite IH by (intros x Hx; apply H; right; exact Hx). cbn [rev]. rewrite <- !app_assoc. reflexivity.
Qed.
(* a tag the lexer recognises: "<" inner ">", no "<" or ">" inside, and the recogniser knows inner *)
Definition srt_tag_lex (t : text) : Prop :=
  exists inner p, t = 60 :: inner ++ [62] /\ (forall x, In x inner -> x <> 60 /\ x <> 62) /\ srt_tag inner = Some p.
Lemma tag_inner_shape inner : tag_inner (60 :: inner ++ [62]) = inner.
Proof. unfold tag_inner. cbn [tl]. apply removelast_last. Qed.
Lemma srt_lex_tag t rest : srt_tag_lex t -> srt_lex LText (t ++ rest) = srt_tok t :: srt_lex LText rest.
Proof.
  intros (inner & p & -> & Hi & Hp). unfold srt_tok. rewrite tag_inner_shape, Hp. cbn [app srt_lex Z.eqb Pos.eqb].
  rewrite <- app_assoc. cbn [app]. rewrite srt_lex_ltag by exact Hi. cbn [rev app]. rewrite Hp. reflexivity.
Qed.
Lemma srt_lex_chr c rest : c <> 60 -> srt_lex LText (c :: rest) = PChar c :: srt_lex LText rest.
Proof. intros H. cbn [srt_lex]. replace (c =? 60) with false by (symmetry; apply Z.eqb_neq; exact H). reflexivity. Qed.
Theorem srt_lex_flat : forall l, items_ok srt_tag_lex l -> ~ In 60 (chars_of l) -> srt_lex LText (flat esc_none l) = toks srt_tok l.
Proof.
  induction l as [|i l IH]; intros Hl Hc; [reflexivity|]. inversion Hl as [|? ? Hi Hl']; subst. destruct i as [t|c].
  - change (flat esc_none (ITag t :: l)) with (t ++ flat esc_none l). rewrite (srt_lex_tag t _ Hi), (IH Hl' Hc). reflexivity.
  - change (flat esc_none (IChr c :: l)) with (c :: flat esc_none l). change (chars_of (IChr c :: l)) with (c :: chars_of l) in Hc.
    rewrite srt_lex_chr by (intros E; apply Hc; left; rewrite E; reflexivity).
    assert (Hc' : ~ In 60 (chars_of l)) by (intros Hx; apply Hc; right; exact Hx).
    rewrite (IH Hl' Hc'). reflexivity.
Qed.

Lemma existsb_not_in q v : ~ In q v -> existsb (Z.eqb q) v = false.
Proof.
  intros H. apply not_true_iff_false. intros E. apply existsb_exists in E as (x & Hx & E). apply Z.eqb_eq in E. subst x. exact (H Hx).
Qed.
Lemma not_in_existsb q v : existsb (Z.eqb q) v = false -> ~ In q v.
Proof. intros E H. rewrite (proj2 (existsb_exists _ _) (ex_intro _ q (conj H (Z.eqb_refl q)))) in E. discriminate. Qed.
Lemma srt_tag_font v : ~ In 34 v ->
  srt_tag ([102; 111; 110; 116; 32; 99; 111; 108; 111; 114; 61; 34] ++ v ++ [34]) = Some (POpen TgFont [v]).
Proof.
  intros Hv. unfold srt_tag. cbn [app text_eqb has_prefix t_b t_i t_u t_font length skipn Z.eqb Pos.eqb andb].
  rewrite rev_unit, Z.eqb_refl, existsb_not_in by (intros Hx; apply Hv, in_rev, Hx). cbn [negb andb]. rewrite rev_involutive. reflexivity.
Qed.
Lemma color_string_plain c : Forall plain_char (color_string c).
Proof. constructor; [repeat split; discriminate | apply hex8_plain]. Qed.
(* the tags the SubRip writer emits are such tags *)
Lemma srt_tag_lex_of inner p : forallb (fun x => negb (x =? 60) && negb (x =? 62)) inner = true -> srt_tag inner = Some p ->
  srt_tag_lex (60 :: inner ++ [62]).
Proof.
  intros Hb Hp. exists inner, p. split; [reflexivity|]. split; [|exact Hp]. intros x Hx. rewrite forallb_forall in Hb. specialize (Hb x Hx). lia.
Qed.
Lemma srt_font_lex c :
  srt_tag_lex (srt_FONT_COLOR_TAG_IN_pre ++ color_string c ++ srt_FONT_COLOR_TAG_IN_suf) /\
  srt_tok (srt_FONT_COLOR_TAG_IN_pre ++ color_string c ++ srt_FONT_COLOR_TAG_IN_suf) = POpen TgFont [color_string c].
Proof.
  change (srt_FONT_COLOR_TAG_IN_pre ++ color_string c ++ srt_FONT_COLOR_TAG_IN_suf)
    with (60 :: ([102; 111; 110; 116; 32; 99; 111; 108; 111; 114; 61; 34] ++ color_string c ++ [34]) ++ [62]).
  pose proof (color_string_plain c) as Hp. rewrite Forall_forall in Hp.
  assert (Ht : srt_tag ([102; 111; 110; 116; 32; 99; 111; 108; 111; 114; 61; 34] ++ color_string c ++ [34]) = Some (POpen TgFont [color_string c]))
    by (apply srt_tag_font; intros Hx; exact (proj1 (Hp 34 Hx) eq_refl)).
  split; [|unfold srt_tok; rewrite tag_inner_shape, Ht; reflexivity].
  eexists. eexists. split; [reflexivity|]. split; [|exact Ht]. intros x Hx. rewrite !in_app_iff in Hx. destruct Hx as [Hx|[Hx|Hx]].
  - cbn [In] in Hx. lia.
  - destruct (Hp x Hx) as (_ & A & B & _). split; assumption.
  - cbn [In] in Hx. lia.
Qed.
Lemma srt_tag_ok_lex t : srt_tag_ok t -> srt_tag_lex t.
Proof.
  intros [->|[->|[->|[->|[->|[->|[->|[c ->]]]]]]]].
  - exact (srt_tag_lex_of [98] _ eq_refl eq_refl).
  - exact (srt_tag_lex_of [47; 98] _ eq_refl eq_refl).
  - exact (srt_tag_lex_of [105] _ eq_refl eq_refl).
  - exact (srt_tag_lex_of [47; 105] _ eq_refl eq_refl).
  - exact (srt_tag_lex_of [117] _ eq_refl eq_refl).
  - exact (srt_tag_lex_of [47; 117] _ eq_refl eq_refl).
  - exact (srt_tag_lex_of [47; 102; 111; 110; 116] _ eq_refl eq_refl).
  - apply srt_font_lex.
Qed.

Lemma vtt_lex_ltag : forall inner buf rest, (forall x, In x inner -> x <> 60 /\ x <> 62 /\ x <> 10 /\ x <> 13) ->
  vtt_lex (LTag buf) (inner ++ 62 :: rest) =
  match vtt_tag (rev buf ++ inner), vtt_lex LText rest with Some p, Some r => Some (p :: r) | _, _ => None end.
Proof.
  induction inner as [|c inner IH]; intros buf rest H.
  - cbn [app vtt_lex Z.eqb Pos.eqb]. rewrite app_nil_r. reflexivity.
  - destruct (H c (or_introl eq_refl)) as (H1 & H2 & H3 & H4). cbn [app vtt_lex].
    replace (c =? 62) with false by (symmetry; apply Z.eqb_neq; exact H2).
    replace (c =? 60) with false by (symmetry; apply Z.eqb_neq; exact H1).
    replace (c =? 10) with false by (symmetry; apply Z.eqb_neq; exact H3).
    replace (c =? 13) with false by (symmetry; apply Z.eqb_neq; exact H4). cbn [orb].
    rewrite IH by (intros x Hx; apply H; right; exact Hx). cbn [rev]. rewrite <- !app_assoc. reflexivity.
Qed.
Definition vtt_tag_lex (t : text) : Prop :=
  exists inner p, t = 60 :: inner ++ [62] /\ (forall x, In x inner -> x <> 60 /\ x <> 62 /\ x <> 10 /\ x <> 13) /\ vtt_tag inner = Some p.
Lemma vtt_tag_lex_ok t : vtt_tag_lex t -> vtt_tag_ok t.
Proof.
  intros (inner & p & -> & Hin & _). exists inner. split; [reflexivity|].
  intros x Hx. destruct (Hin x Hx) as (_ & A & B & C). split; [exact A|]. unfold is_eol. lia.
Qed.
Lemma vtt_lex_tag t rest : vtt_tag_lex t ->
  vtt_lex LText (t ++ rest) = match vtt_lex LText rest with Some r => Some (vtt_tok t :: r) | None => None end.
Proof.
  intros (inner & p & -> & Hi & Hp). unfold vtt_tok. rewrite tag_inner_shape, Hp. cbn [app vtt_lex Z.eqb Pos.eqb].
  rewrite <- app_assoc. cbn [app]. rewrite vtt_lex_ltag by exact Hi. cbn [rev app]. rewrite Hp. reflexivity.
Qed.
Lemma vtt_lex_esc c rest : vtt_lex LText (esc_vtt c ++ rest) = match vtt_lex LText rest with Some r => Some (PChar c :: r) | None => None end.
Proof.
  unfold esc_vtt. destruct (c =? 38) eqn:E1; [apply Z.eqb_eq in E1; subst c; reflexivity|].
  destruct (c =? 60) eqn:E2; [apply Z.eqb_eq in E2; subst c; reflexivity|].
  cbn [app vtt_lex]. rewrite E1, E2. reflexivity.
Qed.
Theorem vtt_lex_flat : forall l, items_ok vtt_tag_lex l -> vtt_lex LText (flat esc_vtt l) = Some (toks vtt_tok l).
Proof.
  induction l as [|i l IH]; intros Hl; [reflexivity|]. inversion Hl as [|? ? Hi Hl']; subst. destruct i as [t|c].
  - change (flat esc_vtt (ITag t :: l)) with (t ++ flat esc_vtt l). rewrite (vtt_lex_tag t _ Hi), (IH Hl'). reflexivity.
  - change (flat esc_vtt (IChr c :: l)) with (esc_vtt c ++ flat esc_vtt l). rewrite vtt_lex_esc, (IH Hl'). reflexivity.
Qed.

(* normalize_eol deletes line terminators only: the visible runs stay *)
Definition vis_runs {A} (r : list (Z * A)) : list (Z * A) := filter (fun x => visible_char (fst x)) r.
Lemma blank_eol c : is_eol c = true -> visible_char c = false.
Proof. unfold is_eol. intros H. apply orb_true_iff in H as [H|H]; apply Z.eqb_eq in H; subst c; reflexivity. Qed.
Lemma runs_go_del tok : forall l l', del_items l l' -> forall st r, runs_go st (toks tok l) = Some r ->
  exists r', runs_go st (toks tok l') = Some r' /\ vis_runs r' = vis_runs r.
Proof.
  intros l l' H. induction H as [|i l l' H IH|c l l' Hc H IH]; intros st r Hr.
  - exists r. split; [exact Hr | reflexivity].
  - destruct i as [t|c]; cbn [toks map item_tok] in *.
    + destruct (tok t) as [x|n a|n].
      * cbn [runs_go] in *. destruct (runs_go st (map (item_tok tok) l)) as [r0|] eqn:E; [|discriminate]. injection Hr as <-.
        destruct (IH st r0 E) as (r' & H1 & H2). fold (toks tok l') in *. rewrite H1. eexists. split; [reflexivity|].
        unfold vis_runs in *. cbn [filter fst]. rewrite H2. reflexivity.
      * cbn [runs_go] in *. exact (IH _ _ Hr).
      * cbn [runs_go] in *. destruct st as [|[m ?] st']; [discriminate|]. destruct (tagname_eqb n m); [exact (IH _ _ Hr) | discriminate].
    + cbn [runs_go] in *. destruct (runs_go st (map (item_tok tok) l)) as [r0|] eqn:E; [|discriminate]. injection Hr as <-.
      destruct (IH st r0 E) as (r' & H1 & H2). fold (toks tok l') in *. rewrite H1. eexists. split; [reflexivity|].
      unfold vis_runs in *. cbn [filter fst]. rewrite H2. reflexivity.
  - cbn [toks map item_tok runs_go] in Hr. destruct (runs_go st (map (item_tok tok) l)) as [r0|] eqn:E; [|discriminate]. injection Hr as <-.
    destruct (IH st r0 E) as (r' & H1 & H2). exists r'. split; [exact H1|]. unfold vis_runs in *. cbn [filter fst].
    rewrite (blank_eol c Hc). exact H2.
Qed.

(* the opening tags of a span as tokens, in the order written *)
Definition srt_span_opens (fmt : bool) (a : attrs) : list (tagname * list text) :=
  if fmt then
    (match get_color_of a p_Color with Some c => [(TgFont, [color_string c])] | None => [] end) ++
    (if is_element_bold a then [(TgB, [])] else []) ++ (if is_element_italic a then [(TgI, [])] else []) ++
    (if is_element_underlined a then [(TgU, [])] else [])
  else [].
Definition vtt_span_opens (a : attrs) : list (tagname * list text) :=
  (match get_color_of a p_Color with Some c => [(TgC, [class_name false c])] | None => [] end) ++
  (match get_color_of a p_BackgroundColor with Some c => [(TgC, [class_name true c])] | None => [] end) ++
  (if is_element_bold a then [(TgB, [])] else []) ++ (if is_element_italic a then [(TgI, [])] else []) ++
  (if is_element_underlined a then [(TgU, [])] else []).
(* the characters below an element, each with the style of the tags open around it (stack: innermost first) *)
Fixpoint tree_runs (opens : attrs -> list (tagname * list text)) (st : list (tagname * list text)) (e : elem) : list (Z * rstyle) :=
  match e with
  | Elem a cs =>
      match e_kind a with
      | KSpan => (fix go (l : list elem) : list (Z * rstyle) :=
                    match l with [] => [] | c :: l' => tree_runs opens (rev (opens a) ++ st) c ++ go l' end) cs
      | KRuby | KRbc | KRb => (fix go (l : list elem) : list (Z * rstyle) :=
                                 match l with [] => [] | c :: l' => tree_runs opens st c ++ go l' end) cs
      | KBr => [(10, style_of_stack st)]
      | KText => map (fun c => (c, style_of_stack st)) (e_text a)
      | _ => []
      end
  end.
Lemma tree_runs_node opens st a cs :
  tree_runs opens st (Elem a cs) =
  match e_kind a with
  | KSpan => flat_map (tree_runs opens (rev (opens a) ++ st)) cs
  | KRuby | KRbc | KRb => flat_map (tree_runs opens st) cs
  | KBr => [(10, style_of_stack st)]
  | KText => map (fun c => (c, style_of_stack st)) (e_text a)
  | _ => []
  end.
Proof. cbn [tree_runs]. destruct (e_kind a); reflexivity. Qed.

Definition opt_app {A} (x : list A) (o : option (list A)) : option (list A) := match o with Some r => Some (x ++ r) | None => None end.
Lemma opt_app_nil {A} (o : option (list A)) : opt_app [] o = o.
Proof. destruct o; reflexivity. Qed.
Lemma opt_app_app {A} (x y : list A) o : opt_app (x ++ y) o = opt_app x (opt_app y o).
Proof. destruct o; cbn [opt_app]; [rewrite app_assoc|]; reflexivity. Qed.

Lemma runs_go_chars st t rest : runs_go st (map PChar t ++ rest) = opt_app (map (fun c => (c, style_of_stack st)) t) (runs_go st rest).
Proof.
  induction t as [|c t IH]; [cbn [map app]; symmetry; apply opt_app_nil|]. cbn [map app runs_go]. rewrite IH.
  destruct (runs_go st rest); reflexivity.
Qed.
Lemma runs_go_opens : forall os st rest, runs_go st (map (fun x => POpen (fst x) (snd x)) os ++ rest) = runs_go (rev os ++ st) rest.
Proof.
  induction os as [|[n a] os IH]; intros st rest; [reflexivity|]. cbn [map app runs_go fst snd]. rewrite IH. cbn [rev]. rewrite <- app_assoc. reflexivity.
Qed.
Lemma runs_go_closes : forall os st rest, runs_go (rev os ++ st) (map (fun x => PClose (fst x)) (rev os) ++ rest) = runs_go st rest.
Proof.
  intros os. induction os as [|[n a] os IH] using rev_ind; intros st rest; [reflexivity|].
  rewrite rev_unit. cbn [app map runs_go fst]. assert (E : tagname_eqb n n = true) by (destruct n; reflexivity). rewrite E. apply IH.
Qed.

Lemma toks_chars tok t : toks tok (map IChr t) = map PChar t.
Proof. unfold toks. rewrite map_map. reflexivity. Qed.
(* `spans tok ps os`: the tag pairs ps are read as the open / close tokens of the stack entries os *)
Definition spans (tok : text -> ptok) : list (text * text) -> list (tagname * list text) -> Prop :=
  Forall2 (fun p o => tok (fst p) = POpen (fst o) (snd o) /\ tok (snd p) = PClose (fst o)).
Lemma toks_wraps tok ps os l : spans tok ps os ->
  toks tok (wraps ps l) = map (fun x => POpen (fst x) (snd x)) os ++ toks tok l ++ map (fun x => PClose (fst x)) (rev os).
Proof.
  intros H. induction H as [|p o ps os [Ho Hc] _ IH]; [rewrite wraps_nil; symmetry; apply app_nil_r|].
  rewrite wraps_cons. change (ITag (fst p) :: wraps ps l ++ [ITag (snd p)]) with ([ITag (fst p)] ++ wraps ps l ++ [ITag (snd p)]).
  rewrite !toks_app, IH. cbn [toks map item_tok rev app]. rewrite Ho, Hc, map_app, <- !app_assoc. reflexivity.
Qed.
Lemma spans_opt tok (b : bool) p o : tok (fst p) = POpen (fst o) (snd o) -> tok (snd p) = PClose (fst o) ->
  spans tok (if b then [p] else []) (if b then [o] else []).
Proof. intros H1 H2. destruct b; repeat constructor; assumption. Qed.

Section Walk.
  Variable tok : text -> ptok.
  Variable opens : attrs -> list (tagname * list text).
  Variable inline : elem -> list item.
  Variable pairs : attrs -> list (text * text).
  Hypothesis inline_wraps : forall a cs, inline (Elem a cs) = inline_node pairs (flat_map inline cs) a.
  Hypothesis pairs_opens : forall a, spans tok (pairs a) (opens a).

  Theorem walk_tree : forall e st rest, runs_go st (toks tok (inline e) ++ rest) = opt_app (tree_runs opens st e) (runs_go st rest).
  Proof.
    induction e as [a cs IH] using elem_ind2. intros st rest. rewrite inline_wraps, tree_runs_node.
    assert (G : forall st0 rest0, runs_go st0 (toks tok (flat_map inline cs) ++ rest0) =
                                  opt_app (flat_map (tree_runs opens st0) cs) (runs_go st0 rest0)).
    { intros st0. induction IH as [|c cs Hc _ IHcs]; intros rest0; [symmetry; apply opt_app_nil|].
      cbn [flat_map]. rewrite toks_app, <- app_assoc, Hc, IHcs, opt_app_app. reflexivity. }
    unfold inline_node. destruct (e_kind a); try (symmetry; apply opt_app_nil); try apply G.
    - (* span *) rewrite (toks_wraps _ _ _ _ (pairs_opens a)), <- !app_assoc, runs_go_opens, G, runs_go_closes. reflexivity.
    - (* br *) cbn [toks map item_tok app runs_go]. destruct (runs_go st rest); reflexivity.
    - (* text *) rewrite toks_chars. apply runs_go_chars.
  Qed.
  Corollary walk_children cs : runs_go [] (toks tok (flat_map inline cs)) = Some (flat_map (tree_runs opens []) cs).
  Proof.
    induction cs as [|c cs IH]; [reflexivity|]. cbn [flat_map]. rewrite toks_app, walk_tree, IH. reflexivity.
  Qed.
End Walk.

Lemma srt_pairs_opens fmt a : spans srt_tok (srt_span_pairs fmt a) (srt_span_opens fmt a).
Proof.
  unfold srt_span_pairs, srt_span_opens. destruct fmt; [|constructor].
  repeat apply Forall2_app; try (apply spans_opt; reflexivity).
  destruct (get_color_of a p_Color) as [c|]; repeat constructor. apply srt_font_lex.
Qed.

(* every paragraph: the payload lexes, its tags balance, and the visible characters carry the styles of the enclosing spans' tags *)
Theorem srt_paragraph_runs fmt cs0 c : c_items c = flat_map (srt_inline fmt) cs0 -> ~ In 60 (cue_chars c) ->
  exists r, srt_runs (cue_text esc_none c) = Some r /\ vis_runs r = vis_runs (flat_map (tree_runs (srt_span_opens fmt) []) cs0).
Proof.
  intros Hi Hc. unfold srt_runs, cue_text, cue_chars in *.
  assert (Hok : items_ok srt_tag_ok (c_items c)) by (rewrite Hi; apply srt_inlines_items).
  destruct (del_flat esc_none srt_tag_ok esc_none_eol srt_tag_no_eol _ Hok _ (del_normalize (flat esc_none (c_items c)))) as (l' & Hd & ->).
  rewrite srt_lex_flat.
  - pose proof (walk_children srt_tok (srt_span_opens fmt) (srt_inline fmt) _ (srt_inline_wraps fmt) (srt_pairs_opens fmt) cs0) as W.
    rewrite <- Hi in W. destruct (runs_go_del srt_tok _ _ Hd [] _ W) as (r' & H1 & H2). exists r'. split; assumption.
  - apply (items_ok_impl srt_tag_ok); [exact srt_tag_ok_lex | exact (del_items_ok _ _ _ Hd Hok)].
  - intros Hx. apply Hc. exact (del_in _ _ (del_items_chars _ _ Hd) 60 Hx).
Qed.

Lemma take_pred_all f : forall t, forallb f t = true -> take_pred f t = t.
Proof. induction t as [|c t IH]; intros H; [reflexivity|]. cbn [forallb] in H. apply andb_true_iff in H as [H1 H2]. cbn [take_pred]. rewrite H1, (IH H2). reflexivity. Qed.
Lemma split_on_go_none sep : forall t cur, ~ In sep t -> split_on_go sep cur t = [rev cur ++ t].
Proof.
  induction t as [|c t IH]; intros cur H; [cbn; rewrite app_nil_r; reflexivity|]. cbn [split_on_go].
  replace (c =? sep) with false by (symmetry; apply Z.eqb_neq; intros ->; apply H; left; reflexivity).
  rewrite IH by (intros Hx; apply H; right; exact Hx). cbn [rev]. rewrite <- app_assoc. reflexivity.
Qed.
Lemma vtt_tag_class n : name_ok n -> vtt_tag (99 :: 46 :: n) = Some (POpen TgC [n]).
Proof.
  intros [Hn Hc]. unfold vtt_tag.
  assert (Hb : forallb (fun c => negb (is_blank_sp c)) (99 :: 46 :: n) = true).
  { cbn [forallb]. apply forallb_forall. intros x Hx. rewrite forallb_forall in Hc. destruct (name_char_facts x (Hc x Hx)) as (_ & A & B & _).
    unfold is_blank_sp. apply negb_true_iff, orb_false_iff. split; apply Z.eqb_neq; assumption. }
  rewrite (take_pred_all _ _ Hb), skipn_all. unfold split_on. cbn [split_on_go Z.eqb Pos.eqb rev app].
  rewrite split_on_go_none.
  - cbn [rev app]. change (vtt_name [99]) with (Some TgC). cbn [andb forallb]. destruct n; [contradiction | reflexivity].
  - intros Hx. rewrite forallb_forall in Hc. destruct (name_char_facts 46 (Hc 46 Hx)) as (A & _). apply A. reflexivity.
Qed.
Lemma vtt_tag_lex_of inner p : forallb (fun x => negb (x =? 60) && negb (x =? 62) && negb (x =? 10) && negb (x =? 13)) inner = true ->
  vtt_tag inner = Some p -> vtt_tag_lex (60 :: inner ++ [62]).
Proof.
  intros Hb Hp. exists inner, p. split; [reflexivity|]. split; [|exact Hp]. intros x Hx. rewrite forallb_forall in Hb. specialize (Hb x Hx). lia.
Qed.
Lemma vtt_class_lex (bg : bool) c :
  vtt_tag_lex ((if bg then vtt_BG_COLOR_TAG_IN_pre else vtt_COLOR_TAG_IN_pre) ++ class_name bg c ++ (if bg then vtt_BG_COLOR_TAG_IN_suf else vtt_COLOR_TAG_IN_suf)) /\
  vtt_tok ((if bg then vtt_BG_COLOR_TAG_IN_pre else vtt_COLOR_TAG_IN_pre) ++ class_name bg c ++ (if bg then vtt_BG_COLOR_TAG_IN_suf else vtt_COLOR_TAG_IN_suf))
  = POpen TgC [class_name bg c].
Proof.
  pose proof (class_name_ok bg c) as Hn.
  replace ((if bg then vtt_BG_COLOR_TAG_IN_pre else vtt_COLOR_TAG_IN_pre) ++ class_name bg c ++ (if bg then vtt_BG_COLOR_TAG_IN_suf else vtt_COLOR_TAG_IN_suf))
    with (60 :: (99 :: 46 :: class_name bg c) ++ [62]) by (destruct bg; reflexivity).
  split; [|unfold vtt_tok; rewrite tag_inner_shape, (vtt_tag_class _ Hn); reflexivity].
  eexists. eexists. split; [reflexivity|]. split; [|apply vtt_tag_class, Hn].
  intros x [<-|[<-|Hx]]; [repeat split; discriminate | repeat split; discriminate|]. destruct Hn as [_ Hc]. rewrite forallb_forall in Hc.
  destruct (name_char_facts x (Hc x Hx)) as (_ & _ & _ & A & B & C & D). tauto.
Qed.

(* the tags of a span are tags the lexer knows, and read as the entries of vtt_span_opens *)
Lemma vtt_pairs_lex a : Forall (fun p => vtt_tag_lex (fst p) /\ vtt_tag_lex (snd p)) (vtt_span_pairs a).
Proof.
  apply vtt_span_pairs_forall; cbn [fst snd].
  - intros c. split; [apply (vtt_class_lex false) | exact (vtt_tag_lex_of [47; 99] _ eq_refl eq_refl)].
  - intros c. split; [apply (vtt_class_lex true) | exact (vtt_tag_lex_of [47; 99] _ eq_refl eq_refl)].
  - split; [exact (vtt_tag_lex_of [98] _ eq_refl eq_refl) | exact (vtt_tag_lex_of [47; 98] _ eq_refl eq_refl)].
  - split; [exact (vtt_tag_lex_of [105] _ eq_refl eq_refl) | exact (vtt_tag_lex_of [47; 105] _ eq_refl eq_refl)].
  - split; [exact (vtt_tag_lex_of [117] _ eq_refl eq_refl) | exact (vtt_tag_lex_of [47; 117] _ eq_refl eq_refl)].
Qed.
Lemma vtt_pairs_opens a : spans vtt_tok (vtt_span_pairs a) (vtt_span_opens a).
Proof.
  unfold vtt_span_pairs, vtt_span_opens. repeat apply Forall2_app; try (apply spans_opt; reflexivity).
  - destruct (get_color_of a p_Color) as [c|]; repeat constructor. apply (vtt_class_lex false).
  - destruct (get_color_of a p_BackgroundColor) as [c|]; repeat constructor. apply (vtt_class_lex true).
Qed.

Definition vtt_items (e : elem) : list item := fst (vtt_inline e []).
Lemma vtt_inlines_items_eq l s : fst (vtt_inlines l s) = flat_map vtt_items l.
Proof. apply vtt_inlines_indep. Qed.
Lemma vtt_items_lex l : items_ok vtt_tag_lex (flat_map vtt_items l).
Proof.
  exact (inline_items_ok _ _ _ vtt_items_wraps vtt_pairs_lex l).
Qed.

Theorem vtt_paragraph_runs cs0 s c : c_items c = fst (vtt_inlines cs0 s) ->
  exists r, vtt_runs (cue_text esc_vtt c) = Some r /\ vis_runs r = vis_runs (flat_map (tree_runs vtt_span_opens []) cs0).
Proof.
  intros Hi. unfold vtt_runs, cue_text. rewrite vtt_inlines_items_eq in Hi.
  assert (Hlex : items_ok vtt_tag_lex (c_items c)) by (rewrite Hi; apply vtt_items_lex).
  pose proof (items_ok_impl _ _ _ vtt_tag_lex_ok Hlex) as Hok.
  destruct (del_flat esc_vtt vtt_tag_ok esc_vtt_eol vtt_tag_no_eol _ Hok _ (del_normalize (flat esc_vtt (c_items c)))) as (l' & Hd & ->).
  rewrite vtt_lex_flat by exact (del_items_ok _ _ _ Hd Hlex).
  pose proof (walk_children vtt_tok vtt_span_opens vtt_items _ vtt_items_wraps vtt_pairs_opens cs0) as W. rewrite <- Hi in W.
  destruct (runs_go_del vtt_tok _ _ Hd [] _ W) as (r' & H1 & H2). exists r'. split; assumption.
Qed.

Definition srt_cue_runs (fmt : bool) (c : cue) : Prop :=
  ~ In 60 (cue_chars c) ->
  exists cs0 r, c_items c = flat_map (srt_inline fmt) cs0 /\ srt_runs (cue_text esc_none c) = Some r /\
                vis_runs r = vis_runs (flat_map (tree_runs (srt_span_opens fmt) []) cs0).
Theorem srt_cues_runs fmt seq cs : srt_cues fmt seq = Ok cs -> Forall (srt_cue_runs fmt) cs.
Proof.
  (* srt_cue_runs looks at the items of the cue only *)
  apply (srt_cues_items (fun l => srt_cue_runs fmt (mkCue None 0 None l None None))). intros cs0 Hc.
  destruct (srt_paragraph_runs fmt cs0 (mkCue None 0 None _ None None) eq_refl Hc) as (r & H1 & H2). exists cs0, r. split; [reflexivity|]. split; assumption.
Qed.
Definition vtt_cue_runs (c : cue) : Prop :=
  exists cs0 r, c_items c = flat_map vtt_items cs0 /\ vtt_runs (cue_text esc_vtt c) = Some r /\
                vis_runs r = vis_runs (flat_map (tree_runs vtt_span_opens []) cs0).
Theorem vtt_cues_runs cfg seq cs css : vtt_cues cfg seq = Ok (cs, css) -> Forall vtt_cue_runs cs.
Proof.
  apply (vtt_cues_items (fun l => vtt_cue_runs (mkCue None 0 None l None None))). intros cs0 s.
  destruct (vtt_paragraph_runs cs0 s (mkCue None 0 None _ None None) eq_refl) as (r & H1 & H2). exists cs0, r. split; [apply vtt_inlines_items_eq|]. split; assumption.
Qed.
(* what the walk says, flag by flag: a character is inside <b> ... </b> exactly when one of the spans around it is bold, ... *)
Lemma style_of_stack_b st : rs_b (style_of_stack st) = existsb (fun x => tagname_eqb (fst x) TgB) st.
Proof. reflexivity. Qed.
