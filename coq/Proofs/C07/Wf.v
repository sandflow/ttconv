(* C07: the SubRip file the model prints is accepted by the file-level recogniser srt_wf of Spec/CueSpec.v — lines, blocks, counter
   line, timing line read back to the very millisecond counts, payload lines, counters 1, 2, 3, ..., begin < end, order, tags —
   outside the recorded findings (a payload line that is blank or holds "-->": blank-looking-line-in-payload, arrow-in-payload), for
   payloads without carriage return and without "<" in the text (SubRip has no escape mechanism), and for numbers within the digits
   the model's printers provide (fuel: 40 digits for counters, 20 for hours). *)
From Coq Require Import Sorting.Sorted.
From TT Require Import Model.Doc Gen.StyleTables Model.Isd Model.SigTimes Model.TimeCode Model.IsdFilters Gen.CueTables Model.CueWriter.
From TT Require Import Model.CueTriggers Spec.IsdSpec Spec.CueSpec Proofs.C12.Derived.
From TT Require Import Proofs.C06.Filters Proofs.C06.Inline Proofs.C06.Strip Proofs.C06.Loop Proofs.C06.Text Proofs.C06.Shape Proofs.C07.Order Proofs.C07.Single Proofs.C07.Runs Proofs.C06.Fixed.

Lemma digits_fuel_app : forall f n acc, digits_fuel f n acc = digits_fuel f n [] ++ acc.
Proof.
  induction f as [|f IH]; intros n acc; [reflexivity|]. cbn [digits_fuel]. destruct (n <? 10); [reflexivity|].
  rewrite (IH (n / 10) (digit (n mod 10) :: acc)), (IH (n / 10) [digit (n mod 10)]), <- app_assoc. reflexivity.
Qed.
Lemma num_of_app : forall x y a, num_of a (x ++ y) = num_of (num_of a x) y.
Proof. induction x as [|c x IH]; intros y a; [reflexivity|]. cbn [app num_of]. apply IH. Qed.
Lemma is_dig_digit d : 0 <= d <= 9 -> is_dig (digit d) = true.
Proof. intros H. unfold is_dig, digit. lia. Qed.
Definition dec_ok (n : Z) (t : text) : Prop :=
  forallb is_dig t = true /\ num_of 0 t = n /\ t <> [] /\ (1 <= n -> hd 0 t <> 48) /\ (n = 0 -> t = [48]).
Lemma digits_fuel_ok : forall f n, 0 <= n < 10 ^ Z.of_nat (S f) -> dec_ok n (digits_fuel (S f) n []).
Proof.
  induction f as [|f IH]; intros n H; rewrite digits_fuel_S; destruct (n <? 10) eqn:E.
  1, 3: repeat split; [cbn [forallb]; rewrite is_dig_digit by lia; reflexivity | unfold digit; cbn [num_of]; lia | discriminate | cbn [hd]; unfold digit; lia | intros ->; reflexivity].
  - change (10 ^ Z.of_nat 1) with 10 in H. lia.
  - assert (Hq : 0 <= n / 10 < 10 ^ Z.of_nat (S f)).
    { rewrite Nat2Z.inj_succ, Z.pow_succ_r in H by lia. split; [lia|]. apply Z.div_lt_upper_bound; lia. }
    destruct (IH (n / 10) Hq) as (D1 & D2 & D3 & D4 & D5). rewrite digits_fuel_app. generalize dependent (digits_fuel (S f) (n / 10) []). intros t D1 D2 D3 D4 D5.
    repeat split.
    + rewrite forallb_app, D1. cbn [forallb]. rewrite is_dig_digit by lia. reflexivity.
    + rewrite num_of_app, D2. unfold digit. cbn [num_of]. lia.
    + intros E0. apply app_eq_nil in E0 as [_ E0]. discriminate.
    + intros _. destruct t as [|c t]; [contradiction|]. cbn [app hd]. cbn [hd] in D4. apply D4. lia.
    + intros ->. discriminate.
Qed.
Lemma print_z_ok k : 0 <= k < 10 ^ 40 -> dec_ok k (print_z k).
Proof. intros H. unfold print_z. replace (k <? 0) with false by lia. exact (digits_fuel_ok 39 k H). Qed.
Lemma print_z_line k : 0 <= k < 10 ^ 40 ->
  all_digits (print_z k) = true /\ forallb is_dig (print_z k) = true /\ exists c t, print_z k = c :: t /\ is_dig c = true.
Proof.
  intros H. destruct (print_z_ok k H) as (D1 & _ & D3 & _). destruct (print_z k) as [|c t]; [contradiction|].
  split; [exact D1|]. split; [exact D1|]. exists c, t. split; [reflexivity|]. cbn [forallb] in D1. apply andb_true_iff in D1 as [D1 _]. exact D1.
Qed.
Lemma counter_ok k : 1 <= k < 10 ^ 40 ->
  all_digits (print_z k) && (num_of 0 (print_z k) =? k) && negb (has_prefix [48] (print_z k) && (1 <? length (print_z k))%nat) = true.
Proof.
  intros H. destruct (print_z_ok k) as (_ & D2 & _ & D4 & _); [lia|]. destruct (print_z_line k) as (A & _ & c & t & E & _); [lia|].
  rewrite A, D2, Z.eqb_refl. rewrite E in *. cbn [has_prefix hd andb] in *. replace (48 =? c) with false; [reflexivity|].
  symmetry. apply Z.eqb_neq. intros E0. apply D4; [lia | symmetry; exact E0].
Qed.

Lemma pad3_digits n : 0 <= n < 1000 -> exists d1 d2 d3,
  pad3 n = [digit d1; digit d2; digit d3] /\ 0 <= d1 <= 9 /\ 0 <= d2 <= 9 /\ 0 <= d3 <= 9 /\ 100 * d1 + 10 * d2 + d3 = n.
Proof.
  intros H. unfold pad3. destruct (n <? 10) eqn:E1; [exists 0, 0, n; split; [reflexivity | lia]|]. destruct (n <? 100) eqn:E2.
  - rewrite digits_fuel_S, E1, digits_fuel_S. replace (n / 10 <? 10) with true by lia. exists 0, (n / 10), (n mod 10). split; [reflexivity | lia].
  - rewrite digits_fuel_S, E1, digits_fuel_S. replace (n / 10 <? 10) with false by lia. rewrite digits_fuel_S. replace (n / 10 / 10 <? 10) with true by lia.
    exists (n / 10 / 10), ((n / 10) mod 10), (n mod 10). split; [reflexivity | lia].
Qed.
Lemma pad2_ok n : 0 <= n < 10 ^ 20 -> forallb is_dig (pad2 n) = true /\ num_of 0 (pad2 n) = n /\ (2 <= length (pad2 n))%nat.
Proof.
  intros H. unfold pad2. destruct (n <? 10) eqn:E.
  - cbn [forallb num_of length]. rewrite is_dig_digit by lia. unfold digit. split; [reflexivity|]. split; lia.
  - destruct (digits_fuel_ok 19 n H) as (D1 & D2 & D3 & _). split; [exact D1|]. split; [exact D2|].
    rewrite digits_fuel_S, E, digits_fuel_app, app_length. cbn [length].
    assert (Hq : 0 <= n / 10 < 10 ^ Z.of_nat 19) by (split; [lia | apply Z.div_lt_upper_bound; lia]).
    destruct (digits_fuel_ok 18 (n / 10) Hq) as (_ & _ & D3' & _). destruct (digits_fuel 19 (n / 10) []); [contradiction | cbn [length]; lia].
Qed.

Lemma take_pred_app f : forall a b, forallb f a = true -> (match b with c :: _ => f c = false | [] => True end) -> take_pred f (a ++ b) = a.
Proof.
  induction a as [|c a IH]; intros b Ha Hb.
  - destruct b as [|c b]; [reflexivity|]. cbn [app take_pred]. rewrite Hb. reflexivity.
  - cbn [forallb] in Ha. apply andb_true_iff in Ha as [H1 H2]. cbn [app take_pred]. rewrite H1, (IH b H2 Hb). reflexivity.
Qed.
Definition ms_ok (ms : Z) : Prop := 0 <= ms < 3600000 * 10 ^ 20.
(* the printed time: hour digits (two or more), then ":MM:SS<sep>mmm" *)
Lemma print_ms_shape sep ms : ms_ok ms -> exists hh m1 m2 s1 s2 f1 f2 f3,
  print_ms sep ms = hh ++ [58; digit m1; digit m2; 58; digit s1; digit s2; sep; digit f1; digit f2; digit f3] /\
  forallb is_dig hh = true /\ (2 <= length hh)%nat /\
  (0 <= m1 <= 9 /\ 0 <= m2 <= 9 /\ 0 <= s1 <= 9 /\ 0 <= s2 <= 9 /\ 0 <= f1 <= 9 /\ 0 <= f2 <= 9 /\ 0 <= f3 <= 9) /\
  10 * m1 + m2 < 60 /\ 10 * s1 + s2 < 60 /\
  ((num_of 0 hh * 60 + (10 * m1 + m2)) * 60 + (10 * s1 + s2)) * 1000 + (100 * f1 + 10 * f2 + f3) = ms.
Proof.
  intros [H0 H1]. unfold print_ms, print_clock, clock_fields.
  assert (Hh : 0 <= ms / 3600000 < 10 ^ 20) by (split; [lia | apply Z.div_lt_upper_bound; lia]).
  destruct (pad2_ok _ Hh) as (P1 & P2 & P3).
  assert (E : ((ms / 3600000 * 60 + (ms / 60000) mod 60) * 60 + (ms / 1000) mod 60) * 1000 + ms mod 1000 = ms) by lia.
  pose proof (Z.mod_pos_bound (ms / 60000) 60 eq_refl) as Hm. pose proof (Z.mod_pos_bound (ms / 1000) 60 eq_refl) as Hs.
  pose proof (Z.mod_pos_bound ms 1000 eq_refl) as Hf. rewrite <- P2 in E.
  set (m := (ms / 60000) mod 60) in *. set (s := (ms / 1000) mod 60) in *. set (f := ms mod 1000) in *. clearbody m s f. clear H0 H1 Hh P2.
  rewrite (pad2_two m), (pad2_two s) by lia. destruct (pad3_digits f Hf) as (f1 & f2 & f3 & -> & Hf1 & Hf2 & Hf3 & <-).
  exists (pad2 (ms / 3600000)), (m / 10), (m mod 10), (s / 10), (s mod 10), f1, f2, f3.
  split; [reflexivity|]. split; [exact P1|]. split; [exact P3|]. generalize dependent (num_of 0 (pad2 (ms / 3600000))). intros h E. clear P1 P3. lia.
Qed.
Lemma parse_print_ts sep ms rest : ms_ok ms -> (match rest with c :: _ => is_dig c = false | [] => True end) ->
  parse_ts sep (print_ms sep ms ++ rest) = Some (ms, rest).
Proof.
  intros Hms Hr. destruct (print_ms_shape sep ms Hms) as (hh & m1 & m2 & s1 & s2 & f1 & f2 & f3 & -> & P1 & P3 & Hd & Hm & Hs & E).
  unfold parse_ts. rewrite <- app_assoc. rewrite (take_pred_app is_dig hh) by (exact P1 || reflexivity).
  replace (length hh <? 2)%nat with false by (symmetry; apply Nat.ltb_ge; exact P3).
  rewrite skipn_app_len. cbn [app]. rewrite !Z.eqb_refl. cbn [andb forallb].
  rewrite !is_dig_digit by lia. cbn [andb]. unfold digit. cbn [num_of].
  replace ((0 * 10 + (48 + m1 - 48)) * 10 + (48 + m2 - 48) <? 60) with true by lia.
  replace ((0 * 10 + (48 + s1 - 48)) * 10 + (48 + s2 - 48) <? 60) with true by lia.
  cbn [andb]. f_equal. f_equal. lia.
Qed.
Lemma print_ms_head sep ms : ms_ok ms -> exists c t, print_ms sep ms = c :: t /\ is_dig c = true.
Proof.
  intros Hms. destruct (print_ms_shape sep ms Hms) as (hh & m1 & m2 & s1 & s2 & f1 & f2 & f3 & -> & P1 & P3 & _).
  destruct hh as [|c t]; [cbn in P3; lia|]. cbn [forallb] in P1. apply andb_true_iff in P1 as [P1 _]. eexists. eexists. split; [reflexivity | exact P1].
Qed.
Lemma print_ms_chars sep ms x : ms_ok ms -> In x (print_ms sep ms) -> is_dig x = true \/ x = 58 \/ x = sep.
Proof.
  intros Hms. destruct (print_ms_shape sep ms Hms) as (hh & m1 & m2 & s1 & s2 & f1 & f2 & f3 & -> & P1 & _ & Hd & _).
  intros Hx. apply in_app_iff in Hx as [Hx|Hx]; [left; rewrite forallb_forall in P1; exact (P1 x Hx)|].
  cbn [In] in Hx. unfold is_dig, digit in *. lia.
Qed.

(* the timing line "begin --> end", followed by the cue settings (WebVTT) or nothing (SubRip) *)
Definition timing_line (sep b e : Z) (rest : text) : text := print_ms sep b ++ arrow ++ print_ms sep e ++ rest.
(* ... is read back to the two millisecond counts *)
Lemma parse_print_timing_rest sep b e rest : ms_ok b -> ms_ok e -> (match rest with c :: _ => is_dig c = false | [] => True end) ->
  parse_timing sep (timing_line sep b e rest) = Some (b, e, rest).
Proof.
  intros Hb He Hr. unfold parse_timing, timing_line. rewrite (parse_print_ts sep b _ Hb) by reflexivity.
  destruct (print_ms_head sep e He) as (c & t & Ee & Hc).
  assert (Hbl : is_blank_sp c = false) by (unfold is_dig in Hc; unfold is_blank_sp; lia).
  set (pe := print_ms sep e) in *.
  assert (R2 : drop_pred is_blank_sp (arrow ++ pe ++ rest) = 45 :: 45 :: 62 :: 32 :: pe ++ rest) by reflexivity. rewrite R2.
  assert (L1 : Nat.ltb (length (45 :: 45 :: 62 :: 32 :: pe ++ rest)) (length (arrow ++ pe ++ rest)) = true) by (apply Nat.ltb_lt; cbn [arrow app length]; lia). rewrite L1.
  assert (P : has_prefix arrow3 (45 :: 45 :: 62 :: 32 :: pe ++ rest) = true) by reflexivity. rewrite P. cbn [andb].
  assert (R3 : skipn 3 (45 :: 45 :: 62 :: 32 :: pe ++ rest) = 32 :: pe ++ rest) by reflexivity. rewrite R3.
  assert (R4 : drop_pred is_blank_sp (32 :: pe ++ rest) = pe ++ rest) by (rewrite Ee; cbn [app drop_pred is_blank_sp Z.eqb Pos.eqb orb]; rewrite Hbl; reflexivity). rewrite R4.
  assert (L2 : Nat.ltb (length (pe ++ rest)) (length (32 :: pe ++ rest)) = true) by (apply Nat.ltb_lt; cbn [length]; lia). rewrite L2.
  unfold pe. rewrite (parse_print_ts sep e rest He Hr). reflexivity.
Qed.
Lemma parse_print_timing sep b e : ms_ok b -> ms_ok e ->
  parse_timing sep (print_ms sep b ++ arrow ++ print_ms sep e) = Some (b, e, []).
Proof. intros Hb He. rewrite <- (app_nil_r (print_ms sep e)). exact (parse_print_timing_rest sep b e [] Hb He I). Qed.

Definition no_cr (t : text) : Prop := ~ In 13 t.
Lemma split_lines_go_app : forall x cur rest, no_cr x -> split_lines_go cur (x ++ 10 :: rest) = split_lines_go cur x ++ split_lines_go [] rest.
Proof.
  induction x as [|c x IH]; intros cur rest H; [reflexivity|]. cbn [app split_lines_go].
  assert (Hx : no_cr x) by (intros Hi; apply H; right; exact Hi).
  destruct (c =? 10) eqn:E1; [rewrite (IH [] rest Hx); reflexivity|].
  replace (c =? 13) with false by (symmetry; apply Z.eqb_neq; intros ->; apply H; left; reflexivity). exact (IH (c :: cur) rest Hx).
Qed.
Definition no_eol_t (t : text) : Prop := forall x, In x t -> x <> 10 /\ x <> 13.
Lemma split_lines_go_plain : forall x cur, no_eol_t x -> split_lines_go cur x = [rev cur ++ x].
Proof.
  induction x as [|c x IH]; intros cur H; [cbn; rewrite app_nil_r; reflexivity|]. destruct (H c (or_introl eq_refl)) as [H1 H2].
  cbn [split_lines_go]. replace (c =? 10) with false by (symmetry; apply Z.eqb_neq; exact H1).
  replace (c =? 13) with false by (symmetry; apply Z.eqb_neq; exact H2).
  rewrite IH by (intros y Hy; apply H; right; exact Hy). cbn [rev]. rewrite <- app_assoc. reflexivity.
Qed.
Lemma no_eol_no_cr t : no_eol_t t -> no_cr t.
Proof. intros H Hi. destruct (H 13 Hi) as [_ E]. apply E. reflexivity. Qed.
Lemma split_lines_line x rest : no_eol_t x -> split_lines (x ++ 10 :: rest) = x :: split_lines rest.
Proof. intros H. unfold split_lines. rewrite split_lines_go_app by (apply no_eol_no_cr, H). rewrite split_lines_go_plain by exact H. reflexivity. Qed.
Lemma timing_line_facts sep b e rest : ms_ok b -> ms_ok e -> sep <> 10 -> sep <> 13 -> no_eol_t rest ->
  no_eol_t (timing_line sep b e rest) /\ (exists c t, timing_line sep b e rest = c :: t /\ is_dig c = true) /\
  contains arrow3 (timing_line sep b e rest) = true.
Proof.
  intros Hb He S1 S2 Hrest. unfold timing_line. split; [|split].
  - assert (G : forall ms, ms_ok ms -> no_eol_t (print_ms sep ms)).
    { intros ms Hms x Hx. destruct (print_ms_chars sep ms x Hms Hx) as [H | [ -> | -> ] ]; [unfold is_dig in H; lia | split; discriminate | split; assumption]. }
    intros x Hx. rewrite !in_app_iff in Hx. destruct Hx as [Hx|[Hx|[Hx|Hx]]]; [exact (G b Hb x Hx) | | exact (G e He x Hx) | exact (Hrest x Hx)].
    cbn [arrow In] in Hx. lia.
  - destruct (print_ms_head sep b Hb) as (c & t & -> & Hc). exists c. eexists. split; [reflexivity | exact Hc].
  - generalize (print_ms sep b). intros p. induction p as [|c p IH]; [reflexivity|]. cbn [app contains]. rewrite IH. apply orb_true_r.
Qed.
Lemma join_lines_go : forall x cur, no_cr x ->
  (fix join (l : list text) : text := match l with [] => [] | [y] => y | y :: l' => y ++ 10 :: join l' end) (split_lines_go cur x) = rev cur ++ x.
Proof.
  induction x as [|c x IH]; intros cur H; [cbn; rewrite app_nil_r; reflexivity|].
  assert (Hx : no_cr x) by (intros Hi; apply H; right; exact Hi). cbn [split_lines_go].
  destruct (c =? 10) eqn:E1.
  - apply Z.eqb_eq in E1. subst c. specialize (IH [] Hx). cbn [rev app] in IH.
    destruct (split_lines_go [] x) as [|y l] eqn:Es; [destruct x; discriminate Es || (cbn in Es; destruct (z =? 10); try discriminate; destruct (z =? 13); discriminate)|].
    rewrite IH. reflexivity.
  - replace (c =? 13) with false by (symmetry; apply Z.eqb_neq; intros ->; apply H; left; reflexivity).
    rewrite (IH (c :: cur) Hx). cbn [rev]. rewrite <- app_assoc. reflexivity.
Qed.

(* blocks: maximal groups of lines that are not blank, for either notion of a blank line *)
Lemma split_lines_go_nonempty : forall x cur, split_lines_go cur x <> [].
Proof. induction x as [|c x IH]; intros cur; cbn [split_lines_go]; [discriminate|]. destruct (c =? 10); [discriminate|]. destruct (c =? 13); [discriminate | apply IH]. Qed.
Section Blocks.
  Variable is_blank : text -> bool.
  Hypothesis blank_nil : is_blank [] = true.
  Definition lines_ok (G : list text) : Prop := G <> [] /\ forallb (fun l => negb (is_blank l)) G = true.
  Lemma take_block_group G rest : forallb (fun l => negb (is_blank l)) G = true -> take_block is_blank (G ++ [] :: rest) = (G, [] :: rest).
  Proof.
    induction G as [|g G IH]; intros H; [cbn [app take_block]; rewrite blank_nil; reflexivity|].
    cbn [forallb] in H. apply andb_true_iff in H as [H1 H2]. apply negb_true_iff in H1. cbn [app take_block]. rewrite H1, (IH H2). reflexivity.
  Qed.
  Lemma blocks_fuel_skip k X : blocks_fuel (S k) is_blank ([] :: X) = blocks_fuel (S k) is_blank X.
  Proof. cbn [blocks_fuel drop_blank]. rewrite blank_nil. reflexivity. Qed.
  Lemma blocks_groups : forall Gs fuel, Forall lines_ok Gs -> (length Gs < fuel)%nat ->
    blocks_fuel fuel is_blank (flat_map (fun G => G ++ [[]]) Gs) = Gs.
  Proof.
    induction Gs as [|G Gs IH]; intros fuel H Hf.
    - destruct fuel; reflexivity.
    - inversion H as [|? ? [Hne Hnb] HGs]; subst. destruct fuel as [|k]; [cbn in Hf; lia|]. cbn [flat_map]. rewrite <- app_assoc. cbn [app].
      destruct G as [|g G']; [contradiction|]. cbn [blocks_fuel app drop_blank].
      pose proof Hnb as Hnb'. cbn [forallb] in Hnb'. apply andb_true_iff in Hnb' as [Hg _]. apply negb_true_iff in Hg. rewrite Hg.
      change (g :: G' ++ [] :: flat_map (fun G => G ++ [[]]) Gs) with ((g :: G') ++ [] :: flat_map (fun G => G ++ [[]]) Gs).
      rewrite (take_block_group (g :: G') _ Hnb). f_equal.
      destruct k as [|k']; [cbn in Hf; destruct Gs; [reflexivity | cbn in Hf; lia]|].
      rewrite blocks_fuel_skip. apply IH; [exact HGs | cbn [length] in Hf; lia].
  Qed.
End Blocks.
Lemma groups_fuel (Gs : list (list text)) : (length Gs < S (length (flat_map (fun G => G ++ [[]]) Gs)))%nat.
Proof.
  apply Nat.lt_succ_r. induction Gs as [|G Gs IH]; [apply Nat.le_0_l|]. cbn [flat_map]. rewrite !app_length. cbn [length].
  apply le_n_S in IH. eapply Nat.le_trans; [exact IH|]. rewrite Nat.add_1_r, (Nat.add_comm (S _)), Nat.add_succ_r. apply le_n_S, Nat.le_add_r.
Qed.

(* a file of records: each record prints as the lines of its group and a blank line *)
Lemma file_lines {A} (str : A -> text) (grp : A -> list text) : forall rs,
  (forall r, In r rs -> forall Z0, split_lines (str r ++ Z0) = grp r ++ split_lines Z0) -> rs <> [] ->
  split_lines (join_text [10] (map str rs)) = flat_map (fun G => G ++ [[]]) (map grp rs).
Proof.
  induction rs as [|r rs IH]; intros H Hne; [contradiction|]. destruct rs as [|r2 rs'].
  - cbn [map join_text flat_map]. rewrite <- (app_nil_r (str r)), (H r (or_introl eq_refl)), app_nil_r. reflexivity.
  - change (join_text [10] (map str (r :: r2 :: rs'))) with (str r ++ [10] ++ join_text [10] (map str (r2 :: rs'))).
    rewrite (H r (or_introl eq_refl)). change (split_lines ([10] ++ join_text [10] (map str (r2 :: rs'))))
      with ([] :: split_lines (join_text [10] (map str (r2 :: rs')))). rewrite IH by (discriminate || (intros r' Hr'; apply H; right; exact Hr')).
    cbn [map flat_map]. rewrite <- !app_assoc. reflexivity.
Qed.
Lemma all_some_map {A B} (f : A -> option B) (g : A -> B) l : (forall x, In x l -> f x = Some (g x)) -> all_some (map f l) = Some (map g l).
Proof.
  induction l as [|x l IH]; intros H; [reflexivity|]. cbn [map all_some]. rewrite (H x (or_introl eq_refl)), IH; [reflexivity|].
  intros y Hy. apply H. right. exact Hy.
Qed.
(* begin < end and the order of the cues, for a list of records read as cues; `sim`: the same interval twice is allowed *)
Lemma ordered_records {A} (cue : A -> rcue) (R : A -> A -> Prop) sim :
  (forall r1 r2, R r1 r2 -> r_end (cue r1) <= r_begin (cue r2) \/
                            (sim = true /\ r_begin (cue r1) = r_begin (cue r2) /\ r_end (cue r1) = r_end (cue r2))) ->
  forall rs prev, Forall (fun r => r_begin (cue r) < r_end (cue r)) rs -> ForallOrdPairs R rs ->
  match prev, rs with
  | Some (pb, pe), r :: _ => pe <= r_begin (cue r) \/ (sim = true /\ pb = r_begin (cue r) /\ pe = r_end (cue r))
  | _, _ => True
  end -> ordered sim prev (map cue rs) = true.
Proof.
  intros HR. induction rs as [|r rs IH]; intros prev H1 H3 H2; [reflexivity|]. inversion H1 as [|? ? Hr Hrs]; subst. inversion H3 as [|? ? Hfo Hop]; subst.
  cbn [map ordered]. replace (r_begin (cue r) <? r_end (cue r)) with true by lia. cbn [andb].
  assert (P : match prev with Some (pb, pe) => (pe <=? r_begin (cue r)) || sim && (pb =? r_begin (cue r)) && (pe =? r_end (cue r)) | None => true end = true).
  { destruct prev as [[pb pe]|]; [|reflexivity]. destruct H2 as [H2|(Hs & Hb & He)]; [replace (pe <=? r_begin (cue r)) with true by lia; reflexivity|].
    rewrite Hs, Hb, He, !Z.eqb_refl. apply orb_true_r. }
  rewrite P. cbn [andb]. apply IH; [exact Hrs | exact Hop|]. destruct rs as [|r2 rs']; [exact I|]. inversion Hfo; subst. apply HR. assumption.
Qed.
Lemma payload_lines t id b e s : no_cr t -> payload_text (mkRCue id b e s (split_lines t)) = t.
Proof. intros H. unfold payload_text, split_lines. cbn [r_payload]. exact (join_lines_go t [] H). Qed.

(* one SubRip record: counter line, timing line, payload *)
Record srec := mkRec { sr_k : Z ; sr_b : Z ; sr_e : Z ; sr_t : text }.
Definition sr_string (r : srec) : text :=
  print_z (sr_k r) ++ [10] ++ print_ms 44 (sr_b r) ++ arrow ++ print_ms 44 (sr_e r) ++ [10] ++ sr_t r ++ [10].
Definition sr_timing (r : srec) : text := timing_line 44 (sr_b r) (sr_e r) [].
Definition sr_group (r : srec) : list text := [print_z (sr_k r); sr_timing r] ++ split_lines (sr_t r).
Definition payload_ok (t : text) : Prop :=
  no_cr t /\ forallb (fun l => negb (srt_blank_line l) && negb (contains arrow3 l)) (split_lines t) = true /\ srt_runs t <> None.
Definition srec_ok (r : srec) : Prop := 0 <= sr_k r < 10 ^ 40 /\ ms_ok (sr_b r) /\ ms_ok (sr_e r) /\ payload_ok (sr_t r).
Definition sr_cue (r : srec) : rcue := mkRCue (Some (print_z (sr_k r))) (sr_b r) (sr_e r) [] (split_lines (sr_t r)).

Lemma dig_not_eol t : forallb is_dig t = true -> no_eol_t t.
Proof. intros H x Hx. rewrite forallb_forall in H. specialize (H x Hx). unfold is_dig in H. lia. Qed.
Lemma dig_not_blank c t : is_dig c = true -> srt_blank_line (c :: t) = false.
Proof.
  intros H. unfold srt_blank_line. cbn [forallb]. replace (blank_char c) with false; [reflexivity|]. unfold is_dig in H. symmetry.
  apply not_true_iff_false. intros E. unfold blank_char in E. apply existsb_exists in E as (x & Hx & E). apply Z.eqb_eq in E. subst x. cbn [blank_points In] in Hx. lia.
Qed.
Lemma sr_timing_facts r : ms_ok (sr_b r) -> ms_ok (sr_e r) ->
  no_eol_t (sr_timing r) /\ exists c t, sr_timing r = c :: t /\ is_dig c = true.
Proof. intros Hb He. destruct (timing_line_facts 44 _ _ [] Hb He) as (A & B & _); try discriminate; [intros x []|]. split; assumption. Qed.

Lemma sr_group_ok r : srec_ok r -> lines_ok srt_blank_line (sr_group r).
Proof.
  intros (Hk & Hb & He & Hcr & Hl & _). split; [discriminate|]. unfold sr_group. cbn [app forallb].
  destruct (print_z_line _ Hk) as (_ & _ & c & t & -> & Hc). destruct (sr_timing_facts r Hb He) as (_ & c' & t' & -> & Hc').
  rewrite !dig_not_blank by assumption. cbn [negb andb].
  apply forallb_forall. intros l Hin. rewrite forallb_forall in Hl. specialize (Hl l Hin). apply andb_true_iff in Hl as [Hl _]. exact Hl.
Qed.
Lemma sr_block_cue r : srec_ok r -> srt_block_cue (sr_group r) = Some (sr_cue r).
Proof.
  intros (Hk & Hb & He & Hcr & Hl & _). unfold sr_group, srt_block_cue, sr_cue. cbn [app].
  destruct (split_lines (sr_t r)) as [|p1 ps] eqn:Es; [exfalso; exact (split_lines_go_nonempty _ _ Es)|].
  destruct (print_z_line _ Hk) as (A & _). rewrite A. unfold sr_timing. rewrite (parse_print_timing_rest 44 _ _ [] Hb He I). cbn [forallb andb].
  replace (existsb (contains arrow3) (p1 :: ps)) with false; [reflexivity|]. symmetry. apply not_true_iff_false. intros E.
  apply existsb_exists in E as (l & Hin & E). rewrite forallb_forall in Hl. specialize (Hl l Hin). rewrite E in Hl. rewrite andb_false_r in Hl. discriminate.
Qed.
Lemma sr_string_lines r Z0 : srec_ok r -> split_lines (sr_string r ++ Z0) = sr_group r ++ split_lines Z0.
Proof.
  intros (Hk & Hb & He & Hcr & _). destruct (print_z_line _ Hk) as (_ & D1 & _). destruct (sr_timing_facts r Hb He) as (Ht & _).
  replace (sr_string r ++ Z0) with (print_z (sr_k r) ++ 10 :: sr_timing r ++ 10 :: sr_t r ++ 10 :: Z0)
    by (unfold sr_string, sr_timing, timing_line; rewrite app_nil_r, <- !app_assoc; reflexivity).
  rewrite !split_lines_line by (assumption || apply dig_not_eol, D1). unfold split_lines at 1. rewrite split_lines_go_app by exact Hcr. reflexivity.
Qed.

Theorem srt_parse_file rs : Forall srec_ok rs -> srt_parse (join_text [10] (map sr_string rs)) = Some (map sr_cue rs).
Proof.
  intros H. rewrite Forall_forall in H. destruct rs as [|r0 rs0] eqn:Er; [reflexivity|]. rewrite <- Er in *.
  unfold srt_parse. rewrite (file_lines sr_string sr_group); [|intros r Hr Z0; apply sr_string_lines, H, Hr | rewrite Er; discriminate].
  unfold blocks. rewrite blocks_groups; [|reflexivity | apply Forall_forall; intros G HG; apply in_map_iff in HG as (r & <- & Hr); apply sr_group_ok, H, Hr | apply groups_fuel].
  rewrite map_map, (all_some_map _ sr_cue) by (intros r Hr; apply sr_block_cue, H, Hr).
  destruct (print_z_line (sr_k r0)) as (_ & _ & c & t & E & Hc); [apply (H r0); rewrite Er; left; reflexivity|].
  rewrite Er at 1. cbn [map flat_map sr_group app]. rewrite E, (dig_not_blank c t Hc). reflexivity.
Qed.

Lemma counters_records : forall rs k, Forall srec_ok rs -> 1 <= k -> map sr_k rs = zseq k (length rs) -> counters_from k (map sr_cue rs) = true.
Proof.
  induction rs as [|r rs IH]; intros k H Hk Hs; [reflexivity|]. inversion H as [|? ? (Hr & _) Hrs]; subst. cbn [map length zseq] in Hs. injection Hs as E1 E2.
  subst k. cbn [map counters_from sr_cue r_ident]. rewrite counter_ok by lia. apply IH; [exact Hrs | lia | exact E2].
Qed.
Theorem srt_wf_records rs : Forall srec_ok rs -> map sr_k rs = zseq 1 (length rs) -> Forall (fun r => sr_b r < sr_e r) rs ->
  ForallOrdPairs (fun r1 r2 => sr_e r1 <= sr_b r2) rs -> srt_wf (join_text [10] (map sr_string rs)) = true.
Proof.
  intros H Hk Hs Ho. unfold srt_wf. rewrite (srt_parse_file rs H).
  rewrite (counters_records rs 1 H ltac:(lia) Hk), (ordered_records sr_cue _ false (fun _ _ Hr => or_introl Hr) rs None Hs Ho I). cbn [andb].
  apply forallb_forall. intros c Hc. apply in_map_iff in Hc as (r & <- & Hr). rewrite Forall_forall in H. destruct (H r Hr) as (_ & _ & _ & Hcr & _ & Hrun).
  unfold sr_cue. rewrite (payload_lines _ _ _ _ _ Hcr). destruct (srt_runs (sr_t r)); [reflexivity | contradiction].
Qed.

(* what the recorded findings and the limits of the statement exclude, per cue (executable): a payload line that is blank or holds
   the arrow, a carriage return in the payload, "<" in the text; times within the printers' digits *)
Definition srt_cue_printable (c : cue) : bool :=
  let t := cue_text esc_none c in
  negb (existsb (Z.eqb 13) t) && forallb (fun l => negb (srt_blank_line l) && negb (contains arrow3 l)) (split_lines t) &&
  negb (existsb (Z.eqb 60) (cue_chars c)) && (0 <=? c_begin c) && match c_end c with Some e => e <? 3600000 * 10 ^ 20 | None => false end.
Fixpoint records (k : Z) (cs : list cue) : list srec :=
  match cs with [] => [] | c :: cs' => mkRec k (c_begin c) (match c_end c with Some e => e | None => 0 end) (cue_text esc_none c) :: records (k + 1) cs' end.
Lemma records_k : forall cs k, map sr_k (records k cs) = zseq k (length cs).
Proof. induction cs as [|c cs IH]; intros k; [reflexivity|]. cbn [records map length zseq sr_k]. rewrite IH. reflexivity. Qed.
Lemma records_length cs k : length (records k cs) = length cs.
Proof. revert k. induction cs as [|c cs IH]; intros k; [reflexivity|]. cbn [records length]. rewrite IH. reflexivity. Qed.
Lemma srt_strings_records : forall cs k ss, srt_strings k cs = Ok ss -> Forall (fun c => cue_text esc_none c <> []) cs -> ss = map sr_string (records k cs).
Proof.
  induction cs as [|c cs IH]; intros k ss H Hne; cbn [srt_strings] in H; [injection H as <-; reflexivity|]. inversion Hne as [|? ? Hc Hcs]; subst.
  destruct (srt_to_string k c) as [s|] eqn:Es; [|discriminate]. cbn [bind] in H. destruct (srt_strings (k + 1) cs) as [r|] eqn:Er; [|discriminate].
  cbn [bind] in H. injection H as <-. cbn [records map]. rewrite <- (IH _ _ Er Hcs). f_equal.
  unfold srt_to_string in Es. destruct (checked_end c) as [e|] eqn:Ee; [|discriminate]. cbn [bind] in Es. injection Es as <-.
  apply checked_end_ok in Ee as [Ee _]. unfold sr_string. cbn [sr_k sr_b sr_e sr_t]. rewrite Ee.
  destruct (cue_text esc_none c) as [|x t] eqn:Et; [contradiction|]. rewrite <- ?app_assoc. reflexivity.
Qed.

Lemma groups_kept blank sees fs seq cs : cue_groups (Proofs.C06.Text.group_ok blank sees fs) seq cs -> Forall (kept blank) cs.
Proof. intros G. induction G as [|t regions seq cs rest (_ & Hk & _) G IH]; [constructor|]. apply Forall_app. split; assumption. Qed.
Lemma kept_text strip esc c : strip [] = [] -> kept (cue_blank strip esc) c -> cue_text esc c <> [].
Proof. intros Hs [Hb _] E. unfold cue_blank in Hb. rewrite E, Hs in Hb. discriminate. Qed.

Theorem srt_wf_model d fmt seq cs out :
  doc_block_wf d = true -> isd_sequence d = Ok seq -> srt_cues fmt seq = Ok cs -> srt_of_seq fmt (Ok seq) = Ok out ->
  forallb srt_cue_printable cs = true -> Z.of_nat (length cs) < 10 ^ 40 -> srt_wf out = true.
Proof.
  intros Hw Hd Hc Ho Hp Hlen. destruct (srt_file_shape fmt seq out Ho) as (cs' & ss & Hc' & Hss & ->). rewrite Hc in Hc'. injection Hc' as <-.
  pose proof (groups_kept _ _ _ _ _ (srt_cues_groups fmt seq cs Hc)) as Hkept.
  assert (Hne : Forall (fun c => cue_text esc_none c <> []) cs) by (eapply Forall_impl; [|exact Hkept]; intros c; apply kept_text; reflexivity).
  rewrite (srt_strings_records cs 1 ss Hss Hne).
  pose proof (srt_strings_spans _ _ _ Hss) as Hspan. pose proof (srt_cues_strict d fmt seq cs ss Hw Hd Hc Hss) as Hord.
  pose proof (srt_cues_runs fmt seq cs Hc) as Hruns. rewrite forallb_forall in Hp.
  apply srt_wf_records.
  - (* every record is fine *)
    assert (Gk : forall k, 1 <= k -> k + Z.of_nat (length cs) <= 10 ^ 40 -> Forall srec_ok (records k cs)).
    { clear Hss Hord Hlen Hc Ho. induction cs as [|c cs IH]; intros k Hk1 Hk2; [constructor|].
      inversion Hspan as [|? ? (e & He & Hbe) Hspan']; subst. inversion Hruns as [|? ? Hr Hruns']; subst.
      inversion Hkept; subst. inversion Hne; subst. cbn [length] in Hk2. rewrite Nat2Z.inj_succ in Hk2.
      cbn [records]. constructor; [|apply IH; try assumption; [intros x Hx; apply Hp; right; exact Hx | lia | lia]].
      specialize (Hp c (or_introl eq_refl)). unfold srt_cue_printable in Hp. cbv zeta in Hp. rewrite He in Hp.
      repeat (apply andb_true_iff in Hp as [Hp ?]).
      repeat match goal with H : negb _ = true |- _ => apply negb_true_iff in H end.
      unfold srec_ok. cbn [sr_k sr_b sr_e sr_t]. rewrite He. split; [lia|]. split; [unfold ms_ok; lia|]. split; [unfold ms_ok; lia|].
      split; [unfold no_cr; apply not_in_existsb; assumption|]. split; [assumption|].
      assert (Hn60 : ~ In 60 (cue_chars c)) by (apply not_in_existsb; assumption).
      destruct (Hr Hn60) as (cs0 & r & _ & Hrr & _). rewrite Hrr. discriminate. }
    apply Gk; lia.
  - rewrite records_length. apply records_k.
  - clear - Hspan. generalize 1. induction cs as [|c cs IH]; intros k; [constructor|]. inversion Hspan as [|? ? (e & He & Hbe) Hs]; subst.
    cbn [records]. constructor; [cbn [sr_b sr_e]; rewrite He; exact Hbe | apply IH, Hs].
  - clear - Hspan Hord. generalize 1. induction cs as [|c cs IH]; intros k; [constructor|]. inversion Hspan as [|? ? (e & He & Hbe) Hs]; subst.
    inversion Hord as [|? ? Hf Ho]; subst. cbn [records]. constructor; [|apply IH; assumption].
    clear - Hf He. generalize (k + 1). induction cs as [|c2 cs IH]; intros k2; [constructor|]. inversion Hf as [|? ? H2 Hf']; subst.
    cbn [records]. constructor; [cbn [sr_b sr_e]; rewrite He; apply H2, He | apply IH, Hf'].
Qed.

(* the hypotheses are satisfiable: the ruby witness document *)
Lemma srt_wf_example : exists seq cs out,
  doc_block_wf w_ruby = true /\ isd_sequence w_ruby = Ok seq /\ srt_cues true seq = Ok cs /\
  srt_of_seq true (Ok seq) = Ok out /\ forallb srt_cue_printable cs = true /\ cs <> [] /\ srt_wf out = true.
Proof.
  exists ruby_seq. eexists. eexists. split; [vm_compute; reflexivity|]. split; [exact ruby_seq_eq|]. split; [vm_compute; reflexivity|].
  split; [vm_compute; reflexivity|]. split; [vm_compute; reflexivity|]. split; [discriminate | vm_compute; reflexivity].
Qed.
