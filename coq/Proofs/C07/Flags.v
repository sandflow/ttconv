(* C07: from the tags to the style values.  (1) In a paragraph without nested resets (no span is non-bold inside a bold span, ...)
   the bold / italic / underline flags the tag-stack walk gives a character are the flags of the innermost span around it — the
   span whose computed style TTML makes the character's style.  (2) The writers' style filters (supported values, default values;
   lists regenerated from the code) keep the bold / italic / underline flag of every element.  Together with Proofs/C07/Runs.v:
   b / i / u tags enclose exactly the characters whose innermost span is bold / italic / underlined, outside the recorded finding
   nested-span-resets-style.  Colours are compared on generated documents only. *)
From TT Require Import Model.Doc Gen.StyleTables Model.Isd Model.SigTimes Model.TimeCode Model.IsdFilters Gen.CueTables Model.CueWriter.
From TT Require Import Model.CueTriggers Spec.IsdSpec Spec.CueSpec Proofs.Common.ElemInd.
From TT Require Import Proofs.C06.Filters Proofs.C06.Inline Proofs.C06.Strip Proofs.C06.Loop Proofs.C06.Text Proofs.C07.Tags Proofs.C07.Runs.

Definition flags := (bool * bool * bool)%type.
Definition span_flags (a : attrs) : flags := (is_element_bold a, is_element_italic a, is_element_underlined a).
Definition stack_flags (st : list (tagname * list text)) : flags :=
  let r := style_of_stack st in (rs_b r, rs_i r, rs_u r).
Definition run_flags (r : list (Z * rstyle)) : list (Z * flags) := map (fun x => (fst x, (rs_b (snd x), rs_i (snd x), rs_u (snd x)))) r.

(* the characters below an element, each with the flags of the innermost span around it (cur: outside any span) *)
Fixpoint inner_flags (cur : flags) (e : elem) : list (Z * flags) :=
  match e with
  | Elem a cs =>
      match e_kind a with
      | KSpan => (fix go (l : list elem) : list (Z * flags) := match l with [] => [] | c :: l' => inner_flags (span_flags a) c ++ go l' end) cs
      | KRuby | KRbc | KRb => (fix go (l : list elem) : list (Z * flags) := match l with [] => [] | c :: l' => inner_flags cur c ++ go l' end) cs
      | KBr => [(10, cur)]
      | KText => map (fun c => (c, cur)) (e_text a)
      | _ => []
      end
  end.
Lemma inner_flags_node cur a cs :
  inner_flags cur (Elem a cs) =
  match e_kind a with
  | KSpan => flat_map (inner_flags (span_flags a)) cs
  | KRuby | KRbc | KRb => flat_map (inner_flags cur) cs
  | KBr => [(10, cur)]
  | KText => map (fun c => (c, cur)) (e_text a)
  | _ => []
  end.
Proof. cbn [inner_flags]. destruct (e_kind a); reflexivity. Qed.

(* no nested reset: below a span that is bold (italic, underlined) every span is *)
Definition implb3 (o f : flags) : bool :=
  let '(ob, oi, ou) := o in let '(b, i, u) := f in implb ob b && implb oi i && implb ou u.
Fixpoint no_reset (o : flags) (e : elem) : bool :=
  match e with
  | Elem a cs =>
      match e_kind a with
      | KSpan => implb3 o (span_flags a) && (fix go (l : list elem) : bool := match l with [] => true | c :: l' => no_reset (span_flags a) c && go l' end) cs
      | _ => (fix go (l : list elem) : bool := match l with [] => true | c :: l' => no_reset o c && go l' end) cs
      end
  end.
Lemma no_reset_node o a cs :
  no_reset o (Elem a cs) = match e_kind a with
                           | KSpan => implb3 o (span_flags a) && forallb (no_reset (span_flags a)) cs
                           | _ => forallb (no_reset o) cs
                           end.
Proof. cbn [no_reset]. destruct (e_kind a); reflexivity. Qed.

Lemma existsb_app_rev {A} (f : A -> bool) x y : existsb f (rev x ++ y) = existsb f x || existsb f y.
Proof. rewrite existsb_app. f_equal. induction x as [|c x IH]; [reflexivity|]. cbn [rev existsb]. rewrite existsb_app, IH. cbn [existsb]. rewrite orb_false_r. apply orb_comm. Qed.

Lemma orb_implb (b s : bool) : implb s b = true -> b || s = b.
Proof. destruct b, s; (reflexivity || discriminate). Qed.

Section Opens.
  Variable opens : attrs -> list (tagname * list text).
  (* the b / i / u tags a span opens are its flags *)
  Hypothesis opens_flags : forall a,
    (existsb (fun x => tagname_eqb (fst x) TgB) (opens a), existsb (fun x => tagname_eqb (fst x) TgI) (opens a),
     existsb (fun x => tagname_eqb (fst x) TgU) (opens a)) = span_flags a.

  Theorem no_reset_inner : forall e st, no_reset (stack_flags st) e = true ->
    run_flags (tree_runs opens st e) = inner_flags (stack_flags st) e.
  Proof.
    induction e as [a cs IH] using elem_ind2. intros st H. rewrite tree_runs_node, inner_flags_node. rewrite no_reset_node in H.
    rewrite Forall_forall in IH.
    assert (G : forall st0, forallb (no_reset (stack_flags st0)) cs = true ->
                run_flags (flat_map (tree_runs opens st0) cs) = flat_map (inner_flags (stack_flags st0)) cs).
    { intros st0 H0. unfold run_flags. rewrite flat_map_concat_map, concat_map, map_map, <- flat_map_concat_map.
      apply flat_map_ext_in. intros c Hc. rewrite forallb_forall in H0. apply (IH c Hc st0 (H0 c Hc)). }
    destruct (e_kind a); try reflexivity; try (apply G, H).
    - (* span *) apply andb_true_iff in H as [H1 H2].
      assert (E : stack_flags (rev (opens a) ++ st) = span_flags a).
      { unfold stack_flags, style_of_stack. cbn [rs_b rs_i rs_u]. rewrite !existsb_app_rev. pose proof (opens_flags a) as F.
        injection F as -> -> ->. unfold implb3, stack_flags, style_of_stack, span_flags in H1. cbn [rs_b rs_i rs_u] in H1.
        apply andb_true_iff in H1 as [H1 Hu]. apply andb_true_iff in H1 as [Hb Hi]. unfold span_flags.
        rewrite (orb_implb _ _ Hb), (orb_implb _ _ Hi), (orb_implb _ _ Hu). reflexivity. }
      rewrite <- E. apply G. rewrite E. exact H2.
    - (* text *) unfold run_flags. rewrite map_map. reflexivity.
  Qed.
  Corollary no_reset_paragraph cs0 : forallb (no_reset (stack_flags [])) cs0 = true ->
    run_flags (flat_map (tree_runs opens []) cs0) = flat_map (inner_flags (stack_flags [])) cs0.
  Proof.
    intros H. unfold run_flags. rewrite flat_map_concat_map, concat_map, map_map, <- flat_map_concat_map. apply flat_map_ext_in. intros c Hc.
    rewrite forallb_forall in H. exact (no_reset_inner c [] (H c Hc)).
  Qed.
End Opens.

Lemma srt_opens_flags a :
  (existsb (fun x => tagname_eqb (fst x) TgB) (srt_span_opens true a), existsb (fun x => tagname_eqb (fst x) TgI) (srt_span_opens true a),
   existsb (fun x => tagname_eqb (fst x) TgU) (srt_span_opens true a)) = span_flags a.
Proof.
  unfold srt_span_opens, span_flags. destruct (get_color_of a p_Color), (is_element_bold a), (is_element_italic a), (is_element_underlined a); reflexivity.
Qed.
Lemma vtt_opens_flags a :
  (existsb (fun x => tagname_eqb (fst x) TgB) (vtt_span_opens a), existsb (fun x => tagname_eqb (fst x) TgI) (vtt_span_opens a),
   existsb (fun x => tagname_eqb (fst x) TgU) (vtt_span_opens a)) = span_flags a.
Proof.
  unfold vtt_span_opens, span_flags.
  destruct (get_color_of a p_Color), (get_color_of a p_BackgroundColor), (is_element_bold a), (is_element_italic a), (is_element_underlined a); reflexivity.
Qed.
Definition plain_flags : flags := (false, false, false).
(* every paragraph without nested resets, both writers: b / i / u = the innermost span's *)
Theorem srt_paragraph_flags cs0 : forallb (no_reset plain_flags) cs0 = true ->
  run_flags (flat_map (tree_runs (srt_span_opens true) []) cs0) = flat_map (inner_flags plain_flags) cs0.
Proof. exact (no_reset_paragraph (srt_span_opens true) srt_opens_flags cs0). Qed.
Theorem vtt_paragraph_flags cs0 : forallb (no_reset plain_flags) cs0 = true ->
  run_flags (flat_map (tree_runs vtt_span_opens []) cs0) = flat_map (inner_flags plain_flags) cs0.
Proof. exact (no_reset_paragraph vtt_span_opens vtt_opens_flags cs0). Qed.

(* style maps hold one binding per property (they are Python dicts) *)
Definition smap_ok (m : smap) : Prop := NoDup (map fst m).
Lemma sget_none_notin p : forall m : smap, ~ In p (map fst m) -> sget m p = None.
Proof.
  induction m as [|[k w] m IH]; intros H; [reflexivity|]. cbn [sget]. destruct (k =? p) eqn:E.
  - apply Z.eqb_eq in E. subst k. exfalso. apply H. left. reflexivity.
  - apply IH. intros Hi. apply H. right. exact Hi.
Qed.
Lemma filter_fst_in (f : Z * value -> bool) p (m : smap) : In p (map fst (filter f m)) -> In p (map fst m).
Proof. intros H. apply in_map_iff in H as (x & <- & Hx). apply filter_In in Hx as [Hx _]. apply in_map. exact Hx. Qed.
Lemma sget_filter_nodup (f : Z * value -> bool) p : forall m, smap_ok m ->
  sget (filter f m) p = match sget m p with Some v => if f (p, v) then Some v else None | None => None end.
Proof.
  induction m as [|[k w] m IH]; intros H; [reflexivity|]. inversion H as [|? ? Hn Hm]; subst. cbn [filter sget]. destruct (k =? p) eqn:E.
  - apply Z.eqb_eq in E. subst k. destruct (f (p, w)); [cbn [sget]; rewrite Z.eqb_refl; reflexivity|].
    apply sget_none_notin. intros Hi. apply Hn. exact (filter_fst_in f p m Hi).
  - destruct (f (k, w)); [cbn [sget]; rewrite E|]; exact (IH Hm).
Qed.
(* a filter on the style map keeps the flags when what it removes for the three properties is not bold / italic / underline *)
Definition keeps_flag_values (f : Z * value -> bool) : Prop :=
  (forall w, f (p_FontWeight, VEnum w) = false -> (w =? e_FontWeightType_bold) = false) /\
  (forall s, f (p_FontStyle, VEnum s) = false -> (s =? e_FontStyleType_italic) = false) /\
  (forall u l o, f (p_TextDecoration, VTextDec u l o) = false -> (u =? 1) = false).
Lemma filter_keeps_flags f a : smap_ok (e_styles a) -> keeps_flag_values f -> span_flags (with_styles a (filter f (e_styles a))) = span_flags a.
Proof.
  intros Hm (K1 & K2 & K3). unfold span_flags, is_element_bold, is_element_italic, is_element_underlined. cbn [with_styles e_styles].
  rewrite !(sget_filter_nodup f _ _ Hm). f_equal; [f_equal|].
  - destruct (sget (e_styles a) p_FontWeight) as [v|]; [|reflexivity]. destruct (f (p_FontWeight, v)) eqn:Ef; [reflexivity|].
    destruct v; try reflexivity. symmetry. exact (K1 _ Ef).
  - destruct (sget (e_styles a) p_FontStyle) as [v|]; [|reflexivity]. destruct (f (p_FontStyle, v)) eqn:Ef; [reflexivity|].
    destruct v; try reflexivity. symmetry. exact (K2 _ Ef).
  - destruct (sget (e_styles a) p_TextDecoration) as [v|]; [|reflexivity]. destruct (f (p_TextDecoration, v)) eqn:Ef; [reflexivity|].
    destruct v; try reflexivity. symmetry. exact (K3 _ _ _ Ef).
Qed.
Lemma filter_smap_ok (f : Z * value -> bool) m : smap_ok m -> smap_ok (filter f m).
Proof.
  unfold smap_ok. induction m as [|[k w] m IH]; intros H; [constructor|]. inversion H as [|? ? Hn Hm]; subst. cbn [filter].
  destruct (f (k, w)); [|exact (IH Hm)]. cbn [map fst]. constructor; [|exact (IH Hm)]. intros Hi. apply Hn. exact (filter_fst_in f k m Hi).
Qed.

Definition cfg_keeps (c : supported_cfg) : Prop := keeps_flag_values (is_supported c).
Definition dfl_keeps (d : smap) : Prop := forall par, keeps_flag_values (fun kv => negb (default_removed d par kv)).
(* decided on a table: the bold and italic values and every underline value are supported, none of them is a default *)
Definition keeps_b (c : supported_cfg) (d : smap) : bool :=
  is_supported c (p_FontWeight, VEnum e_FontWeightType_bold) && is_supported c (p_FontStyle, VEnum e_FontStyleType_italic) &&
  match assoc_z c p_TextDecoration with Some [] => true | _ => false end &&
  match sget d p_FontWeight with Some dv => negb (value_eqb (VEnum e_FontWeightType_bold) dv) | None => true end &&
  match sget d p_FontStyle with Some dv => negb (value_eqb (VEnum e_FontStyleType_italic) dv) | None => true end &&
  match sget d p_TextDecoration with Some (VTextDec u _ _) => negb (u =? 1) | _ => true end.
Lemma keeps_b_ok c d : keeps_b c d = true -> cfg_keeps c /\ dfl_keeps d.
Proof.
  unfold keeps_b. rewrite !andb_true_iff. intros [[[[[C1 C2] C3] D1] D2] D3]. split; [|intros par]; repeat split.
  - intros w H. destruct (w =? e_FontWeightType_bold) eqn:E; [apply Z.eqb_eq in E; subst w; congruence | reflexivity].
  - intros s H. destruct (s =? e_FontStyleType_italic) eqn:E; [apply Z.eqb_eq in E; subst s; congruence | reflexivity].
  - intros u l o H. unfold is_supported in H. cbn [fst] in H. destruct (assoc_z c p_TextDecoration) as [[|]|]; discriminate.
  - intros w H. apply negb_false_iff, andb_true_iff in H as [_ H]. destruct (w =? e_FontWeightType_bold) eqn:E; [|reflexivity].
    apply Z.eqb_eq in E. subst w. destruct (sget d p_FontWeight); [rewrite H in D1|]; discriminate.
  - intros s H. apply negb_false_iff, andb_true_iff in H as [_ H]. destruct (s =? e_FontStyleType_italic) eqn:E; [|reflexivity].
    apply Z.eqb_eq in E. subst s. destruct (sget d p_FontStyle); [rewrite H in D2|]; discriminate.
  - intros u l o H. apply negb_false_iff, andb_true_iff in H as [_ H]. destruct (sget d p_TextDecoration) as [[]|]; try discriminate.
    cbn [value_eqb] in H. apply andb_true_iff in H as [H _]. apply andb_true_iff in H as [H _]. apply Z.eqb_eq in H. subst. apply negb_true_iff, D3.
Qed.
Lemma srt_cfg_keeps : forall c d, srt_filters = writer_filters true c d -> cfg_keeps c /\ dfl_keeps d.
Proof. intros c d H. unfold writer_filters in H. cbn [app] in H. injection H as <- <-. apply keeps_b_ok. reflexivity. Qed.
Lemma vtt_cfg_keeps cfg fs c d : vtt_filters cfg = Some fs -> fs = writer_filters (negb (line_position cfg)) c d -> cfg_keeps c /\ dfl_keeps d.
Proof.
  intros Hfs Hf. destruct cfg as [[|] [|] [|]]; vm_compute in Hfs; injection Hfs as <-; unfold writer_filters in Hf; cbn [negb app] in Hf; injection Hf as <- <-;
    apply keeps_b_ok; reflexivity.
Qed.

(* every element of a filtered tree has the flags it had before: the style filters change style maps only, node by node *)
Theorem filter_supported_flags c a : smap_ok (e_styles a) -> cfg_keeps c ->
  span_flags (with_styles a (filter (is_supported c) (e_styles a))) = span_flags a.
Proof. intros Hm Hc. exact (filter_keeps_flags _ a Hm Hc). Qed.
Theorem filter_defaults_flags d par a : smap_ok (e_styles a) -> dfl_keeps d ->
  span_flags (with_styles a (filter (fun kv => negb (default_removed d par kv)) (e_styles a))) = span_flags a.
Proof. intros Hm Hd. exact (filter_keeps_flags _ a Hm (Hd par)). Qed.
