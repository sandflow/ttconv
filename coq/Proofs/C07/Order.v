(* C07: counters / cue identifiers are 1, 2, 3, ...; every written cue has begin < end; cues are in non-decreasing,
   non-overlapping order (two cues overlap only when they cover the very same interval: one cue per region with WebVTT
   line positions) — for every document, whenever the writer returns a string.  It does return one unless a cue is left
   without an end or its interval collapses (trig_unbounded, trig_collapsed: the two recorded findings). *)
From Coq Require Import Sorting.Sorted.
From TT Require Import Model.Doc Gen.StyleTables Model.Isd Model.SigTimes Model.TimeCode Model.IsdFilters Gen.CueTables Model.CueWriter.
From TT Require Import Model.CueTriggers Spec.IsdSpec Spec.CueSpec Proofs.C12.Derived Proofs.C02.Sig Proofs.C02.Complete.
From TT Require Import Proofs.C06.Filters Proofs.C06.Inline Proofs.C06.Loop Proofs.C06.Text Proofs.C07.Settings.

Fixpoint zseq (k : Z) (n : nat) : list Z := match n with O => [] | S n' => k :: zseq (k + 1) n' end.
Lemma zseq_app k n m : zseq k (n + m) = zseq k n ++ zseq (k + Z.of_nat n) m.
Proof.
  revert k. induction n as [|n IH]; intros k; [cbn; rewrite Z.add_0_r; reflexivity|].
  cbn [Nat.add zseq app]. rewrite IH. f_equal. f_equal. f_equal. lia.
Qed.

Theorem srt_strings_counters : forall cs k ss, srt_strings k cs = Ok ss ->
  Forall2 (fun i s => exists rest, s = print_z i ++ 10 :: rest) (zseq k (length cs)) ss.
Proof.
  induction cs as [|c cs IH]; intros k ss H; cbn [srt_strings] in H.
  - injection H as <-. constructor.
  - destruct (srt_to_string k c) as [s|] eqn:Es; [|discriminate]. cbn [bind] in H.
    destruct (srt_strings (k + 1) cs) as [r|] eqn:Er; [|discriminate]. cbn [bind] in H. injection H as <-.
    cbn [length zseq]. constructor; [|exact (IH _ _ Er)].
    unfold srt_to_string in Es. destruct (checked_end c) as [e|]; [|discriminate]. cbn [bind] in Es. injection Es as <-.
    eexists. reflexivity.
Qed.

Definition ids_from (k : Z) (cs : list cue) : Prop := map c_id cs = map Some (zseq (k + 1) (length cs)).
Lemma ids_from_app k x y : ids_from k x -> ids_from (k + Z.of_nat (length x)) y -> ids_from k (x ++ y).
Proof.
  unfold ids_from. intros Hx Hy. rewrite map_app, app_length, zseq_app, map_app, Hx. f_equal.
  rewrite Hy. f_equal. f_equal. lia.
Qed.

Lemma vtt_process_p_ids cfg ra b en p st cs st' : cue_id cfg = true ->
  vtt_process_p cfg ra b en p st = Ok (cs, st') -> ids_from (v_counter st) cs /\ v_counter st' = v_counter st + Z.of_nat (length cs).
Proof.
  intros Hid H. destruct (vtt_process_p_inv _ _ _ _ _ _ _ _ H) as (line & _ & -> & Hn). split; [|exact Hn].
  rewrite Hid. destruct (vtt_blank _); reflexivity.
Qed.
Lemma vtt_loop_ids cfg fs seq : cue_id cfg = true -> forall st cs st',
  vtt_loop cfg fs seq st = Ok (cs, st') -> ids_from (v_counter st) cs /\ v_counter st' = v_counter st + Z.of_nat (length cs).
Proof.
  intros Hid. apply (vtt_loop_ind cfg (fun st cs st' => ids_from (v_counter st) cs /\ v_counter st' = v_counter st + Z.of_nat (length cs))).
  - intros st. split; [reflexivity | cbn; lia].
  - intros st x s1 y s2 [A1 A2] [B1 B2]. rewrite A2 in B1. split; [apply ids_from_app; assumption|]. rewrite app_length, Nat2Z.inj_add. lia.
  - intros t regions r p b en st x s1 _ _ _. apply vtt_process_p_ids, Hid.
Qed.
Lemma vtt_loop_nonblank cfg fs seq st cs st' : vtt_loop cfg fs seq st = Ok (cs, st') -> Forall (fun c => vtt_blank c = false) cs.
Proof.
  apply (vtt_loop_ind cfg (fun _ x _ => Forall (fun c => vtt_blank c = false) x)); [constructor | intros; apply Forall_app; split; assumption|].
  intros t regions r p b en st0 x s1 _ _ _ H. destruct (vtt_process_p_inv _ _ _ _ _ _ _ _ H) as (line & _ & -> & _).
  destruct (vtt_blank _) eqn:Eb; repeat constructor. exact Eb.
Qed.
(* finish() of the WebVTT writer gives every cue that has none the default end *)
Lemma finish_fill blank : forall cs, Forall (fun c => blank c = false) cs -> finish_cues true blank cs = map default_end cs.
Proof.
  induction cs as [|c cs IH]; intros H; [reflexivity|]. inversion H as [|? ? Hc Hcs]; subst. destruct cs as [|c' cs'].
  - cbn [finish_cues map]. unfold default_end. rewrite Hc. destruct (c_end c); reflexivity.
  - rewrite finish_cues_cons, (IH Hcs). reflexivity.
Qed.
Lemma default_end_id c : c_id (default_end c) = c_id c.
Proof. unfold default_end. destruct (c_end c); reflexivity. Qed.
Theorem vtt_cues_ids cfg seq cs css : cue_id cfg = true -> vtt_cues cfg seq = Ok (cs, css) ->
  map c_id cs = map Some (zseq 1 (length cs)).
Proof.
  intros Hid H. destruct (vtt_cues_inv _ _ _ _ H) as (fs & cs0 & st & _ & E & ->).
  rewrite (finish_fill _ _ (vtt_loop_nonblank _ _ _ _ _ _ E)), map_map, map_length, (map_ext _ _ default_end_id).
  exact (proj1 (vtt_loop_ids cfg fs seq Hid _ _ _ E)).
Qed.
(* ... and what is printed in front of each cue is that identifier *)
Theorem vtt_strings_ids : forall cs ss, vtt_strings cs = Ok ss ->
  Forall2 (fun c s => match c_id c with Some k => exists rest, s = print_z k ++ 10 :: rest | None => True end) cs ss.
Proof.
  induction cs as [|c cs IH]; intros ss H; cbn [vtt_strings] in H.
  - injection H as <-. constructor.
  - destruct (vtt_to_string c) as [s|] eqn:Es; [|discriminate]. cbn [bind] in H.
    destruct (vtt_strings cs) as [r|] eqn:Er; [|discriminate]. cbn [bind] in H. injection H as <-.
    constructor; [|exact (IH _ eq_refl)]. unfold vtt_to_string in Es. destruct (checked_end c) as [e|]; [|discriminate]. cbn [bind] in Es.
    injection Es as <-. destruct (c_id c); [|exact I]. eexists. rewrite <- app_assoc. reflexivity.
Qed.

Definition span_ok (c : cue) : Prop := exists e, c_end c = Some e /\ c_begin c < e.
Lemma checked_end_ok c e : checked_end c = Ok e -> c_end c = Some e /\ c_begin c < e.
Proof.
  unfold checked_end. destruct (c_end c) as [x|]; [|discriminate]. destruct (x <=? c_begin c) eqn:E; [discriminate|].
  intros H. injection H as <-. split; [reflexivity | lia].
Qed.
Lemma srt_strings_spans : forall cs k ss, srt_strings k cs = Ok ss -> Forall span_ok cs.
Proof.
  induction cs as [|c cs IH]; intros k ss H; [constructor|]. cbn [srt_strings] in H.
  destruct (srt_to_string k c) as [s|] eqn:Es; [|discriminate]. cbn [bind] in H.
  destruct (srt_strings (k + 1) cs) as [r|] eqn:Er; [|discriminate]. constructor; [|exact (IH _ _ Er)].
  unfold srt_to_string in Es. destruct (checked_end c) as [e|] eqn:Ee; [|discriminate]. exists e. apply checked_end_ok, Ee.
Qed.
Lemma vtt_strings_spans : forall cs ss, vtt_strings cs = Ok ss -> Forall span_ok cs.
Proof.
  induction cs as [|c cs IH]; intros ss H; [constructor|]. cbn [vtt_strings] in H.
  destruct (vtt_to_string c) as [s|] eqn:Es; [|discriminate]. cbn [bind] in H.
  destruct (vtt_strings cs) as [r|] eqn:Er; [|discriminate]. constructor; [|exact (IH _ eq_refl)].
  unfold vtt_to_string in Es. destruct (checked_end c) as [e|] eqn:Ee; [|discriminate]. exists e. apply checked_end_ok, Ee.
Qed.

(* an earlier cue ends no later than a later cue begins, unless both cover the very same interval *)
Definition before (c1 c2 : cue) : Prop :=
  forall e1 e2, c_end c1 = Some e1 -> c_end c2 = Some e2 -> (c_begin c1 = c_begin c2 /\ e1 = e2) \/ e1 <= c_begin c2.

Lemma round_ms_clock t : round_ms t = clock_ms (Qnum t) (Zpos (Qden t)).
Proof. reflexivity. Qed.
Lemma round_ms_monotone a b : Qle a b -> round_ms a <= round_ms b.
Proof. intros H. rewrite !round_ms_clock. apply clock_monotone; try reflexivity. exact H. Qed.

Definition times_only (t : Q) (next : option Q) (regions : list elem) (cs : list cue) : Prop := Forall (times_ok t next) cs.

Lemma groups_lower_bound : forall seq cs, cue_groups times_only seq cs -> StronglySorted Qlt (map fst seq) ->
  forall t0, (exists r0 seq', seq = (t0, r0) :: seq') -> Forall (fun c => round_ms t0 <= c_begin c) cs.
Proof.
  intros seq cs G. induction G as [|t regions seq cs rest Hr G IH]; intros Hs t0 (r0 & seq' & E); [discriminate|].
  injection E as -> -> ->. apply Forall_app. split.
  - eapply Forall_impl; [|exact Hr]. intros c [Hb _]. rewrite Hb. lia.
  - cbn [map fst] in Hs. inversion Hs as [|? ? Hs' Hlt]; subst. destruct seq' as [|[t1 r1] seq''].
    + inversion G. constructor.
    + specialize (IH Hs' t1 (ex_intro _ r1 (ex_intro _ seq'' eq_refl))). eapply Forall_impl; [|exact IH].
      intros c Hc. cbn [map fst] in Hlt. inversion Hlt as [|? ? Hlt1 _]; subst.
      pose proof (round_ms_monotone t0 t1 (Qlt_le_weak _ _ Hlt1)). lia.
Qed.

Lemma FOP_app {A} (R : A -> A -> Prop) x y :
  ForallOrdPairs R x -> ForallOrdPairs R y -> (forall a b, In a x -> In b y -> R a b) -> ForallOrdPairs R (x ++ y).
Proof.
  induction x as [|a x IH]; intros Hx Hy H; [exact Hy|]. inversion Hx as [|? ? Ha Hx']; subst. cbn [app]. constructor.
  - apply Forall_app. split; [exact Ha|]. apply Forall_forall. intros b Hb. apply H; [left; reflexivity | exact Hb].
  - apply IH; [exact Hx' | exact Hy|]. intros a' b Ha' Hb. apply H; [right; exact Ha' | exact Hb].
Qed.

Theorem groups_ordered : forall seq cs, cue_groups times_only seq cs -> StronglySorted Qlt (map fst seq) -> ForallOrdPairs before cs.
Proof.
  intros seq cs G. induction G as [|t regions seq cs rest Hr G IH]; intros Hs; [constructor|].
  cbn [map fst] in Hs. inversion Hs as [|? ? Hs' Hlt]; subst. apply FOP_app; [|exact (IH Hs')|].
  - (* within a group: the same interval *)
    clear - Hr. unfold times_only in Hr. induction cs as [|c cs IHc]; [constructor|]. inversion Hr as [|? ? Hc Hcs]; subst.
    constructor; [|exact (IHc Hcs)]. eapply Forall_impl; [|exact Hcs]. intros c2 [Hb2 He2] e1 e2 E1 E2. left.
    destruct Hc as [Hb1 He1]. split; [congruence|]. destruct (next_time seq); [congruence|].
    destruct He1 as [He1|He1], He2 as [He2|He2]; congruence.
  - (* across groups: the earlier cue ends at the next significant time, which bounds every later cue from below *)
    intros c1 c2 H1 H2 e1 e2 E1 E2. right. unfold times_only in Hr. rewrite Forall_forall in Hr. destruct (Hr c1 H1) as [_ He1].
    destruct seq as [|[t1 r1] seq'] eqn:Eseq; [inversion G; subst; destruct H2|].
    cbn [next_time] in He1. rewrite E1 in He1. injection He1 as ->.
    pose proof (groups_lower_bound _ _ G Hs' t1 (ex_intro _ r1 (ex_intro _ seq' eq_refl))) as L. rewrite Forall_forall in L. apply L, H2.
Qed.

Lemma sequence_sorted d seq : isd_sequence d = Ok seq -> StronglySorted Qlt (map fst seq).
Proof.
  intros H. exact (sig_sorted false d _ (sequence_times d seq H)).
Qed.

Theorem srt_cues_wf d fmt seq cs ss :
  isd_sequence d = Ok seq -> srt_cues fmt seq = Ok cs -> srt_strings 1 cs = Ok ss ->
  Forall span_ok cs /\ ForallOrdPairs before cs /\
  Forall2 (fun i s => exists rest, s = print_z i ++ 10 :: rest) (zseq 1 (length cs)) ss.
Proof.
  intros Hd Hc Hs. split; [exact (srt_strings_spans _ _ _ Hs)|]. split; [|exact (srt_strings_counters _ _ _ Hs)].
  exact (groups_ordered seq cs (times_srt fmt seq cs Hc) (sequence_sorted d seq Hd)).
Qed.
Theorem vtt_cues_wf d cfg seq cs css ss :
  isd_sequence d = Ok seq -> vtt_cues cfg seq = Ok (cs, css) -> vtt_strings cs = Ok ss ->
  Forall span_ok cs /\ ForallOrdPairs before cs /\
  (cue_id cfg = true -> map c_id cs = map Some (zseq 1 (length cs))) /\
  Forall2 (fun c s => match c_id c with Some k => exists rest, s = print_z k ++ 10 :: rest | None => True end) cs ss.
Proof.
  intros Hd Hc Hs. split; [exact (vtt_strings_spans _ _ Hs)|].
  split; [exact (groups_ordered seq cs (times_vtt cfg seq cs css Hc) (sequence_sorted d seq Hd))|].
  split; [intros Eid; exact (vtt_cues_ids cfg seq cs css Eid Hc) | exact (vtt_strings_ids _ _ Hs)].
Qed.

(* the writers return a string unless a cue is left without an end or collapses (the two recorded findings) *)
Lemma checked_end_total c cs : trig_collapsed (c :: cs) = false -> trig_unbounded (c :: cs) = false ->
  (exists e, checked_end c = Ok e) /\ trig_collapsed cs = false /\ trig_unbounded cs = false.
Proof.
  unfold trig_collapsed, trig_unbounded, checked_end. cbn [existsb]. intros H1 H2. apply orb_false_iff in H1 as [H1 H1']. apply orb_false_iff in H2 as [H2 H2'].
  split; [|split; assumption]. destruct (c_end c) as [e|]; [|discriminate]. rewrite H1. eexists. reflexivity.
Qed.
Theorem srt_strings_total : forall cs k, trig_collapsed cs = false -> trig_unbounded cs = false -> exists ss, srt_strings k cs = Ok ss.
Proof.
  induction cs as [|c cs IH]; intros k H1 H2; [eexists; reflexivity|]. destruct (checked_end_total c cs H1 H2) as ([e He] & H1' & H2').
  destruct (IH (k + 1) H1' H2') as [ss Hss]. cbn [srt_strings]. unfold srt_to_string. rewrite He. cbn [bind]. rewrite Hss. eexists. reflexivity.
Qed.
Theorem vtt_strings_total : forall cs, trig_collapsed cs = false -> trig_unbounded cs = false -> exists ss, vtt_strings cs = Ok ss.
Proof.
  induction cs as [|c cs IH]; intros H1 H2; [eexists; reflexivity|]. destruct (checked_end_total c cs H1 H2) as ([e He] & H1' & H2').
  destruct (IH H1' H2') as [ss Hss]. cbn [vtt_strings]. unfold vtt_to_string. rewrite He. cbn [bind]. rewrite Hss. eexists. reflexivity.
Qed.
Theorem srt_total fmt seq cs : srt_cues fmt seq = Ok cs -> trig_collapsed cs = false -> trig_unbounded cs = false ->
  exists out, srt_of_seq fmt (Ok seq) = Ok out.
Proof.
  intros Hc H1 H2. destruct (srt_strings_total cs 1 H1 H2) as [ss Hss]. unfold srt_of_seq. cbn [bind]. rewrite Hc. cbn [bind].
  rewrite Hss. cbn [bind]. eexists. reflexivity.
Qed.
Theorem vtt_total cfg seq cs css : vtt_cues cfg seq = Ok (cs, css) -> trig_collapsed cs = false -> trig_unbounded cs = false ->
  exists out, vtt_of_seq cfg (Ok seq) = Ok out.
Proof.
  intros Hc H1 H2. destruct (vtt_strings_total cs H1 H2) as [ss Hss]. unfold vtt_of_seq. cbn [bind]. rewrite Hc. cbn [bind fst snd].
  rewrite Hss. cbn [bind]. eexists. reflexivity.
Qed.

Theorem vtt_file_shape cfg seq out : vtt_of_seq cfg (Ok seq) = Ok out ->
  exists cs css ss, vtt_cues cfg seq = Ok (cs, css) /\ vtt_strings cs = Ok ss /\ out = webvtt_header ++ style_block css ++ join_text [10] ss.
Proof.
  unfold vtt_of_seq. cbn [bind]. destruct (vtt_cues cfg seq) as [[cs css]|] eqn:E1; [|discriminate]. cbn [bind fst snd].
  destruct (vtt_strings cs) as [ss|] eqn:E2; [|discriminate]. cbn [bind]. intros H. injection H as <-. exists cs, css, ss.
  split; [reflexivity|]. split; [exact E2 | reflexivity].
Qed.
Theorem srt_file_shape fmt seq out : srt_of_seq fmt (Ok seq) = Ok out ->
  exists cs ss, srt_cues fmt seq = Ok cs /\ srt_strings 1 cs = Ok ss /\ out = join_text [10] ss.
Proof.
  unfold srt_of_seq. cbn [bind]. destruct (srt_cues fmt seq) as [cs|] eqn:E1; [|discriminate]. cbn [bind].
  destruct (srt_strings 1 cs) as [ss|] eqn:E2; [|discriminate]. cbn [bind]. intros H. injection H as <-. exists cs, ss.
  split; [reflexivity|]. split; [exact E2 | reflexivity].
Qed.
(* the example of Proofs/C06/Text.v goes through both writers *)
Lemma c07_example_ok :
  exists cs, srt_cues true c06_example = Ok cs /\ trig_collapsed cs = false /\ trig_unbounded cs = false /\ cs <> [].
Proof. eexists. split; [vm_compute; reflexivity|]. split; [vm_compute; reflexivity|]. split; [vm_compute; reflexivity | discriminate]. Qed.
