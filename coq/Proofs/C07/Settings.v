(* C07: the loop of the WebVTT writer and its cue settings.  Every cue is written by one process_p call, on a paragraph that
   process_div reaches below a region of the cue's own filtered snapshot (`vtt_loop_ind`: the induction over the loop that the
   statements about all cues of the WebVTT output go through).  The line and align settings process_p computes are the ones
   Spec/CueSettings.v prescribes for the region / paragraph element it is handed, and the region geometry survives the style
   filters when line positions are written.
   What is NOT proved: that the element handed to process_p is the paragraph(s) of the scope — false of the faithful model
   when paragraphs are merged (recorded finding align-lost-when-paragraphs-merged, Findings/C07.v). *)
From Coq Require Import Qabs.
From TT Require Import Model.Doc Gen.StyleTables Model.Isd Model.SigTimes Model.TimeCode Model.IsdFilters Gen.CueTables Model.CueWriter.
From TT Require Import Model.CueTriggers Spec.IsdSpec Spec.CueSpec Spec.CueSettings Proofs.C12.Derived Proofs.C06.Text.
From TT Require Import Proofs.Common.ElemInd Proofs.C06.Loop.

(* the paragraphs process_div reaches below an element: through divisions *)
Fixpoint block_ps (e : elem) : list elem :=
  match e with
  | Elem a cs =>
      match e_kind a with
      | KDiv => (fix go (l : list elem) : list elem := match l with [] => [] | c :: l' => block_ps c ++ go l' end) cs
      | KP => [e]
      | _ => []
      end
  end.
Lemma block_ps_node a cs : block_ps (Elem a cs) = match e_kind a with KDiv => flat_map block_ps cs | KP => [Elem a cs] | _ => [] end.
Proof.
  cbn [block_ps]. destruct (e_kind a); reflexivity.
Qed.

Lemma vtt_cues_inv cfg seq cs css : vtt_cues cfg seq = Ok (cs, css) ->
  exists fs cs0 st, vtt_filters cfg = Some fs /\ vtt_loop cfg fs seq (mkVttState 0 []) = Ok (cs0, st) /\ cs = finish_cues true vtt_blank cs0.
Proof.
  unfold vtt_cues. destruct (vtt_filters cfg) as [fs|]; [|discriminate].
  destruct (vtt_loop cfg fs seq (mkVttState 0 [])) as [[cs0 st]|] eqn:E; [|discriminate]. cbn [bind fst snd]. intros H. injection H as <- _.
  exists fs, cs0, st. split; [reflexivity | split; [exact E | reflexivity]].
Qed.

(* process_p: at most one cue, with the settings the configuration asks for; it is kept when it is not blank, and then counted *)
Lemma vtt_process_p_inv cfg ra b en p st x s1 : vtt_process_p cfg ra b en p st = Ok (x, s1) ->
  exists line, (if line_position cfg then exists v, line_setting ra = Ok v /\ line = Some v else line = None) /\
    let c := mkCue (if cue_id cfg then Some (v_counter st + 1) else None) b en (fst (vtt_inlines (echildren p) (v_css st))) line
                   (if text_align cfg then textalign_setting (eattrs p) else None) in
    x = (if vtt_blank c then [] else [c]) /\ v_counter s1 = v_counter st + Z.of_nat (length x).
Proof.
  unfold vtt_process_p. intros H.
  assert (L : exists line, (if line_position cfg then bind (line_setting ra) (fun v => Ok (Some v)) else Ok None) = Ok line /\
                           (if line_position cfg then exists v, line_setting ra = Ok v /\ line = Some v else line = None)).
  { destruct (line_position cfg); [|exists None; split; reflexivity]. destruct (line_setting ra) as [v|]; [|discriminate].
    exists (Some v). split; [reflexivity | exists v; split; reflexivity]. }
  destruct L as (line & El & Hl). rewrite El in H. cbn [bind] in H. exists line. split; [exact Hl|]. cbv zeta.
  destruct (vtt_inlines (echildren p) (v_css st)) as [items css]. cbn [fst].
  destruct (vtt_blank _); injection H as <- <-; split; try reflexivity; cbn [v_counter length]; lia.
Qed.

Section VttLoop.
  Variable cfg : vtt_config.
  (* what is to hold of a stretch of the loop: the state before, the cues written, the state after *)
  Variable P : vtt_state -> list cue -> vtt_state -> Prop.
  Hypothesis P_nil : forall st, P st [] st.
  Hypothesis P_app : forall st x s1 y s2, P st x s1 -> P s1 y s2 -> P st (x ++ y) s2.

  (* the paragraphs reached index the walk: what holds of process_p on each of them holds of the walk *)
  Lemma vtt_block_P ra b en e :
    (forall p, In p (block_ps e) -> forall st x s1, vtt_process_p cfg ra b en p st = Ok (x, s1) -> P st x s1) ->
    forall st x s1, Model.CueWriter.vtt_block cfg ra b en e st = Ok (x, s1) -> P st x s1.
  Proof.
    intros Hp st x s1 H. revert Hp.
    refine (block_P [] (@app elem) (fun ps st x s1 => (forall p, In p ps -> forall st x s1, vtt_process_p cfg ra b en p st = Ok (x, s1) -> P st x s1) -> P st x s1)
              _ _ (vtt_process_p cfg ra b en) (Model.CueWriter.vtt_block cfg ra b en) (vtt_blocks cfg ra b en) (vtt_block_node cfg ra b en)
              (fun _ => eq_refl) (fun _ _ _ => eq_refl) block_ps _ e st x s1 H).
    - intros st0 _. apply P_nil.
    - intros m1 m2 st0 x0 s0 y s2 H1 H2 Hp. apply (P_app _ _ s0); [apply H1 | apply H2]; intros p Hin; apply Hp, in_or_app; [left | right]; exact Hin.
    - intros a cs st0 x0 s0 Hn Hp. rewrite block_ps_node in Hp. destruct (e_kind a); try (rewrite (proj1 Hn), (proj2 Hn); apply P_nil).
      + exact (Hn Hp).
      + exact (Hp _ (or_introl eq_refl) _ _ _ Hn).
  Qed.

  Variables (fs : list isd_filter) (seq : list (Q * list elem)).
  Hypothesis P_p : forall t regions r p b en st x s1,
    In (t, regions) seq -> In r (apply_filters fs regions) -> In p (flat_map block_ps (flat_map echildren (echildren r))) ->
    vtt_process_p cfg (eattrs r) b en p st = Ok (x, s1) -> P st x s1.

  Theorem vtt_loop_ind : forall st cs st', vtt_loop cfg fs seq st = Ok (cs, st') -> P st cs st'.
  Proof.
    pose proof (fun A => @thread_P vtt_state unit tt (fun _ _ => tt) (fun _ => P) P_nil (fun _ _ => P_app) A) as T.
    apply (T _ (fun x tl st => bind (q_ms (fst x)) (fun b => bind (oq_ms (next_time tl)) (fun en =>
                                   vtt_regions cfg b en (apply_filters fs (snd x)) st))) _ (fun _ => tt)); [reflexivity | |].
    - intros [t regions] l st. cbn [vtt_loop fst snd]. fold (next_time l). destruct (q_ms t); [|reflexivity]. cbn [bind].
      destruct (oq_ms (next_time l)); reflexivity.
    - intros [t regions] Hin tl st x s1 H. cbn [fst snd] in H. destruct (q_ms t) as [b|]; [|discriminate].
      destruct (oq_ms (next_time tl)) as [en|]; [|discriminate]. cbn [bind] in H. revert st x s1 H.
      apply (T _ (fun r _ => vtt_blocks cfg (eattrs r) b en (flat_map echildren (echildren r))) _ (fun _ => tt)); [reflexivity | reflexivity|].
      intros r Hr _. apply (T _ (fun e _ => Model.CueWriter.vtt_block cfg (eattrs r) b en e) _ (fun _ => tt)); [reflexivity | reflexivity|].
      intros e He _. apply vtt_block_P. intros p Hp st0 x0 s0. apply (P_p t regions r p); [exact Hin | exact Hr|].
      apply in_flat_map. exists e. split; assumption.
  Qed.
End VttLoop.

(* finish(): every cue it leaves is a cue it was given or that cue with the default end *)
Lemma finish_forall (Q : cue -> Prop) fill blank : (forall c, Q c -> Q (default_end c)) ->
  forall cs, Forall Q cs -> Forall Q (finish_cues fill blank cs).
Proof.
  intros D. induction cs as [|c cs IH]; intros H; [constructor|]. inversion H as [|? ? Hc Hcs]; subst. destruct cs as [|c' cs'].
  - cbn [finish_cues]. destruct (c_end c); [exact H|]. destruct (blank c); repeat constructor. apply D, Hc.
  - rewrite finish_cues_cons. constructor; [destruct fill; [apply D, Hc | exact Hc] | apply IH, Hcs].
Qed.
(* a property of every cue of the output: of what process_p writes, kept by the default end *)
Theorem vtt_cues_forall cfg (Q : cue -> Prop) :
  (forall ra b en p st x s1, vtt_process_p cfg ra b en p st = Ok (x, s1) -> Forall Q x) -> (forall c, Q c -> Q (default_end c)) ->
  forall seq cs css, vtt_cues cfg seq = Ok (cs, css) -> Forall Q cs.
Proof.
  intros Hp D seq cs css H. destruct (vtt_cues_inv _ _ _ _ H) as (fs & cs0 & st & _ & E & ->). apply finish_forall; [exact D|].
  revert E. apply (vtt_loop_ind cfg (fun _ x _ => Forall Q x)); [constructor | intros; apply Forall_app; split; assumption|].
  intros t regions r p b en st0 x s1 _ _ _. apply Hp.
Qed.

Lemma round_q_whole_percent q : whole_percent q (clamp_pct (round_q q)) = true.
Proof.
  unfold whole_percent, round_q, clamp_pct, clamp_q. destruct q as [a b]. cbn [Qnum Qden].
  destruct (round_he_cases a (Zpos b) eq_refl) as (_ & H & _). set (m := round_he a (Zpos b)) in *. clearbody m.
  assert (Hb : 0 < Zpos b) by lia.
  assert (R1 : 0 <=? Z.max 0 (Z.min 100 m) = true) by (apply Z.leb_le; lia).
  assert (R2 : Z.max 0 (Z.min 100 m) <=? 100 = true) by (apply Z.leb_le; lia).
  rewrite R1, R2. cbn [andb].
  assert (Q1 : Qle_bool (a # b) (inject_Z 0) = (a * 1 <=? 0 * Z.pos b)) by reflexivity.
  assert (Q2 : Qle_bool (inject_Z 100) (a # b) = (100 * Z.pos b <=? a * 1)) by reflexivity.
  rewrite Q1, Q2. clear Q1 Q2. destruct (a * 1 <=? 0 * Z.pos b) eqn:E1.
  - apply Z.leb_le in E1. assert (Hm : m <= 0) by nia. replace (Z.max 0 (Z.min 100 m)) with 0 by lia. reflexivity.
  - apply Z.leb_gt in E1. destruct (100 * Z.pos b <=? a * 1) eqn:E2.
    + apply Z.leb_le in E2. assert (Hm : 100 <= m) by nia. replace (Z.max 0 (Z.min 100 m)) with 100 by lia. reflexivity.
    + apply Z.leb_gt in E2. assert (Hm : 0 <= m <= 100) by nia. replace (Z.max 0 (Z.min 100 m)) with m by lia.
      unfold Qle_bool, Qabs, Qminus, Qplus, Qopp, inject_Z. cbn [Qnum Qden]. apply Z.leb_le.
      rewrite Pos2Z.inj_mul. change (Zpos 1) with 1. replace (a * 1 + - m * Zpos b) with (- (m * Zpos b - a)) by ring.
      rewrite Z.abs_opp. cbn [Pos.mul]. nia.
Qed.

Theorem line_setting_spec ra n k da :
  sget (e_styles ra) p_DisplayAlign = Some (VEnum da) -> line_setting ra = Ok (n, k) ->
  exists q a, spec_line ra = Some (q, a) /\ whole_percent q n = true /\ nth (Z.to_nat k) vtt_line_alignment [] = a.
Proof.
  unfold line_setting, spec_line. intros Hda H. rewrite Hda in *.
  destruct (sget (e_styles ra) p_Position) as [[]|]; try discriminate.
  destruct (sget (e_styles ra) p_Extent) as [[]|]; try discriminate.
  destruct (da =? e_DisplayAlignType_after) eqn:E1.
  - injection H as <- <-. apply Z.eqb_eq in E1. subst da. cbn [Z.eqb e_DisplayAlignType_after e_DisplayAlignType_before].
    eexists. eexists. split; [reflexivity|]. split; [apply round_q_whole_percent | reflexivity].
  - destruct (da =? e_DisplayAlignType_before) eqn:E2; injection H as <- <-;
      (eexists; eexists; split; [reflexivity|]; split; [apply round_q_whole_percent | reflexivity]).
Qed.

Theorem textalign_setting_spec p :
  spec_align p = option_map (fun k => nth (Z.to_nat k) vtt_text_alignment []) (textalign_setting p).
Proof.
  unfold spec_align, textalign_setting. destruct (sget (e_styles p) p_TextAlign) as [[]|]; try reflexivity.
  destruct (tag =? e_TextAlignType_center); [reflexivity|].
  destruct (match sget (e_styles p) p_Direction with Some (VEnum x) => x =? e_DirectionType_rtl | _ => false end);
    destruct (tag =? e_TextAlignType_start); try reflexivity; destruct (tag =? e_TextAlignType_end); reflexivity.
Qed.

Lemma sget_filter (f : Z * value -> bool) p : forall m, (forall v, f (p, v) = true) -> sget (filter f m) p = sget m p.
Proof.
  intros m Hf. induction m as [|[k w] m IH]; [reflexivity|]. cbn [filter sget]. destruct (k =? p) eqn:E.
  - apply Z.eqb_eq in E. subst k. rewrite Hf. cbn [sget]. rewrite Z.eqb_refl. reflexivity.
  - destruct (f (k, w)); [cbn [sget]; rewrite E|]; exact IH.
Qed.
Definition geometry_prop (p : Z) : Prop := p = p_Position \/ p = p_Extent \/ p = p_DisplayAlign.
(* in every configuration with line positions: supported with any value, no default *)
Lemma geometry_kept cfg fs c d : line_position cfg = true -> vtt_filters cfg = Some fs -> fs = writer_filters false c d ->
  forall p, geometry_prop p -> (forall v, is_supported c (p, v) = true) /\ sget d p = None.
Proof.
  intros Hlp Hfs Hf p Hp. destruct cfg as [lp ta ci]. cbn [line_position] in Hlp. subst lp.
  destruct ta, ci; vm_compute in Hfs; injection Hfs as <-; unfold writer_filters in Hf; cbn [app] in Hf; injection Hf as <- <-;
    destruct Hp as [-> | [-> | ->]]; split; reflexivity.
Qed.

Lemma region_geometry_filtered cfg fs p : line_position cfg = true -> vtt_filters cfg = Some fs -> geometry_prop p ->
  forall rs r', In r' (apply_filters fs rs) -> exists r, In r rs /\ sget (e_styles (eattrs r')) p = sget (e_styles (eattrs r)) p.
Proof.
  intros Hlp Hfs Hp rs r' Hin. destruct (vtt_filters_form cfg fs Hfs) as (c & d & Hf). rewrite Hlp in Hf. cbn [negb] in Hf.
  destruct (geometry_kept cfg fs c d Hlp Hfs Hf p Hp) as [Hsup Hdef].
  rewrite Hf in Hin. unfold writer_filters, apply_filters in Hin. cbn [app fold_left apply_filter] in Hin.
  apply in_map_iff in Hin as (r1 & <- & Hin). apply in_map_iff in Hin as (r2 & <- & Hin).
  unfold merge_paragraphs in Hin. apply in_map_iff in Hin as (r3 & <- & Hin). exists r3. split; [exact Hin|].
  destruct r3 as [a3 cs3]. rewrite Proofs.C06.Filters.filter_supported_node, Proofs.C06.Filters.filter_defaults_node. cbv zeta.
  cbn [eattrs with_styles e_styles].
  rewrite sget_filter.
  - apply sget_filter. exact Hsup.
  - intros v. unfold default_removed. rewrite Hdef. rewrite andb_false_r. reflexivity.
Qed.

(* every cue takes its settings from a region and an element of its own snapshot *)
Definition settings_from (cfg : vtt_config) (r p : elem) (c : cue) : Prop :=
  (if line_position cfg then exists x, line_setting (eattrs r) = Ok x /\ c_line c = Some x else c_line c = None) /\
  c_textalign c = (if text_align cfg then textalign_setting (eattrs p) else None).

Lemma vtt_process_p_settings cfg r b en p st cs st' :
  vtt_process_p cfg (eattrs r) b en p st = Ok (cs, st') -> Forall (settings_from cfg r p) cs.
Proof.
  intros H. destruct (vtt_process_p_inv _ _ _ _ _ _ _ _ H) as (line & Hl & -> & _). destruct (vtt_blank _); repeat constructor.
  unfold settings_from. cbn [c_line c_textalign]. destruct (line_position cfg); [|exact Hl]. destruct Hl as (v & Hv & ->). exists v. split; [exact Hv | reflexivity].
Qed.

Definition cue_settings_sound (cfg : vtt_config) (fs : list isd_filter) (seq : list (Q * list elem)) (c : cue) : Prop :=
  exists t regions r p, In (t, regions) seq /\ In r (apply_filters fs regions) /\
                        In p (flat_map block_ps (flat_map echildren (echildren r))) /\ settings_from cfg r p c.

Theorem vtt_cues_settings cfg fs seq cs css :
  vtt_filters cfg = Some fs -> vtt_cues cfg seq = Ok (cs, css) -> Forall (cue_settings_sound cfg fs seq) cs.
Proof.
  intros Hfs H. destruct (vtt_cues_inv _ _ _ _ H) as (fs' & cs0 & st & Hfs' & E & ->). rewrite Hfs in Hfs'. injection Hfs' as <-.
  apply finish_forall.
  { intros c (t & regions & r & p & H1 & H2 & H3 & H4). exists t, regions, r, p. unfold default_end. destruct (c_end c); repeat split; try assumption; apply H4. }
  revert E. apply (vtt_loop_ind cfg (fun _ x _ => Forall (cue_settings_sound cfg fs seq) x)); [constructor | intros; apply Forall_app; split; assumption|].
  intros t regions r p b en st0 x s1 H1 H2 H3 Hx. eapply Forall_impl; [|exact (vtt_process_p_settings _ _ _ _ _ _ _ _ Hx)].
  intros c Hc. exists t, regions, r, p. repeat split; try assumption; apply Hc.
Qed.
