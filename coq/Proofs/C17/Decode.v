(* C17: theorems about the decoding of every word.  The model and the specification read a word only through
   its two 7-bit bytes, so a statement about all words is one about pairs of bytes.  A first byte outside
   0x10..0x1F is no code: no table is consulted, and what the standard asks is a fact about each byte.  The
   16 x 128 code words are decided inside the kernel.  That no value is matched twice is a fact about the values
   the tables list, decided for each of them. *)
From TT Require Import Base.Prelude Base.SccTypes Gen.SccTables Model.SccWord Spec.Cea608Words.

Lemma all_from_spec k : forall i p, all_from k i p = true -> forall w, i <= w < i + Z.of_nat k -> p w = true.
Proof.
  induction k as [|k IH]; intros i p H w Hw; [lia|].
  cbn [all_from] in H. apply andb_true_iff in H as [H1 H2].
  destruct (Z.eq_dec w i) as [->|Hne]; [assumption|].
  apply (IH (i + 1) p H2). lia.
Qed.

Lemma dec_eqb_true a b : dec_eqb a b = true -> a = b.
Proof.
  destruct a, b. unfold dec_eqb. simpl.
  intros H. repeat (apply andb_true_iff in H as [H ?]).
  repeat match goal with
         | H : (_ =? _) = true |- _ => apply Z.eqb_eq in H
         | H : Bool.eqb _ _ = true |- _ => apply Bool.eqb_prop in H
         end. subst. reflexivity.
Qed.

Definition all_codes (p : Z -> bool) : bool := all_from 16 16 (fun a => all_from 128 0 (fun b => p (a * 256 + b))).
Lemma all_codes_spec p : all_codes p = true ->
  forall a b, is_code a = true -> 0 <= b < 128 -> p (a * 256 + b) = true.
Proof.
  intros H a b Ha Hb. unfold is_code in Ha.
  apply (all_from_spec 128 0 (fun b => p (a * 256 + b))); [|lia]. apply (all_from_spec 16 16 _ H). lia.
Qed.

Lemma land_127 x : Z.land x 127 = x mod 128.
Proof. apply (Z.land_ones x 7). lia. Qed.
Lemma byte1_range w : 0 <= byte1 w < 128.
Proof. unfold byte1, parity_mask. rewrite land_127. lia. Qed.
Lemma byte2_range w : 0 <= byte2 w < 128.
Proof. unfold byte2, parity_mask. rewrite land_127. lia. Qed.
Lemma bytes_pair a b : 0 <= a < 128 -> 0 <= b < 128 -> byte1 (a * 256 + b) = a /\ byte2 (a * 256 + b) = b.
Proof. intros Ha Hb. unfold byte1, byte2, parity_mask. rewrite !land_127. lia. Qed.
(* clearing the two parity bits, 0x7F7F *)
Lemma bytes_parity w : byte1 (Z.land w 32639) = byte1 w /\ byte2 (Z.land w 32639) = byte2 w.
Proof.
  unfold byte1, byte2, parity_mask. change 256 with (2 ^ 8).
  rewrite <- !Z.shiftr_div_pow2, <- !(Z.land_ones _ 8), Z.shiftr_land, <- !Z.land_assoc by lia. split; reflexivity.
Qed.

Definition by_bytes {A} (f : Z -> A) : Prop := forall w w', byte1 w = byte1 w' -> byte2 w = byte2 w' -> f w = f w'.
Lemma by_bytes_value {A} (f : Z -> A) : by_bytes f -> forall w, f w = f (value w).
Proof.
  intros Hf w. destruct (bytes_pair _ _ (byte1_range w) (byte2_range w)) as [H1 H2].
  apply Hf; symmetry; assumption.
Qed.
Lemma decode_bytes : by_bytes decode.
Proof. intros w w' H1 H2. unfold decode, value. rewrite H1, H2. reflexivity. Qed.
Lemma match_count_bytes : by_bytes match_count.
Proof. intros w w' H1 H2. unfold match_count, value. rewrite H1, H2. reflexivity. Qed.
Lemma entries_matching_bytes : by_bytes entries_matching.
Proof. intros w w' H1 H2. unfold entries_matching, value. rewrite H1, H2. reflexivity. Qed.
Lemma spec_ok_bytes d : by_bytes (fun w => spec_ok w d).
Proof.
  intros w w' H1 H2. unfold spec_ok. change (sb1 w) with (byte1 w). change (sb2 w) with (byte2 w).
  rewrite H1, H2. reflexivity.
Qed.

Lemma parity_irrelevant w : decode w = decode (Z.land w 32639).
Proof. destruct (bytes_parity w) as [H1 H2]. apply decode_bytes; symmetry; assumption. Qed.

Definition word_ok (w : Z) : bool :=
  let d := decode w in
  (trigger_caret w || spec_ok w d) &&
  ((0 <=? d_cls d) && (d_cls d <=? 8)) &&
  (negb (d_chan d =? 1) || ((Z.land (sb1 w) 8 =? 0) && negb ((Z.land (sb1 w) 247 =? 21) && (sb2 w <? 64)))) &&
  (negb (d_cls d =? cPac) ||
   ((1 <=? d_row d) && (d_row d <=? 15) &&
    ((d_indent d =? -1) || ((0 <=? d_indent d) && (d_indent d <=? 28) && (d_indent d mod 4 =? 0))))).
Lemma word_ok_bytes : by_bytes word_ok.
Proof.
  intros w w' H1 H2. unfold word_ok, trigger_caret.
  rewrite (decode_bytes _ _ H1 H2), (spec_ok_bytes _ _ _ H1 H2).
  change (sb1 w) with (byte1 w). change (sb2 w) with (byte2 w). rewrite H1, H2. reflexivity.
Qed.

(* a first byte outside 0x10..0x1F: decode does not consult the tables *)
Definition plain (c t1 t2 : Z) : dec := mkDec c 0 (-1) (-1) (-1) (-1) false false false t1 t2.
Lemma decode_noncode w : is_code (byte1 w) = false ->
  decode w = if value w =? 0 then plain cPad (-1) (-1)
             else if byte1 w <? 32 then plain cUnknown (-1) (-1)
             else plain cChars (char_of (byte1 w)) (char_of (byte2 w)).
Proof. intros H. unfold decode. cbv zeta. rewrite H. reflexivity. Qed.

(* what the standard asks of a character byte: 0 is a filler, 0x20..0x7F is the standard character set *)
Definition char_ok (b : Z) : bool :=
  if b =? 0 then char_of b =? -1 else if 32 <=? b then char_of b =? spec_std_char b else true.
Lemma chars_ok b : 0 <= b < 128 -> char_ok b = true.
Proof. apply (all_from_spec 128 0 char_ok). vm_compute. reflexivity. Qed.

Lemma spec_noncode w : is_code (byte1 w) = false -> spec_ok w (decode w) = true.
Proof.
  intros H. rewrite (decode_noncode w H). unfold spec_ok, value. cbv zeta.
  change (sb1 w) with (byte1 w). change (sb2 w) with (byte2 w).
  pose proof (byte1_range w) as R1. pose proof (byte2_range w) as R2.
  pose proof (chars_ok _ R1) as C1. pose proof (chars_ok _ R2) as C2. unfold is_code in H.
  revert H R1 R2 C1 C2. generalize (byte1 w) (byte2 w). intros b1 b2 H R1 R2 C1 C2.
  destruct (32 <=? b1) eqn:E.
  - unfold char_ok in C1. rewrite E in C1.
    replace (b1 * 256 + b2 =? 0) with false by lia. replace (b1 <? 32) with false by lia.
    replace (b1 =? 0) with false in * by lia. unfold plain. cbn [d_t1]. rewrite C1. exact C2.
  - replace (b1 <? 32) with true by lia. replace (b1 <? 16) with true by lia.
    destruct (b1 * 256 + b2 =? 0) eqn:E0.
    + replace ((b1 =? 0) && (b2 =? 0)) with true by lia. reflexivity.
    + replace ((b1 =? 0) && (b2 =? 0)) with false by lia. reflexivity.
Qed.

Lemma noncode_ok w : is_code (byte1 w) = false -> word_ok w = true.
Proof.
  intros H. unfold word_ok. rewrite (spec_noncode w H), orb_true_r.
  rewrite (decode_noncode w H). destruct (value w =? 0); [|destruct (byte1 w <? 32)]; reflexivity.
Qed.

Lemma all_words_ok w : word_ok w = true.
Proof.
  destruct (is_code (byte1 w)) eqn:E; [|apply noncode_ok, E].
  rewrite (by_bytes_value _ word_ok_bytes). apply (all_codes_spec word_ok); [|assumption|apply byte2_range].
  vm_compute. reflexivity.
Qed.
(* the conjuncts of word_ok w, as hypotheses *)
Ltac all_words w :=
  let H := fresh "H" in
  pose proof (all_words_ok w) as H; unfold word_ok in H; cbv zeta in H;
  repeat (apply andb_true_iff in H; destruct H as [H ?]).

(* M agrees with the standard on every word outside the recorded finding *)
Lemma decode_spec w : 0 <= w < 65536 -> trigger_caret w = false -> spec_ok w (decode w) = true.
Proof. intros _ Ht. all_words w. rewrite Ht in H. exact H. Qed.

(* no value is matched by two code tables or by two entries of one table: lookup order is immaterial.
   A value that no table lists matches nothing; the listed values are checked one by one. *)
Definition keys_control (l : list (Z * (Z * Z * Z * Z))) : list Z := flat_map (fun '(_, (a, b, c, d)) => [a; b; c; d]) l.
Definition keys2 {A} (l : list (Z * Z * A)) : list Z := flat_map (fun '(a, b, _) => [a; b]) l.
Lemma find_control_none l v : ~ In v (keys_control l) ->
  find_control l v = None /\ filter (fun '(_, (a, b, c, d)) => (v =? a) || (v =? b) || (v =? c) || (v =? d)) l = [].
Proof.
  induction l as [|[id [[[a b] c] d]] l IH]; cbn [keys_control flat_map app In find_control filter]; [split; reflexivity|].
  intros H. replace ((v =? a) || (v =? b) || (v =? c) || (v =? d)) with false by lia. apply IH. tauto.
Qed.
Lemma find2_none {A} (l : list (Z * Z * A)) v : ~ In v (keys2 l) ->
  find2 l v = None /\ filter (fun '(a, b, _) => (v =? a) || (v =? b)) l = [].
Proof.
  induction l as [|[[a b] x] l IH]; cbn [keys2 flat_map app In find2 filter]; [split; reflexivity|].
  intros H. replace ((v =? a) || (v =? b)) with false by lia. apply IH. tauto.
Qed.
Definition all_keys : list Z :=
  keys_control control_codes ++ keys2 attribute_codes ++ keys2 mid_row_codes ++ keys2 special_chars ++ keys2 extended_chars.
Lemma overlap_free w : match_count w <= 1 /\ entries_matching w <= 1.
Proof.
  destruct (in_dec Z.eq_dec (value w) all_keys) as [H|H].
  - rewrite (by_bytes_value _ match_count_bytes), (by_bytes_value _ entries_matching_bytes).
    assert (K : forallb (fun k => (match_count k <=? 1) && (entries_matching k <=? 1)) all_keys = true) by (vm_compute; reflexivity).
    apply (proj1 (forallb_forall _ _) K) in H. lia.
  - unfold all_keys in H. rewrite !in_app_iff in H. unfold match_count, entries_matching. cbv zeta.
    destruct (find_control_none control_codes (value w)) as [-> ->]; [tauto|].
    destruct (find2_none attribute_codes (value w)) as [-> ->]; [tauto|].
    destruct (find2_none mid_row_codes (value w)) as [-> ->]; [tauto|].
    destruct (find2_none special_chars (value w)) as [-> ->]; [tauto|].
    destruct (find2_none extended_chars (value w)) as [-> ->]; [tauto|].
    destruct (find_pac (byte1 w) (byte2 w)); cbn; lia.
Qed.

Lemma class_exactly_one w : exists! c, 0 <= c <= 8 /\ d_cls (decode w) = c.
Proof.
  all_words w. exists (d_cls (decode w)). split; [split; [lia|reflexivity]|]. intros c [_ Hc]. exact Hc.
Qed.

(* only channel-1 field-1 data is attributed to channel 1: a code decoded on channel 1 has the channel bit
   clear and is not a field-2 control code (first byte 0x15 with a second byte below 0x40) *)
Lemma channel1_only w : d_chan (decode w) = 1 -> Z.land (sb1 w) 8 = 0 /\ ~ (Z.land (sb1 w) 247 = 21 /\ sb2 w < 64).
Proof. intros Hc. all_words w. rewrite Hc in *. lia. Qed.

Lemma pac_range_b w :
  (negb (d_cls (decode w) =? cPac) ||
   ((1 <=? d_row (decode w)) && (d_row (decode w) <=? 15) &&
    ((d_indent (decode w) =? -1) || ((0 <=? d_indent (decode w)) && (d_indent (decode w) <=? 28) && (d_indent (decode w) mod 4 =? 0))))) = true.
Proof. all_words w. assumption. Qed.
