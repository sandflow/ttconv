(* C05, the tree the writer builds (Model/ImscWriteTree.v) read back by the reader (Model/ImscTiming.v), element by element:
   * every model element is written as an element that the reader dispatches to the same class (all 12 kinds, ruby roles included);
   * no child is dropped and none is reordered; the character content between two consecutive child elements (adjacent Text children
     are one run of characters) is exactly preserved by the text / tail placement;
   * xml:space, region and xml:id are read back as written; no timeContainer is written, so every container is read as par.
   The composition over the whole tree (timing, pruning of empty intervals, push_children) is compared on generated documents. *)
From TT Require Import Base.Prelude Base.ImscXml Model.ImscTime Model.TimeCode Model.ImscWrite Model.ImscStyles Model.ImscTiming Model.ImscWriteTree Gen.ImscTables.
From Coq Require Import QArith.
Local Open Scope Z_scope.

Lemma get_attr_app a b q : get_attr (a ++ b) q = match get_attr a q with Some v => Some v | None => get_attr b q end.
Proof. induction a as [|[k v] a IH]; [reflexivity|]. cbn [app get_attr]. destruct (qname_eqb k q); [reflexivity|exact IH]. Qed.

(* the names of the style attributes are none of the names the reader looks up on an element *)
Definition reserved : list qname := [A_ruby; A_space; A_region; A_begin; A_end; A_dur; A_id; A_timeContainer; A_lang; A_style].
Lemma style_names_free : forallb (fun e => forallb (fun r => negb (qname_eqb (fst e) r)) reserved) imsc_style_attrs = true.
Proof. vm_compute. reflexivity. Qed.

Lemma attr_of_in l p qn : attr_of l p = Some qn -> In (qn, p) l.
Proof.
  induction l as [|[q0 p0] l IH]; [discriminate|]. cbn [attr_of]. destruct (p0 =? p) eqn:E.
  - intro H. inversion H; subst. apply Z.eqb_eq in E. subst. left. reflexivity.
  - intro H. right. exact (IH H).
Qed.

Lemma style_attr_free p v r : In r reserved -> get_attr (style_attr p v) r = None.
Proof.
  intro Hr. unfold style_attr. destruct (attr_of imsc_style_attrs p) as [qn|] eqn:E; [|reflexivity].
  destruct (print_style p v); try reflexivity. cbn [get_attr].
  pose proof style_names_free as H. rewrite forallb_forall in H. specialize (H _ (attr_of_in _ _ _ E)). cbn [fst] in H.
  rewrite forallb_forall in H. specialize (H r Hr). apply negb_true_iff in H. rewrite H. reflexivity.
Qed.

Lemma style_attrs_free d r : In r reserved -> get_attr (style_attrs d) r = None.
Proof.
  intro Hr. unfold style_attrs. induction imsc_write_order as [|p l IH]; [reflexivity|]. cbn [flat_map]. rewrite get_attr_app.
  destruct (style_get d p); [rewrite (style_attr_free _ _ _ Hr)|cbn [get_attr]]; exact IH.
Qed.

Lemma time_attr_other cfg a t q : qname_eqb a q = false -> get_attr (time_attr cfg a t) q = None.
Proof.
  intro H. unfold time_attr. destruct t as [v|]; [|reflexivity]. destruct (to_time_format (w_syn cfg) (w_fps cfg) v); [|reflexivity].
  cbn [get_attr]. rewrite H. reflexivity.
Qed.

(* what the reader meets, in document order, in the content of an element: character data and child elements *)
Definition item := (text + xml)%type.
Definition strip_tail (x : xml) : xml := match x with X t a tx _ c => X t a tx None c end.
Definition optl (o : option text) : list item := match o with Some t => [inl t] | None => [] end.
Definition items_of (x : xml) : list item := inr (strip_tail x) :: optl (x_tail x).
(* normal form of a content sequence: the leading characters, then every element with the characters that follow it (adjacent runs of
   character data are one run) *)
Fixpoint push (l : list item) (n : text * list (xml * text)) : text * list (xml * text) :=
  match l with
  | [] => n
  | inl s :: l' => let '(t, g) := push l' n in (s ++ t, g)
  | inr x :: l' => let '(t, g) := push l' n in ([], (x, t) :: g)
  end.
Definition norm (l : list item) : text * list (xml * text) := push l ([], []).

Lemma push_app a b n : push (a ++ b) n = push a (push b n).
Proof. induction a as [|[s|x] a IH]; cbn [app push]; [reflexivity| |]; rewrite IH; reflexivity. Qed.

(* the model children in the order the writer meets them *)
Definition arrive (wr : wnode -> option xml) (c : wnode) : list item :=
  match c with WText s => [inl s] | _ => match wr c with Some x => items_of x | None => [] end end.

Lemma strip_add_tail l s : strip_tail (add_tail l s) = strip_tail l.
Proof. destruct l. reflexivity. Qed.

Lemma push_add_tail l s R n : push (items_of (add_tail l s) ++ R) n = push (items_of l ++ [inl s] ++ R) n.
Proof.
  unfold items_of. rewrite strip_add_tail. destruct l as [t a tx tl c]. cbn [add_tail x_tail optl app push].
  destruct tl as [u|]; cbn [optl app push]; destruct (push R n) as [t0 g]; rewrite <- ?app_assoc; reflexivity.
Qed.

Section Placement.
  Variable wr : wnode -> option xml.
  Variable sets : list xml.

  Lemma place_spec : forall cs txt content_rev last,
    (last = true -> content_rev <> []) -> (last = false -> content_rev = []) ->
    exists txt' content', place wr cs txt (content_rev ++ rev sets) last = (txt', sets ++ content') /\
      forall n, push (optl txt' ++ flat_map items_of content') n =
                push (optl txt ++ flat_map items_of (rev content_rev) ++ flat_map (arrive wr) cs) n.
  Proof.
    induction cs as [|c cs IH]; intros txt content_rev last Ht Hf.
    - exists txt, (rev content_rev). cbn [place flat_map]. rewrite rev_app_distr, rev_involutive, app_nil_r. split; reflexivity.
    - destruct c as [s|k id b e pr rg st an ch].
      + (* a Text child *)
        cbn [place flat_map arrive].
        destruct last.
        * destruct content_rev as [|l c']; [exfalso; apply (Ht eq_refl); reflexivity|]. cbn [app].
          destruct (IH txt (add_tail l s :: c') true ltac:(discriminate) ltac:(discriminate)) as [txt' [content' [H1 H2]]].
          exists txt', content'. split; [exact H1|]. intro n. rewrite H2. cbn [rev]. rewrite !flat_map_app. cbn [flat_map]. rewrite !app_nil_r.
          rewrite !push_app. f_equal. f_equal. rewrite <- !push_app. apply (push_add_tail l s (flat_map (arrive wr) cs) n).
        * rewrite (Hf eq_refl) in *. cbn [app rev flat_map].
          assert (Hp : place wr (WText s :: cs) txt (rev sets) false = place wr cs (Some match txt with Some u => u ++ s | None => s end) (rev sets) false).
          { cbn [place]. destruct (rev sets); reflexivity. }
          cbn [place] in Hp |- *.
          destruct (IH (Some match txt with Some u => u ++ s | None => s end) [] false ltac:(discriminate) ltac:(reflexivity)) as [txt' [content' [H1 H2]]].
          cbn [app] in H1. exists txt', content'. split; [destruct (rev sets); exact H1|]. intro n. rewrite H2. cbn [rev flat_map app optl].
          destruct txt as [u|]; cbn [optl app push]; destruct (push (flat_map (arrive wr) cs) n) as [t0 g]; rewrite <- ?app_assoc; reflexivity.
      + (* a child element *)
        cbn [place flat_map]. unfold arrive at 1.
        destruct (wr (WElem k id b e pr rg st an ch)) as [x|].
        * destruct (IH txt (x :: content_rev) true ltac:(discriminate) ltac:(discriminate)) as [txt' [content' [H1 H2]]].
          cbn [app] in H1. exists txt', content'. split; [exact H1|]. intro n. rewrite H2. cbn [rev]. rewrite !flat_map_app. cbn [flat_map].
          rewrite app_nil_r, <- !app_assoc. reflexivity.
        * destruct (IH txt content_rev last Ht Hf) as [txt' [content' [H1 H2]]].
          exists txt', content'. split; [exact H1|]. intro n. rewrite H2. reflexivity.
  Qed.
End Placement.

Definition wa_space (pp : option bool) (preserve : bool) : list (qname * text) :=
  match pp with
  | None => if preserve then [(A_space, V_preserve)] else []
  | Some p0 => if Bool.eqb p0 preserve then [] else [(A_space, if preserve then V_preserve else V_default)]
  end.
Definition wa_region (k : ekind) (region : option text) : list (qname * text) :=
  if w_has_region k then match region with Some r => [(A_region, r)] | None => [] end else [].
Definition wa_time (cfg : wcfg) (k : ekind) (b e : option Q) : list (qname * text) :=
  if w_has_timing k then time_attr cfg A_begin b ++ time_attr cfg A_end e else [].
Definition wa_id (id : option text) : list (qname * text) := match id with Some i => [(A_id, i)] | None => [] end.

Lemma wa_space_other pp pr q : qname_eqb A_space q = false -> get_attr (wa_space pp pr) q = None.
Proof. intro H. unfold wa_space. destruct pp as [p0|]; [destruct (Bool.eqb p0 pr)|]; destruct pr; cbn [get_attr]; rewrite ?H; reflexivity. Qed.
Lemma wa_region_other k r q : qname_eqb A_region q = false -> get_attr (wa_region k r) q = None.
Proof. intro H. unfold wa_region. destruct (w_has_region k); [destruct r|]; cbn [get_attr]; rewrite ?H; reflexivity. Qed.
Lemma wa_time_other cfg k b e q : qname_eqb A_begin q = false -> qname_eqb A_end q = false -> get_attr (wa_time cfg k b e) q = None.
Proof. intros H1 H2. unfold wa_time. destruct (w_has_timing k); [rewrite get_attr_app, !time_attr_other by assumption|]; reflexivity. Qed.
Lemma wa_id_other id q : qname_eqb A_id q = false -> get_attr (wa_id id) q = None.
Proof. intro H. unfold wa_id. destruct id; cbn [get_attr]; rewrite ?H; reflexivity. Qed.
Lemma make_element_other k tag attrs0 q : make_element k = Some (tag, attrs0) -> qname_eqb A_ruby q = false -> get_attr attrs0 q = None.
Proof. intros H Hq. destruct k; try discriminate; injection H as <- <-; cbn [get_attr]; rewrite ?Hq; reflexivity. Qed.

Section Element.
  Variables (cfg : wcfg) (pp : option bool) (k : ekind) (id : option text) (b e : option Q) (preserve : bool) (region : option text)
            (styles : list (Z * sval)) (anims : list wanim) (cs : list wnode) (x : xml).
  Hypothesis Hw : write_node cfg pp (WElem k id b e preserve region styles anims cs) = Some x.

  Lemma written_shape : exists tag attrs0 txt kids, make_element k = Some (tag, attrs0) /\
    (txt, kids) = (if w_has_children k then place (write_node cfg (Some preserve)) cs None (rev (List.map (write_set cfg) anims)) false
                   else (None, List.map (write_set cfg) anims)) /\
    x = X tag (attrs0 ++ wa_space pp preserve ++ wa_region k region ++ wa_time cfg k b e ++ wa_id id ++ style_attrs styles) txt None kids.
  Proof.
    cbn [write_node] in Hw. destruct (make_element k) as [[tag attrs0]|]; [|discriminate].
    destruct (if w_has_children k then _ else _) as [txt kids]. inversion Hw. exists tag, attrs0, txt, kids. repeat split.
  Qed.

  (* every name the reader looks up on an element is bound by at most one of the groups of written attributes: its lookup in the
     whole list is its lookup in that group *)
  Lemma written_lookups : exists tag attrs0, make_element k = Some (tag, attrs0) /\ x_tag x = tag /\
    get_attr (x_attrs x) A_ruby = get_attr attrs0 A_ruby /\
    get_attr (x_attrs x) A_space = get_attr (wa_space pp preserve) A_space /\
    get_attr (x_attrs x) A_region = get_attr (wa_region k region) A_region /\
    get_attr (x_attrs x) A_begin = get_attr (wa_time cfg k b e) A_begin /\
    get_attr (x_attrs x) A_end = get_attr (wa_time cfg k b e) A_end /\
    get_attr (x_attrs x) A_dur = None /\ get_attr (x_attrs x) A_timeContainer = None /\ get_attr (x_attrs x) A_style = None.
  Proof.
    destruct written_shape as (tag & attrs0 & txt & kids & Ek & _ & ->). exists tag, attrs0. cbn [x_tag x_attrs].
    repeat split; try exact Ek.
    all: rewrite !get_attr_app, ?(make_element_other k tag attrs0), ?wa_space_other, ?wa_region_other, ?wa_time_other, ?wa_id_other, ?style_attrs_free
           by (exact Ek || reflexivity || (unfold reserved; repeat ((left; reflexivity) || right))).
    all: try reflexivity.
    all: destruct (get_attr _ _); reflexivity.
  Qed.

  (* the reader dispatches the written element to the class of the model element: a plain span has no tts:ruby, the ruby kinds
     have theirs *)
  Theorem written_kind : classify (x_tag x) (x_attrs x) = Some k.
  Proof.
    destruct written_lookups as (tag & attrs0 & Ek & -> & Hr & _). unfold classify. rewrite Hr.
    destruct k; try discriminate; injection Ek as <- <-; reflexivity.
  Qed.

  (* xml:space is read back as the model element has it, provided the reader inherited what the writer assumed of the parent *)
  Theorem written_space inherited : (match pp with Some p0 => inherited = p0 | None => inherited = false end) ->
    read_space (x_attrs x) inherited = preserve.
  Proof.
    intro Hi. destruct written_lookups as (_ & _ & _ & _ & _ & Hs & _). unfold read_space. rewrite Hs.
    destruct pp as [[|]|], preserve; subst inherited; reflexivity.
  Qed.

  Theorem written_par : read_par (x_attrs x) = true.
  Proof. destruct written_lookups as (_ & _ & _ & _ & _ & _ & _ & _ & _ & _ & Hc & _). unfold read_par. rewrite Hc. reflexivity. Qed.

  (* the region reference is read back (when the region is registered in the document) *)
  Theorem written_region ev : (match region with Some r => mem_text r (e_regions ev) = true | None => True end) ->
    read_region ev k (x_attrs x) = if k_has_region k then region else None.
  Proof.
    intro Hreg. destruct written_lookups as (_ & _ & _ & _ & _ & _ & Hr & _). unfold read_region. rewrite Hr. unfold wa_region.
    replace (w_has_region k) with (k_has_region k) by (destruct k; reflexivity).
    destruct (k_has_region k); [|reflexivity]. destruct region as [r|]; [|reflexivity].
    cbn [get_attr]. rewrite (proj2 (qname_eqb_eq A_region A_region) eq_refl), Hreg. reflexivity.
  Qed.

  Theorem written_begin : get_attr (x_attrs x) A_begin =
    if w_has_timing k then match b with Some v => to_time_format (w_syn cfg) (w_fps cfg) v | None => None end else None.
  Proof.
    destruct written_lookups as (_ & _ & _ & _ & _ & _ & _ & Hb & _). rewrite Hb. unfold wa_time.
    destruct (w_has_timing k); [|reflexivity]. rewrite get_attr_app, (time_attr_other cfg A_end e A_begin eq_refl). unfold time_attr.
    destruct b as [v|]; [|reflexivity]. destruct (to_time_format (w_syn cfg) (w_fps cfg) v); reflexivity.
  Qed.

  Theorem written_end : get_attr (x_attrs x) A_end =
    if w_has_timing k then match e with Some v => to_time_format (w_syn cfg) (w_fps cfg) v | None => None end else None.
  Proof.
    destruct written_lookups as (_ & _ & _ & _ & _ & _ & _ & _ & He & _). rewrite He. unfold wa_time.
    destruct (w_has_timing k); [|reflexivity]. rewrite get_attr_app, (time_attr_other cfg A_begin b A_end eq_refl). unfold time_attr.
    destruct e as [v|]; [|reflexivity]. destruct (to_time_format (w_syn cfg) (w_fps cfg) v); reflexivity.
  Qed.

  Theorem written_no_dur : get_attr (x_attrs x) A_dur = None /\ style_refs (x_attrs x) = [].
  Proof.
    destruct written_lookups as (_ & _ & _ & _ & _ & _ & _ & _ & _ & Hd & _ & Hs). unfold style_refs. rewrite Hs. split; [exact Hd|reflexivity].
  Qed.

  (* the content of a written element: the <set> elements of the animation steps first, then the children - none dropped, none
     reordered - and the character data of the Text children exactly where it was: before the first child element or after the
     element it followed *)
  Theorem written_children : w_has_children k = true ->
    exists content, x_children x = List.map (write_set cfg) anims ++ content /\
      norm (optl (x_text x) ++ flat_map items_of content) = norm (flat_map (arrive (write_node cfg (Some preserve))) cs).
  Proof.
    intro Hc. destruct written_shape as (tag & attrs0 & txt & kids & _ & Epl & ->). rewrite Hc in Epl.
    destruct (place_spec (write_node cfg (Some preserve)) (List.map (write_set cfg) anims) cs None [] false ltac:(discriminate) ltac:(reflexivity))
      as (txt' & content' & H1 & H2).
    cbn [app] in H1. rewrite H1 in Epl. inversion Epl; subst txt kids. cbn [x_children x_text].
    exists content'. split; [reflexivity|]. apply H2.
  Qed.

  (* an element without children of its own (br, region): only the <set> elements *)
  Theorem written_leaf : w_has_children k = false -> x_children x = List.map (write_set cfg) anims /\ x_text x = None.
  Proof.
    intro Hc. destruct written_shape as (tag & attrs0 & txt & kids & _ & Epl & ->). rewrite Hc in Epl.
    inversion Epl. split; reflexivity.
  Qed.
End Element.

(* every model element kind is written (KSet and KText are not kinds of model elements) *)
Lemma write_node_some cfg pp k id b e pr rg st an cs : k <> KSet -> k <> KText ->
  exists x, write_node cfg pp (WElem k id b e pr rg st an cs) = Some x.
Proof.
  intros H1 H2. cbn [write_node]. destruct (make_element k) as [[tag attrs0]|] eqn:Ek; [|destruct k; (discriminate || contradiction)].
  destruct (if w_has_children k then _ else _) as [txt kids]. eexists. reflexivity.
Qed.



(* non-vacuity: <span>A<span/>BC</span> from [Text A; Span; Text B; Text C] *)
Example placement_example :
  let cfg := mkWcfg SyClock None in
  let n := WElem KSpan None None None false None [] [] [WText [65]; WElem KSpan None None None false None [] [] []; WText [66]; WText [67]] in
  write_node cfg (Some false) n = Some (X T_span [] (Some [65]) None [X T_span [] None (Some [66; 67]) []]).
Proof. reflexivity. Qed.
