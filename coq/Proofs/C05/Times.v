(* C05, time expressions written by the IMSC writer and read back by the IMSC reader:
   frames syntax  "Nf" with N = ceil(t * fps): read back as N / fps, which is t when t is a whole number of frames, else
   later than t by less than one frame, and monotone in t;
   clock time "hh:mm:ss.mmm": a millisecond multiple below 100 h is read back exactly;
   clock time with frames "hh:mm:ss:ff" at an integer frame rate F: read back as floor(t * F) / F. *)
From TT Require Import Base.Prelude Base.ImscXml Model.ImscTime Model.TimeCode Model.ImscWrite Spec.TtmlTimingSpec.
From TT Require Import Proofs.C04.TimeSyntax Proofs.C12.Derived.
From Coq Require Import QArith Qround Lqa.
Local Open Scope Z_scope.

Fixpoint le_val (l : list Z) : Z := match l with [] => 0 | d :: l' => d + 10 * le_val l' end.

Lemma digits_rev_ok fuel : forall n, 0 <= n < 2 ^ Z.of_nat fuel ->
  le_val (digits_rev fuel n) = n /\ Forall (fun d => 0 <= d <= 9) (digits_rev fuel n).
Proof.
  induction fuel as [|k IH]; intros n H.
  - simpl in H. assert (n = 0) by lia. subst. split; [reflexivity|constructor].
  - cbn [digits_rev]. destruct (n <? 10) eqn:E.
    + split; [simpl; lia|]. constructor; [lia|constructor].
    + assert (Hk : 0 <= n / 10 < 2 ^ Z.of_nat k).
      { rewrite Nat2Z.inj_succ, Z.pow_succ_r in H by lia. split; [apply Z.div_pos; lia|].
        apply Z.div_lt_upper_bound; lia. }
      destruct (IH _ Hk) as [H1 H2]. split.
      * cbn [le_val]. rewrite H1. lia.
      * constructor; [lia|exact H2].
Qed.

Lemma nat_of_rev l : nat_of (rev l) = le_val l.
Proof.
  unfold nat_of. induction l as [|d l IH]; [reflexivity|].
  cbn [rev]. rewrite fold_left_app. cbn [fold_left le_val]. rewrite IH. lia.
Qed.

Lemma log2_bound n : 0 <= n -> n < 2 ^ Z.of_nat (S (Z.to_nat (Z.log2 n))).
Proof.
  intro H. destruct (Z.eq_dec n 0) as [->|Hn]; [reflexivity|].
  rewrite Nat2Z.inj_succ, Z2Nat.id by apply Z.log2_nonneg.
  apply Z.log2_spec. lia.
Qed.

Lemma nat_digits_ok n : 0 <= n ->
  nat_of (nat_digits n) = n /\ all_dec (nat_digits n) = true /\ is_nonempty_l (nat_digits n) = true.
Proof.
  intro H. unfold nat_digits.
  destruct (digits_rev_ok (S (Z.to_nat (Z.log2 n))) n (conj H (log2_bound n H))) as [H1 H2].
  split; [rewrite nat_of_rev; exact H1|]. split.
  - apply forallb_forall. intros d Hd. apply in_rev in Hd.
    rewrite Forall_forall in H2. specialize (H2 d Hd). unfold is_dec. lia.
  - cbn [digits_rev]. destruct (n <? 10); [reflexivity|]. cbn [rev]. destruct (rev _); reflexivity.
Qed.

Lemma print_nat_chrs n : print_nat n = chrs (nat_digits n).
Proof. reflexivity. Qed.

Definition frames_of (t fps : Q) : Z := let q := (t * fps)%Q in ceil_div (Qnum q) (Zpos (Qden q)).

(* math.ceil on a Fraction is the ceiling of the rationals; the laws below are those of Qceiling *)
Lemma ceil_div_Qceiling n d : ceil_div n (Zpos d) = Qceiling (n # d).
Proof. reflexivity. Qed.

Lemma frames_of_ceiling t fps : frames_of t fps = Qceiling (t * fps).
Proof. unfold frames_of. destruct (t * fps)%Q as [n d]. apply ceil_div_Qceiling. Qed.

Lemma frames_nonneg t fps : (0 <= t)%Q -> (0 < fps)%Q -> 0 <= frames_of t fps.
Proof.
  intros Ht Hf. rewrite frames_of_ceiling. change 0 with (Qceiling 0).
  apply Qceiling_resp_le, Qmult_le_0_compat; [exact Ht|apply Qlt_le_weak; exact Hf].
Qed.

Theorem time_frames t fps tr :
  (0 <= t)%Q -> (0 < fps)%Q ->
  exists s, to_time_format SyFrames (Some fps) t = Some s /\
            exists q, parse_time_x tr (Some fps) s = TVal q /\ (q == inject_Z (frames_of t fps) / fps)%Q.
Proof.
  intros Ht Hf. unfold to_time_format.
  replace (Qnum t <? 0) with false by (unfold Qle in Ht; cbn in Ht; lia).
  eexists. split; [reflexivity|].
  fold (frames_of t fps). pose proof (frames_nonneg t fps Ht Hf) as HN.
  unfold print_int. replace (frames_of t fps <? 0) with false by lia.
  destruct (nat_digits_ok _ HN) as (H1 & H2 & H3).
  change (print_nat (frames_of t fps) ++ [102]) with (print_time (TOffset (nat_digits (frames_of t fps)) [] Mf)).
  rewrite pt_f by (try assumption; try reflexivity; apply Qeq_bool_pos_false; exact Hf).
  eexists. split; [reflexivity|].
  rewrite (dec_value_number (nat_digits (frames_of t fps)) []). unfold number. rewrite H1.
  change (0 # 1) with 0%Q. rewrite Qplus_0_r. reflexivity.
Qed.

(* the frame count is the least integer not below t * fps: never earlier, later by less than one frame, exact on whole frames *)
Theorem frames_error t fps : (0 < fps)%Q ->
  let q := (inject_Z (frames_of t fps) / fps)%Q in (t <= q)%Q /\ (q - t < 1 / fps)%Q.
Proof.
  intro Hf. cbv zeta. rewrite frames_of_ceiling.
  pose proof (Qle_shift_div_l _ _ _ Hf (Qle_ceiling (t * fps))) as U.
  pose proof (Qlt_shift_div_r _ _ _ Hf (Qceiling_lt (t * fps))) as L.
  unfold Z.sub in L. rewrite inject_Z_plus in L. change (inject_Z (- (1))) with (- (1))%Q in L. unfold Qdiv in *. split; lra.
Qed.

Theorem frames_exact k fps : (0 < fps)%Q -> frames_of (inject_Z k / fps) fps = k.
Proof.
  intro Hf. rewrite frames_of_ceiling. rewrite <- (Qceiling_Z k) at 2. apply Qceiling_comp. field. lra.
Qed.

Theorem frames_monotone t1 t2 fps : (0 < fps)%Q -> (t1 <= t2)%Q -> frames_of t1 fps <= frames_of t2 fps.
Proof.
  intros Hf Ht. rewrite !frames_of_ceiling.
  apply Qceiling_resp_le, Qmult_le_compat_r; [exact Ht|apply Qlt_le_weak; exact Hf].
Qed.

Lemma two_digit_chrs n : 0 <= n < 100 ->
  exists a b, pad2 n = chrs [a; b] /\ is_dec a = true /\ is_dec b = true /\ nat_of [a; b] = n.
Proof.
  intro H. exists (n / 10), (n mod 10). rewrite pad2_two by lia. unfold is_dec, nat_of. cbn [fold_left]. repeat split; lia.
Qed.


Lemma three_digit_chrs n : 0 <= n < 1000 ->
  exists a b c, pad3 n = chrs [a; b; c] /\ is_dec a = true /\ is_dec b = true /\ is_dec c = true /\ nat_of [a; b; c] = n.
Proof.
  intro H. unfold pad3. do 3 rewrite digits_fuel_S.
  (* n = 10 q + c and q = 10 a + b: the tests and the digits are linear in these *)
  pose proof (Z.div_mod n 10 ltac:(lia)) as En. pose proof (Z.mod_pos_bound n 10 ltac:(lia)) as Bn.
  set (q := n / 10) in *. set (c := n mod 10) in *. clearbody q c.
  pose proof (Z.div_mod q 10 ltac:(lia)) as Eq. pose proof (Z.mod_pos_bound q 10 ltac:(lia)) as Bq.
  set (a := q / 10) in *. set (b := q mod 10) in *. clearbody a b.
  exists a, b, c. unfold is_dec, nat_of, chrs, chr, digit. cbn [fold_left List.map].
  split; [|lia].
  destruct (n <? 10) eqn:E1; [|destruct (n <? 100) eqn:E2; (destruct (q <? 10) eqn:E3; [|destruct (a <? 10) eqn:E4])];
    try lia; repeat (f_equal; try lia).
Qed.

Lemma all_dec_two a b : is_dec a = true -> is_dec b = true -> all_dec [a; b] = true.
Proof. intros A B. cbn. rewrite A, B. reflexivity. Qed.

Lemma clock_read h m s ms tr fr :
  0 <= h < 100 -> 0 <= m < 60 -> 0 <= s < 60 -> 0 <= ms < 1000 -> (0 < tr)%Q -> (0 < fr)%Q ->
  exists q, parse_time_x (Some tr) (Some fr) (print_clock 46 (h, m, s, ms)) = TVal q /\
            (q == inject_Z h * inject_Z 3600 + inject_Z m * inject_Z 60 + (inject_Z s + (ms # 1000)))%Q.
Proof.
  intros Hh Hm Hs Hms Htr Hfr.
  destruct (two_digit_chrs h) as (h1 & h2 & Ph & Dh1 & Dh2 & Nh); [lia|].
  destruct (two_digit_chrs m) as (m1 & m2 & Pm & Dm1 & Dm2 & Nm); [lia|].
  destruct (two_digit_chrs s) as (s1 & s2 & Ps & Ds1 & Ds2 & Ns); [lia|].
  destruct (three_digit_chrs ms Hms) as (a & b & c & Pms & Da & Db & Dc & Nms).
  pose proof (time_syntax (TClock [h1; h2] m1 m2 s1 s2 [a; b; c]) tr fr) as Hts.
  replace (print_time _) with (print_clock 46 (h, m, s, ms)) in Hts by (unfold print_clock; rewrite Ph, Pm, Ps, Pms; reflexivity).
  cbn [time_value wf_texpr all_dec forallb] in Hts. unfold number in Hts.
  rewrite Dh1, Dh2, Dm1, Dm2, Ds1, Ds2, Da, Db, Dc, Nh, Nm, Ns, Nms in Hts. specialize (Hts eq_refl Htr Hfr).
  destruct (parse_time_x _ _ _) as [q| |]; try contradiction. exists q. split; [reflexivity|exact Hts].
Qed.

Lemma round_he_exact k d : 0 < d -> round_he (k * d) d = k.
Proof.
  intro Hd. unfold round_he. rewrite Z.div_mul, Z.mod_mul by lia.
  replace (2 * 0 <? d) with true by lia. reflexivity.
Qed.

Theorem time_clock t k fps tr fr :
  (t == k # 1000)%Q -> 0 <= k < 360000000 -> (0 < tr)%Q -> (0 < fr)%Q ->
  exists s, to_time_format SyClock fps t = Some s /\
            exists q, parse_time_x (Some tr) (Some fr) s = TVal q /\ (q == t)%Q.
Proof.
  intros Ht Hk Htr Hfr.
  assert (Hnd : 1000 * Qnum t = k * Zpos (Qden t)) by (rewrite Z.mul_comm; exact Ht).
  assert (Hn0 : Qnum t <? 0 = false) by nia.
  exists (print_clock 46 (clock_fields k)). split.
  - unfold to_time_format, clock_from_seconds. rewrite Hn0. unfold clock_ms. rewrite Hnd, round_he_exact by lia.
    destruct fps; reflexivity.
  - pose proof (clock_fields_range k (proj1 Hk)) as Hf. destruct (clock_fields k) as [[[h m] s] ms].
    destruct Hf as (Hh & Hm & Hs & Hms & Hsum).
    destruct (clock_read h m s ms tr fr) as (q & Hq & Hv); try assumption; [lia|].
    exists q. split; [exact Hq|]. rewrite Hv, Ht. unfold Qeq, Qplus, Qmult, inject_Z. cbn [Qnum Qden]. lia.
Qed.

(* clock time with frames goes through SmpteTimeCode; at an integer frame rate that is its non-drop mode (label_of) *)
Lemma label_of_fields fps k : 0 < fps -> 0 <= k ->
  let '(h, m, s, f) := label_of fps k in
  0 <= h /\ 0 <= m < 60 /\ 0 <= s < 60 /\ 0 <= f < fps /\ ((h * 60 + m) * 60 + s) * fps + f = k /\
  forall N, k < N * 3600 * fps -> h < N.
Proof.
  intros Hf Hk. unfold label_of.
  replace (60 * 60 * fps) with (fps * 60 * 60) by ring. replace (60 * fps) with (fps * 60) by ring.
  rewrite <- !Z.div_div by lia.
  (* k = fps * q + f, q = 60 * q' + s, q' = 60 * h + m *)
  pose proof (Z.div_mod k fps ltac:(lia)) as E. pose proof (Z.mod_pos_bound k fps Hf) as B.
  assert (Hq : 0 <= k / fps) by (apply Z.div_pos; lia).
  assert (HN : forall N, k < N * 3600 * fps -> k / fps < N * 3600) by (intros N HN; apply Z.div_lt_upper_bound; lia).
  set (q := k / fps) in *. set (f := k mod fps) in *. clearbody q f.
  pose proof (Z.div_mod q 60 ltac:(lia)) as E'. pose proof (Z.mod_pos_bound q 60 ltac:(lia)) as B'.
  set (q' := q / 60) in *. set (s := q mod 60) in *. clearbody q' s.
  pose proof (Z.div_mod q' 60 ltac:(lia)) as E''. pose proof (Z.mod_pos_bound q' 60 ltac:(lia)) as B''.
  set (h := q' / 60) in *. set (m := q' mod 60) in *. clearbody h m.
  replace ((h * 60 + m) * 60 + s) with q by lia. repeat (split; [lia|]). intros N HkN. specialize (HN N HkN). lia.
Qed.

Lemma clock_frames_read h m s f F tr :
  0 <= h < 100 -> 0 <= m < 60 -> 0 <= s < 60 -> 0 <= f < F -> F <= 100 ->
  parse_time_x tr (Some (inject_Z F)) (print_tc (mkRate F 1) (h, m, s, f)) =
  TVal (inject_Z h * inject_Z 3600 + inject_Z m * inject_Z 60 + inject_Z s + inject_Z f / inject_Z F)%Q.
Proof.
  intros Hh Hm Hs Hf HF.
  destruct (two_digit_chrs h) as (h1 & h2 & Ph & Dh1 & Dh2 & Nh); [lia|].
  destruct (two_digit_chrs m) as (m1 & m2 & Pm & Dm1 & Dm2 & Nm); [lia|].
  destruct (two_digit_chrs s) as (s1 & s2 & Ps & Ds1 & Ds2 & Ns); [lia|].
  destruct (two_digit_chrs f) as (f1 & f2 & Pf & Df1 & Df2 & Nf); [lia|].
  pose proof (all_dec_two h1 h2 Dh1 Dh2) as Dh. pose proof (all_dec_two f1 f2 Df1 Df2) as Df.
  unfold print_tc. rewrite Ph, Pm, Ps, Pf.
  change (chrs [h1; h2] ++ _) with (chrs [h1; h2] ++ 58 :: ([chr m1; chr m2; 58; chr s1; chr s2; 58] ++ chrs [f1; f2])).
  rewrite (offsets_none_on_clock [h1; h2]) by (try reflexivity; assumption).
  change (chrs [h1; h2] ++ _) with (chrs [h1; h2] ++ [58; chr m1; chr m2; 58; chr s1; chr s2; 58] ++ chrs [f1; f2]).
  rewrite clock_frames_fraction_none, clock_frames_print by (try assumption; reflexivity).
  rewrite Nh, Nm, Ns, Nf.
  replace (Qle_bool (inject_Z F) (inject_Z f)) with false; [reflexivity|].
  symmetry. apply not_true_is_false. rewrite Qle_bool_iff, <- Zle_Qle. lia.
Qed.

(* an integer frame rate F up to 100 (the frames field has two digits): t >= 0 below 100 h is written hh:mm:ss:ff and read back,
   under the same frame rate, as floor(t * F) / F *)
Theorem time_clock_frames t F tr :
  0 < F <= 100 -> (0 <= t)%Q -> (t < 360000 # 1)%Q ->
  let k := (Qnum t * F) / (Zpos (Qden t) * 1) in
  exists s, to_time_format SyClockFrames (Some (inject_Z F)) t = Some s /\
            exists q, parse_time_x tr (Some (inject_Z F)) s = TVal q /\ (q == inject_Z k / inject_Z F)%Q.
Proof.
  intros HF Ht Hlt k.
  assert (Hn0 : 0 <= Qnum t) by (unfold Qle in Ht; cbn in Ht; lia).
  assert (Hk0 : 0 <= k) by (apply Z.div_pos; [apply Z.mul_nonneg_nonneg|]; lia).
  assert (Hklt : k < 100 * 3600 * F).
  { apply Z.div_lt_upper_bound; [lia|]. apply (Z.mul_lt_mono_pos_r F) in Hlt; [|lia]. cbn [Qnum Qden] in Hlt. lia. }
  unfold to_time_format. replace (Qnum t <? 0) with false by lia. cbn [Qnum Qden inject_Z].
  assert (Hfs : from_seconds (mkRate F 1) (Qnum t) (Zpos (Qden t)) = label_of F k).
  { unfold from_seconds, from_frames, adjust, is_df, ndf, ceil_div. cbn [rn rd]. rewrite Z.div_1_r, Z.opp_involutive. reflexivity. }
  rewrite Hfs.
  pose proof (label_of_fields F k ltac:(lia) Hk0) as Hl. destruct (label_of F k) as [[[h m] s] f].
  destruct Hl as (Hh & Hm & Hs & Hf & Hsum & Hlim). specialize (Hlim 100 Hklt).
  eexists. split; [reflexivity|].
  rewrite clock_frames_read by (try assumption; lia).
  eexists. split; [reflexivity|].
  rewrite <- Hsum. repeat (rewrite inject_Z_plus || rewrite inject_Z_mult). change (inject_Z 3600) with (inject_Z 60 * inject_Z 60)%Q.
  field. unfold Qeq, inject_Z. cbn [Qnum Qden]. lia.
Qed.

(* the value read back is never later than t and earlier by less than one frame *)
Theorem clock_frames_error t F : 0 < F ->
  let k := (Qnum t * F) / (Zpos (Qden t) * 1) in
  let q := (inject_Z k / inject_Z F)%Q in (q <= t)%Q /\ (t - q < 1 / inject_Z F)%Q.
Proof.
  intro HF. cbv zeta. change (Qnum t * F / (Zpos (Qden t) * 1)) with (Qfloor (t * inject_Z F)).
  assert (Hf : (0 < inject_Z F)%Q) by (change 0%Q with (inject_Z 0); rewrite <- Zlt_Qlt; exact HF).
  pose proof (Qle_shift_div_r _ _ _ Hf (Qfloor_le (t * inject_Z F))) as L.
  pose proof (Qlt_shift_div_l _ _ _ Hf (Qlt_floor (t * inject_Z F))) as U.
  rewrite inject_Z_plus in U. unfold Qdiv in *. change (inject_Z 1) with 1%Q in U. split; lra.
Qed.

(* ttp:frameRate / ttp:frameRateMultiplier as the writer writes them and the reader reads them, for the seven frame rates of the
   property *)
Definition written_rate_attrs (fps : Q) : list (qname * text) :=
  let '(fr, m) := print_frame_rate fps in
  (A_frameRate, fr) :: match m with Some s => [(A_frameRateMultiplier, s)] | None => [] end.
Definition rate_roundtrip (fps : Q) : bool :=
  Qeq_bool (extract_frame_rate (written_rate_attrs fps)) fps.
Lemma frame_rate_roundtrip :
  forallb rate_roundtrip [24 # 1; 25 # 1; 30 # 1; 50 # 1; 60 # 1; 24000 # 1001; 30000 # 1001]%Q = true.
Proof. vm_compute. reflexivity. Qed.
