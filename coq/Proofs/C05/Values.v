(* C05, attribute round trips: what the reader's value parsers make of what the writer's value printers produce
   (Model/ImscWrite.v), for all valid values: enumerations (16 properties, decided on the regenerated tables),
   colours, lengths (to_ttml_number: six significant digits as in Python's "g" formatting, but never in exponent notation; every
   rational is reproduced rounded to six significant digits), and the properties whose value is a sequence of these separated by
   spaces or commas: each component is printed as a word (no white space, no comma), so the reader's splitters give the
   components back and every property reduces to the round trips of its components. *)
From TT Require Import Base.Prelude Base.ImscXml Model.ImscTime Model.TimeCode Model.ImscWrite Gen.ImscTables Spec.TtmlTimingSpec.
From TT Require Import Spec.TtmlColorSpec Proofs.C04.Color Proofs.C04.TimeSyntax Proofs.C05.Times Proofs.C12.Derived.
From Coq Require Import QArith Qabs Lqa.
Local Open Scope Z_scope.

(* selects the branch of extract_style for the concrete property of the goal *)
Ltac at_property :=
  unfold read_style, extract_style;
  cbn [Z.eqb Pos.eqb orb P_BackgroundColor P_Color P_Direction P_Disparity P_Display P_DisplayAlign P_Extent
    P_FillLineGap P_FontFamily P_FontSize P_FontStyle P_FontWeight P_LineHeight P_LinePadding P_LuminanceGain
    P_MultiRowAlign P_Opacity P_Origin P_Overflow P_Padding P_Position P_RubyAlign P_RubyPosition P_RubyReserve P_Shear
    P_ShowBackground P_TextAlign P_TextCombine P_TextDecoration P_TextEmphasis P_TextOutline P_TextShadow P_UnicodeBidi
    P_Visibility P_WrapOption P_WritingMode].

Definition enum_row_ok (p : Z) (row : list Z * Z * list Z) : bool :=
  let '(_, o, v) := row in
  match extract_style p v with Some (SEnum o') => o' =? o | _ => false end.
Definition enum_rows_ok (p : Z) : bool :=
  match enum_table p with Some t => forallb (enum_row_ok p) t | None => true end.

Definition enum_props : list Z :=
  [P_Direction; P_Display; P_DisplayAlign; P_FontStyle; P_FontWeight; P_MultiRowAlign; P_Overflow; P_RubyAlign;
   P_RubyPosition; P_ShowBackground; P_TextAlign; P_TextCombine; P_UnicodeBidi; P_Visibility; P_WrapOption; P_WritingMode].

Lemma enum_tables_ok : forallb enum_rows_ok enum_props = true.
Proof. vm_compute. reflexivity. Qed.

Lemma enum_table_props p t : enum_table p = Some t -> existsb (Z.eqb p) enum_props = true.
Proof. unfold enum_table, enum_props, existsb. repeat (destruct (p =? _); [reflexivity|]). discriminate. Qed.

Lemma enum_value_in t : forall o s, enum_value t o = Some s -> exists n, In (n, o, s) t.
Proof.
  induction t as [|[[n o'] v] t IH]; intros o s H; [discriminate|]. cbn [enum_value] in H.
  destruct (o' =? o) eqn:E.
  - inversion H; subst. apply Z.eqb_eq in E. subst. exists n. left. reflexivity.
  - destruct (IH _ _ H) as [n' Hin]. exists n'. right. exact Hin.
Qed.

Theorem enum_roundtrip p o s :
  print_style p (SEnum o) = WAttr s -> read_style p s = Some (SEnum o).
Proof.
  cbn [print_style]. destruct (enum_table p) as [t|] eqn:Et; [|discriminate].
  destruct (enum_value t o) as [s'|] eqn:Ev; [|discriminate]. intro H. inversion H; subst s'. clear H.
  destruct (proj1 (existsb_exists _ _) (enum_table_props p t Et)) as (p' & Hin & Hp). apply Z.eqb_eq in Hp. subst p'.
  pose proof (proj1 (forallb_forall _ _) enum_tables_ok p Hin) as Hall.
  unfold enum_rows_ok in Hall. rewrite Et, forallb_forall in Hall.
  destruct (enum_value_in t o s Ev) as [n Hrow]. specialize (Hall _ Hrow). unfold enum_row_ok in Hall.
  unfold read_style. destruct (extract_style p s) as [[]|]; try discriminate. apply Z.eqb_eq in Hall. subst. reflexivity.
Qed.

Theorem bool_roundtrip b : exists s, print_style P_FillLineGap (SBool b) = WAttr s /\ read_style P_FillLineGap s = Some (SBool b).
Proof. destruct b; eexists; split; reflexivity. Qed.

Lemma hexval_hexd d : 0 <= d < 16 -> hexval (hexd d) = Some d.
Proof.
  intro H. unfold hexd, hexval. destruct (d <? 10) eqn:E.
  - replace ((48 <=? 48 + d) && (48 + d <=? 57)) with true by lia. f_equal. lia.
  - replace ((48 <=? 87 + d) && (87 + d <=? 57)) with false by lia.
    replace ((97 <=? 87 + d) && (87 + d <=? 102)) with true by lia. f_equal. lia.
Qed.

Lemma hexpair_hex2 c : 0 <= c < 256 -> hexpair (hexd (c / 16)) (hexd (c mod 16)) = Some c.
Proof.
  intro H. unfold hexpair. rewrite !hexval_hexd by lia. f_equal. lia.
Qed.

Lemma not_named rest : assoc_color named_colors (List.map lower (35 :: rest)) = None.
Proof. reflexivity. Qed.

Definition byte (c : Z) : Prop := 0 <= c < 256.

Theorem color_roundtrip r g b a : byte r -> byte g -> byte b -> byte a ->
  parse_color (print_color (r, g, b, a)) = Some (r, g, b, a).
Proof.
  intros Hr Hg Hb Ha. unfold print_color, hex2. cbn [app]. unfold parse_color. rewrite not_named.
  cbn [strip_prefix]. change (35 =? 35) with true. cbv iota.
  destruct (a =? 255) eqn:E.
  - apply Z.eqb_eq in E. subst a. cbn [hex_color]. unfold hex_color.
    rewrite (hexpair_hex2 r Hr), (hexpair_hex2 g Hg), (hexpair_hex2 b Hb). reflexivity.
  - cbn [app]. unfold hex_color. rewrite (hexpair_hex2 r Hr), (hexpair_hex2 g Hg), (hexpair_hex2 b Hb), (hexpair_hex2 a Ha). reflexivity.
Qed.

(* what the writer prints for a colour is a strict TTML2 <color> (Spec/TtmlColorSpec.v: "#rrggbb" or "#rrggbbaa", no white space) that
   denotes the colour *)
Theorem print_color_ttml r g b a : byte r -> byte g -> byte b -> byte a -> ttml_color (print_color (r, g, b, a)) (r, g, b, a).
Proof.
  intros Hr Hg Hb Ha.
  assert (P : forall c, byte c -> is_hex_pair (hexd (c / 16), hexd (c mod 16)) = true /\ hex_pair_value (hexd (c / 16), hexd (c mod 16)) = c).
  { intros c Hc. pose proof (hexpair_hex2 c Hc) as H. rewrite hexpair_spec in H.
    destruct (is_hex_pair (hexd (c / 16), hexd (c mod 16))); [|discriminate]. split; [reflexivity|congruence]. }
  destruct (P r Hr) as [Wr Vr], (P g Hg) as [Wg Vg], (P b Hb) as [Wb Vb], (P a Ha) as [Wa Va].
  unfold print_color, hex2. destruct (a =? 255) eqn:E.
  - apply Z.eqb_eq in E. subst a.
    exists (AHex6 (hexd (r / 16), hexd (r mod 16)) (hexd (g / 16), hexd (g mod 16)) (hexd (b / 16), hexd (b mod 16))).
    repeat split; [cbn [wf_color]; rewrite Wr, Wg, Wb; reflexivity|cbn [denote]; rewrite Vr, Vg, Vb; reflexivity].
  - exists (AHex8 (hexd (r / 16), hexd (r mod 16)) (hexd (g / 16), hexd (g mod 16)) (hexd (b / 16), hexd (b mod 16)) (hexd (a / 16), hexd (a mod 16))).
    repeat split; [cbn [wf_color]; rewrite Wr, Wg, Wb, Wa; reflexivity|cbn [denote]; rewrite Vr, Vg, Vb, Va; reflexivity].
Qed.

Lemma read_color p s : p = P_Color \/ p = P_BackgroundColor ->
  read_style p s = match parse_color s with Some c => Some (SColor c) | None => None end.
Proof. intros [-> | ->]; at_property; destruct (parse_color s); reflexivity. Qed.

(* the colour properties: the reader stores a value for exactly the colour expressions of the grammar, and stores what they denote *)
Theorem color_read_iff p s v : p = P_Color \/ p = P_BackgroundColor ->
  (read_style p s = Some v <-> exists c, v = SColor c /\ color_expr s c).
Proof.
  intro Hp. rewrite (read_color p s Hp). split.
  - destruct (parse_color s) as [c|] eqn:Pc; [|discriminate]. intro H. inversion H; subst v. exists c. split; [reflexivity|].
    apply parse_color_sound. exact Pc.
  - intros (c & -> & Hc). rewrite (parse_color_complete _ _ Hc). reflexivity.
Qed.

Theorem color_style_roundtrip r g b a : byte r -> byte g -> byte b -> byte a ->
  read_style P_Color (print_color (r, g, b, a)) = Some (SColor (r, g, b, a)) /\
  print_style P_Color (SColor (r, g, b, a)) = WAttr (print_color (r, g, b, a)).
Proof. intros. split; [|reflexivity]. rewrite read_color, color_roundtrip by auto. reflexivity. Qed.

(* tts:backgroundColor: written unless transparent (finding transparent-background) *)
Theorem background_roundtrip_partial r g b a : byte r -> byte g -> byte b -> byte a -> color_eqb (r, g, b, a) transparent = false ->
  print_style P_BackgroundColor (SColor (r, g, b, a)) = WAttr (print_color (r, g, b, a)) /\
  read_style P_BackgroundColor (print_color (r, g, b, a)) = Some (SColor (r, g, b, a)).
Proof.
  intros Hr Hg Hb Ha Ht. split.
  - unfold print_style. rewrite Ht. reflexivity.
  - rewrite read_color, color_roundtrip by auto. reflexivity.
Qed.

(* the characters of what the value printers produce for one component: graphic ASCII except the comma; none of them is a separator
   for str.split(" "), str.split(",") or str.split() *)
Definition wordc (c : Z) : bool := (33 <=? c) && (c <=? 126) && negb (c =? 44).
Definition word (s : text) : bool := is_nonempty_l s && forallb wordc s.
Definition free (sep : Z) (s : text) : bool := forallb (fun c => negb (c =? sep)) s.

Lemma word_free sep s : wordc sep = false -> word s = true -> free sep s = true.
Proof.
  intros Hs H. apply andb_true_iff in H as [_ H]. unfold free. rewrite forallb_forall in *. intros c Hc. specialize (H c Hc).
  apply negb_true_iff, Z.eqb_neq. intros ->. congruence.
Qed.

Lemma word_app a b : word a = true -> forallb wordc b = true -> word (a ++ b) = true.
Proof.
  intros Ha Hb. apply andb_true_iff in Ha as [Hn Ha]. unfold word. rewrite forallb_app, Ha, Hb. destruct a; [discriminate|reflexivity].
Qed.

(* str.split(sep): characters other than the separator accumulate in the current item *)
Lemma split_free sep a : free sep a = true -> forall rest cur, split_on sep (a ++ rest) cur = split_on sep rest (cur ++ a).
Proof.
  induction a as [|c a IH]; intros H rest cur; [rewrite app_nil_r; reflexivity|].
  apply andb_true_iff in H as [H1 H2]. apply negb_true_iff in H1. cbn [app split_on]. rewrite H1, (IH H2), <- app_assoc. reflexivity.
Qed.

(* items joined by the separator followed by pre: the first item comes back as it is, the others with pre in front *)
Lemma split_join sep pre ws : free sep pre = true -> Forall (fun x => free sep x = true) ws ->
  forall w cur, free sep w = true ->
  split_on sep (join_with (sep :: pre) (w :: ws)) cur = (cur ++ w) :: List.map (app pre) ws.
Proof.
  intros Hpre. induction 1 as [|w2 ws H2 _ IH]; intros w cur Hw.
  - cbn [join_with List.map]. rewrite <- (app_nil_r w) at 1. apply (split_free sep w Hw).
  - change (join_with (sep :: pre) (w :: w2 :: ws)) with (w ++ sep :: pre ++ join_with (sep :: pre) (w2 :: ws)).
    rewrite (split_free sep w Hw). cbn [split_on]. rewrite Z.eqb_refl, (split_free sep pre Hpre), (IH w2 _ H2). reflexivity.
Qed.

Lemma split_sp_join w ws : Forall (fun x => word x = true) (w :: ws) -> split_on 32 (join_with sp (w :: ws)) [] = w :: ws.
Proof.
  intro H. assert (F : Forall (fun x => free 32 x = true) (w :: ws)) by (revert H; apply Forall_impl; intro; apply word_free; reflexivity).
  inversion F; subst. unfold sp. rewrite (split_join 32 []) by (reflexivity || assumption).
  cbn [app]. f_equal. rewrite <- (map_id ws) at 2. apply map_ext. reflexivity.
Qed.

Lemma split_sp_word w : word w = true -> split_on 32 w [] = [w].
Proof. intro H. apply (split_sp_join w []). repeat constructor. exact H. Qed.

(* str.split(): the same for a word, which is not empty when a white space character ends it *)
Lemma split_ws_word a : forallb wordc a = true -> forall rest cur, split_ws (a ++ rest) cur = split_ws rest (cur ++ a).
Proof.
  induction a as [|c a IH]; intros H rest cur; [rewrite app_nil_r; reflexivity|].
  apply andb_true_iff in H as [H1 H2]. cbn [app split_ws]. unfold wordc in H1.
  replace ((c =? 32) || ((9 <=? c) && (c <=? 13)) || ((28 <=? c) && (c <=? 31)) || (c =? 133) || (c =? 160)) with false by lia.
  rewrite (IH H2), <- app_assoc. reflexivity.
Qed.

Lemma split_ws_join ws : Forall (fun x => word x = true) ws -> forall w, word w = true -> split_ws (join_with sp (w :: ws)) [] = w :: ws.
Proof.
  induction 1 as [|w2 ws H2 _ IH]; intros w Hw; apply andb_true_iff in Hw as [Hn Hw].
  - cbn [join_with]. rewrite <- (app_nil_r w) at 1. rewrite (split_ws_word w Hw). destruct w; [discriminate|reflexivity].
  - change (join_with sp (w :: w2 :: ws)) with (w ++ 32 :: join_with sp (w2 :: ws)).
    rewrite (split_ws_word w Hw). destruct w as [|c w]; [discriminate|].
    change (split_ws (32 :: ?r) ([] ++ c :: w)) with ((c :: w) :: split_ws r []). rewrite (IH w2 H2). reflexivity.
Qed.

(* a string the parser accepts is not a keyword the parser rejects *)
Lemma not_keyword {A} (f : text -> option A) s k v : f s = Some v -> f k = None -> text_eqb s k = false.
Proof. intros Hs Hk. destruct (text_eqb s k) eqn:E; [|reflexivity]. apply text_eqb_eq in E. congruence. Qed.

Lemma spaced_not_keyword a b k : free 32 k = true -> text_eqb (a ++ 32 :: b) k = false.
Proof.
  intro Hk. destruct (text_eqb (a ++ 32 :: b) k) eqn:E; [|reflexivity]. apply text_eqb_eq in E. subst k.
  unfold free in Hk. rewrite forallb_app in Hk. cbn in Hk. rewrite andb_false_r in Hk. discriminate.
Qed.

Lemma dchars_chrs l : dchars l = chrs l.
Proof. reflexivity. Qed.

Definition unit_ok (u : Z) : bool :=
  match unit_text u with
  | c :: _ =>
      negb (is_digit c) && negb (c =? 46) &&
      match match_unit length_units (unit_text u) with Some t => text_eqb t (unit_text u) | None => false end &&
      match enum_by_value enum_LengthUnits (unit_text u) with Some o => o =? u | None => false end &&
      forallb wordc (unit_text u)
  | [] => false
  end.
Lemma units_ok : forallb unit_ok [0; 1; 2; 3; 4; 5] = true.
Proof. vm_compute. reflexivity. Qed.
Lemma unit_ok_of u : 0 <= u <= 5 -> unit_ok u = true.
Proof. intro H. apply (proj1 (forallb_forall _ _) units_ok). cbn [In]. lia. Qed.

Definition fv (l : list Z) : Q := Qmake (nat_of l) (ten_to (length l)).

Lemma nat_of_cons d l : nat_of (d :: l) = d * Zpos (ten_to (length l)) + nat_of l.
Proof. unfold nat_of. cbn [fold_left]. rewrite fold_shift. lia. Qed.

Lemma fv_cons d l : (fv (d :: l) == inject_Z d / 10 + fv l / 10)%Q.
Proof.
  unfold fv. rewrite nat_of_cons. cbn [length ten_to].
  unfold Qeq, Qdiv, Qplus, Qmult, Qinv, inject_Z. cbn [Qnum Qden]. lia.
Qed.

Lemma fv_nil : (fv [] == 0)%Q.
Proof. reflexivity. Qed.

Lemma rstrip0_fv l : (fv (rstrip0 l) == fv l)%Q.
Proof.
  induction l as [|d l IH]; [reflexivity|].
  cbn [rstrip0]. destruct (rstrip0 l) as [|r rs] eqn:E.
  - rewrite fv_cons. rewrite <- IH, fv_nil.
    destruct (d =? 0) eqn:Ed.
    + apply Z.eqb_eq in Ed. subst d. rewrite fv_nil. reflexivity.
    + rewrite fv_cons, fv_nil. reflexivity.
  - rewrite (fv_cons d (r :: rs)), (fv_cons d l), IH. reflexivity.
Qed.

Lemma rstrip0_dec l : all_dec l = true -> all_dec (rstrip0 l) = true.
Proof.
  induction l as [|d l IH]; [reflexivity|]. unfold all_dec in *. cbn [forallb rstrip0]. intro H.
  apply andb_true_iff in H as [H1 H2]. specialize (IH H2).
  destruct (rstrip0 l) as [|r rs].
  - destruct (d =? 0); [reflexivity|]. cbn [forallb]. rewrite H1. reflexivity.
  - cbn [forallb] in IH |- *. rewrite H1. exact IH.
Qed.

Lemma pow10z_pos k : 0 < pow10z k.
Proof. unfold pow10z. lia. Qed.

Lemma frac_digits_spec p : forall F, 0 <= F < pow10z p ->
  nat_of (frac_digits p F) = F /\ length (frac_digits p F) = p /\ all_dec (frac_digits p F) = true.
Proof.
  induction p as [|k IH]; intros F H.
  - cbn in H. assert (F = 0) by (unfold pow10z in H; simpl in H; lia). subst. repeat split; reflexivity.
  - cbn [frac_digits]. change (pow10z (S k)) with (10 * pow10z k) in H. pose proof (pow10z_pos k) as Hp.
    pose proof (Z.div_mod F (pow10z k) ltac:(lia)) as E. pose proof (Z.mod_pos_bound F (pow10z k) Hp) as Hm.
    assert (Hq : 0 <= F / pow10z k < 10) by (split; [apply Z.div_pos|apply Z.div_lt_upper_bound]; lia).
    destruct (IH _ Hm) as (H1 & H2 & H3). set (q := F / pow10z k) in *. set (r := F mod pow10z k) in *. clearbody q r.
    split; [|split].
    + rewrite nat_of_cons, H1, H2. replace (Zpos (ten_to k)) with (pow10z k) by (unfold pow10z; rewrite pow10_ten_to; reflexivity). lia.
    + cbn [length]. rewrite H2. reflexivity.
    + unfold all_dec in *. cbn [forallb]. rewrite H3. unfold is_dec. lia.
Qed.


Lemma round6_parts_sig x : let '(_, sig, _) := round6_parts x in 0 <= sig.
Proof.
  unfold round6_parts. destruct (Qnum x =? 0); [lia|].
  set (E := dec_exponent (Z.abs (Qnum x)) (Zpos (Qden x))).
  pose proof (pow10z_pos (Z.to_nat (5 - E))) as P1. pose proof (pow10z_pos (Z.to_nat (- (5 - E)))) as P2.
  destruct (0 <=? 5 - E).
  - set (sg := round_he _ _). assert (0 <= sg) by (apply round_he_nonneg; nia). destruct (sg =? 1000000); lia.
  - set (sg := round_he _ _). assert (0 <= sg) by (apply round_he_nonneg; nia). destruct (sg =? 1000000); lia.
Qed.

Definition fixed_value (neg : bool) (ip : Z) (fr : list Z) : Q :=
  let v := dec_value (print_nat ip) (dchars fr) in if neg then (- v)%Q else v.

Lemma fixed_value_eq neg ip fr : 0 <= ip ->
  (fixed_value neg ip fr == if neg then - (inject_Z ip + fv fr) else inject_Z ip + fv fr)%Q.
Proof.
  intro HI. unfold fixed_value. change (print_nat ip) with (chrs (nat_digits ip)). change (dchars fr) with (chrs fr). cbv zeta.
  destruct (nat_digits_ok ip HI) as [Hn _]. destruct neg; rewrite dec_value_number; unfold number; rewrite Hn; reflexivity.
Qed.

(* the optional sign and the integer digits of a number in fixed notation, as both number parsers scan them *)
Lemma scan_signed (neg : bool) ip tail : 0 <= ip -> not_digit_head tail ->
  exists d ds, print_nat ip = chrs (d :: ds) /\
    split_sign ((if neg then [45] else []) ++ print_nat ip ++ tail) = (neg, print_nat ip ++ tail) /\
    span_digits (print_nat ip ++ tail) = (print_nat ip, tail).
Proof.
  intros HI Ht. destruct (nat_digits_ok ip HI) as (_ & Hdec & Hne). rewrite print_nat_chrs.
  destruct (nat_digits ip) as [|d ds]; [discriminate|]. exists d, ds. split; [reflexivity|]. split.
  - destruct neg; [reflexivity|]. apply andb_true_iff in Hdec as [Hd _]. unfold is_dec in Hd.
    cbn [app chrs List.map split_sign]. unfold chr.
    replace (48 + d =? 43) with false by lia. replace (48 + d =? 45) with false by lia. reflexivity.
  - apply span_digits_chrs; assumption.
Qed.

Lemma parse_fixed (neg : bool) ip fr u : 0 <= ip -> all_dec fr = true -> 0 <= u <= 5 ->
  parse_len (print_fixed neg ip fr ++ unit_text u) = Some (mkLen (fixed_value neg ip fr) u).
Proof.
  intros HI Hfr Hu. pose proof (unit_ok_of u Hu) as Huo. unfold unit_ok in Huo.
  destruct (unit_text u) as [|uc ur]; [discriminate|].
  apply andb_true_iff in Huo as [Huo _]. apply andb_true_iff in Huo as [Huo Hen]. apply andb_true_iff in Huo as [Huo Hmu].
  apply andb_true_iff in Huo as [Hnd Hn46]. apply negb_true_iff in Hnd, Hn46.
  unfold print_fixed. rewrite <- !app_assoc.
  set (tail := (match fr with [] => [] | _ :: _ => 46 :: dchars fr end) ++ uc :: ur).
  assert (Htail : not_digit_head tail) by (unfold tail; destruct fr; [exact Hnd|reflexivity]).
  destruct (scan_signed neg ip tail HI Htail) as (d & ds & Ed & Hsign & Hspan).
  unfold parse_len. rewrite Hsign, Hspan.
  assert (Hfrac : split_frac tail = (dchars fr, uc :: ur)).
  { unfold tail. destruct fr as [|f fr']; cbn [app split_frac].
    - rewrite Hn46. reflexivity.
    - replace (46 =? 46) with true by reflexivity.
      rewrite dchars_chrs, (span_digits_chrs (f :: fr') (uc :: ur) Hfr Hnd). reflexivity. }
  rewrite Hfrac.
  destruct (match_unit length_units (uc :: ur)) as [t|]; [|discriminate]. apply text_eqb_eq in Hmu. subst t.
  destruct (enum_by_value enum_LengthUnits (uc :: ur)) as [o|]; [|discriminate]. apply Z.eqb_eq in Hen. subst o.
  unfold fixed_value. rewrite Ed. reflexivity.
Qed.

Lemma parse_float_fixed neg ip fr : 0 <= ip -> all_dec fr = true ->
  parse_float (print_fixed neg ip fr) = Some (fixed_value neg ip fr).
Proof.
  intros HI Hfr. unfold print_fixed.
  set (tail := match fr with [] => [] | _ :: _ => 46 :: dchars fr end).
  assert (Htail : not_digit_head tail) by (unfold tail; destruct fr; [exact I|reflexivity]).
  destruct (scan_signed neg ip tail HI Htail) as (d & ds & Ed & Hsign & Hspan).
  unfold parse_float, fixed_value. rewrite Hsign, Hspan, Ed. unfold tail. destruct fr as [|f fr']; [reflexivity|].
  replace (46 =? 46) with true by reflexivity. rewrite dchars_chrs.
  replace (chrs (f :: fr')) with (chrs (f :: fr') ++ []) at 1 by apply app_nil_r.
  rewrite (span_digits_chrs (f :: fr') [] Hfr I). reflexivity.
Qed.

Lemma print_num_spec x : exists neg ip fr,
  print_num x = print_fixed neg ip fr /\ 0 <= ip /\ all_dec fr = true /\ (fixed_value neg ip fr == round6 x)%Q.
Proof.
  unfold print_num, round6. pose proof (round6_parts_sig x) as Hs.
  destruct (round6_parts x) as [[neg sig] ex]. unfold fixed_parts.
  destruct (0 <? ex) eqn:Epos.
  - (* an integer: sig * 10^ex *)
    exists neg, (sig * pow10z (Z.to_nat ex)), []. pose proof (pow10z_pos (Z.to_nat ex)) as Hp.
    assert (HI : 0 <= sig * pow10z (Z.to_nat ex)) by nia.
    split; [reflexivity|]. split; [exact HI|]. split; [reflexivity|].
    rewrite (fixed_value_eq _ _ _ HI). replace (0 <=? ex) with true by lia.
    destruct neg; unfold fv, Qeq, Qopp, Qplus, inject_Z; cbn [Qnum Qden nat_of fold_left length ten_to]; lia.
  - set (p := Z.to_nat (- ex)). set (ip := sig / pow10z p). set (F := sig mod pow10z p).
    pose proof (pow10z_pos p) as Hp.
    assert (HF : 0 <= F < pow10z p) by (apply Z.mod_pos_bound; lia).
    assert (HI : 0 <= ip) by (apply Z.div_pos; lia).
    destruct (frac_digits_spec p F HF) as (Fn & Fl & Fd).
    exists neg, ip, (rstrip0 (frac_digits p F)). split; [reflexivity|]. split; [exact HI|]. split; [exact (rstrip0_dec _ Fd)|].
    (* the digits denote ip + F / 10^p = sig / 10^p *)
    assert (Hv : (inject_Z ip + fv (rstrip0 (frac_digits p F)) == Qmake sig (pow10 p))%Q).
    { rewrite rstrip0_fv. unfold fv. rewrite Fn, Fl, <- (pow10_ten_to p).
      unfold Qeq, Qplus, inject_Z. cbn [Qnum Qden]. rewrite Pos.mul_1_l. fold (pow10z p).
      pose proof (Z.div_mod sig (pow10z p) ltac:(lia)) as Hdm. fold ip F in Hdm.
      set (P := pow10z p) in *. clearbody P ip F. rewrite Hdm. ring. }
    rewrite (fixed_value_eq _ _ _ HI). clear HF HI Fn Fl Fd. clearbody ip F. destruct (0 <=? ex) eqn:E0.
    + assert (ex = 0) by lia. subst ex.
      destruct neg; rewrite Hv; change (pow10 p) with 1%positive; change (pow10z (Z.to_nat 0)) with 1;
        unfold Qeq, Qopp, inject_Z; cbn [Qnum Qden]; lia.
    + destruct neg; rewrite Hv; unfold Qeq, Qopp; cbn [Qnum Qden]; lia.
Qed.

Lemma dchars_wordc l : all_dec l = true -> forallb wordc (dchars l) = true.
Proof.
  unfold dchars. induction l as [|d l IH]; [reflexivity|]. unfold all_dec in *. cbn [forallb List.map]. intro H.
  apply andb_true_iff in H as [H1 H2]. rewrite (IH H2), andb_true_r. unfold is_dec in H1. unfold wordc. lia.
Qed.

Lemma print_fixed_word neg ip fr : 0 <= ip -> all_dec fr = true -> word (print_fixed neg ip fr) = true.
Proof.
  intros HI Hfr. destruct (nat_digits_ok ip HI) as (_ & Hdec & Hne). unfold print_fixed, word.
  rewrite !forallb_app. change (print_nat ip) with (dchars (nat_digits ip)). rewrite (dchars_wordc _ Hdec).
  replace (forallb wordc match fr with [] => [] | _ :: _ => 46 :: dchars fr end) with true
    by (destruct fr; [reflexivity|]; cbn [forallb]; rewrite (dchars_wordc _ Hfr); reflexivity).
  destruct neg, (nat_digits ip); try discriminate; reflexivity.
Qed.

Lemma print_color_word r g b a : byte r -> byte g -> byte b -> byte a -> word (print_color (r, g, b, a)) = true.
Proof.
  intros Hr Hg Hb Ha. unfold print_color, hex2, word.
  assert (Hh : forall d, 0 <= d < 16 -> wordc (hexd d) = true).
  { intros d Hd. unfold hexd, wordc. destruct (d <? 10); lia. }
  assert (H16 : forall c, byte c -> 0 <= c / 16 < 16 /\ 0 <= c mod 16 < 16) by (unfold byte; intros; lia).
  destruct (H16 r Hr), (H16 g Hg), (H16 b Hb), (H16 a Ha).
  destruct (a =? 255); cbn [app forallb is_nonempty_l]; rewrite !Hh by assumption; reflexivity.
Qed.

Definition valid_len (l : len) : Prop := 0 <= l_unit l <= 5.
Definition len_equiv (l l' : len) : Prop := l_unit l' = l_unit l /\ (l_val l' == round6 (l_val l))%Q.

Lemma len_word l : valid_len l -> word (print_len l) = true /\ exists l', parse_len (print_len l) = Some l' /\ len_equiv l l'.
Proof.
  destruct l as [x u]. unfold valid_len, print_len. cbn [l_val l_unit]. intro Hu.
  destruct (print_num_spec x) as (neg & ip & fr & Hp & HI & Hfr & Hv). rewrite Hp. split.
  - apply word_app; [apply print_fixed_word; assumption|]. pose proof (unit_ok_of u Hu) as Huo. unfold unit_ok in Huo.
    destruct (unit_text u); [discriminate|]. apply andb_true_iff in Huo as [_ Huo]. exact Huo.
  - rewrite (parse_fixed neg ip fr u HI Hfr Hu). eexists. split; [reflexivity|]. split; [reflexivity|exact Hv].
Qed.

Theorem len_roundtrip x u : 0 <= u <= 5 ->
  exists v, parse_len (print_len (mkLen x u)) = Some (mkLen v u) /\ (v == round6 x)%Q.
Proof.
  intro Hu. destruct (len_word (mkLen x u) Hu) as (_ & [v u'] & H1 & H2 & H3). cbn [l_unit l_val] in *. subst u'.
  exists v. split; assumption.
Qed.

Theorem length_property_roundtrip p l : p = P_FontSize \/ p = P_Disparity -> valid_len l ->
  print_style p (SLen l) = WAttr (print_len l) /\
  exists l', read_style p (print_len l) = Some (SLen l') /\ len_equiv l l'.
Proof.
  intros Hp Hv. split; [reflexivity|]. destruct (len_word l Hv) as (_ & l' & H1 & H2). exists l'. split; [|exact H2].
  destruct Hp as [-> | ->]; at_property; rewrite H1; reflexivity.
Qed.

Theorem line_height_roundtrip l : valid_len l ->
  read_style P_LineHeight T_normal = Some SNormal /\ print_style P_LineHeight SNormal = WAttr T_normal /\
  exists l', read_style P_LineHeight (print_len l) = Some (SLen l') /\ len_equiv l l'.
Proof.
  intro Hv. split; [reflexivity|]. split; [reflexivity|].
  destruct (len_word l Hv) as (_ & l' & H1 & H2). exists l'. split; [|exact H2].
  at_property. rewrite (not_keyword parse_len _ T_normal l' H1 eq_refl), H1. reflexivity.
Qed.

(* ebutts:linePadding in c; the other units the model accepts are the recorded finding linepadding-units *)
Theorem line_padding_roundtrip_partial l : valid_len l -> l_unit l = U_c ->
  exists l', read_style P_LinePadding (print_len l) = Some (SLen l') /\ len_equiv l l'.
Proof.
  intros Hv Hc. destruct (len_word l Hv) as (_ & [v' u'] & H1 & H2 & H3). exists (mkLen v' u'). split; [|split; assumption].
  cbn [l_unit] in H2. rewrite Hc in H2. subst u'. at_property. rewrite H1. reflexivity.
Qed.

(* tts:extent (b = true) and tts:origin: two lengths *)
Lemma two_lengths_roundtrip (b : bool) x y :
  let p := if b then P_Extent else P_Origin in let mk := if b then SExtent else SOrigin in
  valid_len x -> valid_len y -> validate_style p (mk x y) = true ->
  exists s, print_style p (mk x y) = WAttr s /\
  exists x' y', read_style p s = Some (mk x' y') /\ len_equiv x x' /\ len_equiv y y'.
Proof.
  intros p mk Hx Hy Hval. exists (join_with sp [print_len x; print_len y]). split; [destruct b; reflexivity|].
  destruct (len_word x Hx) as (Wx & x' & X1 & X2 & X3). destruct (len_word y Hy) as (Wy & y' & Y1 & Y2 & Y3).
  exists x', y'. split; [|split; split; assumption].
  destruct b; subst p mk; cbn [validate_style] in Hval; at_property.
  all: rewrite (spaced_not_keyword (print_len x) (print_len y)) by reflexivity.
  all: rewrite split_sp_join by (repeat constructor; assumption).
  all: cbv iota; rewrite X1, Y1; cbn [omap2 validate_style]; rewrite X2, Y2, Hval; reflexivity.
Qed.

Theorem padding_roundtrip b e a s : valid_len b -> valid_len e -> valid_len a -> valid_len s ->
  exists t, print_style P_Padding (SPadding b e a s) = WAttr t /\
  exists b' e' a' s', read_style P_Padding t = Some (SPadding b' e' a' s') /\
    len_equiv b b' /\ len_equiv e e' /\ len_equiv a a' /\ len_equiv s s'.
Proof.
  intros Hb He Ha Hs. exists (join_with sp [print_len b; print_len e; print_len a; print_len s]). split; [reflexivity|].
  destruct (len_word b Hb) as (Wb & b' & B1 & B2). destruct (len_word e He) as (We & e' & E1 & E2).
  destruct (len_word a Ha) as (Wa & a' & A1 & A2). destruct (len_word s Hs) as (Ws & s' & S1 & S2).
  exists b', e', a', s'. split; [|tauto].
  at_property. rewrite split_sp_join by (repeat constructor; assumption). cbv iota. rewrite B1, E1, A1, S1. reflexivity.
Qed.

(* the writer's value printers never raise AttributeError on a value the model accepts: the only case is the special value
   normal outside tts:lineHeight, which is not a valid model value *)
Theorem print_attribute_error p v : print_style p v = WErr 3 -> v = SNormal /\ p <> P_LineHeight.
Proof.
  destruct v; cbn [print_style]; try discriminate;
    try (repeat match goal with |- context [match ?e with _ => _ end] => destruct e end; discriminate).
  destruct (p =? P_LineHeight) eqn:E; [discriminate|]. intros _. split; [reflexivity|]. intro H. subst p. discriminate.
Qed.

Definition ob3 : list (option bool) := [None; Some true; Some false].
Definition obool_eqb' (a b : option bool) : bool := match a, b with None, None => true | Some x, Some y => Bool.eqb x y | _, _ => false end.
Definition text_dec_ok (u l o : option bool) : bool :=
  match print_style P_TextDecoration (STextDec u l o) with
  | WAttr s => match read_style P_TextDecoration s with Some (STextDec u' l' o') => obool_eqb' u u' && obool_eqb' l l' && obool_eqb' o o' | _ => false end
  | WSkip => match u, l, o with None, None, None => true | _, _, _ => false end      (* no component: nothing to write *)
  | _ => false
  end.
Lemma text_dec_all : forallb (fun u => forallb (fun l => forallb (fun o => text_dec_ok u l o) ob3) ob3) ob3 = true.
Proof. vm_compute. reflexivity. Qed.

Lemma in_ob3 x : In x ob3.
Proof. destruct x as [[|]|]; cbn; tauto. Qed.
Lemma obool_eqb'_eq a b : obool_eqb' a b = true -> a = b.
Proof. destruct a as [[|]|], b as [[|]|]; (reflexivity || discriminate). Qed.

(* every value with at least one component is written and read back; the value without any component (which changes nothing when
   it is specified on an element) is not written *)
Theorem text_decoration_roundtrip u l o :
  match u, l, o with
  | None, None, None => print_style P_TextDecoration (STextDec u l o) = WSkip
  | _, _, _ => exists s, print_style P_TextDecoration (STextDec u l o) = WAttr s /\ read_style P_TextDecoration s = Some (STextDec u l o)
  end.
Proof.
  pose proof text_dec_all as H. rewrite forallb_forall in H. specialize (H u (in_ob3 u)).
  rewrite forallb_forall in H. specialize (H l (in_ob3 l)). rewrite forallb_forall in H. specialize (H o (in_ob3 o)).
  unfold text_dec_ok in H. destruct (print_style P_TextDecoration (STextDec u l o)) as [s| |] eqn:E; [| |discriminate].
  - destruct (read_style P_TextDecoration s) as [[]|] eqn:R; try discriminate.
    apply andb_true_iff in H as [H Ho]. apply andb_true_iff in H as [Hu Hl]. apply obool_eqb'_eq in Hu, Hl, Ho. destruct Hu, Hl, Ho.
    assert (G : exists s', WAttr s = WAttr s' /\ read_style P_TextDecoration s' = Some (STextDec u l o)) by (exists s; split; [reflexivity|exact R]).
    destruct u; [exact G|]. destruct l; [exact G|]. destruct o; [exact G|]. cbv in E. discriminate E.
  - destruct u, l, o; (discriminate H || reflexivity).
Qed.

Lemma reserve_pos pos : 0 <= pos <= 3 ->
  exists ps, enum_value enum_RubyReservePosition pos = Some ps /\ word ps = true /\ text_eqb ps T_none = false /\
             enum_by_name enum_RubyReservePosition ps = Some pos.
Proof.
  intro H. assert (Hp : pos = 0 \/ pos = 1 \/ pos = 2 \/ pos = 3) by lia.
  destruct Hp as [-> | [-> | [-> | ->]]]; eexists; repeat split; reflexivity.
Qed.

Theorem ruby_reserve_roundtrip pos l : 0 <= pos <= 3 -> valid_len l ->
  read_style P_RubyReserve T_none = Some SNone /\ print_style P_RubyReserve SNone = WAttr T_none /\
  (exists s, print_style P_RubyReserve (SReserve pos None) = WAttr s /\ read_style P_RubyReserve s = Some (SReserve pos None)) /\
  (exists s, print_style P_RubyReserve (SReserve pos (Some l)) = WAttr s /\
             exists l', read_style P_RubyReserve s = Some (SReserve pos (Some l')) /\ len_equiv l l').
Proof.
  intros Hp Hv. split; [reflexivity|]. split; [reflexivity|].
  destruct (reserve_pos pos Hp) as (ps & Ev & Wp & Hnn & En). destruct (len_word l Hv) as (Wl & l' & L1 & L2).
  split.
  - exists ps. split; [cbn [print_style]; rewrite Ev, app_nil_r; reflexivity|].
    at_property. rewrite Hnn, (split_sp_word ps Wp), En. reflexivity.
  - exists (join_with sp [ps; print_len l]). split; [cbn [print_style]; rewrite Ev; reflexivity|].
    exists l'. split; [|exact L2].
    at_property. rewrite (spaced_not_keyword ps (print_len l)) by reflexivity.
    rewrite split_sp_join, En, L1 by (repeat constructor; assumption). reflexivity.
Qed.

Theorem text_outline_roundtrip r g b a l : byte r -> byte g -> byte b -> byte a -> valid_len l ->
  read_style P_TextOutline T_none = Some SNone /\ print_style P_TextOutline SNone = WAttr T_none /\
  (exists s, print_style P_TextOutline (SOutline None l) = WAttr s /\
             exists l', read_style P_TextOutline s = Some (SOutline None l') /\ len_equiv l l') /\
  (exists s, print_style P_TextOutline (SOutline (Some (r, g, b, a)) l) = WAttr s /\
             exists l', read_style P_TextOutline s = Some (SOutline (Some (r, g, b, a)) l') /\ len_equiv l l').
Proof.
  intros Hr Hg Hb Ha Hv. split; [reflexivity|]. split; [reflexivity|].
  destruct (len_word l Hv) as (Wl & l' & L1 & L2). pose proof (print_color_word r g b a Hr Hg Hb Ha) as Wc.
  split.
  - exists (print_len l). split; [reflexivity|]. exists l'. split; [|exact L2].
    at_property. rewrite (not_keyword parse_len _ T_none l' L1 eq_refl).
    rewrite (split_sp_word _ Wl), L1. reflexivity.
  - exists (join_with sp [print_color (r, g, b, a); print_len l]). split; [reflexivity|]. exists l'. split; [|exact L2].
    at_property. rewrite (spaced_not_keyword (print_color (r, g, b, a)) (print_len l)) by reflexivity.
    rewrite split_sp_join by (repeat constructor; assumption). rewrite L1, color_roundtrip by assumption. reflexivity.
Qed.

(* tts:position: the writer always prints the four-component form "<h-edge> <length> <v-edge> <length>" *)
Lemma pos34_len it l rest he ho ve vo : parse_len it = Some l ->
  pos34 (it :: rest) (he, ho, ve, vo) =
  pos34 rest (he, match he, ho with Some _, None => Some l | _, _ => ho end, ve, match ve, vo with Some _, None => Some l | _, _ => vo end).
Proof.
  intro H. cbn [pos34].
  rewrite (not_keyword parse_len it T_left l H eq_refl), (not_keyword parse_len it T_right l H eq_refl),
    (not_keyword parse_len it T_top l H eq_refl), (not_keyword parse_len it T_bottom l H eq_refl),
    (not_keyword parse_len it T_center l H eq_refl), H. reflexivity.
Qed.

Lemma pos34_hedge he : 0 <= he <= 1 ->
  exists hs, enum_value enum_HEdge he = Some hs /\ word hs = true /\ enum_by_value enum_HEdge hs = Some he /\
    forall rest he0 ho ve vo, pos34 (hs :: rest) (he0, ho, ve, vo) =
                              pos34 rest (Some hs, ho, ve, match ve, vo with Some _, None => Some L0pct | _, _ => vo end).
Proof. intro H. assert (Hc : he = 0 \/ he = 1) by lia. destruct Hc as [-> | ->]; eexists; repeat split; reflexivity. Qed.

Lemma pos34_vedge ve : 0 <= ve <= 1 ->
  exists vs, enum_value enum_VEdge ve = Some vs /\ word vs = true /\ enum_by_value enum_VEdge vs = Some ve /\
    forall rest he ho ve0 vo, pos34 (vs :: rest) (he, ho, ve0, vo) =
                              pos34 rest (he, match he, ho with Some _, None => Some L0pct | _, _ => ho end, Some vs, vo).
Proof. intro H. assert (Hc : ve = 0 \/ ve = 1) by lia. destruct Hc as [-> | ->]; eexists; repeat split; reflexivity. Qed.

Theorem position_roundtrip he ho ve vo :
  0 <= he <= 1 -> 0 <= ve <= 1 -> valid_len ho -> valid_len vo -> validate_style P_Position (SPosition he ho ve vo) = true ->
  exists s, print_style P_Position (SPosition he ho ve vo) = WAttr s /\
  exists ho' vo', read_style P_Position s = Some (SPosition he ho' ve vo') /\ len_equiv ho ho' /\ len_equiv vo vo'.
Proof.
  intros Hhe Hve Hho Hvo Hval.
  destruct (pos34_hedge he Hhe) as (hs & Ehs & Wh & Ebh & Sh). destruct (pos34_vedge ve Hve) as (vs & Evs & Wv & Ebv & Sv).
  destruct (len_word ho Hho) as (Who & ho' & Lh1 & Lh2 & Lh3). destruct (len_word vo Hvo) as (Wvo & vo' & Lv1 & Lv2 & Lv3).
  exists (join_with sp [hs; print_len ho; vs; print_len vo]). split; [cbn [print_style]; rewrite Ehs, Evs; reflexivity|].
  exists ho', vo'. split; [|split; split; assumption].
  at_property. unfold parse_position. rewrite split_ws_join by (repeat constructor; assumption).
  cbn [length Z.of_nat Pos.of_succ_nat Pos.succ Z.eqb Pos.eqb orb].
  rewrite Sh, (pos34_len _ ho' _ _ _ _ _ Lh1), Sv, (pos34_len _ vo' _ _ _ _ _ Lv1). cbn [pos34]. rewrite Ebh, Ebv.
  cbn [validate_style] in *. rewrite Lh2, Lv2, Hval. reflexivity.
Qed.

(* tts:textShadow: any number of shadows, written "s1, s2, ..." and split on "," then on white space *)
Definition olen_equiv (a b : option len) : Prop := match a, b with Some x, Some y => len_equiv x y | None, None => True | _, _ => False end.
Definition ovalid (a : option len) : Prop := match a with Some x => valid_len x | None => True end.
Definition obyte (c : option color) : Prop := match c with Some (r, g, b, a) => byte r /\ byte g /\ byte b /\ byte a | None => True end.

Definition shadow := (len * len * option len * option color)%type.
Definition valid_shadow (s : shadow) : Prop := let '(x, y, blur, c) := s in valid_len x /\ valid_len y /\ ovalid blur /\ obyte c.
Definition shadow_equiv (s s' : shadow) : Prop :=
  let '(x, y, blur, c) := s in let '(x', y', blur', c') := s' in len_equiv x x' /\ len_equiv y y' /\ olen_equiv blur blur' /\ c' = c.

Lemma join_free sep s ws : free sep s = true -> Forall (fun x => free sep x = true) ws -> free sep (join_with s ws) = true.
Proof.
  intros Hs. induction 1 as [|w ws Hw Hws IH]; [reflexivity|]. destruct ws as [|w2 ws]; [exact Hw|].
  change (join_with s (w :: w2 :: ws)) with (w ++ s ++ join_with s (w2 :: ws)). unfold free in *. rewrite !forallb_app, Hw, Hs, IH. reflexivity.
Qed.

Lemma parse_len_color r g b a : parse_len (print_color (r, g, b, a)) = None.
Proof. unfold print_color, parse_len. cbn [split_sign]. reflexivity. Qed.

Definition shadow_words (s : shadow) : list text :=
  let '(x, y, blur, c) := s in
  print_len x :: print_len y :: match blur with Some b => [print_len b] | None => [] end ++ match c with Some k => [print_color k] | None => [] end.

Lemma print_shadow_words s : print_shadow s = join_with sp (shadow_words s).
Proof. destruct s as [[[x y] [bl|]] [c|]]; cbn [print_shadow shadow_words app join_with sp]; rewrite ?app_nil_r; reflexivity. Qed.

Lemma shadow_rt s : valid_shadow s ->
  free 44 (print_shadow s) = true /\ exists s', parse_shadow (print_shadow s) = Some s' /\ shadow_equiv s s'.
Proof.
  destruct s as [[[x y] blur] c]. intros (Hx & Hy & Hb & Hc).
  destruct (len_word x Hx) as (Wx & x' & X1 & X2). destruct (len_word y Hy) as (Wy & y' & Y1 & Y2).
  assert (Ww : Forall (fun w => word w = true) (match blur with Some b => [print_len b] | None => [] end ++ match c with Some k => [print_color k] | None => [] end)).
  { destruct blur as [bl|], c as [[[[r g] b] a]|]; cbn [ovalid obyte app] in Hb, Hc |- *; repeat constructor;
      try (apply len_word; assumption); apply print_color_word; tauto. }
  rewrite print_shadow_words. cbn [shadow_words]. split.
  - apply join_free; [reflexivity|]. apply Forall_impl with (P := fun w => word w = true); [intro; apply word_free; reflexivity|].
    do 2 (constructor; [assumption|]). exact Ww.
  - unfold parse_shadow. rewrite split_ws_join by (repeat constructor; assumption).
    destruct blur as [bl|], c as [[[[r g] b] a]|]; cbn [ovalid obyte app] in Hb, Hc |- *; rewrite X1, Y1.
    + destruct (len_word bl Hb) as (_ & bl' & B1 & B2). rewrite B1, color_roundtrip by tauto. eexists. split; [reflexivity|]. cbn. auto.
    + destruct (len_word bl Hb) as (_ & bl' & B1 & B2). rewrite B1. eexists. split; [reflexivity|]. cbn. auto.
    + rewrite parse_len_color, color_roundtrip by tauto. eexists. split; [reflexivity|]. cbn. auto.
    + eexists. split; [reflexivity|]. cbn. auto.
Qed.

(* a space before a shadow (what follows the comma) is dropped by str.split() *)
Lemma parse_shadow_lead t : parse_shadow (32 :: t) = parse_shadow t.
Proof. reflexivity. Qed.

Lemma all_some_map {A B} (f : A -> option B) (R : A -> B -> Prop) l :
  Forall (fun a => exists b, f a = Some b /\ R a b) l -> exists l', all_some (List.map f l) = Some l' /\ Forall2 R l l'.
Proof.
  induction 1 as [|a l (b & Hb & Rb) _ (l' & IH & Rl)]; [exists []; split; [reflexivity|constructor]|].
  exists (b :: l'). cbn [List.map all_some]. rewrite Hb, IH. split; [reflexivity|constructor; assumption].
Qed.

Theorem text_shadow_roundtrip l : Forall valid_shadow l -> l <> [] ->
  read_style P_TextShadow T_none = Some SNone /\ print_style P_TextShadow SNone = WAttr T_none /\
  exists s, print_style P_TextShadow (SShadows l) = WAttr s /\
  exists l', read_style P_TextShadow s = Some (SShadows l') /\ Forall2 shadow_equiv l l'.
Proof.
  intros Hl Hne. split; [reflexivity|]. split; [reflexivity|]. eexists. split; [reflexivity|].
  destruct l as [|s l]; [contradiction|].
  assert (Hrt : Forall (fun s => free 44 (print_shadow s) = true /\ exists s', parse_shadow (print_shadow s) = Some s' /\ shadow_equiv s s') (s :: l))
    by (revert Hl; apply Forall_impl; exact shadow_rt).
  destruct (all_some_map (fun s => parse_shadow (print_shadow s)) shadow_equiv (s :: l)) as (l' & A1 & A2);
    [revert Hrt; apply Forall_impl; tauto|].
  exists l'. split; [|exact A2].
  (* the items after the first come back with the space that followed their comma *)
  assert (Hsplit : List.map parse_shadow (split_on 44 (join_with [44; 32] (List.map print_shadow (s :: l))) [])
                   = List.map (fun s => parse_shadow (print_shadow s)) (s :: l)).
  { inversion Hrt as [|? ? (Fs & _) Fl]; subst. cbn [List.map]. rewrite (split_join 44 [32]); [|reflexivity| |exact Fs].
    - cbn [List.map app]. f_equal. rewrite !map_map. apply map_ext. intro. apply parse_shadow_lead.
    - apply Forall_map. revert Fl. apply Forall_impl. tauto. }
  at_property. rewrite (not_keyword (fun t => all_some (List.map parse_shadow (split_on 44 t []))) _ T_none l'), Hsplit, A1;
    [reflexivity|rewrite Hsplit; exact A1|reflexivity].
Qed.

(* tts:textEmphasis: 7 styles x 3 positions; without colour the domain is finite and decided, with a colour the proof follows the
   reader's fold *)
Definition emph_ok_nocolor (st pos : Z) : bool :=
  match print_style P_TextEmphasis (SEmph st None pos) with
  | WAttr s => match read_style P_TextEmphasis s with Some (SEmph st' None pos') => (st' =? st) && (pos' =? pos) | _ => false end
  | _ => false
  end.
Lemma emph_nocolor_all : forallb (fun st => forallb (emph_ok_nocolor st) [0; 1; 2]) [0; 1; 2; 3; 4; 5; 6] = true.
Proof. vm_compute. reflexivity. Qed.

Definition style_tokens (st : Z) : list text :=
  match enum_value enum_TextEmphasisStyle st with Some s => split_on 32 s [] | None => [] end.
Definition style_of (ss sy : option text) : option Z :=
  match ss, sy with
  | None, None => enum_by_name enum_TextEmphasisStyle T_auto
  | _, _ => enum_by_value enum_TextEmphasisStyle
              ((match ss with Some x => x | None => [102;105;108;108;101;100] end) ++ sp ++ (match sy with Some x => x | None => [99;105;114;99;108;101] end))
  end.

(* a style keyword (one or two tokens) at the head of the value: how str.split(" ") and the fold go through it, by cases *)
Lemma style_head st : 0 <= st <= 6 ->
  exists s ss sy, enum_value enum_TextEmphasisStyle st = Some s /\
    (forall rest, split_on 32 (s ++ 32 :: rest) [] = style_tokens st ++ split_on 32 rest []) /\
    (forall rest, emph_fold (style_tokens st ++ rest) None None None None = emph_fold rest ss sy None None) /\
    style_of ss sy = Some st.
Proof.
  intro H. assert (Hs : st = 0 \/ st = 1 \/ st = 2 \/ st = 3 \/ st = 4 \/ st = 5 \/ st = 6) by lia.
  destruct Hs as [-> | [-> | [-> | [-> | [-> | [-> | ->]]]]]]; eexists _, _, _; repeat split; reflexivity.
Qed.

Lemma split_pos pos : 0 <= pos <= 2 ->
  exists s, enum_value enum_TextEmphasisPosition pos = Some s /\ word s = true /\
    forall ss sy c0 p0, emph_fold [s] ss sy c0 p0 = EmSt ss sy c0 (Some pos).
Proof.
  intro H. assert (Hp : pos = 0 \/ pos = 1 \/ pos = 2) by lia.
  destruct Hp as [-> | [-> | ->]]; eexists; repeat split; reflexivity.
Qed.

Theorem text_emphasis_roundtrip st pos c : 0 <= st <= 6 -> 0 <= pos <= 2 -> obyte c ->
  exists s, print_style P_TextEmphasis (SEmph st c pos) = WAttr s /\ read_style P_TextEmphasis s = Some (SEmph st c pos).
Proof.
  intros Hst Hpos Hc.
  destruct c as [[[[r g] b] a]|].
  - destruct Hc as (Hr & Hg & Hb & Ha).
    pose proof (print_color_word r g b a Hr Hg Hb Ha) as Wc. pose proof (color_roundtrip r g b a Hr Hg Hb Ha) as Cr.
    destruct (split_pos pos Hpos) as (ps & Eps & Wp & Fps).
    destruct (style_head st Hst) as (sst & ss & sy & Est & Sst & Ff & Fs).
    exists (join_with sp [sst; print_color (r, g, b, a); ps]).
    split; [cbn [print_style]; rewrite Est, Eps; reflexivity|].
    at_property. change (join_with sp [sst; print_color (r, g, b, a); ps]) with (sst ++ 32 :: join_with sp [print_color (r, g, b, a); ps]).
    rewrite Sst, split_sp_join, Ff by (repeat constructor; assumption).
    (* the colour starts with '#': it is none of the keywords *)
    assert (Hpc : emph_fold [print_color (r, g, b, a); ps] ss sy None None = emph_fold [ps] ss sy (Some (r, g, b, a)) None)
      by (cbn [emph_fold]; rewrite Cr; reflexivity).
    rewrite Hpc, Fps. unfold style_of in Fs.
    destruct ss, sy; cbn [sp app] in Fs |- *; rewrite Fs; reflexivity.
  - pose proof emph_nocolor_all as H. rewrite forallb_forall in H. specialize (H st ltac:(cbn [In]; lia)).
    rewrite forallb_forall in H. specialize (H pos ltac:(cbn [In]; lia)). unfold emph_ok_nocolor in H.
    destruct (print_style P_TextEmphasis (SEmph st None pos)) as [s| |]; try discriminate.
    exists s. split; [reflexivity|].
    destruct (read_style P_TextEmphasis s) as [[]|]; try discriminate.
    destruct c; [discriminate|]. apply andb_true_iff in H as [H1 H2]. apply Z.eqb_eq in H1, H2. subst. reflexivity.
Qed.

(* numbers: tts:opacity and tts:luminanceGain go through to_ttml_number and float(), tts:shear through to_ttml_number "%" and
   parse_length *)
Theorem float_roundtrip x : exists v, parse_float (print_num x) = Some v /\ (v == round6 x)%Q.
Proof.
  destruct (print_num_spec x) as (neg & ip & fr & Hp & HI & Hfr & Hv). rewrite Hp, (parse_float_fixed neg ip fr HI Hfr).
  eexists. split; [reflexivity|exact Hv].
Qed.

(* tts:opacity and tts:luminanceGain: every number the model holds (an int, a Fraction, or a float taken as the rational it denotes)
   is written in fixed notation with six significant digits and read back as that rounded value; an int n is written as the
   rational n is *)
Theorem number_roundtrip p x : p = P_Opacity \/ p = P_LuminanceGain ->
  exists s, print_style p (SFrac x) = WAttr s /\ exists v, read_style p s = Some (SFrac v) /\ (v == round6 x)%Q.
Proof.
  intros Hp. exists (print_num x). split; [destruct Hp as [-> | ->]; reflexivity|].
  destruct (float_roundtrip x) as (v & H1 & H2). exists v. split; [|exact H2].
  destruct Hp as [-> | ->]; at_property; rewrite H1; reflexivity.
Qed.

(* tts:shear: written as a percentage; the reader clamps to +-100 % (values beyond are the recorded finding shear-clamped) *)
Lemma Qle_bool_compat a b c : (a == b)%Q -> Qle_bool a c = Qle_bool b c.
Proof.
  intro H. destruct (Qle_bool a c) eqn:E1, (Qle_bool b c) eqn:E2; try reflexivity.
  - apply Qle_bool_iff in E1. rewrite H in E1. apply Qle_bool_iff in E1. congruence.
  - apply Qle_bool_iff in E2. rewrite <- H in E2. apply Qle_bool_iff in E2. congruence.
Qed.

Theorem shear_roundtrip_partial x : Qle_bool (Qabs (round6 x)) (100 # 1) = true ->
  exists s, print_style P_Shear (SFrac x) = WAttr s /\ exists v, read_style P_Shear s = Some (SFrac v) /\ (v == round6 x)%Q.
Proof.
  intro Hc. exists (print_len (mkLen x U_pct)). split; [reflexivity|].
  destruct (len_roundtrip x U_pct ltac:(unfold U_pct; lia)) as (v & H1 & H2). exists v. split; [|exact H2].
  at_property. rewrite H1. cbn [l_unit l_val]. change (U_pct =? 1) with true. cbv iota.
  rewrite (Qle_bool_compat (Qabs v) (Qabs (round6 x)) (100 # 1)), Hc by (rewrite H2; reflexivity). reflexivity.
Qed.

Theorem none_roundtrip p : p = P_TextEmphasis \/ p = P_RubyReserve \/ p = P_TextShadow \/ p = P_TextOutline ->
  print_style p SNone = WAttr T_none /\ read_style p T_none = Some SNone /\ has_px p SNone = false.
Proof. intros [-> | [-> | [-> | ->]]]; repeat split; reflexivity. Qed.
