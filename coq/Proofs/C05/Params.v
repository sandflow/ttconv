(* C05, document parameters: what TTElement.from_model writes on <tt> (Model/ImscWriteTree.v write_tt) is read back by the parameter
   readers of the IMSC reader (Model/ImscParams.v, Model/ImscTiming.v): language, cell resolution, display aspect ratio. *)
From TT Require Import Base.Prelude Base.ImscXml Model.ImscTime Model.TimeCode Model.ImscWrite Model.ImscStyles Model.ImscTiming Model.ImscWriteTree Model.ImscParams Gen.ImscTables Spec.TtmlTimingSpec.
From TT Require Import Proofs.C04.TimeSyntax Proofs.C05.Times Proofs.C05.Tree.
From Coq Require Import QArith.
Local Open Scope Z_scope.

Lemma print_int_nonneg n : 0 <= n -> print_int n = chrs (nat_digits n).
Proof. intro H. unfold print_int. replace (n <? 0) with false by lia. apply print_nat_chrs. Qed.

Lemma int_pair_print c r : 0 <= c -> 0 <= r -> int_pair (print_int c ++ sp ++ print_int r) = Some (c, r).
Proof.
  intros Hc Hr. rewrite (print_int_nonneg c Hc), (print_int_nonneg r Hr).
  destruct (nat_digits_ok c Hc) as [Nc [Dc Ec]]. destruct (nat_digits_ok r Hr) as [Nr [Dr Er]].
  unfold int_pair, sp. rewrite (span_digits_chrs (nat_digits c) ([32] ++ chrs (nat_digits r)) Dc) by reflexivity.
  destruct (nat_digits c) as [|c0 cl] eqn:Ecd; [discriminate|]. cbn [chrs List.map app].
  replace (chrs (nat_digits r)) with (chrs (nat_digits r) ++ []) by apply app_nil_r.
  change (List.map chr (nat_digits r) ++ []) with (chrs (nat_digits r) ++ []).
  rewrite (span_digits_chrs (nat_digits r) [] Dr I).
  destruct (nat_digits r) as [|r0 rl] eqn:Erd; [discriminate|]. cbn [chrs List.map].
  change (chr c0 :: List.map chr cl) with (chrs (c0 :: cl)). change (chr r0 :: List.map chr rl) with (chrs (r0 :: rl)).
  rewrite !digits_val_nat_of, Nc, Nr. reflexivity.
Qed.

Section Tt.
  Variables (cfg : wcfg) (d : wdoc).
  Let x := write_tt cfg d.

  Let a_cell := if (fst (wd_cell d) =? 32) && (snd (wd_cell d) =? 15) then []
                else [(A_cellResolution, print_int (fst (wd_cell d)) ++ sp ++ print_int (snd (wd_cell d)))].
  Let a_dar := match wd_dar d with Some (n, m) => [(A_displayAspectRatio, print_int n ++ sp ++ print_int m)] | None => [] end.

  (* the three names the readers below look up are bound by the cell resolution and aspect ratio attributes only: the language, the
     pixel extent, the active area and the frame rate attributes have other names *)
  Lemma tt_get q : In q [A_cellResolution; A_displayAspectRatio; A_aspectRatio] ->
    get_attr (x_attrs x) q = get_attr (a_cell ++ a_dar) q.
  Proof.
    intro Hq. unfold x, write_tt. cbn [x_attrs]. fold a_cell a_dar. rewrite !get_attr_app.
    replace (get_attr [(A_lang, wd_lang d)] q) with (@None text) by (destruct Hq as [<-|[<-|[<-|[]]]]; reflexivity).
    destruct (get_attr a_cell q); [reflexivity|].
    match goal with |- match get_attr ?px q with _ => _ end = _ => replace (get_attr px q) with (@None text) end.
    2:{ destruct (wd_px d) as [[w h]|]; [|reflexivity]. destruct (_ || _); [|reflexivity].
        destruct Hq as [<-|[<-|[<-|[]]]]; reflexivity. }
    match goal with |- match get_attr ?ac q with _ => _ end = _ => replace (get_attr ac q) with (@None text) end.
    2:{ destruct (wd_active d) as [[[[l t] w] h]|]; [|reflexivity]. destruct Hq as [<-|[<-|[<-|[]]]]; reflexivity. }
    destruct (get_attr a_dar q); [reflexivity|].
    destruct (w_fps cfg) as [f|]; [|reflexivity]. destruct (print_frame_rate f) as [fr [m|]];
      destruct Hq as [<-|[<-|[<-|[]]]]; reflexivity.
  Qed.

  Theorem tt_lang : get_attr (x_attrs x) A_lang = Some (wd_lang d).
  Proof. reflexivity. Qed.

  (* the cell resolution: written unless it is the default, which the reader supplies *)
  Theorem tt_cell_resolution : 0 < fst (wd_cell d) -> 0 < snd (wd_cell d) -> extract_cell_resolution (x_attrs x) = wd_cell d.
  Proof.
    intros Hc Hr. unfold extract_cell_resolution. rewrite tt_get by (left; reflexivity). unfold a_cell, a_dar.
    destruct (wd_cell d) as [c r]. cbn [fst snd] in *. destruct ((c =? 32) && (r =? 15)) eqn:Edef; cbn [app get_attr].
    - destruct (wd_dar d) as [[n m]|]; cbn [get_attr]; replace c with 32 by lia; replace r with 15 by lia; reflexivity.
    - replace (qname_eqb A_cellResolution A_cellResolution) with true by reflexivity.
      rewrite (int_pair_print c r) by lia. replace ((0 <? c) && (0 <? r)) with true by lia. reflexivity.
  Qed.

  Theorem tt_display_aspect_ratio n m : wd_dar d = Some (n, m) -> 0 < n -> 0 < m ->
    extract_dar (x_attrs x) = Some (inject_Z n / inject_Z m)%Q.
  Proof.
    intros Hd Hn Hm. unfold extract_dar. rewrite tt_get by (right; left; reflexivity). unfold a_cell, a_dar. rewrite Hd.
    destruct ((fst (wd_cell d) =? 32) && (snd (wd_cell d) =? 15)); cbn [app get_attr];
      replace (qname_eqb A_displayAspectRatio A_displayAspectRatio) with true by reflexivity;
      replace (qname_eqb A_cellResolution A_displayAspectRatio) with false by reflexivity;
      cbv iota; cbn [ratio_of]; rewrite (int_pair_print n m) by lia; replace ((n =? 0) || (m =? 0)) with false by lia; reflexivity.
  Qed.
  Theorem tt_no_display_aspect_ratio : wd_dar d = None -> extract_dar (x_attrs x) = None.
  Proof.
    intros Hd. unfold extract_dar. rewrite !tt_get by (cbn [In]; tauto). unfold a_cell, a_dar. rewrite Hd.
    destruct ((fst (wd_cell d) =? 32) && (snd (wd_cell d) =? 15)); reflexivity.
  Qed.
End Tt.
