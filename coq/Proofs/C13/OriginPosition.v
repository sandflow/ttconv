(* C13, clause 6: on every region of a snapshot tts:origin and tts:position coincide. *)
From TT Require Import Model.Doc Gen.StyleTables Model.Isd Spec.IsdSpec Spec.IsdShape Proofs.Common.StyleFrame Proofs.Common.Walk.
From TT Require Import Proofs.C13.Shape Proofs.C13.Styles Proofs.C03.Phase.

Lemma position_facts : In p_Position all_props /\
  exists pre post, ordered_style_props = pre ++ p_Position :: post /\ ~ In p_Position post /\ ~ In p_Origin post.
Proof.
  split; [cbn; tauto|]. exists (before p_Position ordered_style_props), (after p_Position ordered_style_props).
  split; [reflexivity|]. split; notin.
Qed.

(* a region always has tts:position scheduled for computation, and nothing touches the two keys afterwards *)
Theorem region_origin_position d t a iv st :
  e_kind a = KRegion -> style_phase d t a None iv = Ok st -> coincide st.
Proof.
  intros Hk H. destruct position_facts as (Fin & pre & post & Hord & N1 & N2).
  assert (Hleaf : is_leaf_kind (e_kind a) = false) by (rewrite Hk; reflexivity).
  destruct (style_phase_at d t a None iv st _ _ _ Hleaf H Hord Fin) as (s & s' & _ & Hb & _ & Hz).
  rewrite pre_region_todo in Hb. destruct (compute_position_coincide _ _ _ _ Hb) as (x & y & Ho & Hp).
  exists x, y. rewrite (Hz p_Origin N2 (fun X => False_ind _ (N1 X))), (Hz p_Position N1 (fun X => False_ind _ (N1 X))).
  split; assumption.
Qed.

Lemma lens_equal_refl l : lens_equal l l = true.
Proof. unfold lens_equal. destruct (lu l); cbn; apply Qeq_bool_iff; reflexivity. Qed.

Lemma finish_region_origin_position a st children r :
  e_kind a = KRegion -> coincide st -> finish_element a st children = Ok (Some r) -> origin_position_ok r = true.
Proof.
  intros Hk (x & y & Ho & Hp) H. apply finish_element_inv in H as (_ & -> & _).
  unfold origin_position_ok, kind_of, finished. cbn [eattrs isd_attrs e_kind e_styles]. rewrite Hk, !sget_strip.
  change (applicable KRegion p_Origin) with true. change (applicable KRegion p_Position) with true.
  rewrite Ho, Hp, !lens_equal_refl, !Z.eqb_refl. reflexivity.
Qed.

Theorem snapshot_origin_position d t rs :
  Forall (fun r => e_kind (eattrs r) = KRegion) (d_regions d) -> isd d t = Ok rs -> forallb origin_position_ok rs = true.
Proof.
  intros Hreg H. apply forallb_forall. intros o Ho. destruct (isd_in d t rs o H Ho) as (sel & r & Hr & Hp).
  assert (Hk : e_kind (eattrs r) = KRegion) by (destruct Hr as [Hr|[_ ->]]; [exact (proj1 (Forall_forall _ _) Hreg r Hr) | reflexivity]).
  apply proc_region_kept in Hp as (st & children & Hst & _ & _ & Hf).
  apply (finish_region_origin_position _ _ _ _ Hk (region_origin_position _ _ _ _ _ Hk Hst) Hf).
Qed.
