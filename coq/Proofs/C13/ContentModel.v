(* C13, clause 3: every snapshot respects the content model of doc/data_model.md (regions at the top, each holding at
   most one body; children of the kinds the parent's class accepts; the ruby and rtc child patterns), for every
   document whose source respects it (doc_content_wf) and every time. *)
From TT Require Import Model.Doc Gen.StyleTables Model.Isd Spec.IsdShape Proofs.Common.ElemInd Proofs.Common.Walk.
From TT Require Import Proofs.C01.Lwsp Proofs.C13.Shape.

Definition cok (k : kind) (ks : list kind) : bool :=
  match k with
  | KRegion => match ks with [] => true | [KBody] => true | _ => false end
  | KBody => forallb (fun k => kin k [KDiv]) ks
  | KDiv => forallb (fun k => kin k [KP; KDiv]) ks
  | KP => forallb (fun k => kin k [KSpan; KBr; KRuby]) ks
  | KSpan => forallb (fun k => kin k [KSpan; KBr; KText]) ks
  | KBr | KText => match ks with [] => true | _ => false end
  | KRuby => klist_eqb ks [KRb; KRt] || klist_eqb ks [KRb; KRp; KRt; KRp] || klist_eqb ks [KRbc; KRtc] || klist_eqb ks [KRbc; KRtc; KRtc]
  | KRb | KRt | KRp => forallb (fun k => kin k [KSpan]) ks
  | KRbc => forallb (fun k => kin k [KRb]) ks
  | KRtc => forallb (fun k => kin k [KRt]) ks ||
            match ks with
            | KRp :: rest => match rev rest with KRp :: mid => forallb (fun k => kin k [KRt]) mid | _ => false end
            | _ => false
            end
  end.
Lemma children_ok_cok e : children_ok e = cok (kind_of e) (kinds (echildren e)).
Proof. reflexivity. Qed.

Definition cm (e : elem) : bool := forallb children_ok (all_elems e).
Lemma cm_node a cs : cm (Elem a cs) = cok (e_kind a) (kinds cs) && forallb cm cs.
Proof. exact (allk_node cok a cs). Qed.

(* kinds whose rule is "every child is one of ..." : the rule passes to any list made of some of the children *)
Definition forall_kind (k : kind) : bool :=
  match k with KBody | KDiv | KP | KSpan | KRb | KRt | KRp | KRbc => true | _ => false end.
Lemma cok_incl k ks ks' : forall_kind k = true -> (forall x, In x ks' -> In x ks) -> cok k ks = true -> cok k ks' = true.
Proof.
  intros Hk Hin H. destruct k; try discriminate; unfold cok in *; rewrite forallb_forall in *; intros x Hx; apply H, Hin, Hx.
Qed.
(* the kinds the content model admits below an element of kind k *)
Definition below (k : kind) : list kind :=
  match k with
  | KRegion => [KBody] | KBody => [KDiv] | KDiv => [KP; KDiv] | KP => [KSpan; KBr; KRuby] | KSpan => [KSpan; KBr; KText]
  | KBr | KText => [] | KRuby => [KRb; KRt; KRp; KRbc; KRtc] | KRb | KRt | KRp => [KSpan] | KRbc => [KRb] | KRtc => [KRt; KRp]
  end.
Lemma forallb_rev {A} (p : A -> bool) l : forallb p (rev l) = forallb p l.
Proof.
  induction l as [|x l IH]; [reflexivity|]. cbn [rev forallb]. rewrite forallb_app, IH. cbn [forallb]. rewrite andb_true_r. apply andb_comm.
Qed.
Lemma cok_below k ks : cok k ks = true -> forallb (fun x => kin x (below k)) ks = true.
Proof.
  intros H. destruct k; unfold cok in H; try exact H.
  - destruct ks as [|[] [|? ?]]; try discriminate; reflexivity.
  - destruct ks; [reflexivity | discriminate].
  - destruct ks; [reflexivity | discriminate].
  - repeat (apply orb_true_iff in H as [H|H]);
      repeat (destruct ks as [|[] ks]; cbn [klist_eqb kind_eqb andb] in H; try discriminate); reflexivity.
  - assert (G : forall l, forallb (fun k => kin k [KRt]) l = true -> forallb (fun x => kin x (below KRtc)) l = true).
    { intros l Hl. rewrite forallb_forall in *. intros x Hx. specialize (Hl x Hx). destruct x; try discriminate; reflexivity. }
    apply orb_true_iff in H as [H|H]; [apply G, H|].
    destruct ks as [|[] rest]; try discriminate. cbn [forallb]. rewrite <- forallb_rev.
    destruct (rev rest) as [|[] mid]; try discriminate. cbn [forallb]. apply G, H.
Qed.
(* the kinds whose rule fixes the list admit neither a text node nor a span *)
Definition droppable (k : kind) : bool := match k with KText | KSpan => true | _ => false end.
Lemma cok_nodrop k ks : forall_kind k = false -> cok k ks = true -> forallb (fun x => negb (droppable x)) ks = true.
Proof.
  intros Hk H. apply cok_below in H. rewrite forallb_forall in *. intros x Hx. specialize (H x Hx).
  destruct k; try discriminate Hk; destruct x; try discriminate H; reflexivity.
Qed.
Lemma cok_noregion k ks : cok k ks = true -> forallb (fun x => negb (kind_eqb x KRegion)) ks = true.
Proof.
  intros H. apply cok_below in H. rewrite forallb_forall in *. intros x Hx. specialize (H x Hx).
  destruct x; try reflexivity. destruct k; discriminate H.
Qed.

Lemma kinds_cons c cs : kinds (c :: cs) = kind_of c :: kinds cs.
Proof. reflexivity. Qed.

(* _prune_empty_spans removes text nodes and spans only: a rule that fixes the list is met by the same list *)
Lemma prune_empty_kind e : kind_of (prune_empty e) = kind_of e.
Proof. destruct e. reflexivity. Qed.
Lemma prune_list_nodrop : forall cs, forallb (fun x => negb (droppable x)) (kinds cs) = true -> prune_list cs = map prune_empty cs.
Proof.
  induction cs as [|c cs IH]; intros H; [reflexivity|]. rewrite kinds_cons in H. cbn [forallb] in H.
  apply andb_true_iff in H as [H1 H2]. rewrite prune_list_cons. cbv zeta. cbn [map]. rewrite (IH H2).
  change (e_kind (eattrs (prune_empty c))) with (kind_of (prune_empty c)). rewrite prune_empty_kind.
  destruct (kind_of c); try reflexivity; discriminate.
Qed.
Lemma kinds_map_prune cs : kinds (map prune_empty cs) = kinds cs.
Proof. induction cs as [|c cs IH]; [reflexivity|]. cbn [map]. rewrite !kinds_cons, prune_empty_kind, IH. reflexivity. Qed.

Lemma cok_prune k cs : cok k (kinds cs) = true -> cok k (kinds (prune_list cs)) = true.
Proof.
  intros H. destruct (forall_kind k) eqn:Ek.
  - apply (cok_incl k (kinds cs)); [exact Ek | | exact H]. intros x Hx. unfold kinds in *. apply in_map_iff in Hx as (y & <- & Hy).
    apply prune_list_in in Hy as (c & Hc & ->). rewrite prune_empty_kind. apply in_map. exact Hc.
  - rewrite (prune_list_nodrop cs (cok_nodrop k _ Ek H)), kinds_map_prune. exact H.
Qed.

Lemma finish_children_cm a st children :
  cok (e_kind a) (kinds children) = true -> forallb cm children = true ->
  cok (e_kind a) (kinds (finish_children a st children)) = true /\ forallb cm (finish_children a st children) = true.
Proof. exact (finish_children_allk cok cok_prune a st children). Qed.

(* the patterns Ruby.push_children and Rtc.push_children insist on are those of the content model *)
Lemma kinds_eqb_klist a b : kinds_eqb a b = klist_eqb a b.
Proof. reflexivity. Qed.
Lemma ruby_ok_cok cs : ruby_children_ok cs = true -> cok KRuby (kinds cs) = true.
Proof. unfold ruby_children_ok, cok. change (kinds_of cs) with (kinds cs). rewrite !kinds_eqb_klist. exact (fun H => H). Qed.
Lemma rtc_ok_cok cs : rtc_children_ok cs = true -> cok KRtc (kinds cs) = true.
Proof.
  unfold rtc_children_ok, cok. change (kinds_of cs) with (kinds cs). generalize (kinds cs). intros ks H.
  assert (E : forall l, forallb (fun k => kind_eqb k KRt) l = forallb (fun k => kin k [KRt]) l).
  { induction l as [|k l IHl]; [reflexivity|]. cbn [forallb]. rewrite IHl. f_equal. destruct k; reflexivity. }
  rewrite E in H.
  destruct ((2 <? Z.of_nat (length ks)) && kind_eqb (hd KBody ks) KRp && kind_eqb (last ks KBody) KRp) eqn:Ec;
    [|rewrite H; reflexivity].
  apply andb_true_iff in Ec as [Ec El]. apply andb_true_iff in Ec as [Elen Eh].
  destruct ks as [|k0 rest]; [discriminate|]. cbn [hd] in Eh. destruct k0; try discriminate. cbn [tl] in H.
  destruct rest as [|k1 rest'] using rev_ind; [cbn in Elen; discriminate|]. clear IHrest' Elen.
  rewrite removelast_last in H.
  assert (Hl : last (KRp :: rest' ++ [k1]) KBody = k1).
  { change (KRp :: rest' ++ [k1]) with ((KRp :: rest') ++ [k1]). apply last_last. }
  rewrite Hl in El. destruct k1; try discriminate.
  apply orb_true_iff. right. rewrite rev_unit. exact (eq_trans (forallb_rev _ _) H).
Qed.

Definition src_cm (e : elem) : bool := forallb src_children_ok (all_elems e).
Lemma src_cm_node a cs : src_cm (Elem a cs) = src_children_ok (Elem a cs) && forallb src_cm cs.
Proof. unfold src_cm. rewrite all_elems_node. cbn [forallb]. rewrite forallb_flat_map. reflexivity. Qed.

Lemma proc_cm d t sel : forall e, src_cm e = true -> forall inh par pb pe r,
  proc d t sel inh par pb pe e = Ok (Some r) -> kind_of r = kind_of e /\ cm r = true.
Proof.
  induction e as [a cs IH] using elem_ind2. intros Hsrc inh par pb pe r H.
  rewrite src_cm_node in Hsrc. apply andb_true_iff in Hsrc as [Ha Hcs].
  apply proc_kept in H as (st & children & _ & _ & Hl & Hf).
  apply finish_element_inv in Hf as (Hpush & -> & Hkeep). split; [reflexivity|].
  (* every child of the result comes from a source child: same kind, content model inside *)
  assert (Hch : forall x, In x children -> (exists c, In c cs /\ kind_of x = kind_of c) /\ cm x = true).
  { intros x Hx. destruct (collect_map_in _ _ _ _ Hl Hx) as (c & Hc & Hp).
    rewrite Forall_forall in IH. rewrite forallb_forall in Hcs. destruct (IH c Hc (Hcs c Hc) _ _ _ _ _ Hp) as [Hk Hm].
    split; [exists c; split; assumption | exact Hm]. }
  assert (Hcm : forallb cm children = true) by (apply forallb_forall; intros x Hx; apply (Hch x Hx)).
  assert (Hkinds : forall k, In k (kinds children) -> In k (kinds cs)).
  { intros k Hk. unfold kinds in *. apply in_map_iff in Hk as (x & <- & Hx). destruct (Hch x Hx) as [(c & Hc & ->) _]. apply in_map, Hc. }
  assert (Hcok : cok (e_kind a) (kinds children) = true).
  { change (match e_kind a with KRuby | KRtc => true | _ => cok (e_kind a) (kinds cs) end = true) in Ha.
    destruct (forall_kind (e_kind a)) eqn:Efk.
    - apply (cok_incl _ (kinds cs)); [exact Efk | exact Hkinds|]. destruct (e_kind a); try discriminate; exact Ha.
    - assert (Hne : forall_kind (e_kind a) = false -> keep_always (e_kind a) = false -> e_kind a <> KRegion -> children <> []).
      { intros _ Hka Hr ->. destruct Hkeep as [Hk|[Hk|[Hk _]]]; [congruence | | congruence].
        apply Hk, finish_children_nil. }
      destruct (e_kind a) eqn:Ek; try discriminate.
      + (* region below the body: the source rule applies *)
        unfold cok in Ha. destruct cs as [|c0 [|c1 cs1]].
        * injection Hl as <-. reflexivity.
        * destruct children as [|x [|y ys]]; [reflexivity| |].
          -- destruct (Hch x (or_introl eq_refl)) as [(c & [<-|[]] & Hk) _]. rewrite kinds_cons, Hk. exact Ha.
          -- exfalso. cbn [map collect_regions] in Hl.
             destruct (proc d t sel _ _ _ _ c0) as [[z|]|]; cbn [bind] in Hl; discriminate.
        * rewrite !kinds_cons in Ha. destruct (kind_of c0); discriminate.
      + (* br *) unfold cok in Ha.
        destruct cs; [|discriminate]. injection Hl as <-. reflexivity.
      + (* text *) unfold cok in Ha.
        destruct cs; [|discriminate]. injection Hl as <-. reflexivity.
      + (* ruby *) destruct Hpush as [->|Hp]; [exfalso; apply (Hne eq_refl eq_refl); [discriminate | reflexivity]|].
        apply ruby_ok_cok. exact Hp.
      + (* rtc *) destruct Hpush as [->|Hp]; [exfalso; apply (Hne eq_refl eq_refl); [discriminate | reflexivity]|].
        apply rtc_ok_cok. exact Hp. }
  unfold finished. rewrite cm_node. cbn [isd_attrs e_kind].
  destruct (finish_children_cm a st children Hcok Hcm) as [G1 G2]. rewrite G1, G2. reflexivity.
Qed.

Lemma proc_region_cm d t sel r o :
  kind_of r = KRegion -> match d_body d with Some b => kind_eqb (kind_of b) KBody && src_cm b | None => true end = true ->
  proc_region d t sel r = Ok (Some o) -> kind_of o = KRegion /\ cm o = true.
Proof.
  intros Hk Hb H. apply proc_region_kept in H as (st & children & _ & _ & Hch & Hf).
  apply finish_element_inv in Hf as (_ & -> & _). split; [exact Hk|]. unfold finished. rewrite cm_node. cbn [isd_attrs e_kind].
  change (e_kind (eattrs r)) with (kind_of r). unfold finish_children. change (e_kind (eattrs r)) with (kind_of r). rewrite Hk. cbn [lwsp_kind].
  destruct Hch as [->|(b & x & Eb & Hp & ->)]; [reflexivity|]. rewrite Eb in Hb. apply andb_true_iff in Hb as [Hkb Hsb].
  destruct (proc_cm d t sel b Hsb _ _ _ _ _ Hp) as [Hkx Hmx]. rewrite kinds_cons, Hkx. cbn [forallb]. rewrite Hmx.
  destruct (kind_of b); try discriminate. reflexivity.
Qed.

Theorem snapshot_content_model d t rs :
  doc_content_wf d = true -> isd d t = Ok rs -> nth 3 (shape_clauses [] false rs) false = true.
Proof.
  intros Hwf H. cbn [nth shape_clauses]. rewrite every_forallb.
  unfold doc_content_wf in Hwf. apply andb_true_iff in Hwf as [Hreg Hbody].
  assert (G : forall o, In o rs -> kind_of o = KRegion /\ cm o = true).
  { intros o Ho. destruct (isd_in d t rs o H Ho) as (sel & r & Hr & Hp).
    assert (Hk : kind_of r = KRegion).
    { destruct Hr as [Hr|[_ ->]]; [|reflexivity]. rewrite forallb_forall in Hreg. specialize (Hreg r Hr). destruct (kind_of r); try discriminate; reflexivity. }
    apply (proc_region_cm d t sel r o Hk Hbody Hp). }
  apply andb_true_iff. split; apply forallb_forall; intros o Ho; destruct (G o Ho) as [G1 G2]; [rewrite G1; reflexivity | exact G2].
Qed.
