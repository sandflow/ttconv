(* C13, clause 9: in every snapshot, text whose parent is not xml:space=preserve contains no tab, CR or LF and no two
   consecutive spaces — for every document whose source respects the content model and every time.
   _process_lwsp gives every text node it is handed a collapsed text (or leaves it alone under preserve);
   _construct_text_list hands it every text node below a p except those below rt, rtc and rp, and those get their
   own pass when the rt / rp is built; _prune_empty_spans only removes nodes. *)
From TT Require Import Model.Doc Gen.StyleTables Model.Isd Spec.IsdShape Proofs.Common.ElemInd Proofs.Common.Walk.
From TT Require Import Proofs.C01.Lwsp Proofs.C13.Shape Proofs.C13.ContentModel.

(* the clause with skip_rp off, where ws_ok does not depend on being under an rp *)
Fixpoint wsk (e : elem) : bool :=
  match e with
  | Elem a cs =>
      (fix go (l : list elem) : bool :=
         match l with
         | [] => true
         | c :: l' => (match kind_of c with KText => e_preserve a || collapsed false (e_text (eattrs c)) | _ => wsk c end) && go l'
         end) cs
  end.
Definition child_ok (pre : bool) (c : elem) : bool :=
  match kind_of c with KText => pre || collapsed false (e_text (eattrs c)) | _ => wsk c end.
Lemma wsk_node a cs : wsk (Elem a cs) = forallb (child_ok (e_preserve a)) cs.
Proof. cbn [wsk]. induction cs as [|c cs IH]; [reflexivity|]. cbn [forallb]. rewrite <- IH. reflexivity. Qed.
Lemma ws_ok_wsk : forall e u, ws_ok false u e = wsk e.
Proof.
  induction e as [a cs IH] using elem_ind2. intros u. rewrite wsk_node. cbn [ws_ok].
  induction cs as [|c cs IHcs]; [reflexivity|]. inversion IH as [|? ? Hc Hcs]; subst. cbn [forallb]. rewrite <- (IHcs Hcs). f_equal.
  unfold child_ok. destruct (kind_of c); try apply Hc. cbn [andb]. rewrite orb_false_r. reflexivity.
Qed.

Lemma collapsed_collapse : forall t b, collapsed b (collapse b t) = true.
Proof.
  induction t as [|c t IH]; intros b; [reflexivity|]. cbn [collapse]. destruct (is_ws c) eqn:E.
  - destruct b; [apply IH|]. change (collapsed false (32 :: collapse true t)) with (collapsed true (collapse true t)). apply IH.
  - unfold is_ws in E. repeat (apply orb_false_iff in E as [E ?]). cbn [collapsed].
    replace (c =? 9) with false. replace (c =? 10) with false. replace (c =? 13) with false. replace (c =? 32) with false. apply IH.
Qed.
Lemma collapsed_weaken : forall t, collapsed true t = true -> collapsed false t = true.
Proof.
  intros [|c t] H; [reflexivity|]. cbn [collapsed] in *. destruct ((c =? 9) || (c =? 10) || (c =? 13)); [discriminate|].
  destruct (c =? 32); [discriminate | exact H].
Qed.
Lemma collapsed_removelast : forall t b, collapsed b t = true -> collapsed b (removelast t) = true.
Proof.
  induction t as [|c t IH]; intros b H; [reflexivity|]. destruct t as [|c' t']; [reflexivity|].
  change (removelast (c :: c' :: t')) with (c :: removelast (c' :: t')). cbn [collapsed] in H |- *.
  destruct ((c =? 9) || (c =? 10) || (c =? 13)); [discriminate|].
  destruct (c =? 32).
  - apply andb_true_iff in H as [H1 H2]. rewrite H1. cbn [andb]. apply IH, H2.
  - apply IH, H.
Qed.
(* what lwsp_pass1 does to a leading space, under a name *)
Definition strip_lead (cond : bool) (t : text) : text := match t with 32 :: t' => if cond then t' else t | _ => t end.
Lemma strip_lead_collapsed cond t : collapsed false t = true -> collapsed false (strip_lead cond t) = true.
Proof.
  intros H. unfold strip_lead. destruct t as [|c t']; [reflexivity|].
  destruct c as [|p|p]; try exact H.
  repeat (match goal with |- context [match ?q with xI _ => _ | xO _ => _ | xH => _ end] => is_var q; destruct q end); try exact H.
  destruct cond; [|exact H]. apply collapsed_weaken. exact H.
Qed.

(* _process_lwsp: every node that is neither a br nor under preserve ends with a collapsed text *)
Definition good (x : titem) (t : text) : bool := ti_br x || ti_pre x || collapsed false t.

Lemma pass1_good : forall l prev,
  Forall2 (fun x y => ti_br (fst y) = ti_br x /\ ti_pre (fst y) = ti_pre x /\
                      (ti_br x || ti_pre x = true \/ collapsed false (ti_text (fst y)) = true)) l (lwsp_pass1 prev l).
Proof.
  induction l as [|x l IH]; intros prev; [constructor|]. cbn [lwsp_pass1].
  destruct (ti_br x || ti_pre x) eqn:Eb; [constructor; [cbn [fst]; auto | apply IH]|].
  apply orb_false_iff in Eb as [Eb1 Eb2].
  set (t0 := collapse false (ti_text x)).
  set (t := match t0 with 32 :: t' => if match prev with None => true | Some p => prev_char_lwsp p end then t' else t0 | _ => t0 end).
  assert (Ht : collapsed false t = true).
  { change t with (strip_lead (match prev with None => true | Some p => prev_char_lwsp p end) t0).
    apply strip_lead_collapsed. apply collapsed_collapse. }
  destruct (is_nonempty t); (constructor; [cbn [fst ti_br ti_pre ti_text]; rewrite Eb1, Eb2; auto | apply IH]).
Qed.
Lemma pass2_good : forall l,
  Forall2 (fun y t => ti_br (fst y) || ti_pre (fst y) = true \/ (collapsed false (ti_text (fst y)) = true -> collapsed false t = true))
          l (fst (lwsp_pass2 l)).
Proof.
  induction l as [|[x kept] l IH]; [constructor|]. cbn [lwsp_pass2].
  destruct (lwsp_pass2 l) as [rest next] eqn:E. cbn [fst] in IH.
  destruct (negb kept); [cbn [fst]; constructor; [right; auto | exact IH]|].
  destruct (ti_br x || ti_pre x) eqn:Eb; [cbn [fst]; constructor; [left; exact Eb | exact IH]|].
  cbn [fst]. constructor; [|exact IH]. cbn [fst]. right. intros H.
  match goal with |- collapsed false (if ?c then _ else _) = true => destruct c end; [apply collapsed_removelast, H | exact H].
Qed.
Lemma process_lwsp_good l : Forall2 (fun x t => good x t = true) l (process_lwsp l).
Proof.
  unfold process_lwsp. eapply Forall2_trans; [|apply (pass1_good l None)|apply pass2_good].
  intros x y t (H1 & H2 & H3) H4. cbn beta in *. unfold good. rewrite H1, H2 in H4.
  destruct H3 as [H3|H3]; [rewrite H3; reflexivity|]. destruct H4 as [H4|H4]; [rewrite H4; reflexivity|].
  rewrite (H4 H3). apply orb_true_r.
Qed.

(* before the pass: everything the text list does not reach (br, and what is below rt, rtc, rp) already meets the clause *)
Fixpoint part (e : elem) : bool :=
  match e with
  | Elem a cs =>
      match e_kind a with
      | KText => true
      | KBr | KRt | KRtc | KRp => wsk (Elem a cs)
      | _ => (fix go (l : list elem) : bool := match l with [] => true | c :: l' => part c && go l' end) cs
      end
  end.
Lemma part_node a cs :
  part (Elem a cs) = match e_kind a with KText => true | KBr | KRt | KRtc | KRp => wsk (Elem a cs) | _ => forallb part cs end.
Proof.
  cbn [part]. destruct (e_kind a); try reflexivity; (induction cs as [|c cs IH]; [reflexivity | cbn [forallb]; rewrite <- IH; reflexivity]).
Qed.

Lemma child_ok_part : forall e pre, child_ok pre e = true -> part e = true.
Proof.
  induction e as [a cs IH] using elem_ind2. intros pre H. rewrite part_node. unfold child_ok, kind_of in H. cbn [eattrs] in H.
  destruct (e_kind a); try reflexivity; try exact H; rewrite wsk_node in H; rewrite forallb_forall in *; rewrite Forall_forall in IH;
    intros x Hx; apply (IH x Hx (e_preserve a)), H, Hx.
Qed.

Lemma assign_ok : forall e pre ts rest, Forall2 (fun x t => good x t = true) (collect_texts pre e) ts -> part e = true ->
  child_ok pre (fst (assign_texts e (ts ++ rest))) = true /\ snd (assign_texts e (ts ++ rest)) = rest.
Proof.
  induction e as [a cs IH] using elem_ind2. intros pre ts rest H Hp.
  rewrite collect_node in H. rewrite assign_node. rewrite part_node in Hp.
  assert (Hlist : forall ts rest, Forall2 (fun x t => good x t = true) (flat_map (collect_texts (e_preserve a)) cs) ts ->
            forallb part cs = true ->
            forallb (child_ok (e_preserve a)) (fst (assign_list cs (ts ++ rest))) = true /\ snd (assign_list cs (ts ++ rest)) = rest).
  { clear H Hp ts rest. induction cs as [|c cs IHcs]; intros ts rest H Hp.
    - inversion H; subst. split; reflexivity.
    - inversion IH as [|? ? Hc Hcs]; subst. cbn [flat_map] in H. cbn [forallb] in Hp. apply andb_true_iff in Hp as [Hp1 Hp2].
      apply Forall2_app_inv_l in H as (ts1 & ts2 & H1 & H2 & ->).
      rewrite <- app_assoc. destruct (Hc (e_preserve a) ts1 (ts2 ++ rest) H1 Hp1) as [Hs Hr].
      cbn [assign_list]. destruct (assign_texts c (ts1 ++ ts2 ++ rest)) as [c' tsr]. cbn [fst snd] in Hs, Hr. subst tsr.
      destruct (IHcs Hcs ts2 rest H2 Hp2) as [Hs2 Hr2]. destruct (assign_list cs (ts2 ++ rest)) as [l'' ts2']. cbn [fst snd] in *.
      subst ts2'. cbn [forallb]. rewrite Hs, Hs2. split; reflexivity. }
  assert (Hnode : forall cs', kind_eqb (e_kind a) KText = false -> child_ok pre (Elem a cs') = forallb (child_ok (e_preserve a)) cs').
  { intros cs' Hk. rewrite <- wsk_node. unfold child_ok, kind_of. cbn [eattrs]. destruct (e_kind a); try reflexivity; discriminate. }
  destruct (e_kind a) eqn:Ek; cbn [skips_text_list] in *.
  all: try (destruct (Hlist ts rest H Hp) as [G1 G2]; destruct (assign_list cs (ts ++ rest)) as [cs' ts']; cbn [fst snd] in *; subst ts';
            split; [rewrite Hnode by reflexivity; exact G1 | reflexivity]).
  all: try (inversion H; subst; cbn [app fst snd]; split; [unfold child_ok, kind_of; cbn [eattrs]; rewrite Ek; exact Hp | reflexivity]).
  - (* br *) inversion H as [|x y l l' Hxy Hrest]; subst. inversion Hrest; subst. cbn [app tl fst snd]. split; [|reflexivity].
    unfold child_ok, kind_of. cbn [eattrs]. rewrite Ek. exact Hp.
  - (* text *) destruct (is_nonempty (e_text a)) eqn:En.
    + inversion H as [|x y l l' Hxy Hrest]; subst. inversion Hrest; subst. cbn [app hd tl fst snd]. split; [|reflexivity].
      unfold child_ok, kind_of. cbn [eattrs e_kind e_text]. unfold good in Hxy. cbn [ti_br ti_pre orb] in Hxy. exact Hxy.
    + inversion H; subst. cbn [app fst snd]. split; [|reflexivity].
      unfold child_ok, kind_of. cbn [eattrs]. rewrite Ek. destruct (e_text a); [apply orb_true_r | discriminate].
Qed.
Lemma assign_list_ok pre : forall cs ts, Forall2 (fun x t => good x t = true) (flat_map (collect_texts pre) cs) ts ->
  forallb part cs = true -> forallb (child_ok pre) (fst (assign_list cs ts)) = true.
Proof.
  induction cs as [|c cs IHcs]; intros ts H Hp; [reflexivity|].
  cbn [flat_map] in H. cbn [forallb] in Hp. apply andb_true_iff in Hp as [Hp1 Hp2].
  apply Forall2_app_inv_l in H as (ts1 & ts2 & H1 & H2 & ->).
  destruct (assign_ok c pre ts1 ts2 H1 Hp1) as [Hs Hr].
  cbn [assign_list]. destruct (assign_texts c (ts1 ++ ts2)) as [c' tsr]. cbn [fst snd] in Hs, Hr. subst tsr.
  specialize (IHcs ts2 H2 Hp2). destruct (assign_list cs ts2) as [l'' ts2']. cbn [fst forallb] in *. rewrite Hs, IHcs. reflexivity.
Qed.

Lemma prune_child_ok : forall e pre, child_ok pre e = true -> child_ok pre (prune_empty e) = true.
Proof.
  induction e as [a cs IH] using elem_ind2. intros pre H. rewrite prune_empty_node. unfold child_ok, kind_of in *. cbn [eattrs] in *.
  destruct (e_kind a); try exact H; rewrite wsk_node in *; rewrite forallb_forall in *; rewrite Forall_forall in IH;
    intros x Hx; apply prune_list_in in Hx as (c & Hc & ->); apply (IH c Hc), H, Hc.
Qed.
Lemma prune_list_child_ok pre cs : forallb (child_ok pre) cs = true -> forallb (child_ok pre) (prune_list cs) = true.
Proof.
  intros H. rewrite forallb_forall in *. intros x Hx. apply prune_list_in in Hx as (c & Hc & ->). apply prune_child_ok, H, Hc.
Qed.

Lemma lwsp_children_ws a cs : forallb part cs = true -> forallb (child_ok (e_preserve a)) (lwsp_children a cs) = true.
Proof.
  intros Hp. unfold lwsp_children. rewrite prune_empty_node. cbn [echildren]. apply prune_list_child_ok.
  rewrite assign_children_list. apply assign_list_ok; [|exact Hp]. apply process_lwsp_good.
Qed.

Definition ws_kind (k : kind) : bool := match k with KBody | KDiv | KP | KRt | KRtc | KRp => true | _ => false end.

Lemma proc_ws d t sel : forall e, src_cm e = true -> forall inh par pb pe r,
  proc d t sel inh par pb pe e = Ok (Some r) -> part r = true /\ (ws_kind (kind_of e) = true -> wsk r = true).
Proof.
  induction e as [a cs IH] using elem_ind2. intros Hsrc inh par pb pe r H.
  pose proof Hsrc as Hsrc0. rewrite src_cm_node in Hsrc. apply andb_true_iff in Hsrc as [Ha Hcs].
  change (match e_kind a with KRuby | KRtc => true | _ => cok (e_kind a) (kinds cs) end = true) in Ha.
  change (kind_of (Elem a cs)) with (e_kind a).
  apply proc_kept in H as (st & children & _ & _ & Hl & Hf).
  apply finish_element_inv in Hf as (_ & -> & _). unfold finished.
  rewrite Forall_forall in IH. rewrite forallb_forall in Hcs.
  assert (Hch : forall x, In x children -> exists c, In c cs /\ kind_of x = kind_of c /\ part x = true /\ (ws_kind (kind_of c) = true -> wsk x = true)).
  { intros x Hx. destruct (collect_map_in _ _ _ _ Hl Hx) as (c & Hc & Hp). exists c.
    destruct (IH c Hc (Hcs c Hc) _ _ _ _ _ Hp) as [G1 G2]. destruct (proc_cm d t sel c (Hcs c Hc) _ _ _ _ _ Hp) as [G3 _]. auto. }
  assert (Hpart : forallb part children = true).
  { apply forallb_forall. intros x Hx. destruct (Hch x Hx) as (c & _ & _ & G & _). exact G. }
  assert (Epre : forall s, e_preserve (isd_attrs a s) = if is_leaf_kind (e_kind a) then false else e_preserve a) by reflexivity.
  rewrite part_node, wsk_node. cbn [isd_attrs e_kind]. fold (isd_attrs a (strip_inapplicable (e_kind a) st)).
  rewrite Epre. unfold finish_children.
  destruct (lwsp_kind (e_kind a)) eqn:El.
  - (* p, rt, rtc, rp: the white-space pass *)
    assert (G : forallb (child_ok (if is_leaf_kind (e_kind a) then false else e_preserve a))
                        (match children with [] => [] | _ :: _ => lwsp_children (isd_attrs a st) children end) = true).
    { destruct children as [|c0 cs0]; [reflexivity|]. rewrite <- (Epre st). apply lwsp_children_ws. exact Hpart. }
    split; [|intros _; exact G].
    destruct (e_kind a); try discriminate; try exact G.
    (* p *) rewrite forallb_forall in *. intros x Hx. apply (child_ok_part x _ (G x Hx)).
  - (* no pass here: the children as they are *)
    assert (Hk : is_leaf_kind (e_kind a) = true -> children = []).
    { intros Hleaf. destruct (e_kind a); try discriminate; unfold cok in Ha; (destruct cs; [|discriminate]);
        injection Hl as <-; reflexivity. }
    split.
    + destruct (e_kind a) eqn:Ek; try discriminate; try exact Hpart; try reflexivity.
      rewrite (Hk eq_refl). reflexivity.
    + intros Hw. destruct (e_kind a) eqn:Ek; try discriminate; cbn [is_leaf_kind];
        apply forallb_forall; intros x Hx; destruct (Hch x Hx) as (c & Hc & Hkx & _ & Hwx);
        assert (Hin : In (kind_of c) (kinds cs)) by (apply in_map, Hc);
        unfold cok in Ha; rewrite forallb_forall in Ha; specialize (Ha _ Hin);
        unfold child_ok; rewrite Hkx; destruct (kind_of c); try discriminate; apply Hwx; reflexivity.
Qed.

Theorem snapshot_whitespace d t rs :
  doc_content_wf d = true -> isd d t = Ok rs -> nth 9 (shape_clauses [] false rs) false = true.
Proof.
  intros Hwf H. cbn [nth shape_clauses].
  unfold doc_content_wf in Hwf. apply andb_true_iff in Hwf as [Hreg Hbody].
  apply forallb_forall. intros o Ho. rewrite ws_ok_wsk. destruct (isd_in d t rs o H Ho) as (sel & r & Hr & Hp).
  apply proc_region_kept in Hp as (st & children & _ & _ & Hch & Hf).
  apply finish_element_inv in Hf as (_ & -> & _). unfold finished. rewrite wsk_node.
  destruct Hch as [->|(b & x & Eb & Hpb & ->)].
  - unfold finish_children. destruct (lwsp_kind _); reflexivity.
  - rewrite Eb in Hbody. apply andb_true_iff in Hbody as [Hkb Hsb].
    destruct (proc_ws d t sel b Hsb _ _ _ _ _ Hpb) as [Gp Gw]. destruct (proc_cm d t sel b Hsb _ _ _ _ _ Hpb) as [Gk _].
    assert (Hx : forall pre, child_ok pre x = true).
    { intros pre. unfold child_ok. rewrite Gk. destruct (kind_of b); try discriminate. apply Gw. reflexivity. }
    unfold finish_children. destruct (lwsp_kind _).
    + change (e_preserve (isd_attrs (eattrs r) (strip_inapplicable (e_kind (eattrs r)) st))) with (e_preserve (isd_attrs (eattrs r) st)).
      apply lwsp_children_ws. cbn [forallb]. rewrite Gp. reflexivity.
    + cbn [forallb]. rewrite Hx. reflexivity.
Qed.
