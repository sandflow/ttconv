(* C13: an element of a snapshot carries exactly the style properties applicable to its kind (clause 4) and never
   display:none (clause 7); a region without content is there only under showBackground=always (clause 10). *)
From TT Require Import Model.Doc Gen.StyleTables Model.Isd Spec.IsdSpec Spec.IsdShape Proofs.Common.ElemInd Proofs.Common.StyleFrame Proofs.Common.Walk.
From TT Require Import Proofs.C13.Shape Proofs.C03.Phase.

Lemma shas_sset m p v q : shas m q = true -> shas (sset m p v) q = true.
Proof.
  unfold shas. intros H. destruct (Z.eq_dec q p) as [->|Hne]; [rewrite sget_sset_same; reflexivity|].
  rewrite sget_sset_other by exact Hne. exact H.
Qed.
(* the style phase builds its map from the empty one by sset alone: what holds of [] and is kept by sset holds of the result *)
Section BuiltBySset.
  Variable P : smap -> Prop.
  Hypothesis P_sset : forall m p v, P m -> P (sset m p v).

  Lemma compute_prop_sset d par st p st' : compute_prop d par st p = Ok st' -> P st -> P st'.
  Proof. apply compute_prop_built; [intros m v; apply P_sset | intros _ m v; apply P_sset]. Qed.
  Lemma compute_styles_sset d par todo : forall order st st', compute_styles d par todo order st = Ok st' -> P st -> P st'.
  Proof.
    induction order as [|p order IH]; intros st st' H Hq; cbn [compute_styles] in H; [injection H as <-; exact Hq|].
    destruct (existsb (Z.eqb p) todo); [|apply (IH _ _ H Hq)].
    destruct (compute_prop d par st p) as [st1|] eqn:E; [|discriminate]. cbn [bind] in H.
    apply (IH _ _ H). apply (compute_prop_sset _ _ _ _ _ E Hq).
  Qed.
  Lemma apply_anims_sset t iv : forall l st todo, P st -> P (fst (apply_anims t iv l st todo)).
  Proof.
    induction l as [|s l IH]; intros st todo Hn; [exact Hn|]. cbn [apply_anims]. destruct (active_at t _); [apply IH, P_sset, Hn | apply IH, Hn].
  Qed.
  Lemma apply_specified_sset : forall l st todo, P st -> P (fst (apply_specified l st todo)).
  Proof.
    induction l as [|[p v] l IH]; intros st todo Hn; [exact Hn|]. cbn [apply_specified]. destruct (shas st p); [apply IH, Hn | apply IH, P_sset, Hn].
  Qed.
  Lemma dir_pass_sset a st todo : P st -> P (fst (dir_pass a st todo)).
  Proof.
    intros Hn. unfold dir_pass. destruct (e_kind a); try exact Hn. destruct (negb (shas (e_styles a) p_Direction)); [|exact Hn].
    destruct (sget (e_styles a) p_WritingMode) as [[w| | | | | | | | | | | | | |]|]; try exact Hn.
    destruct (w =? e_WritingModeType_lrtb); [apply P_sset, Hn|]. destruct (w =? e_WritingModeType_rltb); [apply P_sset, Hn | exact Hn].
  Qed.
  Lemma inherit_prop_sset k pk pst st p : P st -> P (inherit_prop k pk pst st p).
  Proof.
    intros Hn. unfold inherit_prop.
    repeat match goal with
           | |- context [if ?c then _ else _] => destruct c
           | |- context [match ?x with _ => _ end] => destruct x
           end; try exact Hn; apply P_sset, Hn.
  Qed.
  Lemma apply_inherit_sset k pk pst : forall keys st, P st -> P (apply_inherit k pk pst keys st).
  Proof. induction keys as [|p keys IH]; intros st Hn; [exact Hn|]. cbn [apply_inherit]. apply IH, inherit_prop_sset, Hn. Qed.
  Lemma apply_initial_sset d : forall props st todo, P st -> P (fst (apply_initial d props st todo)).
  Proof.
    induction props as [|p props IH]; intros st todo Hn; [exact Hn|]. cbn [apply_initial].
    destruct (shas st p); [apply IH, Hn|]. destruct (sget (d_initials d) p); [apply IH, P_sset, Hn|].
    destruct (p =? p_Position); [apply IH, Hn|]. destruct (sget initial_values p); [apply IH, P_sset, Hn | apply IH, Hn].
  Qed.

  Theorem style_phase_sset d t a par iv st : P [] -> style_phase d t a par iv = Ok st -> P st.
  Proof.
    unfold style_phase. intros N H.
    pose proof (apply_anims_sset t iv (e_anims a) [] [] N) as N0.
    destruct (apply_anims t iv (e_anims a) [] []) as [st0 todo0]. cbn [fst] in N0.
    pose proof (apply_specified_sset (e_styles a) st0 todo0 N0) as N1.
    destruct (apply_specified (e_styles a) st0 todo0) as [st1 todo1]. cbn [fst] in N1.
    match type of H with (let '(st, todo) := ?X in _) = _ => change X with (dir_pass a st1 todo1) in H end.
    pose proof (dir_pass_sset a st1 todo1 N1) as N2.
    destruct (dir_pass a st1 todo1) as [st2 todo2]. cbn [fst] in N2.
    assert (N3 : P (match e_kind a, par with
                    | KBr, _ | KText, _ | KRegion, _ => st2
                    | _, Some (pk, pst) => apply_inherit (e_kind a) pk pst (skeys pst) st2
                    | _, None => st2
                    end)).
    { destruct par as [[pk pst]|]; [|destruct (e_kind a); exact N2]. destruct (e_kind a); try exact N2; apply apply_inherit_sset, N2. }
    revert H N3. generalize (match e_kind a, par with
                             | KBr, _ | KText, _ | KRegion, _ => st2
                             | _, Some (pk, pst) => apply_inherit (e_kind a) pk pst (skeys pst) st2
                             | _, None => st2
                             end). intros st3 H N3.
    assert (N4 : P (fst (if is_leaf_kind (e_kind a) then (st3, todo2) else apply_initial d all_props st3 todo2))).
    { destruct (is_leaf_kind (e_kind a)); [exact N3 | apply apply_initial_sset, N3]. }
    destruct (if is_leaf_kind (e_kind a) then (st3, todo2) else apply_initial d all_props st3 todo2) as [st4 todo4]. cbn [fst] in N4.
    apply (compute_styles_sset _ _ _ _ _ _ H N4).
  Qed.
End BuiltBySset.

Lemma compute_styles_keeps d par todo q order st st' :
  compute_styles d par todo order st = Ok st' -> shas st q = true -> shas st' q = true.
Proof. apply (compute_styles_sset (fun m => shas m q = true)). intros m p v. apply shas_sset. Qed.

Lemma compute_styles_position d par todo : forall order st st',
  compute_styles d par todo order st = Ok st' -> In p_Position order -> mem p_Position todo = true ->
  shas st' p_Position = true.
Proof.
  induction order as [|p order IH]; intros st st' H Hin Htodo; [destruct Hin|]. cbn [compute_styles] in H.
  destruct Hin as [->|Hin].
  - unfold mem in Htodo. rewrite Htodo in H. destruct (compute_prop d par st p_Position) as [st1|] eqn:E; [|discriminate]. cbn [bind] in H.
    apply (compute_styles_keeps _ _ _ _ _ _ _ H). destruct (compute_position_coincide _ _ _ _ E) as (x & y & _ & Hp).
    unfold shas. rewrite Hp. reflexivity.
  - destruct (existsb (Z.eqb p) todo).
    + destruct (compute_prop d par st p) as [st1|] eqn:E; [|discriminate]. cbn [bind] in H. apply (IH _ _ H Hin Htodo).
    + apply (IH _ _ H Hin Htodo).
Qed.

Lemma table_facts :
  forallb (fun q => (q =? p_Position) || shas initial_values q) all_props = true /\ In p_Position ordered_style_props.
Proof. split; [vm_compute; reflexivity | cbn; tauto]. Qed.

Theorem style_phase_complete d t a par iv st :
  is_leaf_kind (e_kind a) = false -> style_phase d t a par iv = Ok st ->
  forall q, In q all_props -> shas st q = true.
Proof.
  intros Hk H q Hq. destruct (style_phase_pre d t a par iv st Hk H) as (st4 & todo4 & Hc & Hpre). destruct (Hpre q Hq) as [Hv Ht].
  destruct table_facts as [Htab Hord]. rewrite forallb_forall in Htab. specialize (Htab q Hq).
  destruct (shas st4 q) eqn:E; [apply (compute_styles_keeps _ _ _ _ _ _ _ Hc E)|].
  (* absent after the initial values: it can only be Position, which is then computed from Origin *)
  unfold shas in E. rewrite Hv in E. unfold pre_value in E. unfold pre_todo in Ht.
  destruct (pre_v3 t a par iv q); [discriminate|]. rewrite orb_true_r in Ht.
  unfold default_pre in E. destruct (sget (d_initials d) q); [discriminate|].
  destruct (q =? p_Position) eqn:Epos.
  - apply Z.eqb_eq in Epos. subst q. apply (compute_styles_position _ _ _ _ _ _ Hc Hord Ht).
  - cbn [orb] in Htab. unfold shas in Htab. destruct (sget initial_values q); discriminate.
Qed.

Lemma sget_strip k st q : sget (strip_inapplicable k st) q = if applicable k q then sget st q else None.
Proof.
  unfold strip_inapplicable. induction st as [|[p v] st IH]; cbn [filter sget fst]; [destruct (applicable k q); reflexivity|].
  destruct (applicable k p) eqn:Ep; cbn [sget].
  - destruct (p =? q) eqn:E; [apply Z.eqb_eq in E; subst p; rewrite Ep; reflexivity | exact IH].
  - destruct (p =? q) eqn:E; [apply Z.eqb_eq in E; subst p; rewrite IH, Ep; reflexivity | exact IH].
Qed.
Lemma skeys_strip k st : forall q, In q (skeys (strip_inapplicable k st)) -> applicable k q = true.
Proof.
  unfold skeys, strip_inapplicable. intros q H. apply in_map_iff in H as ([p v] & <- & Hin).
  apply filter_In in Hin as [_ Hp]. exact Hp.
Qed.
Lemma in_skeys m q : shas m q = true -> In q (skeys m).
Proof.
  unfold shas, skeys. induction m as [|[p v] m IH]; cbn [sget map fst]; [discriminate|].
  destruct (p =? q) eqn:E; [apply Z.eqb_eq in E; left; exact E | intros H; right; apply IH, H].
Qed.
Lemma applicable_to_spec k q : In q (applicable_to k) <-> applicable k q = true.
Proof.
  unfold applicable_to, applicable. destruct (assoc_z applicable_table (kind_num k)) as [l|]; [|split; [intros [] | discriminate]].
  split; intros H.
  - apply existsb_exists. exists q. split; [exact H | apply Z.eqb_refl].
  - apply existsb_exists in H as (x & Hx & E). apply Z.eqb_eq in E. subst x. exact Hx.
Qed.
Lemma applicable_in_all k : forall q, In q (applicable_to k) -> In q all_props.
Proof.
  assert (H : forallb (fun q => existsb (Z.eqb q) all_props) (applicable_to k) = true) by (destruct k; vm_compute; reflexivity).
  rewrite forallb_forall in H. intros q Hq. specialize (H q Hq). apply existsb_exists in H as (x & Hx & E).
  apply Z.eqb_eq in E. subst x. exact Hx.
Qed.
Lemma subset_spec a b : (forall x, In x a -> In x b) -> subset a b = true.
Proof.
  intros H. unfold subset. apply forallb_forall. intros x Hx. apply existsb_exists. exists x. split; [apply H, Hx | apply Z.eqb_refl].
Qed.

(* clause 4 on the attributes M builds *)
Definition styles_exact_a (a : attrs) : bool :=
  let keys := skeys (e_styles a) in
  match e_kind a with
  | KBr | KText => subset keys (applicable_to (e_kind a))
  | k => subset keys (applicable_to k) && subset (applicable_to k) keys
  end.
Lemma styles_exact_out d t a par iv st :
  style_phase d t a par iv = Ok st -> display_none st = false ->
  styles_exact_a (isd_attrs a (strip_inapplicable (e_kind a) st)) = true.
Proof.
  intros H _. unfold styles_exact_a. cbn [isd_attrs e_kind e_styles].
  assert (H1 : subset (skeys (strip_inapplicable (e_kind a) st)) (applicable_to (e_kind a)) = true).
  { apply subset_spec. intros q Hq. apply applicable_to_spec. apply (skeys_strip _ _ _ Hq). }
  assert (H2 : is_leaf_kind (e_kind a) = false -> subset (applicable_to (e_kind a)) (skeys (strip_inapplicable (e_kind a) st)) = true).
  { intros Hk. apply subset_spec. intros q Hq. apply in_skeys. unfold shas. rewrite sget_strip.
    pose proof Hq as Hq'. apply applicable_to_spec in Hq'. rewrite Hq'.
    pose proof (style_phase_complete d t a par iv st Hk H q (applicable_in_all _ q Hq)) as Hs. exact Hs. }
  destruct (e_kind a); cbn [is_leaf_kind] in H2; try exact H1; rewrite H1, H2; reflexivity.
Qed.

Theorem snapshot_styles_exact d t rs : isd d t = Ok rs -> nth 4 (shape_clauses [] false rs) false = true.
Proof.
  intros H. cbn [nth shape_clauses]. rewrite (every_allp _ styles_exact_a) by (intros [a cs]; reflexivity).
  apply (isd_allp styles_exact_a) with (d := d) (t := t); [reflexivity | apply styles_exact_out | exact H].
Qed.

(* clause 7: no element of a snapshot computes to display:none *)
Definition not_none_a (a : attrs) : bool :=
  match sget (e_styles a) p_Display with Some (VEnum x) => negb (x =? e_DisplayType_none) | _ => true end.
Lemma not_none_out d t a par iv st :
  style_phase d t a par iv = Ok st -> display_none st = false -> not_none_a (isd_attrs a (strip_inapplicable (e_kind a) st)) = true.
Proof.
  intros _ Hd. unfold not_none_a. cbn [isd_attrs e_styles]. rewrite sget_strip.
  destruct (applicable (e_kind a) p_Display); [|reflexivity].
  unfold display_none in Hd. destruct (sget st p_Display) as [[x| | | | | | | | | | | | | |]|]; try reflexivity. rewrite Hd. reflexivity.
Qed.
Theorem snapshot_no_display_none d t rs : isd d t = Ok rs -> nth 7 (shape_clauses [] false rs) false = true.
Proof.
  intros H. cbn [nth shape_clauses]. rewrite (every_allp _ not_none_a) by (intros [a cs]; reflexivity).
  apply (isd_allp not_none_a) with (d := d) (t := t); [reflexivity | apply not_none_out | exact H].
Qed.

(* clause 10: a region without content is in the snapshot only when its computed tts:showBackground is always *)
Lemma finish_region_empty a st children r :
  e_kind a = KRegion -> finish_element a st children = Ok (Some r) -> empty_region_ok r = true.
Proof.
  intros Hk H. apply finish_element_inv in H as (_ & -> & Hkeep). unfold empty_region_ok, finished. cbn [echildren eattrs isd_attrs e_styles].
  destruct (finish_children a st children); [|reflexivity]. rewrite Hk in *.
  destruct Hkeep as [Hkeep|[Hkeep|[_ ->]]]; [discriminate | contradiction|]. apply Z.eqb_refl.
Qed.
Theorem snapshot_empty_regions d t rs :
  Forall (fun r => e_kind (eattrs r) = KRegion) (d_regions d) -> isd d t = Ok rs -> nth 10 (shape_clauses [] false rs) false = true.
Proof.
  intros Hreg H. cbn [nth shape_clauses]. apply forallb_forall. intros o Ho. destruct (isd_in d t rs o H Ho) as (sel & r & Hr & Hp).
  assert (Hk : e_kind (eattrs r) = KRegion) by (destruct Hr as [Hr|[_ ->]]; [exact (proj1 (Forall_forall _ _) Hreg r Hr) | reflexivity]).
  apply proc_region_kept in Hp as (st & children & _ & _ & _ & Hf). apply (finish_region_empty _ _ _ _ Hk Hf).
Qed.
