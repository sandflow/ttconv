(* C13, clause 5: every length of every style value of every snapshot element is root-container relative (rh / rw),
   for every document whose non-computed properties carry no other length (doc_values_wf) and every time.
   Invariant of the style phase: a value in the element's style map is already root relative, or its property is
   scheduled for computation and still ahead in _ORDERED_STYLE_PROPS; each compute step resolves its property against
   references that are behind it in that order (own font size, own extent, own origin) or belong to the parent. *)
From TT Require Import Model.Doc Gen.StyleTables Model.Isd Spec.IsdShape Proofs.Common.ElemInd Proofs.Common.StyleFrame Proofs.Common.Walk.
From TT Require Import Proofs.C01.Lwsp Proofs.C13.Shape Proofs.C13.Styles Proofs.C03.Phase.

Definition okv (o : option value) : bool := match o with Some v => value_units_ok v | None => true end.
Definition Uok (st : smap) : Prop := forall p, okv (sget st p) = true.
(* ok, or pending: scheduled and still to come in the list S of properties to compute *)
Definition J (todo S : list Z) (st : smap) : Prop := forall p, okv (sget st p) = true \/ (mem p todo = true /\ In p S).

Lemma J_sset todo S st p v : J todo S st -> value_units_ok v = true -> J todo S (sset st p v).
Proof.
  intros HJ Hv q. destruct (Z.eq_dec q p) as [->|Hne]; [left; rewrite sget_sset_same; exact Hv|].
  rewrite sget_sset_other by exact Hne. apply HJ.
Qed.
Lemma J_todo_cons todo S st p : J todo S st -> J (p :: todo) S st.
Proof. intros HJ q. destruct (HJ q) as [H|[H1 H2]]; [left; exact H | right; split; [unfold mem in *; cbn [existsb]; rewrite H1; apply orb_true_r | exact H2]]. Qed.
Lemma J_schedule todo S st p v : J todo S st -> src_value_ok p v = true -> (forall q, computed_prop q = true -> In q S) ->
  J (p :: todo) S (sset st p v).
Proof.
  intros HJ Hv HS q. destruct (Z.eq_dec q p) as [->|Hne].
  - rewrite sget_sset_same. unfold src_value_ok in Hv. apply orb_true_iff in Hv as [Hv|Hv]; [|left; exact Hv].
    right. split; [unfold mem; cbn [existsb]; rewrite Z.eqb_refl; reflexivity | apply HS, Hv].
  - rewrite sget_sset_other by exact Hne. apply J_todo_cons, HJ.
Qed.

Section Phase.
  Variable S : list Z.
  Hypothesis HS : forall q, computed_prop q = true -> In q S.

  Lemma apply_anims_J t iv : forall l st todo,
    forallb (fun s => src_value_ok (a_prop s) (a_val s)) l = true -> J todo S st ->
    J (snd (apply_anims t iv l st todo)) S (fst (apply_anims t iv l st todo)).
  Proof.
    induction l as [|s l IH]; intros st todo Hl HJ; [exact HJ|]. cbn [forallb] in Hl. apply andb_true_iff in Hl as [H1 H2].
    cbn [apply_anims]. destruct (active_at t _); [|apply IH; assumption].
    apply IH; [exact H2|]. apply J_schedule; assumption.
  Qed.
  Lemma apply_specified_J : forall l st todo,
    forallb (fun kv => src_value_ok (fst kv) (snd kv)) l = true -> J todo S st ->
    J (snd (apply_specified l st todo)) S (fst (apply_specified l st todo)).
  Proof.
    induction l as [|[p v] l IH]; intros st todo Hl HJ; [exact HJ|]. cbn [forallb fst snd] in Hl. apply andb_true_iff in Hl as [H1 H2].
    cbn [apply_specified]. destruct (shas st p); [apply IH; assumption|].
    apply IH; [exact H2|]. apply J_schedule; assumption.
  Qed.
  Lemma inherit_prop_J k pk pst todo st p : Uok pst -> J todo S st -> J todo S (inherit_prop k pk pst st p).
  Proof.
    intros Hp HJ. unfold inherit_prop.
    destruct (p =? p_FontSize).
    { destruct (shas st p); [exact HJ|]. pose proof (Hp p) as Hpv. destruct (sget pst p) as [[]|]; try exact HJ.
      apply J_sset; [exact HJ|]. cbn [okv value_units_ok] in Hpv. destruct (match k with KRtc => true | KRt => negb (kind_eqb pk KRtc) | _ => false end); exact Hpv. }
    destruct (p =? p_TextDecoration).
    { destruct (sget pst p) as [[]|]; try exact HJ. destruct (sget st p) as [[]|]; try exact HJ; apply J_sset; try exact HJ; reflexivity. }
    destruct (p =? p_WritingMode).
    { (* the writing mode copied from the parent is one of the parent's (already root relative) values *)
      pose proof (Hp p) as Hpv. destruct (sget pst p) as [v|]; [|exact HJ]. apply J_sset; assumption. }
    destruct (is_inherited p && negb (shas st p)); [|exact HJ].
    pose proof (Hp p) as Hpv. destruct (sget pst p) as [v|]; [|exact HJ]. apply J_sset; assumption.
  Qed.
  Lemma apply_inherit_J k pk pst todo : Uok pst -> forall keys st, J todo S st -> J todo S (apply_inherit k pk pst keys st).
  Proof. intros Hp. induction keys as [|p keys IH]; intros st HJ; [exact HJ|]. cbn [apply_inherit]. apply IH, inherit_prop_J; assumption. Qed.

  Lemma initial_values_ok : forallb (fun kv => src_value_ok (fst kv) (snd kv)) initial_values = true.
  Proof. vm_compute. reflexivity. Qed.
  Lemma sget_forallb (f : Z -> value -> bool) : forall (m : smap) p v, forallb (fun kv => f (fst kv) (snd kv)) m = true -> sget m p = Some v -> f p v = true.
  Proof.
    induction m as [|[k w] m IH]; intros p v H Hg; [discriminate|]. cbn [forallb fst snd] in H. apply andb_true_iff in H as [H1 H2].
    cbn [sget] in Hg. destruct (k =? p) eqn:E; [apply Z.eqb_eq in E; subst k; injection Hg as <-; exact H1 | apply (IH _ _ H2 Hg)].
  Qed.
  Lemma apply_initial_J d : forallb (fun kv => src_value_ok (fst kv) (snd kv)) (d_initials d) = true ->
    forall props st todo, J todo S st -> J (snd (apply_initial d props st todo)) S (fst (apply_initial d props st todo)).
  Proof.
    intros Hd. induction props as [|p props IH]; intros st todo HJ; [exact HJ|]. cbn [apply_initial].
    destruct (shas st p) eqn:Es; [apply IH, HJ|].
    destruct (sget (d_initials d) p) as [v|] eqn:Ei.
    { apply IH. apply J_schedule; [exact HJ | apply (sget_forallb src_value_ok _ _ _ Hd Ei) | exact HS]. }
    destruct (p =? p_Position); [apply IH, J_todo_cons, HJ|].
    destruct (sget initial_values p) as [v|] eqn:Eiv; [|apply IH, J_todo_cons, HJ].
    apply IH. apply J_schedule; [exact HJ | apply (sget_forallb src_value_ok _ _ _ initial_values_ok Eiv) | exact HS].
  Qed.
End Phase.

Lemma compute_length_rr src pct em c px l : compute_length src pct em c px = Ok l ->
  olen_ok pct = true -> olen_ok em = true -> olen_ok c = true -> olen_ok px = true -> root_relative l = true.
Proof.
  unfold compute_length. intros H H1 H2 H3 H4.
  destruct (lu src) eqn:Eu;
    try (match type of H with match ?o with _ => _ end = _ => destruct o as [r|]; [|discriminate] end; injection H as <-;
         unfold root_relative; cbn [lu]; assumption);
    injection H as <-; unfold root_relative; rewrite Eu; reflexivity.
Qed.
Lemma get_len_ok st p : okv (sget st p) = true -> olen_ok (get_len st p) = true.
Proof. unfold get_len. destruct (sget st p) as [[]|]; try reflexivity. exact (fun H => H). Qed.
Lemma font_relative_rr d st l l' : font_relative d st l = Ok l' -> okv (sget st p_FontSize) = true -> root_relative l' = true.
Proof.
  unfold font_relative. intros H Hf. apply (compute_length_rr _ _ _ _ _ _ H); try reflexivity; apply get_len_ok, Hf.
Qed.
Definition shadow_ok (s : len * len * option len * option Z) : bool := let '(x, y, b, _) := s in root_relative x && root_relative y && olen_ok b.
Lemma compute_shadows_rr d st : okv (sget st p_FontSize) = true -> forall ss ss', compute_shadows d st ss = Ok ss' -> forallb shadow_ok ss' = true.
Proof.
  intros Hf. induction ss as [|[[[x y] blur] col] ss IH]; intros ss' H; cbn [compute_shadows] in H; [injection H as <-; reflexivity|].
  destruct (font_relative d st x) as [x'|] eqn:Ex; [|discriminate]. cbn [bind] in H.
  destruct (font_relative d st y) as [y'|] eqn:Ey; [|discriminate]. cbn [bind] in H.
  assert (Hb : forall b', match blur with None => Ok None | Some b => bind (font_relative d st b) (fun b' => Ok (Some b')) end = Ok b' -> olen_ok b' = true).
  { intros b' Hb. destruct blur as [b|]; [|injection Hb as <-; reflexivity].
    destruct (font_relative d st b) as [b1|] eqn:Eb; [|discriminate]. cbn [bind] in Hb. injection Hb as <-. cbn [olen_ok]. apply (font_relative_rr _ _ _ _ Eb Hf). }
  destruct (match blur with None => Ok None | Some b => _ end) as [b'|] eqn:Ebl; [|discriminate]. cbn [bind] in H.
  destruct (compute_shadows d st ss) as [rest|] eqn:Er; [|discriminate]. cbn [bind] in H. injection H as <-.
  cbn [forallb shadow_ok]. rewrite (font_relative_rr _ _ _ _ Ex Hf), (font_relative_rr _ _ _ _ Ey Hf), (Hb b' eq_refl), (IH rest eq_refl). reflexivity.
Qed.

Definition par_ok (par : option (kind * smap)) : Prop := match par with Some (_, pst) => Uok pst | None => True end.
(* the references of the own style map a property is computed against *)
Definition refs (p : Z) : list Z :=
  if p =? p_FontSize then [] else if p =? p_Origin then [] else if p =? p_TextEmphasis then []
  else if p =? p_Extent then [p_FontSize] else if p =? p_Position then [p_Extent; p_Origin]
  else if p =? p_Padding then [p_FontSize; p_Extent] else [p_FontSize].

Ltac rr :=
  repeat match goal with
         | H : compute_length _ _ _ _ _ = Ok ?l |- _ =>
             let R := fresh "R" in
             assert (R : root_relative l = true)
               by (apply (compute_length_rr _ _ _ _ _ _ H); try reflexivity; try assumption; try (apply get_len_ok; assumption));
             clear H
         | H : font_relative _ _ _ = Ok ?l |- _ =>
             let R := fresh "R" in assert (R : root_relative l = true) by (apply (font_relative_rr _ _ _ _ H); assumption); clear H
         end.

Ltac fin :=
  cbn [okv value_units_ok olen_ok];
  repeat match goal with |- context [if ?c then _ else _] => destruct c end;
  unfold root_relative in *; cbn [lu] in *;
  repeat match goal with R : match ?u with _ => _ end = true |- _ => rewrite R; clear R end; reflexivity.

Lemma ordered_cases p : In p ordered_style_props ->
  p = p_FontSize \/ p = p_Disparity \/ p = p_Extent \/ p = p_Origin \/ p = p_Position \/ p = p_LineHeight \/ p = p_LinePadding \/
  p = p_RubyReserve \/ p = p_TextOutline \/ p = p_TextShadow \/ p = p_TextEmphasis \/ p = p_Padding.
Proof. cbn. intros H. repeat (destruct H as [H|H]; [subst p; tauto|]). destruct H. Qed.

Lemma compute_prop_ok d par st p st' : compute_prop d par st p = Ok st' -> In p ordered_style_props -> par_ok par ->
  (forall q, In q (refs p) -> okv (sget st q) = true) ->
  okv (sget st' p) = true /\ (p = p_Position -> okv (sget st' p_Origin) = true).
Proof.
  intros H Hin Hpar Hrefs. apply ordered_cases in Hin.
  assert (HF : In p_FontSize (refs p) -> okv (sget st p_FontSize) = true) by (intros X; apply Hrefs, X).
  assert (HE : In p_Extent (refs p) -> okv (sget st p_Extent) = true) by (intros X; apply Hrefs, X).
  assert (HO : In p_Origin (refs p) -> okv (sget st p_Origin) = true) by (intros X; apply Hrefs, X).
  clear Hrefs.
  repeat (destruct Hin as [Hin|Hin]); subst p.
  - (* font size *) rewrite compute_prop_fontsize_eq in H. cbv zeta in H.
    split; [|discriminate].
    assert (Hpv : olen_ok (match par with Some (_, pst) => get_len pst p_FontSize | None => None end) = true).
    { destruct par as [[pk pst]|]; [apply get_len_ok, Hpar | reflexivity]. }
    destruct (match par with Some (_, pst) => get_len pst p_FontSize | None => None end) as [pl|];
      run_cases H; rr; rewrite sget_sset_same; assumption.
  - (* disparity *) rewrite compute_prop_disparity in H.
    split; [|discriminate]. specialize (HF (or_introl eq_refl)). run_cases H. rr. rewrite sget_sset_same. assumption.
  - (* extent *) rewrite compute_prop_extent in H.
    split; [|discriminate]. specialize (HF (or_introl eq_refl)). run_cases H. rr. rewrite sget_sset_same. cbn [okv value_units_ok]. rewrite R, R0. reflexivity.
  - (* origin *) rewrite compute_prop_origin in H.
    split; [|discriminate]. run_cases H. rr. rewrite sget_sset_same. cbn [okv value_units_ok]. rewrite R, R0. reflexivity.
  - (* position *) rewrite compute_prop_position_eq in H.
    specialize (HE (or_introl eq_refl)). specialize (HO (or_intror (or_introl eq_refl))).
    assert (Hne : p_Origin <> p_Position) by discriminate.
    run_cases H.
    + (* specified: offsets from the edges *)
      rr. split; [rewrite sget_sset_same | intros _; rewrite sget_sset_other by exact Hne; rewrite sget_sset_same]; fin.
    + (* not specified: the computed origin *)
      split; [rewrite sget_sset_same; exact HO | intros _; rewrite sget_sset_other by exact Hne].
      match goal with E : sget st p_Origin = Some _ |- _ => rewrite E end. exact HO.
  - (* line height *) rewrite compute_prop_lh in H.
    split; [|discriminate]. specialize (HF (or_introl eq_refl)). run_cases H.
    + match goal with E : sget st p_LineHeight = Some _ |- _ => rewrite E end. reflexivity.
    + rr. rewrite sget_sset_same. assumption.
  - (* line padding *) rewrite compute_prop_lp in H.
    split; [|discriminate]. specialize (HF (or_introl eq_refl)). run_cases H. rr. rewrite sget_sset_same. assumption.
  - (* ruby reserve *) rewrite compute_prop_rr in H.
    split; [|discriminate]. specialize (HF (or_introl eq_refl)). run_cases H.
    + match goal with E : sget st p_RubyReserve = Some _ |- _ => rewrite E end. reflexivity.
    + rr. rewrite sget_sset_same. assumption.
    + rewrite sget_sset_same. cbn [okv value_units_ok olen_ok]. apply get_len_ok in HF.
      match goal with E : get_len st p_FontSize = Some _ |- _ => rewrite E in HF end. exact HF.
  - (* text outline *) rewrite compute_prop_to in H.
    split; [|discriminate]. specialize (HF (or_introl eq_refl)). run_cases H.
    + match goal with E : sget st p_TextOutline = Some _ |- _ => rewrite E end. reflexivity.
    + rr. rewrite sget_sset_same. assumption.
  - (* text shadow *) rewrite compute_prop_ts in H.
    split; [|discriminate]. specialize (HF (or_introl eq_refl)). run_cases H.
    + match goal with E : sget st p_TextShadow = Some _ |- _ => rewrite E end. reflexivity.
    + rewrite sget_sset_same. cbn [okv value_units_ok].
      match goal with E : compute_shadows _ _ _ = Ok _ |- _ => exact (compute_shadows_rr _ _ HF _ _ E) end.
  - (* text emphasis: no length *) rewrite compute_prop_te in H. cbv zeta in H.
    split; [|discriminate]. run_cases H.
    + match goal with E : sget st p_TextEmphasis = Some _ |- _ => rewrite E end. reflexivity.
    + rewrite sget_sset_same. reflexivity.
  - (* padding *) rewrite compute_prop_padding in H. cbv zeta in H.
    split; [|discriminate]. specialize (HF (or_introl eq_refl)). specialize (HE (or_intror (or_introl eq_refl))).
    run_cases H.
    cbn [okv value_units_ok] in HE; apply andb_true_iff in HE as [HE1 HE2].
    assert (Hax : forall b : bool, olen_ok (Some (if b then w else h)) = true /\ olen_ok (Some (if b then h else w)) = true /\
                                  olen_ok (Some (if b then c_w d else c_h d)) = true /\ olen_ok (Some (if b then c_h d else c_w d)) = true /\
                                  olen_ok (Some (if b then px_w d else px_h d)) = true /\ olen_ok (Some (if b then px_h d else px_w d)) = true).
    { intros []; repeat split; try assumption; reflexivity. }
    destruct (Hax (is_vertical (sget st p_WritingMode))) as (A1 & A2 & A3 & A4 & A5 & A6).
    rr. rewrite sget_sset_same. cbn [okv value_units_ok]. rewrite R, R0, R1, R2. reflexivity.
Qed.

(* what the invariant needs of the order: no property twice, the references of each behind it, and Origin, which the
   Position step also writes, not after Position *)
Fixpoint order_ok (l : list Z) : bool :=
  match l with
  | [] => true
  | p :: rest => mem p ordered_style_props && negb (mem p rest) && forallb (fun q => negb (mem q (p :: rest))) (refs p) &&
                 negb (mem p_Origin rest && (p =? p_Position)) && order_ok rest
  end.

Lemma compute_styles_J d par todo : par_ok par -> forall l st st', order_ok l = true -> J todo l st ->
  compute_styles d par todo l st = Ok st' -> Uok st'.
Proof.
  intros Hpar. induction l as [|p S IH]; intros st st' Ho HJ H; cbn [compute_styles] in H.
  - injection H as <-. intros q. destruct (HJ q) as [G|[_ []]]. exact G.
  - cbn [order_ok] in Ho. repeat (apply andb_true_iff in Ho as [Ho ?]).
    rename H0 into HoS, H1 into Hpos, H2 into Hrefs, H3 into HpS. apply mem_in in Ho. apply negb_true_iff in HpS.
    assert (HnS : ~ In p S) by (intros X; apply mem_in in X; congruence).
    change (existsb (Z.eqb p) todo) with (mem p todo) in H.
    destruct (mem p todo) eqn:Et.
    + destruct (compute_prop d par st p) as [st1|] eqn:E; [|discriminate]. cbn [bind] in H.
      apply (IH st1 st' HoS); [|exact H]. clear H IH.
      assert (Hr : forall q, In q (refs p) -> okv (sget st q) = true).
      { intros q Hq. rewrite forallb_forall in Hrefs. specialize (Hrefs q Hq). apply negb_true_iff in Hrefs.
        destruct (HJ q) as [G|[_ G]]; [exact G|]. apply mem_in in G. congruence. }
      destruct (compute_prop_ok d par st p st1 E Ho Hpar Hr) as [G1 G2].
      intros q. destruct (Z.eq_dec q p) as [->|Hne]; [left; exact G1|].
      destruct (Z.eq_dec p p_Position) as [->|Hnp].
      * destruct (Z.eq_dec q p_Origin) as [->|Hno]; [left; apply G2; reflexivity|].
        rewrite (compute_prop_frame d par st p_Position st1 q E Hne (fun _ => Hno)).
        destruct (HJ q) as [G|[G3 [G4|G4]]]; [left; exact G | congruence | right; split; assumption].
      * rewrite (compute_prop_frame d par st p st1 q E Hne (fun X => False_ind _ (Hnp X))).
        destruct (HJ q) as [G|[G3 [G4|G4]]]; [left; exact G | congruence | right; split; assumption].
    + apply (IH st st' HoS); [|exact H]. intros q. destruct (HJ q) as [G|[G3 [G4|G4]]]; [left; exact G | congruence | right; split; assumption].
Qed.
Lemma ordered_order_ok : order_ok ordered_style_props = true.
Proof. vm_compute. reflexivity. Qed.

Definition attrs_values_ok (a : attrs) : bool :=
  forallb (fun kv => src_value_ok (fst kv) (snd kv)) (e_styles a) && forallb (fun s => src_value_ok (a_prop s) (a_val s)) (e_anims a).

Theorem style_phase_units d t a par iv st :
  forallb (fun kv => src_value_ok (fst kv) (snd kv)) (d_initials d) = true -> attrs_values_ok a = true -> par_ok par ->
  style_phase d t a par iv = Ok st -> Uok st.
Proof.
  intros Hd Ha Hpar H. unfold attrs_values_ok in Ha. apply andb_true_iff in Ha as [Hs Han].
  assert (HS : forall q, computed_prop q = true -> In q ordered_style_props) by (intros q Hq; apply mem_in, Hq).
  unfold style_phase in H.
  assert (J0 : J [] ordered_style_props []) by (intros q; left; reflexivity).
  pose proof (apply_anims_J _ HS t iv (e_anims a) [] [] Han J0) as J1.
  destruct (apply_anims t iv (e_anims a) [] []) as [st0 todo0]. cbn [fst snd] in J1.
  pose proof (apply_specified_J _ HS (e_styles a) st0 todo0 Hs J1) as J2.
  destruct (apply_specified (e_styles a) st0 todo0) as [st1 todo1]. cbn [fst snd] in J2.
  match type of H with (let '(st, todo) := ?X in _) = _ => assert (J3 : J (snd X) ordered_style_props (fst X)) end.
  { destruct (e_kind a); try exact J2. destruct (negb (shas (e_styles a) p_Direction)); [|exact J2].
    destruct (sget (e_styles a) p_WritingMode) as [[w| | | | | | | | | | | | | |]|]; try exact J2.
    destruct (w =? e_WritingModeType_lrtb); [cbn [fst snd]; apply J_todo_cons, J_sset; [exact J2 | reflexivity]|].
    destruct (w =? e_WritingModeType_rltb); [cbn [fst snd]; apply J_todo_cons, J_sset; [exact J2 | reflexivity]|]. exact J2. }
  match type of H with (let '(st, todo) := ?X in _) = _ => destruct X as [st2 todo2] end. cbn [fst snd] in J3.
  assert (J4 : J todo2 ordered_style_props (match e_kind a, par with
                                              | KBr, _ | KText, _ | KRegion, _ => st2
                                              | _, Some (pk, pst) => apply_inherit (e_kind a) pk pst (skeys pst) st2
                                              | _, None => st2
                                              end)).
  { destruct par as [[pk pst]|]; [|destruct (e_kind a); exact J3].
    destruct (e_kind a); try exact J3; apply apply_inherit_J; assumption. }
  revert H J4. generalize (match e_kind a, par with
                           | KBr, _ | KText, _ | KRegion, _ => st2
                           | _, Some (pk, pst) => apply_inherit (e_kind a) pk pst (skeys pst) st2
                           | _, None => st2
                           end). intros st3 H J4.
  assert (J5 : J (snd (if is_leaf_kind (e_kind a) then (st3, todo2) else apply_initial d all_props st3 todo2)) ordered_style_props
                 (fst (if is_leaf_kind (e_kind a) then (st3, todo2) else apply_initial d all_props st3 todo2))).
  { destruct (is_leaf_kind (e_kind a)); [exact J4 | apply apply_initial_J; assumption]. }
  destruct (if is_leaf_kind (e_kind a) then (st3, todo2) else apply_initial d all_props st3 todo2) as [st4 todo4]. cbn [fst snd] in J5.
  apply (compute_styles_J d par todo4 Hpar _ _ _ ordered_order_ok J5 H).
Qed.

(* Uok reads the map by key, clause 5 runs over its entries: the keys of a style map are unique, so the two agree *)
Lemma skeys_sset m p v : skeys (sset m p v) = if shas m p then skeys m else skeys m ++ [p].
Proof.
  unfold shas, skeys. induction m as [|[k w] m IH]; cbn [sset sget map fst app]; [reflexivity|].
  destruct (k =? p) eqn:E; cbn [map fst]; [reflexivity|]. rewrite IH. destruct (sget m p); reflexivity.
Qed.
Lemma shas_in m p : shas m p = true <-> In p (skeys m).
Proof.
  unfold shas, skeys. induction m as [|[k w] m IH]; cbn [sget map fst In]; [split; [discriminate | intros []]|].
  destruct (k =? p) eqn:E; [apply Z.eqb_eq in E; split; auto|]. rewrite IH. split; [auto | intros [X|X]; [apply Z.eqb_neq in E; congruence | exact X]].
Qed.
Lemma nodup_sset m p v : NoDup (skeys m) -> NoDup (skeys (sset m p v)).
Proof.
  intros H. rewrite skeys_sset. destruct (shas m p) eqn:E; [exact H|].
  assert (G : forall l, NoDup l -> ~ In p l -> NoDup (l ++ [p])).
  { induction l as [|x l IH]; intros Hl Hn; [constructor; [intros [] | constructor]|]. inversion Hl; subst. cbn [app]. constructor.
    - intros X. apply in_app_or in X as [X|[X|[]]]; [contradiction | subst; apply Hn; left; reflexivity].
    - apply IH; [assumption | intros X; apply Hn; right; exact X]. }
  apply G; [exact H|]. intros X. apply shas_in in X. congruence.
Qed.

Lemma style_phase_nodup d t a par iv st : style_phase d t a par iv = Ok st -> NoDup (skeys st).
Proof. apply (style_phase_sset (fun m => NoDup (skeys m)) nodup_sset). constructor. Qed.

Lemma sget_of_in : forall (m : smap) p v, NoDup (skeys m) -> In (p, v) m -> sget m p = Some v.
Proof.
  induction m as [|[k w] m IH]; intros p v Hn Hin; [destruct Hin|]. cbn [skeys map fst] in Hn. inversion Hn as [|? ? Hk Hm]; subst.
  cbn [sget]. destruct Hin as [E|Hin]; [injection E as -> ->; rewrite Z.eqb_refl; reflexivity|].
  destruct (k =? p) eqn:E; [|apply IH; assumption]. apply Z.eqb_eq in E. subst k. exfalso. apply Hk.
  change (In (fst (p, v)) (map fst m)). apply in_map, Hin.
Qed.

(* clause 5 on the attributes M builds; the [] is the list of excepted properties isd_shape passes to units_ok *)
Definition units_a (a : attrs) : bool := forallb (fun kv => existsb (Z.eqb (fst kv)) [] || value_units_ok (snd kv)) (e_styles a).
Lemma units_out a k st : Uok st -> NoDup (skeys st) -> units_a (isd_attrs a (strip_inapplicable k st)) = true.
Proof.
  intros HU Hn. unfold units_a. cbn [isd_attrs e_styles existsb orb]. apply forallb_forall. intros [p v] Hin.
  unfold strip_inapplicable in Hin. apply filter_In in Hin as [Hin _]. cbn [snd]. pose proof (HU p) as G. rewrite (sget_of_in _ _ _ Hn Hin) in G. exact G.
Qed.

Definition src_vals (e : elem) : bool := forallb src_values_ok (all_elems e).
Lemma src_vals_node a cs : src_vals (Elem a cs) = attrs_values_ok a && forallb src_vals cs.
Proof. unfold src_vals. rewrite all_elems_node. cbn [forallb]. rewrite forallb_flat_map. reflexivity. Qed.

Section Proc.
  Variables (d : doc) (t : Q) (sel : option text).
  Hypothesis Hd : forallb (fun kv => src_value_ok (fst kv) (snd kv)) (d_initials d) = true.
  Let pa_text : forall a tx, units_a (mkAttrs (e_kind a) (e_id a) (e_begin a) (e_end a) (e_region a) (e_styles a) (e_anims a) (e_preserve a) (e_lang a) tx) = units_a a.
  Proof. reflexivity. Qed.

  Lemma proc_units : forall e, src_vals e = true -> forall inh par pb pe r, par_ok par ->
    proc d t sel inh par pb pe e = Ok (Some r) -> allp units_a r = true.
  Proof.
    induction e as [a cs IH] using elem_ind2. intros Hsrc inh par pb pe r Hpar H.
    rewrite src_vals_node in Hsrc. apply andb_true_iff in Hsrc as [Ha Hcs].
    apply proc_kept in H as (st & children & Hst & _ & Hl & Hf).
    pose proof (style_phase_units d t a par _ st Hd Ha Hpar Hst) as HU.
    apply (finish_element_allp units_a pa_text a st children r); [apply units_out; [exact HU | apply (style_phase_nodup _ _ _ _ _ _ Hst)] | | exact Hf].
    apply forallb_forall. intros x Hx. destruct (collect_map_in _ _ _ _ Hl Hx) as (c & Hc & Hp).
    rewrite Forall_forall in IH. rewrite forallb_forall in Hcs. apply (IH c Hc (Hcs c Hc) _ (Some (e_kind a, st)) _ _ _ HU Hp).
  Qed.

  Lemma proc_region_units r o : attrs_values_ok (eattrs r) = true ->
    match d_body d with Some b => src_vals b | None => true end = true ->
    proc_region d t sel r = Ok (Some o) -> allp units_a o = true.
  Proof.
    intros Ha Hb H. apply proc_region_kept in H as (st & children & Hst & _ & Hch & Hf).
    pose proof (style_phase_units d t (eattrs r) None _ st Hd Ha I Hst) as HU.
    apply (finish_element_allp units_a pa_text (eattrs r) st children o); [apply units_out; [exact HU | apply (style_phase_nodup _ _ _ _ _ _ Hst)] | | exact Hf].
    destruct Hch as [->|(b & x & Eb & Hp & ->)]; [reflexivity|]. rewrite Eb in Hb. cbn [allp_list forallb]. rewrite andb_true_r.
    apply (proc_units b Hb _ (Some (KRegion, st)) _ _ _ HU Hp).
  Qed.
End Proc.

Theorem snapshot_units d t rs :
  doc_values_wf d = true -> isd d t = Ok rs -> nth 5 (shape_clauses [] false rs) false = true.
Proof.
  intros Hwf H. cbn [nth shape_clauses]. rewrite (every_allp _ units_a) by (intros [a cs]; reflexivity).
  unfold doc_values_wf in Hwf. apply andb_true_iff in Hwf as [Hwf Hbody]. apply andb_true_iff in Hwf as [Hini Hreg].
  apply forallb_forall. intros o Ho. destruct (isd_in d t rs o H Ho) as (sel & r & Hr & Hp).
  apply (proc_region_units d t sel Hini r o); [| |exact Hp].
  - destruct Hr as [Hr|[_ ->]]; [|reflexivity]. rewrite forallb_forall in Hreg. apply (Hreg r Hr).
  - destruct (d_body d); [exact Hbody | reflexivity].
Qed.
