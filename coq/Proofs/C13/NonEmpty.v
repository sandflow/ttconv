(* C13, clause 8: no text node of a snapshot is empty and no span is childless, for every document whose source
   respects the content model and every time.  _prune_empty_spans, run on every p that keeps a child, leaves nothing
   empty below it — whatever the subtree looked like before —, and under the content model text nodes and spans occur
   only below a p. *)
From TT Require Import Model.Doc Gen.StyleTables Model.Isd Spec.IsdShape Proofs.Common.ElemInd Proofs.Common.Walk.
From TT Require Import Proofs.C01.Lwsp Proofs.C13.Shape Proofs.C13.ContentModel.

Definition ne_all (e : elem) : bool := forallb nonempty_ok (all_elems e).
Lemma ne_all_node a cs : ne_all (Elem a cs) = nonempty_ok (Elem a cs) && forallb ne_all cs.
Proof. unfold ne_all. rewrite all_elems_node. cbn [forallb]. rewrite forallb_flat_map. reflexivity. Qed.

Lemma prune_clean : forall e, forallb ne_all (echildren (prune_empty e)) = true.
Proof.
  induction e as [a cs IH] using elem_ind2. rewrite prune_empty_node. cbn [echildren].
  induction cs as [|c cs IHcs]; [reflexivity|]. inversion IH as [|? ? Hc Hcs]; subst. specialize (IHcs Hcs).
  rewrite prune_list_cons. cbv zeta.
  destruct (prune_empty c) as [a' cs'] eqn:Ep. cbn [eattrs echildren] in *.
  match goal with |- forallb ne_all (if ?b then _ else _) = true => destruct b eqn:Ed end; [exact IHcs|].
  cbn [forallb]. rewrite IHcs, andb_true_r. rewrite ne_all_node, Hc, andb_true_r.
  unfold nonempty_ok, kind_of. cbn [eattrs echildren].
  destruct (e_kind a'); try reflexivity.
  - destruct cs'; [discriminate | reflexivity].
  - destruct (e_text a'); [discriminate | reflexivity].
Qed.
(* prune_list (C01/Lwsp.v) is by definition what prune_empty leaves below a dummy div *)
Lemma prune_list_clean cs : forallb ne_all (prune_list cs) = true.
Proof. exact (prune_clean (Elem (mkAttrs KDiv None None None None [] [] false [] []) cs)). Qed.

Definition block_kind (k : kind) : bool := match k with KBody | KDiv | KP => true | _ => false end.

Lemma proc_ne d t sel : forall e, src_cm e = true -> block_kind (kind_of e) = true -> forall inh par pb pe r,
  proc d t sel inh par pb pe e = Ok (Some r) -> ne_all r = true.
Proof.
  induction e as [a cs IH] using elem_ind2. intros Hsrc Hk inh par pb pe r H.
  pose proof Hsrc as Hsrc0. rewrite src_cm_node in Hsrc. apply andb_true_iff in Hsrc as [Ha Hcs].
  change (kind_of (Elem a cs)) with (e_kind a) in Hk.
  apply proc_kept in H as (st & children & _ & _ & Hl & Hf).
  apply finish_element_inv in Hf as (_ & -> & _). unfold finished. rewrite ne_all_node.
  assert (Hself : nonempty_ok (Elem (isd_attrs a (strip_inapplicable (e_kind a) st)) (finish_children a st children)) = true).
  { unfold nonempty_ok, kind_of. cbn [eattrs isd_attrs e_kind]. destruct (e_kind a); try discriminate; reflexivity. }
  rewrite Hself. cbn [andb]. unfold finish_children.
  destruct (lwsp_kind (e_kind a)) eqn:El.
  - destruct children as [|c0 cs0]; [reflexivity|]. unfold lwsp_children. apply prune_clean.
  - (* body, div: the children are div and p *)
    apply forallb_forall. intros x Hx. destruct (collect_map_in _ _ _ _ Hl Hx) as (c & Hc & Hp).
    rewrite Forall_forall in IH. rewrite forallb_forall in Hcs.
    change (match e_kind a with KRuby | KRtc => true | _ => cok (e_kind a) (kinds cs) end = true) in Ha.
    assert (Hkc : block_kind (kind_of c) = true).
    { assert (Hin : In (kind_of c) (kinds cs)) by (apply in_map, Hc).
      destruct (e_kind a); try discriminate; unfold cok in Ha; rewrite forallb_forall in Ha; specialize (Ha _ Hin);
        destruct (kind_of c); try discriminate; reflexivity. }
    apply (IH c Hc (Hcs c Hc) Hkc _ _ _ _ _ Hp).
Qed.

Theorem snapshot_nonempty d t rs :
  doc_content_wf d = true -> isd d t = Ok rs -> nth 8 (shape_clauses [] false rs) false = true.
Proof.
  intros Hwf H. cbn [nth shape_clauses]. rewrite every_forallb.
  unfold doc_content_wf in Hwf. apply andb_true_iff in Hwf as [Hreg Hbody].
  apply forallb_forall. intros o Ho. destruct (isd_in d t rs o H Ho) as (sel & r & Hr & Hp).
  assert (Hk : kind_of r = KRegion).
  { destruct Hr as [Hr|[_ ->]]; [|reflexivity]. rewrite forallb_forall in Hreg. specialize (Hreg r Hr). destruct (kind_of r); try discriminate; reflexivity. }
  apply proc_region_kept in Hp as (st & children & _ & _ & Hch & Hf).
  apply finish_element_inv in Hf as (_ & -> & _). fold (ne_all (finished (eattrs r) st children)). unfold finished.
  rewrite ne_all_node. unfold finish_children. change (e_kind (eattrs r)) with (kind_of r). rewrite Hk. cbn [lwsp_kind].
  assert (Hself : forall l, nonempty_ok (Elem (isd_attrs (eattrs r) (strip_inapplicable KRegion st)) l) = true).
  { intros l. unfold nonempty_ok, kind_of. cbn [eattrs isd_attrs e_kind]. change (e_kind (eattrs r)) with (kind_of r). rewrite Hk. reflexivity. }
  rewrite Hself. cbn [andb].
  destruct Hch as [->|(b & x & Eb & Hpb & ->)]; [reflexivity|]. rewrite Eb in Hbody. apply andb_true_iff in Hbody as [Hkb Hsb].
  cbn [forallb]. rewrite andb_true_r. apply (proc_ne d t sel b Hsb) with (2 := Hpb). destruct (kind_of b); try discriminate; reflexivity.
Qed.
