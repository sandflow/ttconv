(* C13: how a predicate on all elements of a snapshot is carried through proc and finish_element — allq / allp for one
   on the attributes other than the text, allk for one on the kind of an element and the kinds of its children —, and
   clauses 0, 1, 2 of isd_shape as instances of allp, for every document and time. *)
From TT Require Import Model.Doc Gen.StyleTables Model.Isd Spec.IsdSpec Spec.IsdShape Proofs.Common.ElemInd Proofs.Common.StyleFrame Proofs.Common.Walk.
From TT Require Import Proofs.C01.Lwsp.

Lemma all_elems_node a cs : all_elems (Elem a cs) = Elem a cs :: flat_map all_elems cs.
Proof. reflexivity. Qed.
Lemma forallb_flat_map {A B} (f : A -> list B) (p : B -> bool) l :
  forallb p (flat_map f l) = forallb (fun x => forallb p (f x)) l.
Proof. induction l as [|x l IH]; [reflexivity|]. cbn [flat_map forallb]. rewrite forallb_app, IH. reflexivity. Qed.
Lemma every_forallb rs p : every rs p = forallb (fun r => forallb p (all_elems r)) rs.
Proof. unfold every, all_of. apply forallb_flat_map. Qed.

(* predicates on attributes that do not look at the text, over all elements of a tree: white-space handling and
   pruning keep them, so finish_element only has to be told about the element's own attributes and its children *)
Section AttrProp.
  Variable qa : attrs -> Prop.
  Hypothesis qa_text : forall a t,
    qa a -> qa (mkAttrs (e_kind a) (e_id a) (e_begin a) (e_end a) (e_region a) (e_styles a) (e_anims a) (e_preserve a) (e_lang a) t).
  Definition allq (e : elem) : Prop := Forall (fun x => qa (eattrs x)) (all_elems e).

  Lemma allq_node a cs : allq (Elem a cs) <-> qa a /\ Forall allq cs.
  Proof.
    unfold allq. rewrite all_elems_node, Forall_cons_iff. cbn [eattrs].
    assert (G : Forall (fun x => qa (eattrs x)) (flat_map all_elems cs) <-> Forall (fun e => Forall (fun x => qa (eattrs x)) (all_elems e)) cs).
    { induction cs as [|c cs IH]; cbn [flat_map]; [split; constructor|]. rewrite Forall_app, Forall_cons_iff, IH. reflexivity. }
    rewrite G. reflexivity.
  Qed.

  Lemma assign_texts_allq : forall e ts, allq e -> allq (fst (assign_texts e ts)).
  Proof.
    induction e as [a cs IH] using elem_ind2. intros ts H. rewrite assign_node. apply allq_node in H as [Ha Hcs].
    assert (Hl : forall ts, Forall allq (fst (assign_list cs ts))).
    { clear ts. induction cs as [|c cs IHcs]; intros ts; [constructor|]. inversion IH as [|? ? Hc Hrest]; subst.
      inversion Hcs as [|? ? Hc1 Hcs1]; subst. cbn [assign_list]. specialize (Hc ts Hc1).
      destruct (assign_texts c ts) as [c' ts1]. cbn [fst] in Hc.
      specialize (IHcs Hrest Hcs1 ts1). destruct (assign_list cs ts1) as [l'' ts2]. cbn [fst] in *. constructor; assumption. }
    destruct (e_kind a) eqn:Ek; cbn [skips_text_list fst];
      try (apply allq_node; split; assumption);
      try (specialize (Hl ts); destruct (assign_list cs ts) as [cs' ts']; cbn [fst] in *; apply allq_node; split; assumption).
    destruct (is_nonempty (e_text a)); cbn [fst]; apply allq_node; split; try assumption. rewrite <- Ek. apply qa_text. exact Ha.
  Qed.

  Lemma prune_allq : forall e, allq e -> allq (prune_empty e).
  Proof.
    induction e as [a cs IH] using elem_ind2. rewrite prune_empty_node. intros H. apply allq_node in H as [Ha Hcs]. apply allq_node. split; [exact Ha|].
    induction cs as [|c cs IHcs]; [constructor|]. inversion IH as [|? ? Hc Hrest]; subst. inversion Hcs as [|? ? Hc1 Hcs1]; subst.
    rewrite prune_list_cons. cbv zeta.
    match goal with |- Forall allq (if ?b then _ else _) => destruct b end; [apply IHcs; assumption|].
    constructor; [apply Hc; exact Hc1 | apply IHcs; assumption].
  Qed.
  Lemma prune_list_allq cs : Forall allq cs -> Forall allq (prune_list cs).
  Proof.
    induction cs as [|c cs IHcs]; intros Hcs; [constructor|]. inversion Hcs as [|? ? Hc1 Hcs1]; subst.
    rewrite prune_list_cons. cbv zeta.
    match goal with |- Forall allq (if ?b then _ else _) => destruct b end; [apply IHcs; assumption|].
    constructor; [apply prune_allq; exact Hc1 | apply IHcs; assumption].
  Qed.

  Lemma lwsp_children_allq a cs : Forall allq cs -> Forall allq (lwsp_children a cs).
  Proof.
    intros H. unfold lwsp_children. rewrite prune_empty_node. cbn [echildren]. apply prune_list_allq.
    rewrite assign_children_list.
    generalize (process_lwsp (collect_children a cs)). induction cs as [|c cs IHcs]; intros ts; [constructor|].
    inversion H as [|? ? H1 H2]; subst. cbn [assign_list].
    pose proof (assign_texts_allq c ts H1) as Hc. destruct (assign_texts c ts) as [c' ts1]. cbn [fst] in Hc.
    specialize (IHcs H2 ts1). destruct (assign_list cs ts1) as [l'' ts2]. cbn [fst] in *. constructor; assumption.
  Qed.

  Lemma finish_element_allq a st children r :
    qa (isd_attrs a (strip_inapplicable (e_kind a) st)) -> Forall allq children -> finish_element a st children = Ok (Some r) -> allq r.
  Proof.
    intros Hpa Hc H. apply finish_element_inv in H as (_ & -> & _). apply allq_node. split; [exact Hpa|].
    unfold finish_children. destruct (lwsp_kind (e_kind a)); [|exact Hc]. destruct children; [constructor | apply lwsp_children_allq; exact Hc].
  Qed.
End AttrProp.

(* predicates on the kind of an element and the kinds of its children, over all elements of a tree: writing texts back
   changes no kind; pruning removes children, so the predicate has to survive that (P_prune) *)
Section KindProp.
  Variable P : kind -> list kind -> bool.
  Definition allk (e : elem) : bool := forallb (fun x => P (kind_of x) (kinds (echildren x))) (all_elems e).
  Lemma allk_node a cs : allk (Elem a cs) = P (e_kind a) (kinds cs) && forallb allk cs.
  Proof. unfold allk. rewrite all_elems_node. cbn [forallb]. rewrite forallb_flat_map. reflexivity. Qed.

  Lemma assign_list_allk cs : Forall (fun c => forall ts, kind_of (fst (assign_texts c ts)) = kind_of c /\ allk (fst (assign_texts c ts)) = allk c) cs ->
    forall ts, kinds (fst (assign_list cs ts)) = kinds cs /\ forallb allk (fst (assign_list cs ts)) = forallb allk cs.
  Proof.
    induction 1 as [|c cs Hc _ IHcs]; intros ts; [split; reflexivity|].
    cbn [assign_list]. specialize (Hc ts). destruct (assign_texts c ts) as [c' ts1]. cbn [fst] in Hc.
    specialize (IHcs ts1). destruct (assign_list cs ts1) as [l'' ts2]. cbn [fst] in *.
    destruct Hc as [Hk Hm]. destruct IHcs as [IH1 IH2]. cbn [kinds map forallb]. fold (kinds l'') (kinds cs). rewrite Hk, Hm, IH1, IH2. split; reflexivity.
  Qed.
  Lemma assign_texts_allk : forall e ts, kind_of (fst (assign_texts e ts)) = kind_of e /\ allk (fst (assign_texts e ts)) = allk e.
  Proof.
    induction e as [a cs IH] using elem_ind2. intros ts. rewrite assign_node. pose proof (assign_list_allk cs IH ts) as Hl.
    destruct (e_kind a) eqn:Ek; cbn [skips_text_list fst]; try (split; reflexivity);
      try (destruct (assign_list cs ts) as [cs' ts']; cbn [fst] in *; destruct Hl as [H1 H2];
           split; [reflexivity | rewrite !allk_node, H1, H2; reflexivity]).
    destruct (is_nonempty (e_text a)); cbn [fst]; split; try reflexivity.
    - unfold kind_of. cbn [eattrs e_kind]. symmetry. exact Ek.
    - rewrite !allk_node. cbn [e_kind]. rewrite Ek. reflexivity.
  Qed.

  Lemma prune_list_in : forall cs x, In x (prune_list cs) -> exists c, In c cs /\ x = prune_empty c.
  Proof.
    induction cs as [|c cs IH]; intros x Hx; [destruct Hx|]. rewrite prune_list_cons in Hx. cbv zeta in Hx.
    assert (G : In x (prune_list cs) -> exists c0, In c0 (c :: cs) /\ x = prune_empty c0).
    { intros H. destruct (IH x H) as (c0 & H0 & H1). exists c0. split; [right; exact H0 | exact H1]. }
    match type of Hx with In x (if ?b then _ else _) => destruct b end; [apply G, Hx|].
    destruct Hx as [<-|Hx]; [|apply G, Hx]. exists c. split; [left|]; reflexivity.
  Qed.

  Hypothesis P_prune : forall k cs, P k (kinds cs) = true -> P k (kinds (prune_list cs)) = true.

  Lemma prune_allk : forall e, allk e = true -> allk (prune_empty e) = true.
  Proof.
    induction e as [a cs IH] using elem_ind2. rewrite prune_empty_node, !allk_node. intros H.
    apply andb_true_iff in H as [Hk Hcs]. rewrite (P_prune _ _ Hk). cbn [andb].
    apply forallb_forall. intros x Hx. apply prune_list_in in Hx as (c & Hc & ->).
    rewrite Forall_forall in IH. apply (IH c Hc). rewrite forallb_forall in Hcs. apply Hcs, Hc.
  Qed.

  Lemma finish_children_allk a st children :
    P (e_kind a) (kinds children) = true -> forallb allk children = true ->
    P (e_kind a) (kinds (finish_children a st children)) = true /\ forallb allk (finish_children a st children) = true.
  Proof.
    intros Hk Hc. unfold finish_children. destruct (lwsp_kind (e_kind a)); [|split; assumption].
    destruct children as [|c cs0]; [split; assumption|]. set (cs := c :: cs0) in *. clearbody cs.
    unfold lwsp_children. rewrite prune_empty_node. cbn [echildren]. rewrite assign_children_list.
    destruct (assign_list_allk cs (proj2 (Forall_forall _ _) (fun c _ => assign_texts_allk c)) (process_lwsp (collect_children (isd_attrs a st) cs))) as [H1 H2].
    pose proof (prune_allk (Elem a (fst (assign_list cs (process_lwsp (collect_children (isd_attrs a st) cs)))))) as G.
    rewrite prune_empty_node, !allk_node, H1, H2, Hk, Hc in G. apply andb_true_iff, G. reflexivity.
  Qed.
End KindProp.

(* the boolean form of allq, which is what the clauses of isd_shape are written in *)
Section AttrPredicate.
  Variable pa : attrs -> bool.
  Hypothesis pa_text : forall a t,
    pa (mkAttrs (e_kind a) (e_id a) (e_begin a) (e_end a) (e_region a) (e_styles a) (e_anims a) (e_preserve a) (e_lang a) t) = pa a.
  Definition allp (e : elem) : bool := forallb (fun x => pa (eattrs x)) (all_elems e).
  Definition allp_list (l : list elem) : bool := forallb allp l.

  Lemma allp_allq e : allp e = true <-> allq (fun a => pa a = true) e.
  Proof. unfold allp, allq. rewrite forallb_forall, Forall_forall. reflexivity. Qed.
  Lemma allp_list_allq l : allp_list l = true <-> Forall (allq (fun a => pa a = true)) l.
  Proof. unfold allp_list. rewrite forallb_forall, Forall_forall. split; intros H x Hx; apply allp_allq, H, Hx. Qed.

  (* every element M puts into a snapshot satisfies pa, provided the attributes built from a successful style
     phase that does not compute display:none do *)
  Hypothesis pa_out : forall d t a par iv st,
    style_phase d t a par iv = Ok st -> display_none st = false -> pa (isd_attrs a (strip_inapplicable (e_kind a) st)) = true.

  Lemma finish_element_allp a st children r :
    pa (isd_attrs a (strip_inapplicable (e_kind a) st)) = true ->
    allp_list children = true -> finish_element a st children = Ok (Some r) -> allp r = true.
  Proof.
    intros Hpa Hc H. apply allp_allq. apply allp_list_allq in Hc.
    apply (finish_element_allq (fun a => pa a = true)) with (2 := Hpa) (3 := Hc) (4 := H). intros a0 t Ha. rewrite pa_text. exact Ha.
  Qed.

  Lemma proc_allp d t sel : forall e inh par pb pe r, proc d t sel inh par pb pe e = Ok (Some r) -> allp r = true.
  Proof.
    induction e as [a cs IH] using elem_ind2. intros inh par pb pe r H. rewrite Forall_forall in IH.
    apply proc_kept in H as (st & children & Est & Edn & Hl & Hf).
    apply (finish_element_allp a st children r); [apply (pa_out _ _ _ _ _ _ Est Edn)| |exact Hf].
    apply forallb_forall. intros x Hx. destruct (collect_map_in _ _ _ _ Hl Hx) as (c & Hc & Hp). exact (IH c Hc _ _ _ _ _ Hp).
  Qed.

  Lemma proc_region_allp d t sel r res : proc_region d t sel r = Ok (Some res) -> allp res = true.
  Proof.
    intros H. apply proc_region_kept in H as (st & children & Est & Edn & Hch & Hf).
    apply (finish_element_allp (eattrs r) st children res); [apply (pa_out _ _ _ _ _ _ Est Edn)| |exact Hf].
    destruct Hch as [->|(b & x & _ & Hb & ->)]; [reflexivity|]. cbn [allp_list forallb]. rewrite (proc_allp _ _ _ _ _ _ _ _ _ Hb). reflexivity.
  Qed.

  Theorem isd_allp d t rs : isd d t = Ok rs -> allp_list rs = true.
  Proof.
    intros H. apply forallb_forall. intros o Ho. destruct (isd_in d t rs o H Ho) as (sel & r & _ & Hp). exact (proc_region_allp _ _ _ _ _ Hp).
  Qed.
End AttrPredicate.

Lemma every_allp (p : elem -> bool) (pa : attrs -> bool) rs :
  (forall e, p e = pa (eattrs e)) -> every rs p = allp_list pa rs.
Proof.
  intros H. unfold every, all_of, allp_list, allp. induction rs as [|r rs IH]; [reflexivity|].
  cbn [flat_map forallb]. rewrite forallb_app, IH. f_equal.
  generalize (all_elems r). intros l. induction l as [|x l IHl]; [reflexivity | cbn [forallb]; rewrite H, IHl; reflexivity].
Qed.

(* clauses 0, 1, 2: no begin/end, no animation step, no region reference *)
Definition no_timing (a : attrs) : bool := match e_begin a, e_end a with None, None => true | _, _ => false end.
Definition no_anims (a : attrs) : bool := match e_anims a with [] => true | _ => false end.
Definition no_region (a : attrs) : bool := match e_region a with None => true | _ => false end.

Theorem snapshot_no_timing d t rs : isd d t = Ok rs -> nth 0 (shape_clauses [] false rs) false = true.
Proof.
  intros H. cbn [nth shape_clauses]. rewrite (every_allp _ no_timing) by reflexivity.
  apply (isd_allp no_timing) with (d := d) (t := t); [reflexivity | intros; reflexivity | exact H].
Qed.
Theorem snapshot_no_anims d t rs : isd d t = Ok rs -> nth 1 (shape_clauses [] false rs) false = true.
Proof.
  intros H. cbn [nth shape_clauses]. rewrite (every_allp _ no_anims) by reflexivity.
  apply (isd_allp no_anims) with (d := d) (t := t); [reflexivity | intros; reflexivity | exact H].
Qed.
Theorem snapshot_no_region_refs d t rs : isd d t = Ok rs -> nth 2 (shape_clauses [] false rs) false = true.
Proof.
  intros H. cbn [nth shape_clauses]. rewrite (every_allp _ no_region) by reflexivity.
  apply (isd_allp no_region) with (d := d) (t := t); [reflexivity | intros; reflexivity | exact H].
Qed.
