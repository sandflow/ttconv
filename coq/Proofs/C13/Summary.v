(* C13: clause 6 on every element (OriginPosition has it on the regions, and the content model puts no region below
   one), all eleven clauses together, and a document that meets their hypotheses. *)
From TT Require Import Model.Doc Gen.StyleTables Model.Isd Spec.IsdShape Proofs.Common.ElemInd.
From TT Require Import Proofs.C13.Shape Proofs.C13.Styles Proofs.C13.OriginPosition Proofs.C13.ContentModel
                       Proofs.C13.NonEmpty Proofs.C13.WhiteSpace Proofs.C13.Units.

Lemma cm_no_region_below : forall e, cm e = true ->
  forallb (fun x => negb (kind_eqb (kind_of x) KRegion)) (flat_map all_elems (echildren e)) = true.
Proof.
  induction e as [a cs IH] using elem_ind2. rewrite cm_node. intros H. apply andb_true_iff in H as [Hk Hcs]. cbn [echildren].
  apply cok_noregion in Hk. rewrite forallb_flat_map. apply forallb_forall. intros c Hc.
  rewrite Forall_forall in IH. rewrite forallb_forall in Hcs, Hk.
  pose proof (IH c Hc (Hcs c Hc)) as IHc. assert (Hin : In (kind_of c) (kinds cs)) by (apply in_map, Hc). specialize (Hk _ Hin).
  destruct c as [ac ccs]. rewrite all_elems_node. cbn [forallb]. cbn [echildren] in IHc. rewrite IHc, andb_true_r. exact Hk.
Qed.

Lemma regions_of_wf d : doc_content_wf d = true -> Forall (fun r => e_kind (eattrs r) = KRegion) (d_regions d).
Proof.
  unfold doc_content_wf. intros H. apply andb_true_iff in H as [H _]. apply Forall_forall. intros r Hr.
  rewrite forallb_forall in H. specialize (H r Hr). unfold kind_of in H. destruct (e_kind (eattrs r)); try discriminate; reflexivity.
Qed.

Theorem snapshot_origin_position_all d t rs :
  doc_content_wf d = true -> isd d t = Ok rs -> nth 6 (shape_clauses [] false rs) false = true.
Proof.
  intros Hwf H. cbn [nth shape_clauses]. rewrite every_forallb.
  pose proof (snapshot_origin_position d t rs (regions_of_wf d Hwf) H) as Hop.
  pose proof (snapshot_content_model d t rs Hwf H) as Hcm. cbn [nth shape_clauses] in Hcm. apply andb_true_iff in Hcm as [_ Hcm].
  rewrite every_forallb in Hcm. rewrite forallb_forall in *. intros o Ho.
  destruct o as [a cs] eqn:Eo. rewrite all_elems_node. cbn [forallb]. rewrite <- Eo in *. rewrite (Hop o Ho). cbn [andb].
  pose proof (cm_no_region_below o (Hcm o Ho)) as Hb. rewrite Eo in Hb. cbn [echildren] in Hb.
  rewrite forallb_forall in *. intros x Hx. specialize (Hb x Hx). unfold origin_position_ok. destruct (kind_of x); try reflexivity; discriminate.
Qed.

Theorem snapshot_shape d t rs : doc_wf d = true -> isd d t = Ok rs -> isd_shape rs = true.
Proof.
  intros Hwf H. unfold doc_wf in Hwf. apply andb_true_iff in Hwf as [Hc Hv].
  pose proof (snapshot_no_timing d t rs H) as C0. pose proof (snapshot_no_anims d t rs H) as C1.
  pose proof (snapshot_no_region_refs d t rs H) as C2. pose proof (snapshot_content_model d t rs Hc H) as C3.
  pose proof (snapshot_styles_exact d t rs H) as C4. pose proof (snapshot_units d t rs Hv H) as C5.
  pose proof (snapshot_origin_position_all d t rs Hc H) as C6. pose proof (snapshot_no_display_none d t rs H) as C7.
  pose proof (snapshot_nonempty d t rs Hc H) as C8. pose proof (snapshot_whitespace d t rs Hc H) as C9.
  pose proof (snapshot_empty_regions d t rs (regions_of_wf d Hc) H) as C10.
  cbn [nth shape_clauses] in *. unfold isd_shape, shape_clauses. cbn [forallb].
  rewrite C0, C1, C2, C3, C4, C5, C6, C7, C8, C9, C10. reflexivity.
Qed.

(* the whole content model of data_model.md on the source implies the part of it the theorems ask for *)
Lemma full_content_model_suffices d :
  forallb (fun r => kind_eqb (kind_of r) KRegion) (d_regions d) = true ->
  match d_body d with None => true | Some b => kind_eqb (kind_of b) KBody && forallb children_ok (all_elems b) end = true ->
  doc_content_wf d = true.
Proof.
  intros Hr Hb. unfold doc_content_wf. rewrite Hr. cbn [andb]. destruct (d_body d) as [b|]; [|reflexivity].
  apply andb_true_iff in Hb as [H1 H2]. rewrite H1. cbn [andb]. rewrite forallb_forall in *. intros x Hx. specialize (H2 x Hx).
  unfold src_children_ok. destruct (kind_of x); try exact H2; reflexivity.
Qed.

(* the hypotheses are satisfiable: a document with two regions, nested divisions, mixed xml:space, line breaks, ruby with
   delimiters, lengths in every unit, an animation step and an initial value *)
Definition ex_text (s : text) : elem := Elem (mkAttrs KText None None None None [] [] false [] s) [].
Definition ex_el (k : kind) (pre : bool) (st : smap) (cs : list elem) : elem := Elem (mkAttrs k None None None None st [] pre [] []) cs.
Definition ex_len (n : Z) (u : unit_) : len := mkLen (inject_Z n) u.
Definition ex_doc : doc :=
  mkDoc
    [ Elem (mkAttrs KRegion (Some [114; 49]) None None None
              [(p_Extent, VExtent (ex_len 50 Upct) (ex_len 640 Upx)); (p_Origin, VCoord (ex_len 2 Uc) (ex_len 10 Upx));
               (p_Disparity, VLen (ex_len 3 Upx)); (p_Padding, VPad (ex_len 1 Uem) (ex_len 2 Upct) (ex_len 1 Uc) (ex_len 4 Upx));
               (p_ShowBackground, VEnum e_ShowBackgroundType_always)]
              [mkAnim p_Disparity (Some (inject_Z 1)) None (VLen (ex_len 1 Uc))] false [] []) [];
      Elem (mkAttrs KRegion (Some [114; 50]) (Some (inject_Z 5)) None None
              [(p_Position, VPos (ex_len 10 Upct) e_PositionType_HEdge_right (ex_len 5 Upx) e_PositionType_VEdge_bottom);
               (p_Extent, VExtent (ex_len 30 Urh) (ex_len 40 Urw))] [] false [] []) [] ]
    (Some (ex_el KBody false []
      [ Elem (mkAttrs KDiv None None None (Some [114; 49]) [(p_FontSize, VLen (ex_len 150 Upct))] [] false [] [])
          [ ex_el KDiv false []
              [ ex_el KP false [(p_LineHeight, VLen (ex_len 125 Upct)); (p_LinePadding, VLen (ex_len 1 Uc));
                                (p_TextShadow, VShadow [(ex_len 1 Upx, ex_len 1 Uem, Some (ex_len 10 Upct), None)])]
                  [ ex_el KSpan false [(p_TextOutline, VOutline None (ex_len 5 Upct))] [ex_text [32; 32; 97; 32; 10; 9; 98; 32]];
                    ex_el KBr false [] [];
                    ex_el KSpan false [] [ex_text [32; 10]; ex_el KSpan true [] [ex_text [32; 32; 122; 32; 32]]; ex_el KSpan false [] []];
                    ex_el KRuby false []
                      [ ex_el KRb false [] [ex_el KSpan false [] [ex_text [26085]]];
                        ex_el KRp false [] [ex_el KSpan false [] [ex_text [32; 40; 9; 32]]];
                        ex_el KRt false [(p_RubyReserve, VReserve 0 None)] [ex_el KSpan false [] [ex_text [110; 32; 32; 105]]];
                        ex_el KRp false [] [ex_el KSpan false [] [ex_text [41]]] ] ] ] ] ]))
    [(p_Color, VColor 4278190335)] 15 32 1080 1920 None None [101; 110].

Example ex_doc_wf : doc_wf ex_doc = true.
Proof. vm_compute. reflexivity. Qed.
Example ex_doc_snapshot : exists rs, isd ex_doc (inject_Z 2) = Ok rs /\ length rs = 1%nat /\ isd_shape rs = true.
Proof.
  assert (H : exists rs, isd ex_doc (inject_Z 2) = Ok rs /\ length rs = 1%nat) by (eexists; split; [vm_compute; reflexivity | reflexivity]).
  destruct H as (rs & H & Hl). exists rs. split; [exact H | split; [exact Hl | exact (snapshot_shape _ _ _ ex_doc_wf H)]].
Qed.
