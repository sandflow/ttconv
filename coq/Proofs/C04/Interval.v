(* C04, temporal resolution: for every XML tree and every parsing context, the desired begin and end that
   the reader model computes for an element are the begin and end of the TTML2 interval semantics
   (Spec/TtmlTimingSpec.v interval), by induction on the tree (par and seq containers, begin/end/dur,
   anonymous spans, set/br/region).
   The reader's process is taken apart here, for this file and for Total.v, BadAttr.v and Transparent.v: what it reads of the
   element itself ([enter]), one step of the children loop ([loop_cons]), what it makes of the loop's result ([leave]). *)
From TT Require Import Base.Prelude Base.ImscXml Model.ImscTime Model.ImscStyles Model.ImscTiming Spec.TtmlTimingSpec.
From Coq Require Import QArith Qminmax Lqa.
Local Open Scope Z_scope.

Definition oq_rel (a b : option Q) : Prop :=
  match a, b with Some x, Some y => (x == y)%Q | None, None => True | _, _ => False end.

Lemma oq_rel_refl a : oq_rel a a.
Proof. destruct a; simpl; [reflexivity|exact I]. Qed.

Definition tv_of (ev : env) (s : text) : option Q := parse_time (Some (e_tr ev)) (Some (e_fr ev)) s.

Lemma read_time_tv ev raw v : read_time ev raw = Some v ->
  v = match raw with Some s => tv_of ev s | None => None end.
Proof.
  unfold read_time, tv_of, parse_time. destruct raw as [s|]; [|intro H; inversion H; reflexivity].
  destruct (parse_time_x _ _ s); intro H; inversion H; reflexivity.
Qed.

Lemma s_mixed_k k : s_mixed k = k_is_mixed k.
Proof. destruct k; reflexivity. Qed.
Lemma s_atomic_k k : s_atomic k = k_indefinite_in_par k.
Proof. destruct k; reflexivity. Qed.
Lemma s_childless_k k : s_childless k = ekind_eqb k KSet.
Proof. destruct k; reflexivity. Qed.


Lemma assoc_text_cons {A} x (v : A) l k : assoc_text ((x, v) :: l) k = if text_eqb k x then Some v else assoc_text l k.
Proof. cbn [assoc_text]. rewrite (text_eqb_sym x k). reflexivity. Qed.

Lemma classify_s_kind tag attrs :
  s_kind tag attrs =
  match classify tag attrs with
  | Some KRegion => match get_attr attrs A_id with Some _ => Some KRegion | None => None end
  | o => o
  end.
Proof.
  destruct tag as [n l]. unfold s_kind, classify, qname_eqb, ruby_roles, tt_elements. rewrite !assoc_text_cons. cbn [fst snd].
  change (fst T_body) with 1. change (fst T_div) with 1. change (fst T_p) with 1. change (fst T_span) with 1.
  change (fst T_br) with 1. change (fst T_set) with 1. change (fst T_region) with 1. unfold NS_TT.
  destruct (n =? 1); cbn [andb]; [|reflexivity].
  destruct (text_eqb l (snd T_span)) eqn:E.
  { apply text_eqb_eq in E. subst l. cbn [text_eqb snd T_body T_div T_p T_span T_br T_set T_region Z.eqb Pos.eqb andb].
    destruct (get_attr attrs A_ruby) as [v|]; [|reflexivity]. rewrite !assoc_text_cons. cbn [assoc_text].
    repeat (destruct (text_eqb v _); [reflexivity|]). reflexivity. }
  cbn [assoc_text]. destruct (text_eqb l (snd T_body)); [reflexivity|]. destruct (text_eqb l (snd T_div)); [reflexivity|].
  destruct (text_eqb l (snd T_p)); [reflexivity|]. destruct (text_eqb l (snd T_br)); [reflexivity|].
  destruct (text_eqb l (snd T_set)); [reflexivity|]. destruct (text_eqb l (snd T_region)); [|reflexivity].
  destruct (get_attr attrs A_id); reflexivity.
Qed.

Lemma Qmax_plus_r a c d : (Qmax (c + a) (d + a) == Qmax c d + a)%Q.
Proof. destruct (Q.max_spec c d) as [[H1 H2]|[H1 H2]]; rewrite H2; [apply Q.max_r; lra | apply Q.max_l; lra]. Qed.

Lemma oq_rel_trans a b c : oq_rel a b -> oq_rel b c -> oq_rel a c.
Proof. destruct a, b, c; simpl; try tauto. intros H1 H2. rewrite H1. exact H2. Qed.
Lemma oq_rel_sym a b : oq_rel a b -> oq_rel b a.
Proof. destruct a, b; simpl; try tauto. intro H. symmetry. exact H. Qed.

Lemma oadd_compat a b x y : (a == b)%Q -> oq_rel x y -> oq_rel (oadd a x) (oadd b y).
Proof. destruct x, y; simpl; try tauto. intros H1 H2. rewrite H1, H2. reflexivity. Qed.

Lemma end_of_compat s1 s2 b1 b2 d e i1 i2 :
  (s1 == s2)%Q -> (b1 == b2)%Q -> oq_rel i1 i2 -> oq_rel (end_of s1 b1 d e i1) (end_of s2 b2 d e i2).
Proof.
  intros Hs Hb Hi. unfold end_of. destruct d, e; simpl.
  - rewrite Hs, Hb. reflexivity.
  - rewrite Hb. reflexivity.
  - rewrite Hs. reflexivity.
  - apply oadd_compat; assumption.
Qed.

Lemma interval_sync tv p s1 s2 x : (s1 == s2)%Q ->
  (fst (interval tv p s1 x) == fst (interval tv p s2 x))%Q /\
  oq_rel (snd (interval tv p s1 x)) (snd (interval tv p s2 x)).
Proof.
  intro H. destruct x as [tag attrs txt tail cs]. cbn [interval fst snd]. split.
  - rewrite H. reflexivity.
  - apply end_of_compat; [assumption| rewrite H; reflexivity | apply oq_rel_refl].
Qed.

Definition onone {A} (o : option A) : bool := match o with None => true | Some _ => false end.

(* "process tail text node" *)
Definition flush (mp : bool) (k : ekind) (pr : bool) (lg : text) (iend : option Q) (kids : list mnode) (p : option text)
  : option Q * list mnode :=
  match p with
  | Some t => if mp then (None, kids ++ [anon_span k pr lg t]) else (iend, kids)
  | None => (iend, kids)
  end.

Definition upd_iend (inpar : bool) (db : Q) (iend : option Q) (r : cres) : option Q :=
  if inpar then match iend, r_des_end r with Some a, Some ce => Some (Qmax a (ce + db)%Q) | _, _ => None end
  else match iend with
       | Some _ => match r_des_end r with Some ce => Some (ce + db)%Q | None => None end
       | None => None
       end.
Definition upd_kids (kids : list mnode) (r : cres) : list mnode :=
  match r_node r with
  | Some n => if negb (ekind_eqb (r_kind r) KSet) &&
                 match r_des_end r with None => true | Some ce => negb (Qeq_bool (r_des_begin r) ce) end
              then kids ++ [n] else kids
  | None => kids
  end.
Definition upd_anims (anims : list anim) (r : cres) : list anim :=
  match r_anim r with Some a => anims ++ [a] | None => anims end.

Lemma loop_cons proc tm vl k par db pr lg c l iend send kids anims pf nst :
  children_loop proc tm vl k par db pr lg (c :: l) iend send kids anims pf nst =
  if ekind_eqb k KRegion && is_style_elem c
  then children_loop proc tm vl k par db pr lg l iend send kids anims pf (merge_absent vl (collect tm vl (x_attrs c) []) nst)
  else if negb par && onone send then children_loop proc tm vl k par db pr lg l iend send kids anims pf nst
  else if ekind_eqb k KSet then LDone iend kids anims pf nst
  else match proc (mkPctx par send pr lg (negb (ekind_eqb k KSet))) c with
       | PErr e => LErr e
       | PSkip => children_loop proc tm vl k par db pr lg l
                    (fst (flush (k_is_mixed k && par) k pr lg iend kids (x_tail c))) send
                    (snd (flush (k_is_mixed k && par) k pr lg iend kids (x_tail c))) anims pf nst
       | POk r => children_loop proc tm vl k par db pr lg l
                    (fst (flush (k_is_mixed k && par) k pr lg (upd_iend par db iend r) (upd_kids kids r) (x_tail c)))
                    (if par then send else r_des_end r)
                    (snd (flush (k_is_mixed k && par) k pr lg (upd_iend par db iend r) (upd_kids kids r) (x_tail c)))
                    (upd_anims anims r) (pf || r_pushfail r) nst
       end.
Proof.
  cbn [children_loop]. unfold onone, flush, upd_iend, upd_kids, upd_anims.
  destruct (ekind_eqb k KRegion && is_style_elem c); [reflexivity|].
  destruct (negb par && match send with None => true | Some _ => false end); [reflexivity|].
  destruct (ekind_eqb k KSet); [reflexivity|].
  destruct (proc _ c) as [e| |r]; [reflexivity| |]; destruct (x_tail c); try destruct (k_is_mixed k && par); reflexivity.
Qed.

Lemma flush_false k pr lg i ks p : flush false k pr lg i ks p = (i, ks).
Proof. destruct p; reflexivity. Qed.

Lemma flush_iend mp k pr lg i ks p : fst (flush mp k pr lg i ks p) = if mp && has_text p then None else i.
Proof. destruct p, mp; reflexivity. Qed.

Record frame := mkFrame { f_kind : ekind ; f_ibegin : Q ; f_ebegin : option Q ; f_edur : option Q ; f_eend : option Q }.
Definition f_dbegin (f : frame) : Q := (f_ibegin f + opt_or_zero (f_ebegin f))%Q.

Definition enter (ev : env) (pc : pctx) (tag : qname) (attrs : list (qname * text)) : pres + frame :=
  match classify tag attrs with
  | None => inl PSkip
  | Some k =>
      if ekind_eqb k KRegion && onone (get_attr attrs A_id) then inl PSkip else
      match read_time ev (get_attr attrs A_begin), read_time ev (get_attr attrs A_dur), read_time ev (get_attr attrs A_end), implicit_begin pc with
      | Some ebegin, Some edur, Some eend, Some ibegin => inr (mkFrame k ibegin ebegin edur eend)
      | Some _, Some _, Some _, None => inl (PErr 1)
      | _, _, _, _ => inl (PErr 2)
      end
  end.

Definition leave (ev : env) (pc : pctx) (attrs : list (qname * text)) (f : frame) (preserve : bool) (lang : text) (l : lres) : pres :=
  match l with
  | LErr e => PErr e
  | LDone iend kids anims pf nst =>
      let k := f_kind f in
      let dbegin := f_dbegin f in
      let region := read_region ev k attrs in
      let st1 := if k_has_styles k then referential (e_valid ev) (e_styles ev) (rev (style_refs attrs)) nst else nst in
      let '(pushed, ok) := if k_has_children k then push_children k kids else ([], true) in
      let rid := if ekind_eqb k KRegion then get_attr attrs A_id else None in
      if negb ok then
        POk (mkCres k dbegin None
               (if ekind_eqb k KSet then None else Some (MElem k rid None None preserve lang region st1 anims pushed)) None true)
      else
      let dend := desired_end (f_ibegin f) dbegin (f_eend f) (f_edur f) iend in
      let mb := if k_has_timing k then (if Qeq_bool dbegin 0%Q then None else Some dbegin) else None in
      let me := if k_has_timing k then dend else None in
      if ekind_eqb k KSet then
        POk (mkCres k dbegin dend None
               (if pc_has_elem pc then
                  match first_animated (e_to_model ev) (e_valid ev) attrs with
                  | Some (p, v) => Some (p, v, dbegin, dend)
                  | None => None
                  end
                else None) pf)
      else
        let st2 := if k_has_styles k then apply_specified (e_to_model ev) (e_valid ev) attrs st1 else st1 in
        POk (mkCres k dbegin dend (Some (MElem k rid mb me preserve lang region st2 anims pushed)) None pf)
  end.

Lemma process_eq ev pc tag attrs txt tail cs :
  process ev pc (X tag attrs txt tail cs) =
  match enter ev pc tag attrs with
  | inl p => p
  | inr f =>
      let k := f_kind f in
      let inpar := read_par attrs in
      let lang := if ekind_eqb k KSet then pc_lang pc else read_lang attrs (pc_lang pc) in
      let preserve := if ekind_eqb k KSet then pc_preserve pc else read_space attrs (pc_preserve pc) in
      let start := flush (k_is_mixed k && inpar) k preserve lang (if k_indefinite_in_par k && pc_par pc then None else Some (f_dbegin f)) [] txt in
      leave ev pc attrs f preserve lang
        (children_loop (process ev) (e_to_model ev) (e_valid ev) k inpar (f_dbegin f) preserve lang cs (fst start) (Some 0%Q) (snd start) [] false [])
  end.
Proof.
  cbn [process]. unfold enter. destruct (classify tag attrs) as [k|]; [|reflexivity].
  destruct (ekind_eqb k KRegion && _); [reflexivity|].
  destruct (read_time ev (get_attr attrs A_begin)); [|reflexivity]. destruct (read_time ev (get_attr attrs A_dur)); [|reflexivity].
  destruct (read_time ev (get_attr attrs A_end)); [|reflexivity]. destruct (implicit_begin pc); [|reflexivity].
  cbv zeta. cbn [f_kind]. destruct txt, (k_is_mixed k && read_par attrs); reflexivity.
Qed.

Lemma enter_inv ev pc tag attrs :
  match enter ev pc tag attrs with
  | inl PSkip => s_kind tag attrs = None
  | inl (PErr e) => e = 1 /\ implicit_begin pc = None \/
                    e = 2 /\ (read_time ev (get_attr attrs A_begin) = None \/ read_time ev (get_attr attrs A_dur) = None \/
                              read_time ev (get_attr attrs A_end) = None)
  | inl (POk _) => False
  | inr f => s_kind tag attrs = Some (f_kind f) /\ implicit_begin pc = Some (f_ibegin f) /\
             read_time ev (get_attr attrs A_begin) = Some (f_ebegin f) /\ read_time ev (get_attr attrs A_dur) = Some (f_edur f) /\
             read_time ev (get_attr attrs A_end) = Some (f_eend f)
  end.
Proof.
  unfold enter. rewrite classify_s_kind. destruct (classify tag attrs) as [k|]; [|reflexivity].
  destruct (ekind_eqb k KRegion && onone (get_attr attrs A_id)) eqn:E.
  - apply andb_true_iff in E as [E1 E2]. destruct k; try discriminate. destruct (get_attr attrs A_id); [discriminate|reflexivity].
  - assert (Hk : match k with KRegion => match get_attr attrs A_id with Some _ => Some KRegion | None => None end | _ => Some k end = Some k).
    { destruct k; try reflexivity. destruct (get_attr attrs A_id); [reflexivity|discriminate]. }
    destruct (read_time ev (get_attr attrs A_begin)); [|right; auto]. destruct (read_time ev (get_attr attrs A_dur)); [|right; auto].
    destruct (read_time ev (get_attr attrs A_end)); [|right; auto]. destruct (implicit_begin pc); [|left; auto].
    cbn [f_kind f_ibegin f_ebegin f_edur f_eend]. repeat split. destruct k; exact Hk.
Qed.

(* [leave] turns a finished loop into a result: with the desired begin, and, unless push_children raised, with the error flag of the
   loop and the desired end of temporal end processing *)
Lemma leave_done ev pc attrs f pr lg iF kF aF pF nF :
  exists r, leave ev pc attrs f pr lg (LDone iF kF aF pF nF) = POk r /\ r_des_begin r = f_dbegin f /\
    (r_pushfail r = false -> pF = false /\ r_des_end r = desired_end (f_ibegin f) (f_dbegin f) (f_eend f) (f_edur f) iF).
Proof.
  cbn [leave]. destruct (if k_has_children _ then _ else _) as [pushed []]; cbn [negb].
  - destruct (ekind_eqb (f_kind f) KSet); eexists; (split; [reflexivity|]); cbn; auto.
  - eexists. split; [reflexivity|]. cbn. split; [reflexivity|discriminate].
Qed.

Lemma process_outcome ev pc x :
  match process ev pc x with
  | PSkip => timed x = false
  | POk _ => timed x = true
  | PErr _ => True
  end.
Proof.
  destruct x as [tag attrs txt tail cs]. unfold timed. cbn [x_tag x_attrs]. rewrite process_eq.
  pose proof (enter_inv ev pc tag attrs) as E. destruct (enter ev pc tag attrs) as [[e| |r]|f]; [exact I|rewrite E; reflexivity|contradiction|].
  destruct E as (-> & _). cbv zeta. destruct (children_loop _ _ _ _ _ _ _ _ _ _ _ _ _ _ _) as [iF kF aF pF nF|e]; [|exact I].
  edestruct (leave_done ev pc attrs f) as (r & -> & _). reflexivity.
Qed.

Lemma process_ok_timed ev pc x r : process ev pc x = POk r -> timed x = true.
Proof. intro H. pose proof (process_outcome ev pc x) as P. rewrite H in P. exact P. Qed.
Lemma process_skip_timed ev pc x : process ev pc x = PSkip -> timed x = false.
Proof. intro H. pose proof (process_outcome ev pc x) as P. rewrite H in P. exact P. Qed.

(* a child of a seq container whose implicit end is unknown is never read successfully *)
Lemma process_no_syncbase ev pc x r :
  implicit_begin pc = None -> process ev pc x <> POk r.
Proof.
  intros Hi H. destruct x as [tag attrs txt tail cs]. rewrite process_eq in H.
  pose proof (enter_inv ev pc tag attrs) as E. destruct (enter ev pc tag attrs) as [[e| |r']|f]; try discriminate; [contradiction|].
  destruct E as (_ & E & _). congruence.
Qed.

Lemma loop_pf_mono proc tm vl k par db pr lg l : forall iend send kids anims nst iF kF aF pF nF,
  children_loop proc tm vl k par db pr lg l iend send kids anims true nst = LDone iF kF aF pF nF -> pF = true.
Proof.
  induction l as [|c l IH]; intros iend send kids anims nst iF kF aF pF nF H; [inversion H; reflexivity|].
  rewrite loop_cons in H. destruct (ekind_eqb k KRegion && is_style_elem c); [exact (IH _ _ _ _ _ _ _ _ _ _ H)|].
  destruct (negb par && onone send); [exact (IH _ _ _ _ _ _ _ _ _ _ H)|]. destruct (ekind_eqb k KSet); [inversion H; reflexivity|].
  destruct (proc _ c); [discriminate|exact (IH _ _ _ _ _ _ _ _ _ _ H)..].
Qed.

Lemma loop_pf_false proc tm vl k par db pr lg l iend send kids anims pf nst iF kF aF nF :
  children_loop proc tm vl k par db pr lg l iend send kids anims pf nst = LDone iF kF aF false nF -> pf = false.
Proof. destruct pf; [|reflexivity]. intro H. apply loop_pf_mono in H. discriminate. Qed.

Lemma is_style_not_timed c : is_style_elem c = true -> timed c = false.
Proof.
  unfold is_style_elem, timed. destruct c as [tag attrs txt tail cs]. cbn [x_tag x_attrs].
  intro H. apply qname_eqb_eq in H. subst tag. reflexivity.
Qed.

Lemma par_dur_none iv mixed l : par_dur iv mixed l None = None.
Proof.
  induction l as [|c l IH]; cbn [par_dur]; [reflexivity|].
  destruct (timed c); cbn [omax]; destruct (mixed && has_text (x_tail c)); exact IH.
Qed.

Lemma seq_dur_compat tv l : forall c1 c2, (c1 == c2)%Q ->
  oq_rel (seq_dur (interval tv) l c1) (seq_dur (interval tv) l c2).
Proof.
  induction l as [|c l IH]; intros c1 c2 H; cbn [seq_dur].
  - exact H.
  - destruct (timed c); [|apply IH; exact H].
    destruct (interval_sync tv true c1 c2 c H) as [_ He].
    destruct (snd (interval tv true c1 c)), (snd (interval tv true c2 c)); simpl in He; try tauto.
    apply IH. exact He.
Qed.

(* the children of a <set> are not read *)
Lemma loop_set proc tm vl par db pr lg l iend send kids anims pf nst :
  children_loop proc tm vl KSet par db pr lg l iend send kids anims pf nst = LDone iend kids anims pf nst.
Proof.
  induction l as [|c l IH]; [reflexivity|]. rewrite loop_cons. cbn [ekind_eqb ekind_code Z.eqb andb].
  destruct (negb par && _); [apply IH|reflexivity].
Qed.

Section Main.
  Variable ev : env.

  Definition sound (x : xml) : Prop :=
    forall pc r, process ev pc x = POk r -> r_pushfail r = false ->
      exists sync, implicit_begin pc = Some sync /\
        (r_des_begin r == fst (interval (tv_of ev) (negb (pc_par pc)) sync x))%Q /\
        oq_rel (r_des_end r) (snd (interval (tv_of ev) (negb (pc_par pc)) sync x)).

  Lemma loop_par k db pr lg l : ekind_eqb k KSet = false -> Forall sound l ->
    forall iend send kids anims pf nst iF kF aF nF acc,
      children_loop (process ev) (e_to_model ev) (e_valid ev) k true db pr lg l iend send kids anims pf nst = LDone iF kF aF false nF ->
      oq_rel iend (oadd db acc) ->
      oq_rel iF (oadd db (par_dur (interval (tv_of ev)) (k_is_mixed k) l acc)).
  Proof.
    intro Hks. induction 1 as [|c l Hc Hl IH]; intros iend send kids anims pf nst iF kF aF nF acc H Hrel.
    - inversion H; subst. exact Hrel.
    - rewrite loop_cons, Hks, andb_true_r in H. cbn [negb andb] in H. cbn [par_dur].
      destruct (ekind_eqb k KRegion && is_style_elem c) eqn:Est.
      { apply andb_true_iff in Est as [Ek Es]. rewrite (is_style_not_timed c Es).
        assert (k = KRegion) by (destruct k; try discriminate; reflexivity). subst k. exact (IH _ _ _ _ _ _ _ _ _ _ _ H Hrel). }
      destruct (process ev (mkPctx true send pr lg _) c) as [e| |r] eqn:Ep; [discriminate| |];
        refine (IH _ _ _ _ _ _ _ _ _ _ _ H _); rewrite flush_iend; destruct (k_is_mixed k && has_text (x_tail c)); try exact I.
      + rewrite (process_skip_timed _ _ _ Ep). exact Hrel.
      + rewrite (process_ok_timed _ _ _ _ Ep).
        apply loop_pf_false, orb_false_iff in H as [_ Hpf].
        destruct (Hc _ _ Ep Hpf) as (sync & Hs & _ & He). inversion Hs; subst sync. cbn [pc_par negb] in He.
        unfold upd_iend. destruct iend as [a|], acc as [c0|], (r_des_end r) as [ce|], (snd (interval (tv_of ev) false 0 c)) as [s|];
          simpl in *; try tauto.
        rewrite Hrel, He, (Qplus_comm db c0), Qmax_plus_r. apply Qplus_comm.
  Qed.

  (* sequential container: [send] is the end of the previous child (the cursor of the specification); while the implicit end is
     known it is that cursor plus the begin of the container; once it is unknown it stays unknown *)
  Lemma loop_seq k db pr lg l : ekind_eqb k KSet = false -> Forall sound l ->
    forall iend send kids anims pf nst iF kF aF nF,
      children_loop (process ev) (e_to_model ev) (e_valid ev) k false db pr lg l iend send kids anims pf nst = LDone iF kF aF false nF ->
      match iend with
      | Some ie => forall cursor, send = Some cursor -> (ie == cursor + db)%Q -> oq_rel iF (oadd db (seq_dur (interval (tv_of ev)) l cursor))
      | None => iF = None
      end.
  Proof.
    intro Hks. induction 1 as [|c l Hc Hl IH]; intros iend send kids anims pf nst iF kF aF nF H.
    - inversion H; subst. destruct iF as [ie|]; [|reflexivity].
      intros cursor _ Hcur. cbn [seq_dur oadd oq_rel]. rewrite Hcur. ring.
    - rewrite loop_cons, Hks, andb_false_r in H. cbn [negb andb] in H. cbn [seq_dur].
      destruct (ekind_eqb k KRegion && is_style_elem c) eqn:Est.
      { apply andb_true_iff in Est as [_ Es]. rewrite (is_style_not_timed c Es). exact (IH _ _ _ _ _ _ _ _ _ _ H). }
      destruct send as [cur|]; cbn [onone] in H.
      2:{ (* the child is skipped: it never begins *)
          specialize (IH _ _ _ _ _ _ _ _ _ _ H). destruct iend as [ie|]; [intros cursor Hse; discriminate|exact IH]. }
      destruct (process ev (mkPctx false (Some cur) pr lg _) c) as [e| |r] eqn:Ep; [discriminate| |];
        rewrite ?flush_false in H; cbn [fst snd] in H; specialize (IH _ _ _ _ _ _ _ _ _ _ H).
      + rewrite (process_skip_timed _ _ _ Ep). exact IH.
      + rewrite (process_ok_timed _ _ _ _ Ep).
        apply loop_pf_false, orb_false_iff in H as [_ Hpf].
        destruct (Hc _ _ Ep Hpf) as (sync & Hs & _ & He). inversion Hs; subst sync. cbn [pc_par negb] in He.
        unfold upd_iend in IH. destruct iend as [ie|]; [|exact IH].
        intros cursor Hse Hcur. inversion Hse; subst cursor.
        destruct (r_des_end r) as [ce|], (snd (interval (tv_of ev) true cur c)) as [s|] eqn:Es; simpl in He; try tauto.
        * eapply oq_rel_trans; [apply (IH ce eq_refl); reflexivity|].
          apply oadd_compat; [reflexivity|]. apply seq_dur_compat. exact He.
        * subst iF. exact I.
  Qed.
End Main.

Lemma s_is_seq_par attrs : s_is_seq attrs = negb (read_par attrs).
Proof.
  unfold s_is_seq, read_par. destruct (get_attr attrs A_timeContainer); [|reflexivity].
  rewrite negb_involutive. reflexivity.
Qed.

Lemma desired_end_of ib db eend edur iF sync b idur :
  (ib == sync)%Q -> (db == b)%Q -> oq_rel iF (oadd b idur) ->
  oq_rel (desired_end ib db eend edur iF) (end_of sync b edur eend idur).
Proof.
  intros H1 H2 H3. unfold desired_end, end_of. destruct eend, edur; simpl.
  - rewrite H1, H2. reflexivity.
  - rewrite H1. reflexivity.
  - rewrite H2. reflexivity.
  - exact H3.
Qed.

Theorem interval_sound ev x : sound ev x.
Proof.
  induction x as [tag attrs txt tail cs IHcs] using xml_ind'.
  intros pc r H Hpush. rewrite process_eq in H.
  pose proof (enter_inv ev pc tag attrs) as E. destruct (enter ev pc tag attrs) as [p|f]; [rewrite H in E; contradiction|].
  destruct E as (Hsk & Eib & Eb & Ed & Ee). apply read_time_tv in Eb, Ed, Ee. cbv zeta in H.
  set (k := f_kind f) in *. set (par := read_par attrs) in *.
  destruct (children_loop _ _ _ _ _ _ _ _ _ _ _ _ _ _ _) as [iF kF aF pF nF|e] eqn:Eloop; [|discriminate].
  edestruct (leave_done ev pc attrs f) as (r' & Hr' & Hrb & Hre). rewrite Hr' in H. inversion H; subst r'. clear H Hr'.
  destruct (Hre Hpush) as [-> Hre']. rewrite flush_iend in Eloop.
  exists (f_ibegin f). split; [exact Eib|]. rewrite Hrb, Hre'.
  (* the specification side *)
  cbn [interval fst snd]. rewrite Hsk. unfold tattr. rewrite <- Eb, <- Ed, <- Ee.
  assert (Hb : (f_dbegin f == f_ibegin f + match f_ebegin f with Some v => v | None => 0 end)%Q) by reflexivity.
  split; [exact Hb|]. apply desired_end_of; [reflexivity|exact Hb|].
  change (f_ibegin f + match f_ebegin f with Some v => v | None => 0 end)%Q with (f_dbegin f). clear Hb.
  (* implicit duration *)
  rewrite s_atomic_k, negb_involutive, s_childless_k, s_is_seq_par, s_mixed_k. fold k par.
  destruct (ekind_eqb k KSet) eqn:Eks.
  { (* <set>: its children are not read; indefinite in a par parent, zero duration in a seq parent *)
    assert (Ek : k = KSet) by (destruct k; try discriminate; reflexivity). rewrite Ek in *.
    rewrite loop_set in Eloop. inversion Eloop; subst iF. cbn [k_is_mixed k_indefinite_in_par andb].
    destruct (pc_par pc); cbn [oadd oq_rel]; [exact I|ring]. }
  destruct (k_indefinite_in_par k && pc_par pc).
  - (* indefinite from the start *)
    assert (Hi : (if k_is_mixed k && par && has_text txt then None else @None Q) = None) by (destruct (_ && _); reflexivity).
    rewrite Hi in Eloop. destruct par.
    + pose proof (loop_par ev k _ _ _ cs Eks IHcs _ _ _ _ _ _ _ _ _ _ None Eloop I) as Hl.
      rewrite par_dur_none in Hl. destruct iF; [contradiction|exact I].
    + pose proof (loop_seq ev k _ _ _ cs Eks IHcs _ _ _ _ _ _ _ _ _ _ Eloop) as Hl. cbn in Hl. subst iF. exact I.
  - destruct par; cbn [negb].
    + rewrite andb_true_r in Eloop.
      apply (loop_par ev k _ _ _ cs Eks IHcs _ _ _ _ _ _ _ _ _ _ (if k_is_mixed k && has_text txt then None else Some 0%Q) Eloop).
      destruct (k_is_mixed k && has_text txt); cbn [oadd oq_rel]; [exact I|ring].
    + rewrite andb_false_r in Eloop. cbn [andb] in Eloop.
      apply (loop_seq ev k _ _ _ cs Eks IHcs _ _ _ _ _ _ _ _ _ _ Eloop 0%Q eq_refl). ring.
Qed.
