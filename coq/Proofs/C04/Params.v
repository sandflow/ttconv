(* C04, document parameters: for EVERY attribute list - well-formed, malformed or absent ttp:frameRate, ttp:frameRateMultiplier
   and ttp:tickRate - the transcribed extractors give the TTML2 values of Spec/TtmlTimingSpec.v: the effective frame rate
   (default 30, multiplier default 1 1), the tick rate (default: the effective frame rate when ttp:frameRate is specified, else 1);
   a value that is not a positive integer (pair) is ignored. *)
From TT Require Import Base.Prelude Base.ImscXml Model.ImscTime Spec.TtmlTimingSpec Proofs.C04.TimeSyntax.
From Coq Require Import QArith Lqa.
Local Open Scope Z_scope.

Lemma span_all_digits s : forallb code_dec s = true -> span_digits s = (s, []).
Proof.
  induction s as [|c s IH]; simpl; [reflexivity|]. intro H. apply andb_true_iff in H as [H1 H2].
  change (is_digit c) with (code_dec c). rewrite H1, (IH H2). reflexivity.
Qed.

(* the specification's digit test is the reader's *)
Lemma span_digits_spec s d r : span_digits s = (d, r) ->
  s = d ++ r /\ forallb code_dec d = true /\ match r with [] => True | c :: _ => code_dec c = false end.
Proof. exact (span_digits_split s d r). Qed.

Lemma on_space {A} (c : Z) (a b : A) : match c with 32 => a | _ => b end = if c =? 32 then a else b.
Proof. destruct c as [|p|p]; try reflexivity. do 6 (destruct p as [p|p|]; try reflexivity). Qed.

Lemma digits_val_fold s : forall acc, digits_val acc s = fold_left (fun a c => a * 10 + (c - 48)) s acc.
Proof. induction s as [|c s IH]; intro acc; simpl; [reflexivity|apply IH]. Qed.

Lemma forallb_app_l {A} (f : A -> bool) a b : forallb f (a ++ b) = true -> forallb f a = true /\ forallb f b = true.
Proof. rewrite forallb_app. intro H. apply andb_true_iff in H. exact H. Qed.

Lemma pos_digits_eq s : pos_digits s = pos_int s.
Proof.
  unfold pos_digits, pos_int. destruct (span_digits s) as [d r] eqn:Es.
  destruct (span_digits_spec s d r Es) as [Hs [Hd Hr]].
  destruct r as [|c r].
  - rewrite app_nil_r in Hs. subst d. rewrite Hd. destruct s as [|c s]; [reflexivity|].
    cbn [is_nonempty_l andb]. rewrite digits_val_fold. reflexivity.
  - assert (Hf : forallb code_dec s = false).
    { subst s. rewrite forallb_app. cbn [forallb]. rewrite Hr. rewrite andb_false_r. reflexivity. }
    rewrite Hf, andb_false_r. destruct d; reflexivity.
Qed.

Lemma split_space_acc s : forall cur, split_space s cur = match split_space s [] with x :: l => (cur ++ x) :: l | [] => [] end.
Proof.
  induction s as [|c s IH]; intro cur; cbn [split_space].
  - rewrite app_nil_r. reflexivity.
  - destruct (c =? 32); [rewrite app_nil_r; reflexivity|].
    rewrite (IH (cur ++ [c])), (IH ([] ++ [c])). destruct (split_space s []); [reflexivity|]. rewrite <- app_assoc. reflexivity.
Qed.

Lemma split_space_nonempty s cur : split_space s cur <> [].
Proof. revert cur. induction s as [|c s IH]; intro cur; cbn [split_space]; [discriminate|]. destruct (c =? 32); [discriminate|apply IH]. Qed.

Lemma no_space_digits s : forallb code_dec s = true -> forall cur, split_space s cur = [cur ++ s].
Proof.
  induction s as [|c s IH]; intros H cur; simpl.
  - rewrite app_nil_r. reflexivity.
  - simpl in H. apply andb_true_iff in H as [H1 H2].
    assert (c =? 32 = false) by (unfold code_dec in H1; lia). rewrite H.
    rewrite (IH H2). rewrite <- app_assoc. reflexivity.
Qed.

Lemma split_digits_then d c r : forallb code_dec d = true ->
  split_space (d ++ c :: r) [] =
  if c =? 32 then d :: split_space r [] else match split_space r [] with x :: l => (d ++ c :: x) :: l | [] => [] end.
Proof.
  intro Hd.
  assert (G : forall cur, split_space (d ++ c :: r) cur =
              if c =? 32 then (cur ++ d) :: split_space r [] else match split_space r [] with x :: l => (cur ++ d ++ c :: x) :: l | [] => [] end).
  { induction d as [|a d IH]; intro cur; cbn [app split_space].
    - destruct (c =? 32); [rewrite app_nil_r; reflexivity|]. rewrite split_space_acc. destruct (split_space r []); [reflexivity|].
      rewrite <- app_assoc. reflexivity.
    - cbn [forallb] in Hd. apply andb_true_iff in Hd as [H1 H2].
      assert (a =? 32 = false) by (unfold code_dec in H1; lia). rewrite H. rewrite (IH H2).
      destruct (c =? 32); [rewrite <- app_assoc; reflexivity|]. destruct (split_space r []); [reflexivity|]. rewrite <- app_assoc. reflexivity. }
  apply (G []).
Qed.

Definition mult_of (o : option (Z * Z)) : Q :=
  match o with Some (a, b) => if (0 <? a) && (0 <? b) then (inject_Z a / inject_Z b)%Q else 1%Q | None => 1%Q end.
Definition spec_mult_of (s : text) : Q :=
  match split_space s [] with
  | [a; b] => match pos_int a, pos_int b with Some n, Some d => (inject_Z n / inject_Z d)%Q | _, _ => 1%Q end
  | _ => 1%Q
  end.

Lemma pos_int_digits s n : pos_int s = Some n -> is_nonempty_l s = true /\ forallb code_dec s = true /\ n = digits_val 0 s /\ 0 < n.
Proof.
  unfold pos_int. destruct (is_nonempty_l s && forallb code_dec s) eqn:E; [|discriminate].
  apply andb_true_iff in E as [E1 E2].
  destruct (0 <? fold_left (fun a c : Z => a * 10 + (c - 48)) s 0) eqn:Ep; [|discriminate].
  intro H. inversion H; subst n. rewrite digits_val_fold. repeat split; try assumption. apply Z.ltb_lt. exact Ep.
Qed.

Lemma pos_int_not_digits s : forallb code_dec s = false -> pos_int s = None.
Proof. intro H. unfold pos_int. rewrite H, andb_false_r. reflexivity. Qed.

Lemma pos_int_of_digits s : forallb code_dec s = true ->
  pos_int s = match s with [] => None | _ :: _ => if 0 <? digits_val 0 s then Some (digits_val 0 s) else None end.
Proof. intro H. unfold pos_int. rewrite H, andb_true_r. destruct s; [reflexivity|]. cbn [is_nonempty_l]. rewrite digits_val_fold. reflexivity. Qed.

Lemma multiplier_eq s : mult_of (int_pair s) = spec_mult_of s.
Proof.
  unfold int_pair, spec_mult_of. destruct (span_digits s) as [a r] eqn:Es.
  destruct (span_digits_spec s a r Es) as [Hs [Ha Hr]]. subst s.
  destruct r as [|c r].
  - (* digits only: one field *)
    rewrite app_nil_r, (no_space_digits a Ha []). destruct a; reflexivity.
  - rewrite (split_digits_then a c r Ha).
    destruct (c =? 32) eqn:Ec.
    + apply Z.eqb_eq in Ec. subst c.
      destruct (span_digits r) as [b r2] eqn:Eb. destruct (span_digits_spec r b r2 Eb) as [Hr' [Hb Hr2]]. subst r.
      destruct r2 as [|c2 r2].
      * rewrite app_nil_r, (no_space_digits b Hb []). cbn [app].
        rewrite (pos_int_of_digits a Ha), (pos_int_of_digits b Hb).
        destruct a as [|a0 a]; [reflexivity|]. destruct b as [|b0 b]; [cbn [mult_of]; destruct (0 <? digits_val 0 (a0 :: a)); reflexivity|].
        cbn [mult_of]. destruct (0 <? digits_val 0 (a0 :: a)); cbn [andb]; [|reflexivity].
        destruct (0 <? digits_val 0 (b0 :: b)); reflexivity.
      * (* something follows the second integer: the reader rejects; the specification sees a second field that is not an integer,
           or more than two fields *)
        assert (Hm : mult_of (match a with [] => None | _ :: _ => None end) = 1%Q) by (destruct a; reflexivity).
        replace (mult_of match a with
                         | [] => None
                         | _ :: _ => match b, c2 :: r2 with _ :: _, [] => Some (digits_val 0 a, digits_val 0 b) | _, _ => None end
                         end) with 1%Q by (destruct a; [reflexivity|destruct b; reflexivity]).
        rewrite (split_digits_then b c2 r2 Hb).
        destruct (c2 =? 32) eqn:E2.
        -- pose proof (split_space_nonempty r2 []) as Hne. destruct (split_space r2 []) as [|x l]; [contradiction|]. reflexivity.
        -- destruct (split_space r2 []) as [|x l] eqn:E3; [reflexivity|]. destruct l; [|reflexivity].
           assert (Hnd : forallb code_dec (b ++ c2 :: x) = false).
           { rewrite forallb_app. cbn [forallb]. rewrite Hr2, andb_false_r. reflexivity. }
           rewrite (pos_int_not_digits _ Hnd). destruct (pos_int a); reflexivity.
    + (* the character after the first integer is not a space *)
      replace (mult_of match a, c :: r with
                       | _ :: _, 32 :: r' => let '(b, r'') := span_digits r' in match b, r'' with _ :: _, [] => Some (digits_val 0 a, digits_val 0 b) | _, _ => None end
                       | _, _ => None end) with 1%Q.
      2:{ destruct a; [reflexivity|]. rewrite on_space, Ec. reflexivity. }
      destruct (split_space r []) as [|x l]; [reflexivity|]. destruct l as [|y l]; [reflexivity|]. destruct l; [|reflexivity].
      assert (Hnd : forallb code_dec (a ++ c :: x) = false).
      { rewrite forallb_app. cbn [forallb]. rewrite Hr, andb_false_r. reflexivity. }
      rewrite (pos_int_not_digits _ Hnd). reflexivity.
Qed.

Lemma frame_rate_attr_eq attrs : frame_rate_attr attrs = spec_frame_rate_attr attrs.
Proof. unfold frame_rate_attr, spec_frame_rate_attr. destruct (get_attr attrs A_frameRate); [apply pos_digits_eq|reflexivity]. Qed.

Theorem frame_rate_spec attrs : (extract_frame_rate attrs == spec_frame_rate attrs)%Q.
Proof.
  unfold extract_frame_rate, spec_frame_rate. rewrite frame_rate_attr_eq.
  set (fr := match spec_frame_rate_attr attrs with Some n => n | None => 30 end).
  replace (match spec_frame_rate_attr attrs with Some n => inject_Z n | None => inject_Z 30 end) with (inject_Z fr)
    by (unfold fr; destruct (spec_frame_rate_attr attrs); reflexivity).
  assert (Hm : (match get_attr attrs A_frameRateMultiplier with
                | Some raw => match int_pair raw with
                              | Some (a, b) => if (0 <? a) && (0 <? b) then inject_Z fr * (inject_Z a / inject_Z b) else inject_Z fr * 1
                              | None => inject_Z fr * 1 end
                | None => inject_Z fr * 1 end
                == inject_Z fr * match get_attr attrs A_frameRateMultiplier with Some raw => mult_of (int_pair raw) | None => 1 end)%Q).
  { destruct (get_attr attrs A_frameRateMultiplier) as [raw|]; [|reflexivity].
    unfold mult_of. destruct (int_pair raw) as [[a b]|]; [|reflexivity]. destruct ((0 <? a) && (0 <? b)); reflexivity. }
  rewrite Hm. unfold spec_multiplier.
  destruct (get_attr attrs A_frameRateMultiplier) as [raw|]; [|reflexivity].
  rewrite multiplier_eq. reflexivity.
Qed.

Theorem tick_rate_spec attrs : (extract_tick_rate attrs == spec_tick_rate attrs)%Q.
Proof.
  unfold extract_tick_rate, spec_tick_rate.
  replace (match get_attr attrs A_tickRate with Some raw => pos_digits raw | None => None end)
    with (match get_attr attrs A_tickRate with Some s => pos_int s | None => None end)
    by (destruct (get_attr attrs A_tickRate); [symmetry; apply pos_digits_eq|reflexivity]).
  destruct (match get_attr attrs A_tickRate with Some s => pos_int s | None => None end); [reflexivity|].
  rewrite frame_rate_attr_eq. destruct (spec_frame_rate_attr attrs); [apply frame_rate_spec|reflexivity].
Qed.

(* the well-formed case spelt out: ttp:frameRate="fr" ttp:frameRateMultiplier="a b" give fr * a / b *)
Definition frame_rate_wf (attrs : list (qname * text)) (fr : Z) (mult : Q) : Prop :=
  (match get_attr attrs A_frameRate with
   | Some s => pos_int s = Some fr
   | None => fr = 30 end) /\
  (match get_attr attrs A_frameRateMultiplier with
   | Some s => exists sa sb a b, s = sa ++ 32 :: sb /\ pos_int sa = Some a /\ pos_int sb = Some b /\ mult = (inject_Z a / inject_Z b)%Q
   | None => mult = 1%Q end).

Theorem frame_rate_given attrs fr mult : frame_rate_wf attrs fr mult -> (extract_frame_rate attrs == inject_Z fr * mult)%Q.
Proof.
  intros [Hf Hm]. rewrite frame_rate_spec. unfold spec_frame_rate, spec_frame_rate_attr, spec_multiplier.
  assert (Hfr : match (match get_attr attrs A_frameRate with Some s => pos_int s | None => None end) with Some n => n | None => 30 end = fr).
  { destruct (get_attr attrs A_frameRate); [rewrite Hf; reflexivity|subst; reflexivity]. }
  rewrite Hfr.
  destruct (get_attr attrs A_frameRateMultiplier) as [s|]; [|subst mult; reflexivity].
  destruct Hm as [sa [sb [a [b [Hs [Ha [Hb Hmu]]]]]]]. subst s mult.
  destruct (pos_int_digits sa a Ha) as [_ [Ha2 _]]. destruct (pos_int_digits sb b Hb) as [_ [Hb2 _]].
  rewrite (split_digits_then sa 32 sb Ha2). cbn [Z.eqb Pos.eqb]. rewrite (no_space_digits sb Hb2 []). cbn [app].
  rewrite Ha, Hb. reflexivity.
Qed.
