(* C04, time expressions: the transcribed recognisers of Model/ImscTime.v against the grammar of
   Spec/TtmlTimingSpec.v.  Round trip for every member of the grammar (all 8 syntaxes), for all inputs. *)
From TT Require Import Base.Prelude Base.ImscXml Model.ImscTime Spec.TtmlTimingSpec.
From Coq Require Import QArith.
Local Open Scope Z_scope.

Lemma is_dec_digit d : is_dec d = true -> is_digit (chr d) = true.
Proof. unfold is_dec, is_digit, chr. intro H. apply andb_true_iff in H as [H1 H2]. lia. Qed.

Definition not_digit_head (r : text) : Prop := match r with [] => True | c :: _ => is_digit c = false end.

Lemma span_digits_split s : forall d r, span_digits s = (d, r) -> s = d ++ r /\ forallb is_digit d = true /\ not_digit_head r.
Proof.
  induction s as [|c s IH]; intros d r H; cbn [span_digits] in H.
  - inversion H. repeat split.
  - destruct (is_digit c) eqn:E.
    + destruct (span_digits s) as [d' r']. inversion H; subst. destruct (IH _ _ eq_refl) as (-> & Hd & Hr).
      repeat split; [|exact Hr]. cbn [forallb]. rewrite E. exact Hd.
    + inversion H. repeat split. exact E.
Qed.

Lemma span_digits_app d r : forallb is_digit d = true -> not_digit_head r -> span_digits (d ++ r) = (d, r).
Proof.
  intros Hd Hr. induction d as [|c d IH]; cbn [app].
  - destruct r as [|c r]; [reflexivity|]. cbn [span_digits]. cbn [not_digit_head] in Hr. rewrite Hr. reflexivity.
  - cbn [forallb] in Hd. apply andb_true_iff in Hd as [Hc Hd]. cbn [span_digits]. rewrite Hc, (IH Hd). reflexivity.
Qed.

Lemma chrs_digits ds : all_dec ds = true -> forallb is_digit (chrs ds) = true.
Proof.
  induction ds as [|d ds IH]; [reflexivity|]. unfold all_dec. cbn [forallb chrs List.map]. intro H.
  apply andb_true_iff in H as [H1 H2]. rewrite (is_dec_digit _ H1). exact (IH H2).
Qed.

Lemma span_digits_chrs ds r : all_dec ds = true -> not_digit_head r -> span_digits (chrs ds ++ r) = (chrs ds, r).
Proof. intro H. apply span_digits_app, chrs_digits, H. Qed.

Lemma span_digits_all ds : all_dec ds = true -> span_digits (chrs ds) = (chrs ds, []).
Proof. intro H. rewrite <- (app_nil_r (chrs ds)) at 1. apply span_digits_chrs; [exact H|exact I]. Qed.

Lemma strip_prefix_app p : forall s r, strip_prefix p s = Some r -> s = p ++ r.
Proof.
  induction p as [|a p IH]; intros s r H; cbn [strip_prefix] in H; [inversion H; reflexivity|].
  destruct s as [|b s]; [discriminate|]. destruct (a =? b) eqn:E; [|discriminate].
  apply Z.eqb_eq in E. subst b. cbn [app]. f_equal. apply IH, H.
Qed.

Lemma digits_val_chrs ds : forall acc, digits_val acc (chrs ds) = fold_left (fun a d => a * 10 + d) ds acc.
Proof.
  induction ds as [|d ds IH]; intro acc; simpl; [reflexivity|].
  rewrite IH. unfold chr. f_equal. lia.
Qed.

Lemma digits_val_nat_of ds : digits_val 0 (chrs ds) = nat_of ds.
Proof. apply digits_val_chrs. Qed.

Lemma fold_shift (b : list Z) : forall acc,
  fold_left (fun a d => a * 10 + d) b acc = acc * Zpos (ten_to (length b)) + fold_left (fun a d => a * 10 + d) b 0.
Proof.
  induction b as [|d b IH]; intro acc.
  - simpl. lia.
  - cbn [fold_left length ten_to]. rewrite IH. rewrite (IH (0 * 10 + d)). lia.
Qed.

Lemma pow10_ten_to n : pow10 n = ten_to n.
Proof. induction n; simpl; congruence. Qed.

Lemma chrs_length ds : length (chrs ds) = length ds.
Proof. apply map_length. Qed.

Lemma chrs_app a b : chrs (a ++ b) = chrs a ++ chrs b.
Proof. apply map_app. Qed.

(* Fraction("ip.fp") is the number the grammar assigns to the digits *)
Lemma dec_value_number ip fp : (dec_value (chrs ip) (chrs fp) == number ip fp)%Q.
Proof.
  unfold dec_value, number. rewrite <- chrs_app, digits_val_nat_of, chrs_length, pow10_ten_to.
  unfold nat_of. rewrite fold_left_app, fold_shift.
  set (A := fold_left (fun a d : Z => a * 10 + d) ip 0). set (B := fold_left (fun a d : Z => a * 10 + d) fp 0).
  set (P := ten_to (length fp)).
  unfold Qeq, Qplus, inject_Z. simpl. lia.
Qed.

(* the recognisers test for "." and ":" by pattern matching on the code point *)
Lemma on_dot {A} (c : Z) (a b : A) : match c with 46 => a | _ => b end = if c =? 46 then a else b.
Proof. destruct c as [|p|p]; try reflexivity. do 6 (destruct p as [p|p|]; try reflexivity). Qed.
Lemma on_colon {A} (c : Z) (a b : A) : match c with 58 => a | _ => b end = if c =? 58 then a else b.
Proof. destruct c as [|p|p]; try reflexivity. do 6 (destruct p as [p|p|]; try reflexivity). Qed.

Definition clean_tail (r : text) : Prop :=
  match r with [] => True | c :: _ => is_digit c = false /\ c <> 46 end.

Lemma scan_number_print ip fp r :
  is_nonempty_l ip = true -> all_dec ip = true -> all_dec fp = true -> clean_tail r ->
  scan_number (chrs ip ++ frac_text fp ++ r) = Some (chrs ip, chrs fp, r).
Proof.
  intros Hne Hip Hfp Hr. unfold scan_number.
  assert (Hnr : not_digit_head r) by (destruct r; [exact I|apply Hr]).
  rewrite span_digits_chrs by first [assumption | destruct fp; [exact Hnr|reflexivity]].
  destruct ip as [|d ip]; [discriminate|]. cbn [chrs List.map]. destruct fp as [|f fp]; cbn [frac_text app].
  - destruct r as [|c r]; [reflexivity|]. rewrite on_dot. destruct Hr as [_ Hc]. apply Z.eqb_neq in Hc. rewrite Hc. reflexivity.
  - rewrite (span_digits_chrs (f :: fp) r Hfp Hnr). reflexivity.
Qed.

Lemma at_end_nil : at_end [] = true.  Proof. reflexivity. Qed.

(* "<unit>\Z": the unit is all that is left *)
Lemma strip_whole {A} (u : text) (x : A) : forall v,
  match strip_prefix u v with Some r => if at_end r then Some x else None | None => None end = if text_eqb u v then Some x else None.
Proof.
  induction u as [|a u IH]; intros [|b v]; try reflexivity. cbn [strip_prefix text_eqb]. destruct (a =? b); [apply IH|reflexivity].
Qed.

Lemma match_offset_print ip fp (u v : text) :
  is_nonempty_l ip = true -> all_dec ip = true -> all_dec fp = true -> clean_tail v ->
  match_offset u (chrs ip ++ frac_text fp ++ v) = if text_eqb u v then Some (dec_value (chrs ip) (chrs fp)) else None.
Proof. intros. unfold match_offset. rewrite scan_number_print by assumption. apply strip_whole. Qed.

Ltac clean := simpl; try exact I; try (split; [reflexivity|discriminate]).

Section Offsets.
  Variables (ip fp : list Z).
  Hypothesis Hne : is_nonempty_l ip = true.
  Hypothesis Hip : all_dec ip = true.
  Hypothesis Hfp : all_dec fp = true.

  Let N := dec_value (chrs ip) (chrs fp).

  Lemma pt_f tr fr : Qeq_bool fr 0 = false ->
    parse_time_x tr (Some fr) (print_time (TOffset ip fp Mf)) = TVal (N / fr)%Q.
  Proof.
    intro Hz. unfold parse_time_x, print_time. rewrite match_offset_print by (try assumption; clean).
    cbn [metric_text U_f text_eqb Z.eqb Pos.eqb andb]. unfold qdiv_res. rewrite Hz. reflexivity.
  Qed.

  (* every offset syntax: of the six unit recognisers only the one of the metric succeeds *)
  Lemma offset_syntax m tr fr : Qeq_bool tr 0 = false -> Qeq_bool fr 0 = false ->
    parse_time_x (Some tr) (Some fr) (print_time (TOffset ip fp m)) =
    TVal match m with
         | Mh => N * inject_Z 3600 | Mm => N * inject_Z 60 | Ms => N | Mms => N / inject_Z 1000 | Mf => N / fr | Mt => N / tr
         end%Q.
  Proof.
    intros Ht Hf. unfold parse_time_x, print_time. rewrite !match_offset_print by (try assumption; destruct m; clean).
    unfold qdiv_res. rewrite Ht, Hf. destruct m; reflexivity.
  Qed.
End Offsets.

Lemma match_offset_colon hh rest a (u : text) :
  is_nonempty_l hh = true -> all_dec hh = true -> a <> 58 -> match_offset (a :: u) (chrs hh ++ 58 :: rest) = None.
Proof.
  intros Hne Hd Ha. unfold match_offset, scan_number.
  rewrite span_digits_chrs by (try assumption; reflexivity).
  destruct hh as [|h hh]; [discriminate|]. cbn [chrs map].
  cbn [strip_prefix]. destruct (a =? 58) eqn:E; [lia|reflexivity].
Qed.

Lemma len2_nonempty (l : list Z) : (2 <=? Z.of_nat (length l)) = true -> is_nonempty_l l = true.
Proof. destruct l; simpl; [discriminate|reflexivity]. Qed.

Lemma dig2_chr a b : dig2 (chr a) (chr b) = nat_of [a; b].
Proof. unfold dig2, chr, nat_of. cbn [fold_left]. lia. Qed.

Definition tres_equiv (a : tres) (b : option Q) : Prop :=
  match a, b with TVal q, Some v => (q == v)%Q | TBad, None => True | _, _ => False end.

Section Clock.
  Variables (hh : list Z) (m1 m2 s1 s2 : Z).
  Hypothesis Hlen : (2 <=? Z.of_nat (length hh)) = true.
  Hypothesis Hhh : all_dec hh = true.
  Hypothesis Hm1 : is_dec m1 = true.  Hypothesis Hm2 : is_dec m2 = true.
  Hypothesis Hs1 : is_dec s1 = true.  Hypothesis Hs2 : is_dec s2 = true.

  Lemma offsets_none_on_clock tr fr rest :
    parse_time_x tr fr (chrs hh ++ 58 :: rest) =
    match match_clock_fraction (chrs hh ++ 58 :: rest) with
    | Some (h, m, sec) => TVal (inject_Z h * inject_Z 3600 + inject_Z m * inject_Z 60 + sec)%Q
    | None =>
        match match_clock_frames (chrs hh ++ 58 :: rest), fr with
        | Some (h, m, sec, ff), Some f =>
            if Qle_bool f (inject_Z ff) then TBad
            else TVal (inject_Z h * inject_Z 3600 + inject_Z m * inject_Z 60 + inject_Z sec + inject_Z ff / f)%Q
        | _, _ => TBad
        end
    end.
  Proof using hh m1 m2 s1 s2 Hlen Hhh.
    unfold parse_time_x, U_f, U_t, U_ms, U_s, U_m, U_h.
    rewrite !match_offset_colon by first [exact (len2_nonempty _ Hlen) | assumption | discriminate].
    destruct fr, tr; reflexivity.
  Qed.

  (* \d{2,}:\d\d:\d\d at the head of both clock patterns *)
  Lemma clock_hours rest : span_digits (chrs hh ++ 58 :: rest) = (chrs hh, 58 :: rest).
  Proof. apply span_digits_chrs; [exact Hhh|reflexivity]. Qed.
  Lemma clock_digits : is_digit (chr m1) && is_digit (chr m2) && is_digit (chr s1) && is_digit (chr s2) = true.
  Proof. rewrite (is_dec_digit _ Hm1), (is_dec_digit _ Hm2), (is_dec_digit _ Hs1), (is_dec_digit _ Hs2). reflexivity. Qed.

  Lemma clock_fraction_print fp : all_dec fp = true ->
    match_clock_fraction (chrs hh ++ [58; chr m1; chr m2; 58; chr s1; chr s2] ++ frac_text fp) =
    Some (nat_of hh, nat_of [m1; m2], dec_value [chr s1; chr s2] (chrs fp)).
  Proof.
    intro Hfp. unfold match_clock_fraction. cbn [app]. rewrite clock_hours, chrs_length, Hlen, clock_digits, digits_val_nat_of, dig2_chr.
    destruct fp as [|f fp]; [reflexivity|]. cbn [frac_text]. rewrite (span_digits_all _ Hfp). reflexivity.
  Qed.

  Lemma clock_frames_fraction_none ff : (2 <=? Z.of_nat (length ff)) = true -> all_dec ff = true ->
    match_clock_fraction (chrs hh ++ [58; chr m1; chr m2; 58; chr s1; chr s2; 58] ++ chrs ff) = None.
  Proof.
    intros Hl Hff. unfold match_clock_fraction. cbn [app]. rewrite clock_hours, chrs_length, Hlen, clock_digits.
    destruct ff as [|f ff]; [discriminate|]. reflexivity.
  Qed.

  Lemma clock_frames_print ff : (2 <=? Z.of_nat (length ff)) = true -> all_dec ff = true ->
    match_clock_frames (chrs hh ++ [58; chr m1; chr m2; 58; chr s1; chr s2; 58] ++ chrs ff) =
    Some (nat_of hh, nat_of [m1; m2], nat_of [s1; s2], nat_of ff).
  Proof.
    intros Hl Hff. unfold match_clock_frames. cbn [app]. rewrite clock_hours, chrs_length, Hlen, clock_digits, (span_digits_all _ Hff), chrs_length, Hl.
    cbn [andb at_end]. rewrite !digits_val_nat_of, !dig2_chr. reflexivity.
  Qed.
End Clock.

Lemma Qeq_bool_pos_false q : (0 < q)%Q -> Qeq_bool q 0 = false.
Proof.
  intro H. destruct (Qeq_bool q 0) eqn:E; [|reflexivity].
  apply Qeq_bool_iff in E. rewrite E in H. exfalso. apply (Qlt_irrefl 0). exact H.
Qed.

(* ZeroDivisionError needs a zero rate *)
Lemma parse_no_zero_div tr fr s : Qeq_bool tr 0 = false -> Qeq_bool fr 0 = false -> parse_time_x (Some tr) (Some fr) s <> TZeroDiv.
Proof.
  intros Ht Hf. unfold parse_time_x, qdiv_res. rewrite Ht, Hf.
  destruct (match_offset U_f s); [discriminate|]. destruct (match_offset U_t s); [discriminate|].
  destruct (match_offset U_ms s); [discriminate|]. destruct (match_offset U_s s); [discriminate|].
  destruct (match_offset U_m s); [discriminate|]. destruct (match_offset U_h s); [discriminate|].
  destruct (match_clock_fraction s) as [[[h m] sec]|]; [discriminate|].
  destruct (match_clock_frames s) as [[[[h m] sec] ff]|]; [destruct (Qle_bool fr (inject_Z ff))|]; discriminate.
Qed.

Theorem time_syntax e tr fr :
  wf_texpr e = true -> (0 < tr)%Q -> (0 < fr)%Q ->
  tres_equiv (parse_time_x (Some tr) (Some fr) (print_time e)) (time_value fr tr e).
Proof.
  intros Hwf Htr Hfr. destruct e as [ip fp m | hh m1 m2 s1 s2 fp | hh m1 m2 s1 s2 ff]; simpl in Hwf.
  - repeat (apply andb_true_iff in Hwf as [Hwf ?]).
    rewrite offset_syntax by (try assumption; apply Qeq_bool_pos_false; assumption).
    destruct m; cbn [time_value tres_equiv]; rewrite (dec_value_number ip fp); reflexivity.
  - repeat (apply andb_true_iff in Hwf as [Hwf ?]).
    unfold print_time. cbn [app].
    rewrite (offsets_none_on_clock hh) by assumption.
    change (chrs hh ++ 58 :: chr m1 :: chr m2 :: 58 :: chr s1 :: chr s2 :: frac_text fp)
      with (chrs hh ++ [58; chr m1; chr m2; 58; chr s1; chr s2] ++ frac_text fp).
    rewrite clock_fraction_print by assumption.
    cbn [time_value tres_equiv].
    pose proof (dec_value_number [s1; s2] fp) as HN. cbn [chrs map] in HN. rewrite HN. reflexivity.
  - repeat (apply andb_true_iff in Hwf as [Hwf ?]).
    unfold print_time. cbn [app].
    rewrite (offsets_none_on_clock hh) by assumption.
    change (chrs hh ++ 58 :: chr m1 :: chr m2 :: 58 :: chr s1 :: chr s2 :: 58 :: chrs ff)
      with (chrs hh ++ [58; chr m1; chr m2; 58; chr s1; chr s2; 58] ++ chrs ff).
    rewrite clock_frames_fraction_none, clock_frames_print by assumption.
    cbn [time_value].
    destruct (Qle_bool fr (inject_Z (nat_of ff))); cbn [tres_equiv]; [exact I|reflexivity].
Qed.

Definition in_grammar (s : text) : Prop := exists e, wf_texpr e = true /\ print_time e = s.

Lemma last_app {A} (a b : list A) d : b <> [] -> last (a ++ b) d = last b d.
Proof.
  intro Hb. induction a as [|x a IH]; [reflexivity|]. cbn [app]. rewrite <- IH.
  destruct (a ++ b) eqn:E; [apply app_eq_nil in E as [_ ->]; contradiction|reflexivity].
Qed.

Lemma last_chrs ds : ds <> [] -> all_dec ds = true -> is_digit (last (chrs ds) 0) = true.
Proof.
  induction ds as [|d ds IH]; [congruence|]. intros _ H. unfold all_dec in H. cbn [forallb] in H. apply andb_true_iff in H as [H1 H2].
  destruct ds as [|d' ds]; [exact (is_dec_digit _ H1)|]. apply IH; [discriminate|exact H2].
Qed.

Lemma print_last e : wf_texpr e = true ->
  is_digit (last (print_time e) 0) = true \/ In (last (print_time e) 0) [104; 109; 115; 102; 116].
Proof.
  intro Hwf. destruct e as [ip fp m | hh m1 m2 s1 s2 fp | hh m1 m2 s1 s2 ff]; cbn [wf_texpr] in Hwf; unfold print_time.
  - right. rewrite app_assoc, last_app by (destruct m; discriminate). destruct m; cbn; tauto.
  - left. repeat (apply andb_true_iff in Hwf as [Hwf ?]). destruct fp as [|f fp].
    + rewrite app_nil_r, last_app by discriminate. apply is_dec_digit. assumption.
    + rewrite app_assoc. change (frac_text (f :: fp)) with ([46] ++ chrs (f :: fp)).
      rewrite app_assoc, last_app by discriminate. apply last_chrs; [discriminate|assumption].
  - left. repeat (apply andb_true_iff in Hwf as [Hwf ?]). rewrite app_assoc.
    assert (ff <> []) by (destruct ff; [discriminate|discriminate]).
    rewrite last_app by (destruct ff; [congruence|discriminate]). apply last_chrs; assumption.
Qed.

Lemma not_in_grammar_last l c : is_digit c = false -> ~ In c [104; 109; 115; 102; 116] -> ~ in_grammar (l ++ [c]).
Proof.
  intros Hd Hm [e [Hwf Hp]]. pose proof (print_last e Hwf) as Hc. rewrite Hp, last_last in Hc.
  destruct Hc as [Hc|Hc]; [congruence|contradiction].
Qed.
