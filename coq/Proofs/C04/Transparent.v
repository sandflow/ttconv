(* C04, children that are not content elements are transparent: reading a tree and reading the tree without its non-content
   children (Spec/TtmlContentSpec.v strip: their tails stay in place, appended to the preceding text) give the same result up to
   the split of adjacent anonymous spans (same_node), for every tree, environment and parsing context.  By induction on the tree; the children loop is
   followed on both sides at once, the stripped side holding back the text that the original side has already turned into
   anonymous spans. *)
From TT Require Import Base.Prelude Base.ImscXml Model.ImscTime Model.ImscStyles Model.ImscTiming Spec.TtmlTimingSpec Spec.TtmlContentSpec.
From TT Require Import Proofs.C04.Interval.
From Coq Require Import QArith Qminmax.
Local Open Scope Z_scope.

Definition onode_rel (a b : option mnode) : Prop :=
  match a, b with Some x, Some y => same_node x y | None, None => True | _, _ => False end.
Definition cres_rel (r r' : cres) : Prop :=
  r_kind r = r_kind r' /\ r_des_begin r = r_des_begin r' /\ r_des_end r = r_des_end r' /\
  onode_rel (r_node r) (r_node r') /\ r_anim r = r_anim r' /\ r_pushfail r = r_pushfail r'.
Definition pres_rel (a b : pres) : Prop :=
  match a, b with
  | PErr e, PErr e' => e = e'
  | PSkip, PSkip => True
  | POk r, POk r' => cres_rel r r'
  | _, _ => False
  end.
Definition dres_rel (a b : dres) : Prop :=
  match a, b with
  | DErr e, DErr e' => e = e'
  | DOk d, DOk d' => d_lang d = d_lang d' /\ Forall2 same_node (d_regions d) (d_regions d') /\
                     onode_rel (d_body d) (d_body d') /\ d_initials d = d_initials d'
  | _, _ => False
  end.

Fixpoint same_node_refl (n : mnode) : same_node n n :=
  match n with
  | MText t => SN_text t
  | MElem k rid b e p l g s a cs =>
      SN_elem k rid b e p l g s a cs cs
        ((fix go (x : list mnode) : same_list x x :=
            match x with [] => SL_nil | c :: x' => SL_cons c c x' x' (same_node_refl c) (go x') end) cs)
  end.

Lemma same_list_refl l : same_list l l.
Proof. induction l as [|c l IH]; [constructor|]. constructor; [apply same_node_refl|exact IH]. Qed.

Lemma same_list_app a a' b b' : same_list a a' -> same_list b b' -> same_list (a ++ b) (a' ++ b').
Proof.
  intros Ha Hb. induction Ha as [|n n' l l' Hn Hl IH|am ts l l' Hts Hl IH]; cbn [app].
  - exact Hb.
  - constructor; assumption.
  - rewrite <- app_assoc. constructor; assumption.
Qed.

Lemma same_list_anon am ts : ts <> [] -> same_list (List.map (anon_node am) ts) [anon_node am (concat ts)].
Proof. intro H. rewrite <- (app_nil_r (List.map (anon_node am) ts)). constructor; [exact H|constructor]. Qed.

Lemma forall2_same_list l l' : Forall2 same_node l l' -> same_list l l'.
Proof. induction 1; constructor; assumption. Qed.

Lemma same_node_kind n n' : same_node n n' -> m_kind n = m_kind n'.
Proof. destruct 1; reflexivity. Qed.

Lemma same_list_nil_l l' : same_list [] l' -> l' = [].
Proof.
  intro H. inversion H as [| |am ts l l0 Hts Hl Heq]; [reflexivity|].
  destruct ts; [contradiction|discriminate].
Qed.

Definition anon_mode (k : ekind) (pr : bool) (lg : text) : option (bool * text) :=
  if ekind_eqb k KSpan then None else Some (pr, lg).
Lemma anon_span_node k pr lg t : anon_span k pr lg t = anon_node (anon_mode k pr lg) t.
Proof. unfold anon_span, anon_mode. destruct (ekind_eqb k KSpan); reflexivity. Qed.

Lemma anon_kind am t u : m_kind (anon_node am t) = m_kind (anon_node am u).
Proof. destruct am as [[p l]|]; reflexivity. Qed.

Lemma take_ok_anon k am ts l :
  take_ok k (List.map (anon_node am) ts ++ l) =
  match ts with
  | [] => take_ok k l
  | t :: _ => if child_ok k (m_kind (anon_node am t))
              then (List.map (anon_node am) ts ++ fst (take_ok k l), snd (take_ok k l)) else ([], false)
  end.
Proof.
  induction ts as [|t ts IH]; [reflexivity|]. cbn [List.map app take_ok].
  destruct (child_ok k (m_kind (anon_node am t))) eqn:E; [|reflexivity].
  rewrite IH. destruct ts as [|u ts].
  - cbn [List.map app]. destruct (take_ok k l); reflexivity.
  - rewrite (anon_kind am u t), E. reflexivity.
Qed.

Lemma take_ok_same k l l' : same_list l l' ->
  same_list (fst (take_ok k l)) (fst (take_ok k l')) /\ snd (take_ok k l) = snd (take_ok k l').
Proof.
  induction 1 as [|n n' l l' Hn Hl IH|am ts l l' Hts Hl IH].
  - split; [constructor|reflexivity].
  - cbn [take_ok]. rewrite (same_node_kind _ _ Hn). destruct (child_ok k (m_kind n')); [|split; [constructor|reflexivity]].
    destruct (take_ok k l) as [a ok], (take_ok k l') as [a' ok']. cbn [fst snd] in *. destruct IH as [IH1 IH2].
    split; [constructor; assumption|exact IH2].
  - rewrite take_ok_anon. destruct ts as [|t ts]; [contradiction|]. cbn [take_ok].
    rewrite (anon_kind am (concat (t :: ts)) t).
    destruct (child_ok k (m_kind (anon_node am t))); [|split; [constructor|reflexivity]].
    destruct (take_ok k l) as [a ok], (take_ok k l') as [a' ok']. cbn [fst snd] in *. destruct IH as [IH1 IH2].
    split; [constructor; [discriminate|exact IH1]|exact IH2].
Qed.

Lemma forall2_kinds l l' : Forall2 same_node l l' -> List.map m_kind l = List.map m_kind l'.
Proof. induction 1 as [|n n' l l' Hn Hl IH]; [reflexivity|]. cbn [List.map]. rewrite (same_node_kind _ _ Hn), IH. reflexivity. Qed.

Lemma kinds_are_map l : forall ks, kinds_are l ks =
  (Z.of_nat (length (List.map m_kind l)) =? Z.of_nat (length ks)) &&
  forallb (fun p => ekind_eqb (fst p) (snd p)) (combine (List.map m_kind l) ks).
Proof.
  intro ks. unfold kinds_are. rewrite map_length. f_equal.
  revert ks. induction l as [|n l IH]; intro ks; [reflexivity|]. destruct ks as [|k0 ks]; [reflexivity|].
  cbn [List.map combine forallb fst snd]. rewrite IH. reflexivity.
Qed.

Lemma take_ok_forall2 k l l' : Forall2 same_node l l' ->
  Forall2 same_node (fst (take_ok k l)) (fst (take_ok k l')) /\ snd (take_ok k l) = snd (take_ok k l').
Proof.
  induction 1 as [|n n' l l' Hn Hl IH]; [split; [constructor|reflexivity]|].
  cbn [take_ok]. rewrite (same_node_kind _ _ Hn). destruct (child_ok k (m_kind n')); [|split; [constructor|reflexivity]].
  destruct (take_ok k l) as [a ok], (take_ok k l') as [a' ok']. cbn [fst snd] in *. destruct IH as [IH1 IH2].
  split; [constructor; assumption|exact IH2].
Qed.

Lemma push_forall2 k l l' : Forall2 same_node l l' ->
  Forall2 same_node (fst (push_children k l)) (fst (push_children k l')) /\ snd (push_children k l) = snd (push_children k l').
Proof.
  intro H. pose proof (forall2_kinds _ _ H) as Hk.
  destruct k; try (apply take_ok_forall2; exact H); cbn [push_children].
  - (* ruby *) rewrite !(kinds_are_map l), !(kinds_are_map l'), Hk.
    match goal with |- context [if ?c then _ else _] => destruct c end; cbn [fst snd]; split; try exact H; try constructor; reflexivity.
  - (* rtc *) rewrite Hk.
    match goal with |- context [if ?c then _ else _] => destruct c end; cbn [fst snd]; split; try exact H; try constructor; reflexivity.
Qed.

(* the relation between the children collected on the two sides: in a parent that makes anonymous spans, up to their split; elsewhere
   node by node *)
Definition kids_rel (mp : bool) : list mnode -> list mnode -> Prop := if mp then same_list else Forall2 same_node.

Lemma kids_rel_same_list mp l l' : kids_rel mp l l' -> same_list l l'.
Proof. destruct mp; [exact (fun H => H)|apply forall2_same_list]. Qed.

Lemma kids_rel_snoc mp l l' n n' : kids_rel mp l l' -> same_node n n' -> kids_rel mp (l ++ [n]) (l' ++ [n']).
Proof.
  destruct mp; cbn [kids_rel]; intros H Hn.
  - apply same_list_app; [exact H|]. constructor; [exact Hn|constructor].
  - apply Forall2_app; [exact H|]. constructor; [exact Hn|constructor].
Qed.

Lemma kids_rel_nil mp : kids_rel mp [] [].
Proof. destruct mp; constructor. Qed.

Lemma push_rel k par l l' : kids_rel (k_is_mixed k && par) l l' ->
  same_list (fst (push_children k l)) (fst (push_children k l')) /\ snd (push_children k l) = snd (push_children k l').
Proof.
  destruct (k_is_mixed k && par) eqn:E; cbn [kids_rel]; intro H.
  - apply andb_true_iff in E as [E _]. destruct k; try discriminate; apply take_ok_same; exact H.
  - destruct (push_forall2 k l l' H) as [H1 H2]. split; [apply forall2_same_list; exact H1|exact H2].
Qed.

Lemma strip_unfold tag attrs txt tail cs :
  strip (X tag attrs txt tail cs) =
  X tag attrs (oapp txt (fst (strip_children (keeps tag attrs) strip cs))) tail (snd (strip_children (keeps tag attrs) strip cs)).
Proof. cbn [strip]. destruct (strip_children _ _ cs). reflexivity. Qed.

Lemma strip_tag x : x_tag (strip x) = x_tag x.
Proof. destruct x as [tag attrs txt tail cs]. rewrite strip_unfold. reflexivity. Qed.
Lemma strip_attrs x : x_attrs (strip x) = x_attrs x.
Proof. destruct x as [tag attrs txt tail cs]. rewrite strip_unfold. reflexivity. Qed.
Lemma set_tail_tag x t : x_tag (set_tail x t) = x_tag x.
Proof. destruct x; reflexivity. Qed.
Lemma set_tail_attrs x t : x_attrs (set_tail x t) = x_attrs x.
Proof. destruct x; reflexivity. Qed.
Lemma set_tail_tail x t : x_tail (set_tail x t) = t.
Proof. destruct x; reflexivity. Qed.
Lemma process_set_tail ev pc x t : process ev pc (set_tail x t) = process ev pc x.
Proof. destruct x; reflexivity. Qed.

Lemma is_style_strip c t : is_style_elem (set_tail (strip c) t) = is_style_elem c.
Proof. unfold is_style_elem. rewrite set_tail_tag, strip_tag. reflexivity. Qed.

Lemma untimed_skip ev pc c : timed c = false -> process ev pc c = PSkip.
Proof.
  destruct c as [tag attrs txt tail cs]. unfold timed. cbn [x_tag x_attrs process]. rewrite classify_s_kind.
  destruct (classify tag attrs) as [k|]; [|reflexivity].
  destruct k; try discriminate. destruct (get_attr attrs A_id); [discriminate|]. reflexivity.
Qed.

Lemma oapp_assoc a b c : oapp a (oapp b c) = oapp (oapp a b) c.
Proof. destruct a, b, c; cbn [oapp]; try reflexivity. rewrite app_assoc. reflexivity. Qed.
Lemma oapp_none_r a : oapp a None = a.
Proof. destruct a; reflexivity. Qed.

Definition otexts (ts : list text) : option text := match ts with [] => None | _ => Some (concat ts) end.
Lemma otexts_snoc ts t : otexts (ts ++ [t]) = oapp (otexts ts) (Some t).
Proof.
  assert (Ht : concat [t] = t) by (cbn [concat]; apply app_nil_r).
  destruct ts as [|t0 ts]; unfold otexts, oapp.
  - cbn [app]. rewrite Ht. reflexivity.
  - cbn [app]. change (t0 :: ts ++ [t]) with ((t0 :: ts) ++ [t]). rewrite concat_app, Ht. reflexivity.
Qed.

Definition lres_rel (mp : bool) (a b : lres) : Prop :=
  match a, b with
  | LDone i ks an pf n, LDone i' ks' an' pf' n' => i = i' /\ kids_rel mp ks ks' /\ an = an' /\ pf = pf' /\ n = n'
  | LErr e, LErr e' => e = e'
  | _, _ => False
  end.

Definition transp (ev : env) (c : xml) : Prop := forall pc, pres_rel (process ev pc c) (process ev pc (strip c)).

(* the implicit end of the original side once it has made anonymous spans of the texts [texts] *)
Definition xs_iend (texts : list text) (iend : option Q) : option Q := match texts with [] => iend | _ => None end.
Definition texts_after (mp : bool) (texts : list text) (ta : option text) : list text :=
  if mp then texts ++ match ta with Some t => [t] | None => [] end else texts.

Lemma flush_xs mp k pr lg texts I K ta :
  flush mp k pr lg (xs_iend texts I) (K ++ List.map (anon_span k pr lg) texts) ta =
  (xs_iend (texts_after mp texts ta) I, K ++ List.map (anon_span k pr lg) (texts_after mp texts ta)).
Proof.
  unfold flush, texts_after. destruct ta as [t|], mp; try reflexivity.
  - rewrite map_app, app_assoc. cbn [List.map]. destruct texts; reflexivity.
  - rewrite app_nil_r. reflexivity.
Qed.

Lemma flush_xs0 mp k pr lg I K ta :
  flush mp k pr lg I K ta = (xs_iend (texts_after mp [] ta) I, K ++ List.map (anon_span k pr lg) (texts_after mp [] ta)).
Proof.
  unfold flush, texts_after. destruct ta as [t|], mp; cbn [app List.map xs_iend]; rewrite ?app_nil_r; reflexivity.
Qed.

Section Loop.
  Variables (ev : env) (k : ekind) (par : bool) (db : Q) (pr : bool) (lg : text) (keep : xml -> bool) (mp : bool).
  Hypothesis Hmp : k_is_mixed k && par = mp.
  Hypothesis Hks : ekind_eqb k KSet = false.
  Hypothesis Hkeep : forall c, keep c = timed c || (ekind_eqb k KRegion && is_style_elem c).

  Lemma flush_rel K kids' texts p iend' :
    kids_rel mp K kids' -> (mp = false -> texts = []) -> (mp = true -> p = otexts texts) ->
    fst (flush mp k pr lg iend' kids' p) = xs_iend texts iend' /\
    kids_rel mp (K ++ List.map (anon_span k pr lg) texts) (snd (flush mp k pr lg iend' kids' p)).
  Proof.
    intros HK Ht Hp. destruct mp.
    - rewrite (Hp eq_refl). destruct texts as [|t ts].
      + cbn [otexts flush fst snd List.map xs_iend]. rewrite app_nil_r. split; [reflexivity|exact HK].
      + cbn [otexts flush fst snd xs_iend]. split; [reflexivity|].
        cbn [kids_rel] in *. apply same_list_app; [exact HK|].
        rewrite anon_span_node. rewrite (map_ext _ _ (anon_span_node k pr lg)). apply same_list_anon. discriminate.
    - rewrite (Ht eq_refl), flush_false. cbn [fst snd List.map xs_iend]. rewrite app_nil_r. split; [reflexivity|exact HK].
  Qed.

  Lemma upd_kids_rel K kids' r0 r1 : kids_rel mp K kids' -> cres_rel r0 r1 -> kids_rel mp (upd_kids K r0) (upd_kids kids' r1).
  Proof.
    intros HK (R1 & R2 & R3 & R4 & R5 & R6). unfold upd_kids. rewrite R1, R2, R3.
    destruct (r_node r0) as [n|], (r_node r1) as [n'|]; cbn [onode_rel] in R4; try contradiction; [|exact HK].
    match goal with |- context [if ?c then _ else _] => destruct c end; [apply kids_rel_snoc; assumption|exact HK].
  Qed.

  Lemma loop_strip l : Forall (transp ev) l ->
    forall K texts kids' iend' send anims pf nst p,
      kids_rel mp K kids' -> (mp = false -> texts = []) -> (mp = true -> p = otexts texts) ->
      lres_rel mp
        (children_loop (process ev) (e_to_model ev) (e_valid ev) k par db pr lg l (xs_iend texts iend') send
                       (K ++ List.map (anon_span k pr lg) texts) anims pf nst)
        (children_loop (process ev) (e_to_model ev) (e_valid ev) k par db pr lg (snd (strip_children keep strip l))
                       (fst (flush mp k pr lg iend' kids' (oapp p (fst (strip_children keep strip l))))) send
                       (snd (flush mp k pr lg iend' kids' (oapp p (fst (strip_children keep strip l))))) anims pf nst).
  Proof.
    induction 1 as [|c l Hc Hl IH]; intros K texts kids' iend' send anims pf nst p HK Ht Hp.
    - cbn [strip_children fst snd children_loop]. rewrite oapp_none_r.
      destruct (flush_rel K kids' texts p iend' HK Ht Hp) as [F1 F2]. cbn [lres_rel]. rewrite F1. repeat split; try reflexivity. exact F2.
    - cbn [strip_children]. destruct (strip_children keep strip l) as [pre r] eqn:Es. cbn [fst snd] in IH.
      rewrite loop_cons.
      destruct (ekind_eqb k KRegion && is_style_elem c) eqn:Est.
      + (* a nested style of a region *)
        apply andb_true_iff in Est as [Ek Es'].
        assert (Hkc : keep c = true) by (rewrite Hkeep, Ek, Es'; apply orb_true_r).
        rewrite Hkc. cbn [fst snd]. rewrite oapp_none_r.
        assert (Hmpf : mp = false). { rewrite <- Hmp. destruct k; try discriminate; reflexivity. }
        pose proof (Ht Hmpf) as Hte; subst texts. rewrite loop_cons. rewrite is_style_strip, Ek, Es'. cbn [andb].
        rewrite set_tail_attrs, strip_attrs.
        specialize (IH K [] kids' iend' send anims pf (merge_absent (e_valid ev) (collect (e_to_model ev) (e_valid ev) (x_attrs c) []) nst) p HK Ht Hp).
        revert IH. rewrite Hmpf, !flush_false. cbn [fst snd]. intro IH. exact IH.
      + destruct (negb par && onone send) eqn:Ebr.
        * (* the previous child of a sequential container never ends: the child is skipped on both sides, kept or not *)
          assert (Hmpf : mp = false). { rewrite <- Hmp. apply andb_true_iff in Ebr as [Ep _]. destruct par; [discriminate|apply andb_false_r]. }
          pose proof (Ht Hmpf) as Hte; subst texts.
          specialize (IH K [] kids' iend' send anims pf nst p HK Ht Hp). revert IH. rewrite Hmpf, !flush_false. cbn [fst snd]. intro IH.
          destruct (keep c) eqn:Ekc; cbn [fst snd]; rewrite ?flush_false; cbn [fst snd]; [|exact IH].
          rewrite loop_cons, is_style_strip, Est, Ebr. exact IH.
        * rewrite Hks. rewrite !Hmp.
          destruct (keep c) eqn:Ekc; cbn [fst snd].
          -- (* a kept child: the stripped side first makes the anonymous span of the text it held back *)
             assert (Htc : timed c = true).
             { rewrite Hkeep in Ekc. apply orb_true_iff in Ekc as [H|H]; [exact H|]. rewrite Est in H. discriminate. }
             rewrite oapp_none_r.
             destruct (flush_rel K kids' texts p iend' HK Ht Hp) as [F1 F2].
             rewrite loop_cons. rewrite is_style_strip, Est, Ebr, Hks, !Hmp. rewrite process_set_tail, set_tail_tail.
             pose proof (Hc (mkPctx par send pr lg (negb false))) as Hrel.
             destruct (process ev (mkPctx par send pr lg (negb false)) c) as [e| |r0] eqn:Ep;
               destruct (process ev (mkPctx par send pr lg (negb false)) (strip c)) as [e'| |r1] eqn:Ep'; cbn [pres_rel] in Hrel; try contradiction.
             ++ exact Hrel.
             ++ apply process_skip_timed in Ep. congruence.
             ++ pose proof (upd_kids_rel _ _ _ _ F2 Hrel) as HK2.
                destruct Hrel as (R1 & R2 & R3 & R4 & R5 & R6).
                rewrite flush_xs0. cbn [fst snd]. unfold upd_anims. rewrite <- R5, <- R6.
                assert (E1 : upd_iend par db (fst (flush mp k pr lg iend' kids' p)) r1 = upd_iend par db (xs_iend texts iend') r0).
                { unfold upd_iend. rewrite F1, R3. reflexivity. }
                rewrite E1. rewrite <- R3.
                apply (IH (upd_kids (K ++ List.map (anon_span k pr lg) texts) r0) (texts_after mp [] (x_tail c))
                          (upd_kids (snd (flush mp k pr lg iend' kids' p)) r1) (upd_iend par db (xs_iend texts iend') r0)
                          (if par then send else r_des_end r0) _ _ nst (x_tail c) HK2).
                ** intro H. unfold texts_after. rewrite H. reflexivity.
                ** intro H. unfold texts_after. rewrite H. destruct (x_tail c); cbn [app otexts concat]; rewrite ?app_nil_r; reflexivity.
          -- (* a child that is not kept: skipped by the reader; its tail becomes an anonymous span here, and is held back there *)
             assert (Htc : timed c = false) by (rewrite Hkeep in Ekc; apply orb_false_iff in Ekc as [H _]; exact H).
             rewrite (untimed_skip ev _ c Htc). rewrite oapp_assoc. rewrite flush_xs. cbn [fst snd].
             apply (IH K (texts_after mp texts (x_tail c)) kids' iend' send anims pf nst (oapp p (x_tail c)) HK).
             ** intro H. unfold texts_after. rewrite H. exact (Ht H).
             ** intro H. unfold texts_after. rewrite H, (Hp H). destruct (x_tail c).
                --- symmetry. apply otexts_snoc.
                --- rewrite app_nil_r, oapp_none_r. reflexivity.
  Qed.
End Loop.

Lemma pres_rel_refl a : pres_rel a a.
Proof.
  destruct a as [e| |r]; cbn [pres_rel]; [reflexivity|exact I|].
  unfold cres_rel. repeat split; try reflexivity. destruct (r_node r); cbn [onode_rel]; [apply same_node_refl|exact I].
Qed.

Lemma keeps_content tag attrs k c : s_kind tag attrs = Some k ->
  keeps tag attrs c = match k with KSet => false | KRegion => timed c || tag_is c T_style | _ => timed c end.
Proof.
  intro H. unfold keeps.
  destruct (qname_eqb tag T_tt) eqn:E1; [apply qname_eqb_eq in E1; subst tag; discriminate|].
  destruct (qname_eqb tag T_head) eqn:E2; [apply qname_eqb_eq in E2; subst tag; discriminate|].
  destruct (qname_eqb tag T_layout) eqn:E3; [apply qname_eqb_eq in E3; subst tag; discriminate|].
  destruct (qname_eqb tag T_styling) eqn:E4; [apply qname_eqb_eq in E4; subst tag; discriminate|].
  rewrite H. destruct k; reflexivity.
Qed.

Lemma leave_rel ev pc attrs f pr lg par l l' :
  lres_rel (k_is_mixed (f_kind f) && par) l l' -> pres_rel (leave ev pc attrs f pr lg l) (leave ev pc attrs f pr lg l').
Proof.
  destruct l as [iF kF aF pF nF|e], l' as [iF' kF' aF' pF' nF'|e']; cbn [lres_rel]; try contradiction; [|exact (fun H => H)].
  intros (-> & HkF & -> & -> & ->). cbn [leave]. set (k := f_kind f) in *.
  assert (Hpush : same_list (fst (if k_has_children k then push_children k kF else ([], true)))
                            (fst (if k_has_children k then push_children k kF' else ([], true))) /\
                  snd (if k_has_children k then push_children k kF else ([], true)) =
                  snd (if k_has_children k then push_children k kF' else ([], true))).
  { destruct (k_has_children k); [exact (push_rel k par kF kF' HkF)|split; [constructor|reflexivity]]. }
  destruct (if k_has_children k then push_children k kF else ([], true)) as [pushed ok].
  destruct (if k_has_children k then push_children k kF' else ([], true)) as [pushed' ok'].
  cbn [fst snd] in Hpush. destruct Hpush as [Hpu ->].
  destruct ok', (ekind_eqb k KSet); cbn [negb pres_rel]; unfold cres_rel;
    cbn [r_kind r_des_begin r_des_end r_node r_anim r_pushfail onode_rel]; repeat split; try reflexivity; try exact I; constructor; exact Hpu.
Qed.

Theorem transparent ev x : transp ev x.
Proof.
  induction x as [tag attrs txt tail cs Hcs] using xml_ind'.
  intro pc. rewrite strip_unfold, !process_eq.
  pose proof (enter_inv ev pc tag attrs) as E. destruct (enter ev pc tag attrs) as [p|f]; [apply pres_rel_refl|].
  destruct E as (Hsk & _). cbv zeta. set (k := f_kind f) in *. set (par := read_par attrs).
  destruct (ekind_eqb k KSet) eqn:Hks.
  { (* the children of a <set> are not read *)
    assert (Ek : k = KSet) by (destruct k; try discriminate; reflexivity). rewrite Ek, !loop_set. cbn [k_is_mixed andb].
    rewrite !flush_false. apply pres_rel_refl. }
  set (mp := k_is_mixed k && par). rewrite (flush_xs0 mp k _ _ _ [] txt). cbn [fst snd].
  assert (Hkeep : forall c, keeps tag attrs c = timed c || (ekind_eqb k KRegion && is_style_elem c)).
  { intro c. rewrite (keeps_content tag attrs k c Hsk). destruct k; try discriminate; cbn [ekind_eqb ekind_code Z.eqb andb]; rewrite ?orb_false_r; reflexivity. }
  apply (leave_rel ev pc attrs f _ _ par), (loop_strip ev k par _ _ _ (keeps tag attrs) mp eq_refl Hks Hkeep cs Hcs); [apply kids_rel_nil|..];
    intro H; unfold texts_after; rewrite H; [reflexivity|].
  destruct txt; cbn [app otexts concat]; rewrite ?app_nil_r; reflexivity.
Qed.

Lemma strip_children_of x :
  x_children (strip x) = snd (strip_children (keeps (x_tag x) (x_attrs x)) strip (x_children x)).
Proof. destruct x as [tag attrs txt tail cs]. rewrite strip_unfold. reflexivity. Qed.
Lemma set_tail_children x t : x_children (set_tail x t) = x_children x.
Proof. destruct x; reflexivity. Qed.

Definition lay_rel (a b : list mnode + Z) : Prop :=
  match a, b with inl l, inl l' => Forall2 same_node l l' | inr e, inr e' => e = e' | _, _ => False end.
Definition hrel (h h' : hstate) : Prop :=
  h_layout h = h_layout h' /\ h_styling h = h_styling h' /\ Forall2 same_node (h_regions h) (h_regions h') /\
  h_styles h = h_styles h' /\ h_initials h = h_initials h'.
Definition hres_rel (a b : hstate + Z) : Prop :=
  match a, b with inl h, inl h' => hrel h h' | inr e, inr e' => e = e' | _, _ => False end.

Lemma forall2_refl l : Forall2 same_node l l.
Proof. induction l; constructor; [apply same_node_refl|assumption]. Qed.

Lemma region_ids l l' : Forall2 same_node l l' -> List.map region_id l = List.map region_id l'.
Proof.
  induction 1 as [|n n' l l' Hn Hl IH]; [reflexivity|]. cbn [List.map]. rewrite IH. f_equal. destruct Hn; reflexivity.
Qed.

Lemma read_layout_strip ev pr lg keep (Hkeep : forall c, keep c = tag_is c T_region) l :
  forall acc acc', Forall2 same_node acc acc' ->
    lay_rel (read_layout ev pr lg l acc) (read_layout ev pr lg (snd (strip_children keep strip l)) acc').
Proof.
  induction l as [|c l IH]; intros acc acc' Ha; [exact Ha|].
  cbn [strip_children]. destruct (strip_children keep strip l) as [pre r]. cbn [snd] in IH.
  rewrite Hkeep. unfold tag_is. cbn [read_layout].
  destruct (qname_eqb (x_tag c) T_region) eqn:E; cbn [snd]; [|apply IH; exact Ha].
  cbn [read_layout]. rewrite set_tail_tag, strip_tag, E, process_set_tail.
  pose proof (transparent ev c (mkPctx true (Some 0%Q) pr lg true)) as Hr.
  destruct (process ev (mkPctx true (Some 0%Q) pr lg true) c) as [e| |r0];
    destruct (process ev (mkPctx true (Some 0%Q) pr lg true) (strip c)) as [e'| |r1]; cbn [pres_rel] in Hr; try contradiction.
  - exact Hr.
  - apply IH; exact Ha.
  - destruct Hr as (_ & _ & _ & R4 & _ & _).
    destruct (r_node r0) as [n|], (r_node r1) as [n'|]; cbn [onode_rel] in R4; try contradiction; apply IH; [|exact Ha].
    apply Forall2_app; [exact Ha|constructor; [exact R4|constructor]].
Qed.

Lemma read_styling_strip tm vl keep (Hkeep : forall c, keep c = tag_is c T_initial || tag_is c T_style) l :
  forall t ini, read_styling tm vl (snd (strip_children keep strip l)) t ini = read_styling tm vl l t ini.
Proof.
  induction l as [|c l IH]; intros t ini; [reflexivity|].
  cbn [strip_children]. destruct (strip_children keep strip l) as [pre r]. cbn [snd] in IH.
  rewrite Hkeep. unfold tag_is. cbn [read_styling].
  destruct (qname_eqb (x_tag c) T_initial) eqn:E1; cbn [orb snd].
  - cbn [read_styling]. rewrite set_tail_tag, strip_tag, E1, set_tail_attrs, strip_attrs. apply IH.
  - destruct (qname_eqb (x_tag c) T_style) eqn:E2; cbn [snd]; [|apply IH].
    cbn [read_styling]. rewrite set_tail_tag, strip_tag, E1, E2, set_tail_attrs, strip_attrs.
    destruct (get_attr (x_attrs c) A_id) as [i|]; [|apply IH]. destruct (tbl_get t i); apply IH.
Qed.

Lemma keeps_layout attrs c : keeps T_layout attrs c = tag_is c T_region.
Proof. reflexivity. Qed.
Lemma keeps_styling attrs c : keeps T_styling attrs c = tag_is c T_initial || tag_is c T_style.
Proof. reflexivity. Qed.
Lemma keeps_head attrs c : keeps T_head attrs c = tag_is c T_layout || tag_is c T_styling.
Proof. reflexivity. Qed.
Lemma keeps_tt attrs c : keeps T_tt attrs c = tag_is c T_head || tag_is c T_body.
Proof. reflexivity. Qed.

Lemma read_head_strip tr fr tm vl pr lg keep (Hkeep : forall c, keep c = tag_is c T_layout || tag_is c T_styling) l :
  forall h h', hrel h h' ->
    hres_rel (read_head tr fr tm vl pr lg l h) (read_head tr fr tm vl pr lg (snd (strip_children keep strip l)) h').
Proof.
  induction l as [|c l IH]; intros h h' Hh; [exact Hh|].
  cbn [strip_children]. destruct (strip_children keep strip l) as [pre r]. cbn [snd] in IH.
  rewrite Hkeep. unfold tag_is. cbn [read_head].
  pose proof Hh as (H1 & H2 & H3 & H4 & H5).
  destruct (qname_eqb (x_tag c) T_layout) eqn:E1; cbn [orb snd].
  - cbn [read_head]. rewrite set_tail_tag, strip_tag, E1, set_tail_attrs, strip_attrs, set_tail_children, strip_children_of, <- H1, <- H4.
    destruct (h_layout h); [apply IH; exact Hh|].
    apply qname_eqb_eq in E1. rewrite E1.
    pose proof (read_layout_strip (mkEnv tr fr [] tm vl (h_styles h)) (read_space (x_attrs c) pr) (read_lang (x_attrs c) lg)
                  (keeps T_layout (x_attrs c)) (keeps_layout (x_attrs c)) (x_children c) [] [] (Forall2_nil _)) as Hl'.
    destruct (read_layout _ _ _ (x_children c) []) as [rs|e];
      destruct (read_layout _ _ _ (snd (strip_children _ strip (x_children c))) []) as [rs'|e']; cbn [lay_rel] in Hl'; try contradiction; [|exact Hl'].
    apply IH. unfold hrel. cbn [h_layout h_styling h_regions h_styles h_initials]. repeat split; try assumption.
    apply Forall2_app; assumption.
  - destruct (qname_eqb (x_tag c) T_styling) eqn:E2; cbn [snd]; [|apply IH; exact Hh].
    cbn [read_head]. rewrite set_tail_tag, strip_tag, E1, E2, set_tail_children, strip_children_of, <- H2, <- H4, <- H5.
    destruct (h_styling h); [apply IH; exact Hh|].
    apply qname_eqb_eq in E2. rewrite E2, (read_styling_strip tm vl _ (keeps_styling (x_attrs c))).
    destruct (read_styling tm vl (x_children c) (h_styles h) (h_initials h)) as [t ini].
    apply IH. unfold hrel. cbn [h_layout h_styling h_regions h_styles h_initials]. repeat split; assumption.
Qed.

Lemma read_tt_children_strip tr fr tm vl pr lg keep (Hkeep : forall c, keep c = tag_is c T_head || tag_is c T_body) l :
  forall hb hh h h' body body', hrel h h' -> onode_rel body body' ->
    dres_rel (read_tt_children tr fr tm vl pr lg l hb hh h body)
             (read_tt_children tr fr tm vl pr lg (snd (strip_children keep strip l)) hb hh h' body').
Proof.
  induction l as [|c l IH]; intros hb hh h h' body body' Hh Hb.
  - cbn [strip_children snd read_tt_children dres_rel d_lang d_regions d_body d_initials].
    destruct Hh as (H1 & H2 & H3 & H4 & H5). repeat split; assumption.
  - cbn [strip_children]. destruct (strip_children keep strip l) as [pre r]. cbn [snd] in IH.
    rewrite Hkeep. unfold tag_is. cbn [read_tt_children].
    destruct (qname_eqb (x_tag c) T_body) eqn:E1; [rewrite orb_true_r|rewrite orb_false_r]; cbn [snd].
    + cbn [read_tt_children]. rewrite set_tail_tag, strip_tag, E1, process_set_tail.
      destruct hb; [apply IH; assumption|].
      pose proof Hh as (H1 & H2 & H3 & H4 & H5).
      rewrite <- (region_ids _ _ H3), <- H4.
      pose proof (transparent (mkEnv tr fr (List.map region_id (h_regions h)) tm vl (h_styles h)) c (mkPctx true (Some 0%Q) pr lg true)) as Hr.
      destruct (process _ (mkPctx true (Some 0%Q) pr lg true) c) as [e| |r0];
        destruct (process _ (mkPctx true (Some 0%Q) pr lg true) (strip c)) as [e'| |r1]; cbn [pres_rel] in Hr; try contradiction.
      * exact Hr.
      * apply IH; [exact Hh|exact I].
      * destruct Hr as (_ & _ & _ & R4 & _ & _). apply IH; [exact Hh|exact R4].
    + destruct (qname_eqb (x_tag c) T_head) eqn:E2; cbn [snd]; [|apply IH; assumption].
      cbn [read_tt_children]. rewrite set_tail_tag, strip_tag, E1, E2, set_tail_attrs, strip_attrs, set_tail_children, strip_children_of.
      destruct hh; [apply IH; assumption|].
      apply qname_eqb_eq in E2. rewrite E2.
      pose proof (read_head_strip tr fr tm vl (read_space (x_attrs c) pr) (read_lang (x_attrs c) lg) _ (keeps_head (x_attrs c))
                    (x_children c) h h' Hh) as Hd.
      destruct (read_head _ _ _ _ _ _ (x_children c) h) as [h1|e];
        destruct (read_head _ _ _ _ _ _ (snd (strip_children _ strip (x_children c))) h') as [h1'|e']; cbn [hres_rel] in Hd; try contradiction; [|exact Hd].
      apply IH; assumption.
Qed.

Theorem read_tt_transparent tm vl x : x_tag x = T_tt -> dres_rel (read_tt tm vl x) (read_tt tm vl (strip x)).
Proof.
  intros Ht. unfold read_tt. rewrite strip_attrs, strip_children_of, Ht.
  apply (read_tt_children_strip _ _ tm vl _ _ _ (keeps_tt (x_attrs x)) (x_children x)).
  - unfold hrel. cbn. repeat split; constructor.
  - exact I.
Qed.

(* what same_node preserves: the characters, in order *)
Fixpoint chars (n : mnode) : text :=
  match n with
  | MText t => t
  | MElem _ _ _ _ _ _ _ _ _ cs => (fix go (l : list mnode) : text := match l with [] => [] | c :: l' => chars c ++ go l' end) cs
  end.
Definition chars_list (l : list mnode) : text := flat_map chars l.

Lemma chars_elem k rid b e p l g s a cs : chars (MElem k rid b e p l g s a cs) = chars_list cs.
Proof. cbn [chars]. induction cs as [|c cs IH]; [reflexivity|]. unfold chars_list. cbn [flat_map]. rewrite IH. reflexivity. Qed.

Lemma chars_anon am t : chars (anon_node am t) = t.
Proof. destruct am as [[p l]|]; [|reflexivity]. cbn. apply app_nil_r. Qed.

Lemma chars_anon_list am ts : chars_list (List.map (anon_node am) ts) = concat ts.
Proof. induction ts as [|t ts IH]; [reflexivity|]. unfold chars_list in *. cbn [List.map flat_map concat]. rewrite IH, chars_anon. reflexivity. Qed.

Scheme same_node_mut := Induction for same_node Sort Prop
  with same_list_mut := Induction for same_list Sort Prop.
Combined Scheme same_mut from same_node_mut, same_list_mut.

Lemma same_chars : (forall n n', same_node n n' -> chars n = chars n') /\ (forall l l', same_list l l' -> chars_list l = chars_list l').
Proof.
  apply same_mut; try reflexivity.
  - intros. rewrite !chars_elem. assumption.
  - intros n n' l l' _ Hn _ Hl. unfold chars_list in *. cbn [flat_map]. rewrite Hn, Hl. reflexivity.
  - intros am ts l l' _ _ Hl. unfold chars_list in *. rewrite flat_map_app. cbn [flat_map]. rewrite Hl, chars_anon.
    f_equal. apply chars_anon_list.
Qed.

Theorem same_node_chars n n' : same_node n n' -> chars n = chars n'.
Proof. exact (proj1 same_chars n n'). Qed.

Theorem noncontent_vocabulary q attrs :
  In q metadata_vocabulary \/ is_comment_or_pi q = true \/ is_foreign q = true ->
  s_kind q attrs = None /\ classify q attrs = None.
Proof.
  intros [H|H].
  - unfold metadata_vocabulary in H. cbn [In] in H.
    repeat (destruct H as [<-|H]; [split; reflexivity|]). contradiction.
  - assert (Hn : (fst q =? 1) = false).
    { unfold is_comment_or_pi, is_foreign, NS_COMMENT, NS_PI, NS_NONE in H. lia. }
    destruct q as [n l]. cbn [fst] in Hn. split.
    + unfold s_kind, NS_TT. cbn [fst]. rewrite Hn. reflexivity.
    + unfold classify, qname_eqb. cbn [fst snd].
      change (fst T_body) with 1. change (fst T_div) with 1. change (fst T_p) with 1. change (fst T_span) with 1.
      change (fst T_br) with 1. change (fst T_set) with 1. change (fst T_region) with 1. rewrite Hn. reflexivity.
Qed.

Theorem noncontent_skipped ev pc c :
  In (x_tag c) metadata_vocabulary \/ is_comment_or_pi (x_tag c) = true \/ is_foreign (x_tag c) = true -> process ev pc c = PSkip.
Proof.
  intro H. apply untimed_skip. unfold timed. rewrite (proj1 (noncontent_vocabulary (x_tag c) (x_attrs c) H)). reflexivity.
Qed.

(* the specification itself is transparent: the TTML2 interval of x is the interval of strip x *)
Section SpecTransparent.
  Variable tv : text -> option Q.

  Definition tail_text (c : xml) : bool := has_text (x_tail c).
  Definition iv_same (c : xml) : Prop := forall p s, interval tv p s (strip c) = interval tv p s c.

  Lemma interval_set_tail p s x t : interval tv p s (set_tail x t) = interval tv p s x.
  Proof. destruct x; reflexivity. Qed.
  Lemma timed_strip c t : timed (set_tail (strip c) t) = timed c.
  Proof. unfold timed. rewrite set_tail_tag, set_tail_attrs, strip_tag, strip_attrs. reflexivity. Qed.
  Lemma has_text_oapp a b : has_text (oapp a b) = has_text a || has_text b.
  Proof. destruct a, b; reflexivity. Qed.

  Section Kept.
    Variable keep : xml -> bool.
    Hypothesis Hkeep : forall c, timed c = true -> keep c = true.

    Lemma seq_dur_strip l : Forall iv_same l ->
      forall cursor, seq_dur (interval tv) (snd (strip_children keep strip l)) cursor = seq_dur (interval tv) l cursor.
    Proof.
      induction 1 as [|c l Hc Hl IH]; intro cursor; [reflexivity|].
      cbn [strip_children]. destruct (strip_children keep strip l) as [pre r]. cbn [snd] in IH.
      destruct (keep c) eqn:Ek; cbn [snd seq_dur].
      - rewrite timed_strip, interval_set_tail, Hc. destruct (timed c); [|apply IH].
        destruct (snd (interval tv true cursor c)); [apply IH|reflexivity].
      - destruct (timed c) eqn:Et; [rewrite (Hkeep c Et) in Ek; discriminate|]. apply IH.
    Qed.

    Lemma par_dur_strip l : Forall iv_same l ->
      forall acc, par_dur (interval tv) false (snd (strip_children keep strip l)) acc = par_dur (interval tv) false l acc.
    Proof.
      induction 1 as [|c l Hc Hl IH]; intro acc; [reflexivity|].
      cbn [strip_children]. destruct (strip_children keep strip l) as [pre r]. cbn [snd] in IH.
      destruct (keep c) eqn:Ek; cbn [snd par_dur andb].
      - rewrite timed_strip, interval_set_tail, Hc. apply IH.
      - destruct (timed c) eqn:Et; [rewrite (Hkeep c Et) in Ek; discriminate|]. apply IH.
    Qed.

    Lemma strip_text l :
      has_text (fst (strip_children keep strip l)) || existsb tail_text (snd (strip_children keep strip l)) = existsb tail_text l.
    Proof.
      induction l as [|c l IH]; [reflexivity|].
      cbn [strip_children]. destruct (strip_children keep strip l) as [pre r]. cbn [fst snd] in IH.
      destruct (keep c); cbn [fst snd existsb has_text orb]; unfold tail_text at 1; rewrite ?set_tail_tail, has_text_oapp, <- IH.
      - unfold tail_text. rewrite orb_assoc. reflexivity.
      - unfold tail_text. rewrite orb_assoc. reflexivity.
    Qed.
  End Kept.

  Lemma par_dur_text iv l : forall acc,
    par_dur iv true l acc = if existsb tail_text l then None else par_dur iv false l acc.
  Proof.
    induction l as [|c l IH]; intro acc; [reflexivity|]. cbn [par_dur existsb andb]. unfold tail_text at 1.
    destruct (has_text (x_tail c)); cbn [orb]; [apply par_dur_none|apply IH].
  Qed.

  Theorem interval_strip x : iv_same x.
  Proof.
    induction x as [tag attrs txt tail cs IHcs] using xml_ind'. intros p s.
    rewrite strip_unfold.
    pose proof (strip_text (keeps tag attrs) cs) as Htx.
    destruct (strip_children (keeps tag attrs) strip cs) as [pre r] eqn:Es. cbn [fst snd] in Htx |- *.
    cbn [interval]. f_equal. f_equal.
    destruct (s_kind tag attrs) as [k|] eqn:Hsk; [|reflexivity].
    destruct (s_atomic k && negb p); [reflexivity|].
    destruct (s_childless k) eqn:Hch; [reflexivity|].
    assert (Hkeep : forall c, timed c = true -> keeps tag attrs c = true).
    { intros c Hc. rewrite (keeps_content tag attrs k c Hsk), Hc. destruct k; try reflexivity. discriminate. }
    pose proof (seq_dur_strip (keeps tag attrs) Hkeep cs IHcs) as Hseq. rewrite Es in Hseq. cbn [snd] in Hseq.
    pose proof (par_dur_strip (keeps tag attrs) Hkeep cs IHcs) as Hpar. rewrite Es in Hpar. cbn [snd] in Hpar.
    destruct (s_is_seq attrs); [apply Hseq|].
    destruct (s_mixed k); cbn [andb]; [|apply Hpar].
    rewrite !par_dur_text, has_text_oapp, Hpar.
    destruct (existsb tail_text cs) eqn:Ec.
    - destruct (existsb tail_text r); [reflexivity|]. rewrite orb_false_r in Htx. rewrite Htx, orb_true_r. apply par_dur_none.
    - apply orb_false_iff in Htx as [Hp Hr]. rewrite Hp, Hr, orb_false_r. reflexivity.
  Qed.
End SpecTransparent.
