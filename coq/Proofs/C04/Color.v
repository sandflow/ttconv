(* C04 / C05, colour values: the strings ttconv.utils.parse_color accepts (Model/ImscWrite.v parse_color) are exactly the colour
   expressions of Spec/TtmlColorSpec.v, with the denotation the grammar gives them; every accepted string denotes an RGBA8 colour;
   every strict TTML2 <color> is accepted. *)
From TT Require Import Base.Prelude Base.ImscXml Model.ImscTime Model.ImscWrite Gen.ImscTables Spec.TtmlColorSpec Proofs.C04.TimeSyntax.
From Coq Require String.
Import String.StringSyntax.
Local Open Scope Z_scope.

Lemma forallb_ext {A} (f g : A -> bool) l : (forall x, f x = g x) -> forallb f l = forallb g l.
Proof. intro H. induction l as [|x l IH]; [reflexivity|]. cbn [forallb]. rewrite H, IH. reflexivity. Qed.

Lemma forallb_impl {A} (f g : A -> bool) l : (forall x, f x = true -> g x = true) -> forallb f l = true -> forallb g l = true.
Proof. intro H. rewrite !forallb_forall. intros Hf x Hx. apply H, Hf, Hx. Qed.

(* The grammar finds the value of a digit by its place in "0123456789", "0123456789abcdef", "0123456789ABCDEF": strings made of runs
   of consecutive code points, in which the place of a character is its distance from the start of its run. *)
Fixpoint run (a : Z) (n : nat) : text := match n with O => [] | S n' => a :: run (a + 1) n' end.

Lemma index_of_run c n : forall a i,
  index_of c (run a n) i = if (a <=? c) && (c <=? a + Z.of_nat n - 1) then Some (i + (c - a)) else None.
Proof.
  induction n as [|n IH]; intros a i; cbn [run index_of].
  - destruct ((a <=? c) && (c <=? a + Z.of_nat 0 - 1)) eqn:E; [lia|reflexivity].
  - rewrite IH. destruct (a =? c) eqn:E0, ((a + 1 <=? c) && (c <=? a + 1 + Z.of_nat n - 1)) eqn:E1,
      ((a <=? c) && (c <=? a + Z.of_nat (S n) - 1)) eqn:E2; try (f_equal; lia); lia.
Qed.

Lemma index_of_app c l l' : forall i,
  index_of c (l ++ l') i = match index_of c l i with Some v => Some v | None => index_of c l' (i + Z.of_nat (length l)) end.
Proof.
  induction l as [|x l IH]; intro i; cbn [app index_of length].
  - f_equal. lia.
  - destruct (x =? c); [reflexivity|]. rewrite IH. destruct (index_of c l (i + 1)); [reflexivity|]. f_equal. lia.
Qed.

Lemma dec_digit_spec c : dec_digit c = if is_digit c then Some (c - 48) else None.
Proof.
  unfold dec_digit. change (str "0123456789") with (run 48 10). rewrite index_of_run.
  change (48 + Z.of_nat 10 - 1) with 57. reflexivity.
Qed.

Lemma hex_digit_spec c : hex_digit c = hexval c.
Proof.
  unfold hex_digit, hexval.
  change (str "0123456789abcdef") with (run 48 10 ++ run 97 6). change (str "0123456789ABCDEF") with (run 48 10 ++ run 65 6).
  rewrite !index_of_app, !index_of_run.
  change (48 + Z.of_nat 10 - 1) with 57. change (97 + Z.of_nat 6 - 1) with 102. change (65 + Z.of_nat 6 - 1) with 70.
  change (0 + Z.of_nat (length (run 48 10))) with 10.
  destruct ((48 <=? c) && (c <=? 57)), ((97 <=? c) && (c <=? 102)), ((65 <=? c) && (c <=? 70)); try reflexivity; f_equal; lia.
Qed.

Lemma lwsp_char_spec c : lwsp_char c = is_ws c.
Proof. unfold lwsp_char, is_ws. cbn [existsb]. lia. Qed.

Lemma is_lwsp_spec w : is_lwsp w = forallb is_ws w.
Proof. apply forallb_ext, lwsp_char_spec. Qed.

(* every character of an accepted string is an ASCII character or the KELVIN SIGN (in a colour name): in particular a string with a
   digit outside ASCII, or with white space outside ASCII, is rejected *)
Definition plain_char (ch : Z) : bool := ((0 <=? ch) && (ch <? 128)) || (ch =? 8490).

Lemma hexval_range c v : hexval c = Some v -> 0 <= v <= 15 /\ 48 <= c <= 102.
Proof.
  unfold hexval. destruct ((48 <=? c) && (c <=? 57)) eqn:R1; [intro H; inversion H; lia|].
  destruct ((97 <=? c) && (c <=? 102)) eqn:R2; [intro H; inversion H; lia|].
  destruct ((65 <=? c) && (c <=? 70)) eqn:R3; [intro H; inversion H; lia|discriminate].
Qed.

Lemma hexpair_spec a b : hexpair a b = if is_hex_pair (a, b) then Some (hex_pair_value (a, b)) else None.
Proof.
  unfold hexpair, is_hex_pair, hex_pair_value. cbn [fst snd]. rewrite !hex_digit_spec.
  destruct (hexval a) as [x|]; destruct (hexval b) as [y|]; cbn [is_some get andb]; try reflexivity. f_equal. lia.
Qed.

Lemma hex_pair_spec p : is_hex_pair p = true -> 0 <= hex_pair_value p <= 255 /\ forallb plain_char (pair_yield p) = true.
Proof.
  unfold is_hex_pair, hex_pair_value, pair_yield. rewrite !hex_digit_spec.
  destruct (hexval (fst p)) as [x|] eqn:X; destruct (hexval (snd p)) as [y|] eqn:Y; cbn [is_some get andb]; try discriminate.
  intros _. apply hexval_range in X, Y. unfold plain_char. cbn [forallb]. lia.
Qed.

Lemma is_decimal_spec d : is_decimal d = negb (Nat.eqb (length d) 0) && forallb is_digit d.
Proof. unfold is_decimal. f_equal. apply forallb_ext. intro c. rewrite dec_digit_spec. destruct (is_digit c); reflexivity. Qed.

Lemma decimal_value_spec d : forallb is_digit d = true -> decimal_value d = digits_val 0 d.
Proof.
  unfold decimal_value. generalize 0. induction d as [|c d IH]; intros acc H; [reflexivity|].
  cbn [forallb] in H. apply andb_true_iff in H as [Hc Hd].
  cbn [fold_left digits_val]. rewrite (IH _ Hd), dec_digit_spec, Hc. cbn [get]. f_equal. lia.
Qed.

Lemma digits_val_nonneg d : forall acc, 0 <= acc -> forallb is_digit d = true -> 0 <= digits_val acc d.
Proof.
  induction d as [|c d IH]; intros acc Ha H; [exact Ha|]. cbn [forallb] in H. apply andb_true_iff in H as [Hc Hd].
  cbn [digits_val]. apply IH; [|exact Hd]. unfold is_digit in Hc. lia.
Qed.

Definition not_ws_head (x : text) : Prop := match x with [] => True | c :: _ => is_ws c = false end.

Lemma skip_ws_split s : exists w, s = w ++ skip_ws s /\ forallb is_ws w = true.
Proof.
  induction s as [|c s IH]; [exists []; split; reflexivity|]. cbn [skip_ws]. destruct (is_ws c) eqn:Wc.
  - destruct IH as (w & A & B). exists (c :: w). cbn [app forallb]. rewrite Wc, B, <- A. split; reflexivity.
  - exists []. split; reflexivity.
Qed.

Lemma skip_ws_app w x : forallb is_ws w = true -> not_ws_head x -> skip_ws (w ++ x) = x.
Proof.
  intros Hw Hx. induction w as [|c w IH]; cbn [app].
  - destruct x as [|c x]; [reflexivity|]. cbn [skip_ws]. cbn [not_ws_head] in Hx. rewrite Hx. reflexivity.
  - cbn [forallb] in Hw. apply andb_true_iff in Hw as [Hc Hw]. cbn [skip_ws]. rewrite Hc. exact (IH Hw).
Qed.

(* a component with the shape of the grammar - white space, digits, white space - whatever its value *)
Definition comp_shape (c : comp) : bool := is_lwsp (c_pre c) && is_decimal (c_digits c) && is_lwsp (c_post c).

Lemma comp_shape_spec c : comp_shape c = true <->
  forallb is_ws (c_pre c) = true /\ c_digits c <> [] /\ forallb is_digit (c_digits c) = true /\ forallb is_ws (c_post c) = true.
Proof.
  unfold comp_shape. rewrite !is_lwsp_spec, is_decimal_spec, !andb_true_iff, negb_true_iff.
  assert (N : Nat.eqb (length (c_digits c)) 0 = false <-> c_digits c <> []) by (destruct (c_digits c); cbn; split; congruence).
  tauto.
Qed.

Lemma lead_sound s d r : span_digits (skip_ws s) = (d, r) ->
  exists w, s = w ++ d ++ r /\ forallb is_ws w = true /\ forallb is_digit d = true.
Proof.
  intro H. destruct (skip_ws_split s) as (w & E & W). apply span_digits_split in H as (E' & D & _).
  exists w. rewrite <- E'. repeat split; assumption.
Qed.

Lemma lead_complete w d x : forallb is_ws w = true -> d <> [] -> forallb is_digit d = true -> not_digit_head x ->
  span_digits (skip_ws (w ++ d ++ x)) = (d, x).
Proof.
  intros W Hn D X. rewrite (skip_ws_app w _ W); [apply span_digits_app; assumption|].
  destruct d as [|c d]; [congruence|]. cbn [forallb] in D. apply andb_true_iff in D as [Dc _].
  cbn [app not_ws_head]. unfold is_digit in Dc. unfold is_ws. lia.
Qed.

Lemma dec_component_sound stop s d r : dec_component stop s = Some (d, r) ->
  exists c, comp_shape c = true /\ c_digits c = d /\ s = comp_yield c ++ stop :: r.
Proof.
  unfold dec_component. destruct (span_digits (skip_ws s)) as [d' r'] eqn:Sp. apply lead_sound in Sp as (w1 & E & W1 & D).
  destruct d' as [|c0 d']; [discriminate|].
  destruct (skip_ws_split r') as (w2 & E2 & W2). destruct (skip_ws r') as [|c r'']; [discriminate|].
  destruct (c =? stop) eqn:Ec; [|discriminate]. apply Z.eqb_eq in Ec. subst c. intro H. inversion H; subst d r.
  exists (mkComp w1 (c0 :: d') w2). split; [|split; [reflexivity|]].
  - apply comp_shape_spec. repeat split; try assumption. discriminate.
  - unfold comp_yield. cbn [c_pre c_digits c_post]. rewrite E, E2, <- !app_assoc. reflexivity.
Qed.

Lemma dec_component_complete stop c r : comp_shape c = true -> is_ws stop = false -> is_digit stop = false ->
  dec_component stop (comp_yield c ++ stop :: r) = Some (c_digits c, r).
Proof.
  intros S S1 S2. apply comp_shape_spec in S as (W1 & Hn & D & W2). unfold dec_component, comp_yield. rewrite <- !app_assoc.
  rewrite (lead_complete _ _ _ W1 Hn D).
  - destruct (c_digits c); [congruence|]. rewrite (skip_ws_app _ (stop :: r) W2 S1), Z.eqb_refl. reflexivity.
  - destruct (c_post c) as [|x p]; [exact S2|]. cbn [forallb] in W2. apply andb_true_iff in W2 as [Wx _].
    cbn [app not_digit_head]. unfold is_ws in Wx. unfold is_digit. lia.
Qed.

Lemma dec_component_tight_sound stop s d r : dec_component_tight stop s = Some (d, r) ->
  exists c, comp_shape c = true /\ c_post c = [] /\ c_digits c = d /\ s = comp_yield c ++ stop :: r.
Proof.
  unfold dec_component_tight. destruct (span_digits (skip_ws s)) as [d' r'] eqn:Sp. apply lead_sound in Sp as (w1 & E & W1 & D).
  destruct d' as [|c0 d']; [discriminate|]. destruct r' as [|c r'']; [discriminate|].
  destruct (c =? stop) eqn:Ec; [|discriminate]. apply Z.eqb_eq in Ec. subst c. intro H. inversion H; subst d r.
  exists (mkComp w1 (c0 :: d') []). split; [|repeat split].
  - apply comp_shape_spec. repeat split; try assumption. discriminate.
  - unfold comp_yield. cbn [c_pre c_digits c_post]. rewrite E, app_nil_r, <- app_assoc. reflexivity.
Qed.

Lemma dec_component_tight_complete stop c r : comp_shape c = true -> c_post c = [] -> is_digit stop = false ->
  dec_component_tight stop (comp_yield c ++ stop :: r) = Some (c_digits c, r).
Proof.
  intros S P S2. apply comp_shape_spec in S as (W1 & Hn & D & _). unfold dec_component_tight, comp_yield.
  rewrite P, app_nil_r, <- app_assoc, (lead_complete _ _ (stop :: r) W1 Hn D S2).
  destruct (c_digits c); [congruence|]. rewrite Z.eqb_refl. reflexivity.
Qed.

(* the limit of int() on the number of digits: the constant read from the platform is the one of the grammar *)
Lemma int_limit_agrees : int_max_str_digits = max_component_digits.
Proof. reflexivity. Qed.
Lemma int_refuses_spec d : int_refuses d = (max_component_digits <? Z.of_nat (length d)).
Proof. unfold int_refuses. rewrite int_limit_agrees. reflexivity. Qed.

Lemma color_component_value c : comp_shape c = true ->
  color_component (c_digits c) =
  if max_component_digits <? Z.of_nat (length (c_digits c)) then None else if 255 <? comp_value c then None else Some (comp_value c).
Proof.
  intro S. apply comp_shape_spec in S as (_ & _ & D & _).
  unfold color_component, comp_value. rewrite int_refuses_spec, (decimal_value_spec _ D). reflexivity.
Qed.

Lemma wf_comp_iff c v : wf_comp c = true /\ comp_value c = v <-> comp_shape c = true /\ color_component (c_digits c) = Some v.
Proof.
  assert (S : wf_comp c = comp_shape c && ((Z.of_nat (length (c_digits c)) <=? max_component_digits) && (comp_value c <=? 255))).
  { unfold wf_comp, comp_shape. destruct (is_lwsp (c_pre c)), (is_decimal (c_digits c)), (is_lwsp (c_post c)),
      (Z.of_nat (length (c_digits c)) <=? max_component_digits), (comp_value c <=? 255); reflexivity. }
  rewrite S, andb_true_iff. split.
  - intros [[Hs Hv] <-]. split; [exact Hs|]. rewrite (color_component_value c Hs).
    destruct (max_component_digits <? _) eqn:E1; [lia|]. destruct (255 <? comp_value c) eqn:E2; [lia|reflexivity].
  - intros [Hs Hv]. rewrite (color_component_value c Hs) in Hv.
    destruct (max_component_digits <? _) eqn:E1; [discriminate|]. destruct (255 <? comp_value c) eqn:E2; [discriminate|].
    inversion Hv. repeat split; [exact Hs|lia].
Qed.

Lemma wf_comp_spec c : wf_comp c = true ->
  comp_shape c = true /\ color_component (c_digits c) = Some (comp_value c) /\ 0 <= comp_value c <= 255.
Proof.
  intro W. pose proof W as Hv. unfold wf_comp in Hv. apply andb_true_iff in Hv as [Hv _]. apply andb_true_iff in Hv as [_ Hv].
  apply (fun H => proj1 (wf_comp_iff c _) (conj H eq_refl)) in W as [S V]. repeat split; try assumption; [|lia].
  apply comp_shape_spec in S as (_ & _ & D & _). unfold comp_value. rewrite (decimal_value_spec _ D). apply digits_val_nonneg; [lia|exact D].
Qed.

Lemma comp_plain c : comp_shape c = true -> forallb plain_char (comp_yield c) = true.
Proof.
  intro S. apply comp_shape_spec in S as (W1 & _ & D & W2). unfold comp_yield. rewrite !forallb_app, andb_true_iff, andb_true_iff.
  repeat split; [revert W1|revert D|revert W2]; apply forallb_impl; intro x; unfold is_ws, is_digit, plain_char; lia.
Qed.

(* the table of the standard is the table of the code (Gen/ImscTables.v is regenerated from NamedColors at every check) *)
Lemma named_tables_agree : ttml_named_colors = named_colors.
Proof. vm_compute. reflexivity. Qed.

Definition lc_letter (k : Z) : bool := (97 <=? k) && (k <=? 122).
Lemma names_lower_case : forallb (fun e => forallb lc_letter (fst e)) ttml_named_colors = true.
Proof. vm_compute. reflexivity. Qed.

Lemma spells_lower c k : lc_letter k = true -> spells c k = (k =? lower c).
Proof. unfold lc_letter, spells, lower. intro H. destruct ((65 <=? c) && (c <=? 90)) eqn:U; [lia|]. destruct (c =? 8490) eqn:K; lia. Qed.

Lemma spells_name_lower n : forall s, forallb lc_letter n = true -> spells_name s n = text_eqb n (List.map lower s).
Proof.
  induction n as [|k n IH]; intros [|c s] H; try reflexivity.
  cbn [forallb] in H. apply andb_true_iff in H as [Hk Hn]. cbn [spells_name List.map text_eqb].
  rewrite (spells_lower c k Hk), (IH s Hn). reflexivity.
Qed.

Lemma named_color_assoc tbl s : forallb (fun e => forallb lc_letter (fst e)) tbl = true ->
  named_color tbl s = assoc_color tbl (List.map lower s).
Proof.
  induction tbl as [|[n c] tbl IH]; intro H; [reflexivity|]. cbn [forallb fst] in H. apply andb_true_iff in H as [Hn Ht].
  cbn [named_color assoc_color]. rewrite (spells_name_lower n s Hn), (IH Ht). reflexivity.
Qed.

Lemma named_color_model s : named_color ttml_named_colors s = assoc_color named_colors (List.map lower s).
Proof. rewrite (named_color_assoc _ s names_lower_case), named_tables_agree. reflexivity. Qed.

Lemma named_color_name tbl s c : named_color tbl s = Some c -> exists n, In (n, c) tbl /\ spells_name s n = true.
Proof.
  induction tbl as [|[n c'] tbl IH]; [discriminate|]. cbn [named_color]. destruct (spells_name s n) eqn:E.
  - intro H. inversion H; subst. exists n. split; [left; reflexivity|exact E].
  - intro H. destruct (IH H) as (n' & Hin & Hs). exists n'. split; [right; exact Hin|exact Hs].
Qed.

Lemma spells_name_plain n : forall s, forallb lc_letter n = true -> spells_name s n = true -> forallb plain_char s = true.
Proof.
  induction n as [|k n IH]; intros [|c s] Hn H; try reflexivity; try discriminate.
  cbn [forallb] in Hn. apply andb_true_iff in Hn as [Hk Hn]. cbn [spells_name] in H. apply andb_true_iff in H as [Hc Hs].
  cbn [forallb]. rewrite (IH s Hn Hs). unfold spells in Hc. unfold lc_letter in Hk. unfold plain_char. lia.
Qed.

Definition rgba8b (c : rgba) : bool :=
  let '(r, g, b, a) := c in (0 <=? r) && (r <=? 255) && (0 <=? g) && (g <=? 255) && (0 <=? b) && (b <=? 255) && (0 <=? a) && (a <=? 255).
Lemma named_rgba8 : forallb (fun e => rgba8b (snd e)) ttml_named_colors = true.
Proof. vm_compute. reflexivity. Qed.

Lemma not_named_hash h : assoc_color named_colors (List.map lower (35 :: h)) = None.
Proof. reflexivity. Qed.
Lemma not_named_rgb t : assoc_color named_colors (List.map lower (114 :: 103 :: 98 :: 40 :: t)) = None.
Proof. reflexivity. Qed.
Lemma not_named_rgba t : assoc_color named_colors (List.map lower (114 :: 103 :: 98 :: 97 :: 40 :: t)) = None.
Proof. reflexivity. Qed.

Lemma wf_color_inv t : wf_color t = true ->
  match t with
  | ANamed sp => exists c n, named_color ttml_named_colors sp = Some c /\ In (n, c) ttml_named_colors /\ spells_name sp n = true
  | AHex6 r g b => is_hex_pair r = true /\ is_hex_pair g = true /\ is_hex_pair b = true
  | AHex8 r g b a => is_hex_pair r = true /\ is_hex_pair g = true /\ is_hex_pair b = true /\ is_hex_pair a = true
  | ARgb r g b => wf_comp r = true /\ wf_comp g = true /\ wf_comp b = true
  | ARgba r g b a => wf_comp r = true /\ c_post r = [] /\ wf_comp g = true /\ wf_comp b = true /\ wf_comp a = true
  end.
Proof.
  destruct t as [sp|rr gg bb|rr gg bb aa|r g b|r g b a]; cbn [wf_color]; intro W.
  - destruct (named_color ttml_named_colors sp) as [c|] eqn:N; [|discriminate].
    destruct (named_color_name _ _ _ N) as (n & Hin & Hs). exists c, n. auto.
  - apply andb_true_iff in W as [W Wb]. apply andb_true_iff in W as [Wr Wg]. auto.
  - apply andb_true_iff in W as [W Wa]. apply andb_true_iff in W as [W Wb]. apply andb_true_iff in W as [Wr Wg]. auto.
  - apply andb_true_iff in W as [W Wb]. apply andb_true_iff in W as [Wr Wg]. auto.
  - apply andb_true_iff in W as [W Wa]. apply andb_true_iff in W as [W Wb]. apply andb_true_iff in W as [W Wg].
    apply andb_true_iff in W as [Wr Pr]. destruct (c_post r); [auto|discriminate].
Qed.

Lemma parse_hex6 rr gg bb : parse_color (yield (AHex6 rr gg bb)) =
  if is_hex_pair rr && is_hex_pair gg && is_hex_pair bb then Some (denote (AHex6 rr gg bb)) else None.
Proof.
  destruct rr as [r1 r2], gg as [g1 g2], bb as [b1 b2]. change (yield _) with [35; r1; r2; g1; g2; b1; b2].
  unfold parse_color. rewrite not_named_hash. cbn [strip_prefix Z.eqb Pos.eqb hex_color]. rewrite !hexpair_spec.
  destruct (is_hex_pair (r1, r2)), (is_hex_pair (g1, g2)), (is_hex_pair (b1, b2)); reflexivity.
Qed.

Lemma parse_hex8 rr gg bb aa : parse_color (yield (AHex8 rr gg bb aa)) =
  if is_hex_pair rr && is_hex_pair gg && is_hex_pair bb && is_hex_pair aa then Some (denote (AHex8 rr gg bb aa)) else None.
Proof.
  destruct rr as [r1 r2], gg as [g1 g2], bb as [b1 b2], aa as [a1 a2]. change (yield _) with [35; r1; r2; g1; g2; b1; b2; a1; a2].
  unfold parse_color. rewrite not_named_hash. cbn [strip_prefix Z.eqb Pos.eqb hex_color]. rewrite !hexpair_spec.
  destruct (is_hex_pair (r1, r2)), (is_hex_pair (g1, g2)), (is_hex_pair (b1, b2)), (is_hex_pair (a1, a2)); reflexivity.
Qed.

Lemma parse_rgb r g b : comp_shape r = true -> comp_shape g = true -> comp_shape b = true ->
  parse_color (yield (ARgb r g b)) =
  match color_component (c_digits r), color_component (c_digits g), color_component (c_digits b) with
  | Some r', Some g', Some b' => Some (r', g', b', 255)
  | _, _, _ => None
  end.
Proof.
  intros Sr Sg Sb.
  change (yield _) with (114 :: 103 :: 98 :: 40 :: comp_yield r ++ 44 :: comp_yield g ++ 44 :: comp_yield b ++ [41]).
  unfold parse_color. rewrite not_named_rgb. cbn [strip_prefix Z.eqb Pos.eqb]. unfold rgb_color.
  rewrite (dec_component_complete 44 r _ Sr eq_refl eq_refl), (dec_component_complete 44 g _ Sg eq_refl eq_refl),
    (dec_component_complete 41 b [] Sb eq_refl eq_refl). reflexivity.
Qed.

Lemma parse_rgba r g b a : comp_shape r = true -> c_post r = [] -> comp_shape g = true -> comp_shape b = true -> comp_shape a = true ->
  parse_color (yield (ARgba r g b a)) =
  match color_component (c_digits r), color_component (c_digits g), color_component (c_digits b), color_component (c_digits a) with
  | Some r', Some g', Some b', Some a' => Some (r', g', b', a')
  | _, _, _, _ => None
  end.
Proof.
  intros Sr Pr Sg Sb Sa.
  change (yield _) with (114 :: 103 :: 98 :: 97 :: 40 :: comp_yield r ++ 44 :: comp_yield g ++ 44 :: comp_yield b ++ 44 :: comp_yield a ++ [41]).
  unfold parse_color. rewrite not_named_rgba. cbn [strip_prefix Z.eqb Pos.eqb]. unfold rgba_color.
  rewrite (dec_component_tight_complete 44 r _ Sr Pr eq_refl), (dec_component_complete 44 g _ Sg eq_refl eq_refl),
    (dec_component_complete 44 b _ Sb eq_refl eq_refl), (dec_component_complete 41 a [] Sa eq_refl eq_refl). reflexivity.
Qed.

Lemma hex_color_sound h c : hex_color h = Some c -> color_expr (35 :: h) c.
Proof.
  destruct h as [|r1 [|r2 [|g1 [|g2 [|b1 [|b2 [|a1 [|a2 [|x h]]]]]]]]]; try discriminate; cbn [hex_color]; rewrite !hexpair_spec.
  - destruct (is_hex_pair (r1, r2)) eqn:R, (is_hex_pair (g1, g2)) eqn:G, (is_hex_pair (b1, b2)) eqn:B; try discriminate.
    intro H. inversion H. exists (AHex6 (r1, r2) (g1, g2) (b1, b2)). cbn [wf_color]. rewrite R, G, B. repeat split.
  - destruct (is_hex_pair (r1, r2)) eqn:R, (is_hex_pair (g1, g2)) eqn:G, (is_hex_pair (b1, b2)) eqn:B, (is_hex_pair (a1, a2)) eqn:A;
      try discriminate.
    intro H. inversion H. exists (AHex8 (r1, r2) (g1, g2) (b1, b2) (a1, a2)). cbn [wf_color]. rewrite R, G, B, A. repeat split.
Qed.

Lemma rgb_color_sound t0 c : rgb_color t0 = Some c -> color_expr (114 :: 103 :: 98 :: 40 :: t0) c.
Proof.
  unfold rgb_color.
  destruct (dec_component 44 t0) as [[r t1]|] eqn:C1; [|discriminate]. destruct (dec_component 44 t1) as [[g t2]|] eqn:C2; [|discriminate].
  destruct (dec_component 41 t2) as [[b [|x t3]]|] eqn:C3; try discriminate.
  destruct (color_component r) as [r'|] eqn:V1; [|discriminate]. destruct (color_component g) as [g'|] eqn:V2; [|discriminate].
  destruct (color_component b) as [b'|] eqn:V3; [|discriminate]. intro H. inversion H; subst c. clear H.
  apply dec_component_sound in C1 as (cr & Sr & <- & ->), C2 as (cg & Sg & <- & ->), C3 as (cb & Sb & <- & ->).
  apply (fun S => proj2 (wf_comp_iff _ _) (conj S V1)) in Sr as [Wr <-]. apply (fun S => proj2 (wf_comp_iff _ _) (conj S V2)) in Sg as [Wg <-].
  apply (fun S => proj2 (wf_comp_iff _ _) (conj S V3)) in Sb as [Wb <-].
  exists (ARgb cr cg cb). cbn [wf_color]. rewrite Wr, Wg, Wb. repeat split.
Qed.

Lemma rgba_color_sound t0 c : rgba_color t0 = Some c -> color_expr (114 :: 103 :: 98 :: 97 :: 40 :: t0) c.
Proof.
  unfold rgba_color.
  destruct (dec_component_tight 44 t0) as [[r t1]|] eqn:C1; [|discriminate]. destruct (dec_component 44 t1) as [[g t2]|] eqn:C2; [|discriminate].
  destruct (dec_component 44 t2) as [[b t3]|] eqn:C3; [|discriminate]. destruct (dec_component 41 t3) as [[a [|x t4]]|] eqn:C4; try discriminate.
  destruct (color_component r) as [r'|] eqn:V1; [|discriminate]. destruct (color_component g) as [g'|] eqn:V2; [|discriminate].
  destruct (color_component b) as [b'|] eqn:V3; [|discriminate]. destruct (color_component a) as [a'|] eqn:V4; [|discriminate].
  intro H. inversion H; subst c. clear H.
  apply dec_component_tight_sound in C1 as (cr & Sr & Pr & <- & ->).
  apply dec_component_sound in C2 as (cg & Sg & <- & ->), C3 as (cb & Sb & <- & ->), C4 as (ca & Sa & <- & ->).
  apply (fun S => proj2 (wf_comp_iff _ _) (conj S V1)) in Sr as [Wr <-]. apply (fun S => proj2 (wf_comp_iff _ _) (conj S V2)) in Sg as [Wg <-].
  apply (fun S => proj2 (wf_comp_iff _ _) (conj S V3)) in Sb as [Wb <-]. apply (fun S => proj2 (wf_comp_iff _ _) (conj S V4)) in Sa as [Wa <-].
  exists (ARgba cr cg cb ca). cbn [wf_color]. rewrite Wr, Pr, Wg, Wb, Wa. repeat split.
Qed.

Theorem parse_color_sound s c : parse_color s = Some c -> color_expr s c.
Proof.
  unfold parse_color. destruct (assoc_color named_colors (List.map lower s)) as [c0|] eqn:N.
  - intro H. inversion H; subst c0. exists (ANamed s). rewrite <- named_color_model in N. cbn [wf_color denote]. rewrite N. repeat split.
  - destruct (strip_prefix [35] s) as [h|] eqn:P1.
    { apply strip_prefix_app in P1. subst s. apply hex_color_sound. }
    destruct (strip_prefix [114; 103; 98; 40] s) as [t0|] eqn:P2.
    { apply strip_prefix_app in P2. subst s. apply rgb_color_sound. }
    destruct (strip_prefix [114; 103; 98; 97; 40] s) as [t0|] eqn:P3; [|discriminate].
    apply strip_prefix_app in P3. subst s. apply rgba_color_sound.
Qed.

Theorem parse_color_complete s c : color_expr s c -> parse_color s = Some c.
Proof.
  intros (t & W & <- & <-). apply wf_color_inv in W. destruct t as [sp|rr gg bb|rr gg bb aa|r g b|r g b a].
  - destruct W as (c & _ & N & _). cbn [yield denote]. unfold parse_color. rewrite <- named_color_model, N. reflexivity.
  - destruct W as (Wr & Wg & Wb). rewrite parse_hex6, Wr, Wg, Wb. reflexivity.
  - destruct W as (Wr & Wg & Wb & Wa). rewrite parse_hex8, Wr, Wg, Wb, Wa. reflexivity.
  - destruct W as (Wr & Wg & Wb). apply wf_comp_spec in Wr as (Sr & Vr & _), Wg as (Sg & Vg & _), Wb as (Sb & Vb & _).
    rewrite (parse_rgb r g b Sr Sg Sb), Vr, Vg, Vb. reflexivity.
  - destruct W as (Wr & Pr & Wg & Wb & Wa).
    apply wf_comp_spec in Wr as (Sr & Vr & _), Wg as (Sg & Vg & _), Wb as (Sb & Vb & _), Wa as (Sa & Va & _).
    rewrite (parse_rgba r g b a Sr Pr Sg Sb Sa), Vr, Vg, Vb, Va. reflexivity.
Qed.

Theorem parse_color_iff s c : parse_color s = Some c <-> color_expr s c.
Proof. split; [apply parse_color_sound|apply parse_color_complete]. Qed.

(* None is parse_color's ValueError *)
Theorem parse_color_rejects_iff s : parse_color s = None <-> ~ exists c, color_expr s c.
Proof.
  split.
  - intros H [c Hc]. apply parse_color_complete in Hc. congruence.
  - intro H. destruct (parse_color s) as [c|] eqn:E; [|reflexivity]. exfalso. apply H. exists c. apply parse_color_sound. exact E.
Qed.

Theorem color_expr_functional s c c' : color_expr s c -> color_expr s c' -> c = c'.
Proof. intros H H'. apply parse_color_complete in H, H'. congruence. Qed.

Lemma rgba8b_spec c : rgba8b c = true -> rgba8 c.
Proof. destruct c as [[[r g] b] a]. unfold rgba8b, rgba8. lia. Qed.

Theorem color_expr_rgba8 s c : color_expr s c -> rgba8 c.
Proof.
  intros (t & W & _ & <-). apply wf_color_inv in W. destruct t as [sp|rr gg bb|rr gg bb aa|r g b|r g b a]; cbn [denote].
  - destruct W as (c & n & N & Hin & _). rewrite N. apply rgba8b_spec. exact (proj1 (forallb_forall _ _) named_rgba8 _ Hin).
  - destruct W as (Wr & Wg & Wb). apply hex_pair_spec in Wr as [Wr _], Wg as [Wg _], Wb as [Wb _]. unfold rgba8. lia.
  - destruct W as (Wr & Wg & Wb & Wa). apply hex_pair_spec in Wr as [Wr _], Wg as [Wg _], Wb as [Wb _], Wa as [Wa _]. unfold rgba8. lia.
  - destruct W as (Wr & Wg & Wb). apply wf_comp_spec in Wr as (_ & _ & Wr), Wg as (_ & _ & Wg), Wb as (_ & _ & Wb). unfold rgba8. lia.
  - destruct W as (Wr & _ & Wg & Wb & Wa).
    apply wf_comp_spec in Wr as (_ & _ & Wr), Wg as (_ & _ & Wg), Wb as (_ & _ & Wb), Wa as (_ & _ & Wa). unfold rgba8. lia.
Qed.

Theorem parse_color_rgba8 s c : parse_color s = Some c -> rgba8 c.
Proof. intro H. apply (color_expr_rgba8 s). apply parse_color_sound. exact H. Qed.

Theorem color_expr_chars s c : color_expr s c -> forallb plain_char s = true.
Proof.
  intros (t & W & <- & _). apply wf_color_inv in W. destruct t as [sp|rr gg bb|rr gg bb aa|r g b|r g b a]; cbn [yield].
  - destruct W as (c0 & n & _ & Hin & Hs). exact (spells_name_plain n sp (proj1 (forallb_forall _ _) names_lower_case _ Hin) Hs).
  - destruct W as (Wr & Wg & Wb). apply hex_pair_spec in Wr as [_ Wr], Wg as [_ Wg], Wb as [_ Wb]. rewrite !forallb_app, Wr, Wg, Wb. reflexivity.
  - destruct W as (Wr & Wg & Wb & Wa). apply hex_pair_spec in Wr as [_ Wr], Wg as [_ Wg], Wb as [_ Wb], Wa as [_ Wa].
    rewrite !forallb_app, Wr, Wg, Wb, Wa. reflexivity.
  - destruct W as (Wr & Wg & Wb). apply wf_comp_spec in Wr as (Wr & _), Wg as (Wg & _), Wb as (Wb & _).
    rewrite !forallb_app, (comp_plain r Wr), (comp_plain g Wg), (comp_plain b Wb). reflexivity.
  - destruct W as (Wr & _ & Wg & Wb & Wa). apply wf_comp_spec in Wr as (Wr & _), Wg as (Wg & _), Wb as (Wb & _), Wa as (Wa & _).
    rewrite !forallb_app, (comp_plain r Wr), (comp_plain g Wg), (comp_plain b Wb), (comp_plain a Wa). reflexivity.
Qed.

Theorem parse_color_chars s c : parse_color s = Some c -> forallb plain_char s = true.
Proof. intro H. apply (color_expr_chars s c). apply parse_color_sound. exact H. Qed.

Theorem ttml_color_accepted s c : ttml_color s c -> parse_color s = Some c.
Proof. intros (t & W & _ & Y & Dn). apply parse_color_complete. exists t. repeat split; assumption. Qed.

(* Not colours, stated outright although they follow from parse_color_iff: the shapes a laxer reading of the patterns would let
   through.  "#" must be followed by exactly six or eight characters: anything after "#rrggbb" but two more hexadecimal digits, and anything
   after "#rrggbbaa", makes the string no colour *)
Theorem hex_length_rejected h : length h <> 6%nat -> length h <> 8%nat -> parse_color (35 :: h) = None.
Proof.
  intros L6 L8. unfold parse_color. rewrite not_named_hash. cbn [strip_prefix Z.eqb Pos.eqb]. unfold hex_color.
  destruct h as [|r1 [|r2 [|g1 [|g2 [|b1 [|b2 [|a1 [|a2 [|y l]]]]]]]]]; try reflexivity; cbn [length] in *; congruence.
Qed.

Lemma above_255_refused c : comp_shape c = true -> 255 < comp_value c -> color_component (c_digits c) = None.
Proof.
  intros S H. rewrite (color_component_value c S). destruct (max_component_digits <? _); [reflexivity|].
  destruct (255 <? comp_value c) eqn:E; [reflexivity|lia].
Qed.

Theorem rgb_above_255_rejected r g b : comp_shape r = true -> comp_shape g = true -> comp_shape b = true ->
  255 < comp_value r \/ 255 < comp_value g \/ 255 < comp_value b -> parse_color (yield (ARgb r g b)) = None.
Proof.
  intros Sr Sg Sb H. rewrite (parse_rgb r g b Sr Sg Sb).
  destruct H as [H|[H|H]]; [rewrite (above_255_refused r Sr H)|rewrite (above_255_refused g Sg H)|rewrite (above_255_refused b Sb H)];
    repeat (destruct (color_component _)); reflexivity.
Qed.

Theorem rgba_above_255_rejected r g b a : comp_shape r = true -> c_post r = [] -> comp_shape g = true -> comp_shape b = true -> comp_shape a = true ->
  255 < comp_value r \/ 255 < comp_value g \/ 255 < comp_value b \/ 255 < comp_value a -> parse_color (yield (ARgba r g b a)) = None.
Proof.
  intros Sr Pr Sg Sb Sa H. rewrite (parse_rgba r g b a Sr Pr Sg Sb Sa).
  destruct H as [H|[H|[H|H]]];
    [rewrite (above_255_refused r Sr H)|rewrite (above_255_refused g Sg H)|rewrite (above_255_refused b Sb H)|rewrite (above_255_refused a Sa H)];
    repeat (destruct (color_component _)); reflexivity.
Qed.
