(* C04, chained referential styling: StylingElement.from_xml flattens the table of <style> elements with merge_chained (references
   popped from the end of the list, the referenced style flattened first, its entries taken set-if-absent), mutating the table as it
   goes.  This file proves that, for a table whose reference graph has no loop, in ANY declaration order, the dictionary every style
   ends with is its TTML2 resolution [resolve]: its own attributes first, then the resolutions of the styles it references, later
   references first (a reference to a style that is not defined contributes nothing). *)
From TT Require Import Base.Prelude Base.ImscXml Model.ImscStyles Proofs.C04.Styles.
From Coq Require Import Lia.
Local Open Scope Z_scope.

Fixpoint resolve (t : list sty) (fuel : nat) (i : text) (p : Z) : option sv :=
  match fuel with
  | O => None
  | S k =>
      match tbl_get t i with
      | None => None
      | Some s =>
          match dict_get (st_styles s) p with
          | Some x => Some x
          | None => (fix first (l : list text) : option sv :=
                       match l with
                       | [] => None
                       | r :: l' => match resolve t k r p with Some x => Some x | None => first l' end
                       end) (rev (st_refs s))
          end
      end
  end.

(* the inner fix of resolve under a name (resolve_unfold) *)
Fixpoint first_res (t : list sty) (k : nat) (l : list text) (p : Z) : option sv :=
  match l with
  | [] => None
  | r :: l' => match resolve t k r p with Some x => Some x | None => first_res t k l' p end
  end.

Lemma resolve_unfold t k i p :
  resolve t (S k) i p =
  match tbl_get t i with
  | None => None
  | Some s => match dict_get (st_styles s) p with Some x => Some x | None => first_res t k (rev (st_refs s)) p end
  end.
Proof.
  cbn [resolve]. destruct (tbl_get t i) as [s|]; [|reflexivity]. destruct (dict_get (st_styles s) p); [reflexivity|].
  induction (rev (st_refs s)) as [|r l IH]; [reflexivity|]. cbn [first_res]. destruct (resolve t k r p); [reflexivity|exact IH].
Qed.

(* no loop: a rank that strictly decreases along every reference to a defined style *)
Definition ranked (t : list sty) (rank : text -> nat) : Prop :=
  forall j s, tbl_get t j = Some s -> forall r, In r (st_refs s) -> tbl_get t r <> None -> (rank r < rank j)%nat.
Definition acyclic (t : list sty) : Prop := exists rank, ranked t rank.

Lemma tbl_get_id t i s : tbl_get t i = Some s -> st_id s = i.
Proof.
  induction t as [|a t IH]; [discriminate|]. cbn [tbl_get]. destruct (text_eqb (st_id a) i) eqn:E.
  - intro H. inversion H; subst. apply text_eqb_eq. exact E.
  - exact IH.
Qed.


Lemma tbl_get_put_same t i s n : tbl_get t i = Some s -> st_id n = i -> tbl_get (tbl_put t n) i = Some n.
Proof.
  intros H Hn. induction t as [|a t IH]; [discriminate|]. cbn [tbl_get tbl_put] in *. rewrite Hn.
  destruct (text_eqb (st_id a) i) eqn:E.
  - cbn [tbl_get]. rewrite Hn, text_eqb_refl. reflexivity.
  - cbn [tbl_get]. rewrite E. apply IH. exact H.
Qed.

Lemma tbl_get_put_other t n j : st_id n <> j -> tbl_get (tbl_put t n) j = tbl_get t j.
Proof.
  intro Hn. induction t as [|a t IH]; [reflexivity|]. cbn [tbl_put].
  destruct (text_eqb (st_id a) (st_id n)) eqn:E.
  - apply text_eqb_eq in E. cbn [tbl_get]. rewrite E. rewrite (text_eqb_neq _ _ Hn). reflexivity.
  - cbn [tbl_get]. rewrite IH. reflexivity.
Qed.

Lemma ids_put t n : List.map st_id (tbl_put t n) = List.map st_id t.
Proof.
  induction t as [|a t IH]; [reflexivity|]. cbn [tbl_put]. destruct (text_eqb (st_id a) (st_id n)) eqn:E.
  - apply text_eqb_eq in E. cbn [List.map]. rewrite E. reflexivity.
  - cbn [List.map]. rewrite IH. reflexivity.
Qed.

Lemma tbl_get_ids t t' i : List.map st_id t = List.map st_id t' -> tbl_get t i = None -> tbl_get t' i = None.
Proof.
  revert t'. induction t as [|a t IH]; intros [|b t'] H; try discriminate; [reflexivity|].
  cbn [List.map] in H. inversion H as [[H1 H2]]. cbn [tbl_get]. rewrite <- H1.
  destruct (text_eqb (st_id a) i); [discriminate|]. apply IH. exact H2.
Qed.

Fixpoint trefs (t : list sty) : nat := match t with [] => O | s :: t' => (length (st_refs s) + trefs t')%nat end.
Lemma total_refs_trefs t : total_refs t = trefs t.
Proof.
  unfold total_refs.
  assert (G : forall a, fold_left (fun (a : nat) (s : sty) => (a + length (st_refs s))%nat) t a = (a + trefs t)%nat).
  { induction t as [|s t IH]; intro a; cbn [fold_left trefs]; [lia|]. rewrite IH. lia. }
  rewrite G. lia.
Qed.

Lemma trefs_put t i s n : tbl_get t i = Some s -> st_id n = i ->
  (trefs (tbl_put t n) + length (st_refs s) = trefs t + length (st_refs n))%nat.
Proof.
  intros H Hn. induction t as [|a t IH]; [discriminate|]. cbn [tbl_get tbl_put trefs] in *. rewrite Hn.
  destruct (text_eqb (st_id a) i) eqn:E.
  - inversion H; subst a. cbn [trefs]. lia.
  - cbn [trefs]. specialize (IH H). lia.
Qed.

Lemma setdefault_get src : forall d p,
  dict_get (setdefault_all src d) p = match dict_get d p with Some x => Some x | None => dict_get src p end.
Proof.
  induction src as [|[k x] s IH]; intros d p; cbn [setdefault_all].
  - destruct (dict_get d p); reflexivity.
  - rewrite IH. cbn [dict_get]. destruct (dict_has d k) eqn:Eh.
    + destruct (dict_get d p) eqn:Eg; [reflexivity|]. destruct (k =? p) eqn:E; [|reflexivity].
      apply Z.eqb_eq in E. subst k. rewrite dict_has_get, Eg in Eh. discriminate.
    + rewrite dict_get_app. cbn [dict_get]. destruct (dict_get d p); [reflexivity|]. destruct (k =? p); reflexivity.
Qed.

Lemma resolve_missing t f i p : tbl_get t i = None -> resolve t f i p = None.
Proof. intro H. destruct f; [reflexivity|]. rewrite resolve_unfold, H. reflexivity. Qed.

Lemma first_res_app t k a b p : first_res t k (a ++ b) p = match first_res t k a p with Some x => Some x | None => first_res t k b p end.
Proof. induction a as [|r a IH]; [reflexivity|]. cbn [app first_res]. destruct (resolve t k r p); [reflexivity|exact IH]. Qed.

Lemma first_res_ext t u k k' l p : (forall r, In r l -> resolve t k r p = resolve u k' r p) -> first_res t k l p = first_res u k' l p.
Proof.
  induction l as [|r l IH]; intro H; [reflexivity|]. cbn [first_res]. rewrite (H r (or_introl eq_refl)).
  destruct (resolve u k' r p); [reflexivity|]. apply IH. intros r' Hr'. apply H. right. exact Hr'.
Qed.

Section Flatten.
  Variable t0 : list sty.                 (* the table as StylingElement.from_xml has collected it *)
  Variable rank : text -> nat.
  Hypothesis Hrank : ranked t0 rank.

  Lemma resolve_fuel : forall f f' i p, (rank i < f)%nat -> (rank i < f')%nat -> resolve t0 f i p = resolve t0 f' i p.
  Proof.
    induction f as [|k IH]; intros f' i p H1 H2; [lia|]. destruct f' as [|k']; [lia|].
    rewrite !resolve_unfold. destruct (tbl_get t0 i) as [s|] eqn:E; [|reflexivity].
    destruct (dict_get (st_styles s) p); [reflexivity|].
    apply first_res_ext. intros r Hr. apply in_rev in Hr. destruct (tbl_get t0 r) as [sr|] eqn:Er.
    - assert (rank r < rank i)%nat by (apply (Hrank i s E r Hr); rewrite Er; discriminate). apply IH; lia.
    - rewrite !resolve_missing by assumption. reflexivity.
  Qed.

  Variable F : nat.                       (* fuel of the resolution: above every rank *)
  Hypothesis HF : forall j s, tbl_get t0 j = Some s -> (rank j < F)%nat.

  Lemma resolve_defined i s p : tbl_get t0 i = Some s ->
    resolve t0 F i p = match dict_get (st_styles s) p with Some x => Some x | None => first_res t0 F (rev (st_refs s)) p end.
  Proof.
    intro E. pose proof (HF i s E) as Hi. destruct F as [|k] eqn:EF; [lia|]. rewrite resolve_unfold, E.
    destruct (dict_get (st_styles s) p); [reflexivity|].
    apply first_res_ext. intros r Hr. apply in_rev in Hr. destruct (tbl_get t0 r) as [sr|] eqn:Er.
    - assert (rank r < rank i)%nat by (apply (Hrank i s E r Hr); rewrite Er; discriminate). apply resolve_fuel; lia.
    - rewrite !resolve_missing by assumption. reflexivity.
  Qed.

  (* invariant of an entry of the table being flattened: its references are those of the original minus the ones popped so far, and
     its dictionary is the original one followed by the resolutions of the popped references, in the order they were popped *)
  Definition entry_ok (t : list sty) (j : text) : Prop :=
    forall s, tbl_get t j = Some s ->
      exists s0 popped, tbl_get t0 j = Some s0 /\ st_refs s0 = st_refs s ++ rev popped /\
        forall p, dict_get (st_styles s) p = match dict_get (st_styles s0) p with Some x => Some x | None => first_res t0 F popped p end.

  Definition same_ids (t : list sty) : Prop := List.map st_id t = List.map st_id t0.

  Lemma entry_ok_same t t' j : tbl_get t' j = tbl_get t j -> entry_ok t j -> entry_ok t' j.
  Proof. intros H Hok s Hs. rewrite H in Hs. exact (Hok s Hs). Qed.

  Lemma entry_done t j s p : entry_ok t j -> tbl_get t j = Some s -> st_refs s = [] -> dict_get (st_styles s) p = resolve t0 F j p.
  Proof.
    intros Hok Hs Hr. destruct (Hok s Hs) as [s0 [popped [H0 [Hrefs Hget]]]]. rewrite Hget, (resolve_defined j s0 p H0).
    rewrite Hr in Hrefs. cbn [app] in Hrefs. rewrite Hrefs, rev_involutive. reflexivity.
  Qed.

  (* flattening i takes its references one at a time.  After one of them is taken - the table is then [tX], which differs from [t] at
     i and, where the referenced style had to be flattened first, below the rank of i - the rest of the work is a flattening of i in
     [tX]; what it establishes for [tX] it establishes for [t]. *)
  Definition mc_post (t : list sty) (i : text) (t' : list sty) : Prop :=
    same_ids t' /\ (trefs t' <= trefs t)%nat /\
    (forall j, entry_ok t j -> entry_ok t' j) /\
    (forall j, j <> i -> (rank i <= rank j)%nat -> tbl_get t' j = tbl_get t j) /\
    (forall j s, tbl_get t j = Some s -> st_refs s = [] -> tbl_get t' j = Some s) /\
    (forall s, tbl_get t' i = Some s -> st_refs s = []).

  Lemma mc_extend t i s tX t' : tbl_get t i = Some s -> st_refs s <> [] ->
    (trefs tX <= trefs t)%nat -> entry_ok tX i ->
    (forall j, j <> i -> entry_ok t j -> entry_ok tX j) ->
    (forall j, j <> i -> (rank i <= rank j)%nat -> tbl_get tX j = tbl_get t j) ->
    (forall j sj, j <> i -> tbl_get t j = Some sj -> st_refs sj = [] -> tbl_get tX j = Some sj) ->
    mc_post tX i t' -> mc_post t i t'.
  Proof.
    intros Ei Hne Htr Hi Hok Hframe Hkeep (Hids' & Htr' & Hok' & Hframe' & Hkeep' & Hdone').
    repeat split.
    - exact Hids'.
    - exact (Nat.le_trans _ _ _ Htr' Htr).
    - intros j Hj. apply Hok'. destruct (list_eq_dec Z.eq_dec j i) as [->|Hn]; [exact Hi|exact (Hok j Hn Hj)].
    - intros j Hn Hj. rewrite (Hframe' j Hn Hj). exact (Hframe j Hn Hj).
    - intros j sj Hsj Hnil. apply Hkeep'; [|exact Hnil]. apply Hkeep; [|exact Hsj|exact Hnil].
      intros ->. rewrite Ei in Hsj. inversion Hsj; subst. contradiction.
    - exact Hdone'.
  Qed.

  Lemma mc_ok : forall fuel t i, same_ids t -> (trefs t < fuel)%nat -> (forall j, (rank j <= rank i)%nat -> entry_ok t j) ->
    let t' := merge_chained fuel t i in
    same_ids t' /\ (trefs t' <= trefs t)%nat /\
    (forall j, entry_ok t j -> entry_ok t' j) /\
    (forall j, j <> i -> (rank i <= rank j)%nat -> tbl_get t' j = tbl_get t j) /\
    (forall j s, tbl_get t j = Some s -> st_refs s = [] -> tbl_get t' j = Some s) /\
    (forall s, tbl_get t' i = Some s -> st_refs s = []).
  Proof.
    induction fuel as [|k IH]; intros t i Hids Hfuel Hlow; [lia|].
    cbn [merge_chained]. cbv zeta.
    destruct (tbl_get t i) as [s|] eqn:Ei.
    2:{ repeat split; auto. intros s Hs. rewrite Ei in Hs. discriminate. }
    destruct (rev (st_refs s)) as [|r rest] eqn:Erev; apply (f_equal (@rev _)) in Erev; rewrite rev_involutive in Erev; cbn [rev] in Erev.
    { repeat split; auto. intros s' Hs'. rewrite Ei in Hs'. inversion Hs'; subst. exact Erev. }
    assert (Hne : st_refs s <> []) by (rewrite Erev; destruct (rev rest); discriminate).
    (* the entry of i in the original table: r is one of its references *)
    destruct (Hlow i (Nat.le_refl _) s Ei) as (s0 & popped & H0 & Hr0 & Hget0).
    assert (Hr_in : In r (st_refs s0)). { rewrite Hr0, Erev. apply in_or_app. left. apply in_or_app. right. left. reflexivity. }
    assert (Hr0' : st_refs s0 = rev rest ++ rev (popped ++ [r])).
    { rewrite Hr0, Erev, rev_app_distr. cbn [rev app]. rewrite <- app_assoc. reflexivity. }
    (* r is popped: t1 *)
    set (n1 := mkSty i (st_styles s) (rev rest)).
    set (t1 := tbl_put t n1).
    assert (Hids1 : same_ids t1) by (unfold same_ids, t1; rewrite ids_put; exact Hids).
    assert (Hget1_i : tbl_get t1 i = Some n1) by (apply (tbl_get_put_same t i s n1 Ei); reflexivity).
    assert (Hget1_o : forall j, j <> i -> tbl_get t1 j = tbl_get t j).
    { intros j Hj. apply tbl_get_put_other. cbn [n1 st_id]. congruence. }
    assert (Htr1 : (trefs t1 + 1 = trefs t)%nat).
    { pose proof (trefs_put t i s n1 Ei eq_refl) as Hp. cbn [n1 st_refs] in Hp. fold t1 in Hp.
      rewrite Erev, app_length, !rev_length in Hp. cbn [length] in Hp. clear - Hp. lia. }
    assert (Hok1 : forall j, j <> i -> entry_ok t j -> entry_ok t1 j) by (intros j Hn; apply entry_ok_same, Hget1_o, Hn).
    destruct (tbl_get t1 r) as [sr1|] eqn:Er1.
    - (* r is defined: flatten it first; it has a smaller rank than i *)
      assert (Hrk : (rank r < rank i)%nat).
      { apply (Hrank i s0 H0 r Hr_in). intro Hn. apply (tbl_get_ids t0 t1 r) in Hn; [congruence|]. symmetry. exact Hids1. }
      assert (Hbelow : forall j, (rank j <= rank r)%nat -> j <> i) by (intros j Hj ->; clear - Hrk Hj; lia).
      assert (Hlow1 : forall j, (rank j <= rank r)%nat -> entry_ok t1 j).
      { intros j Hj. apply (Hok1 j (Hbelow j Hj)), Hlow. clear - Hrk Hj. lia. }
      destruct (IH t1 r Hids1 ltac:(clear - Hfuel Htr1; lia) Hlow1) as (Hids2 & Htr2 & Hok2 & Hframe2 & Hkeep2 & Hdone2).
      set (t2 := merge_chained k t1 r) in *.
      assert (Hget2_i : tbl_get t2 i = Some n1).
      { rewrite (Hframe2 i (not_eq_sym (Hbelow r (Nat.le_refl _))) (Nat.lt_le_incl _ _ Hrk)). exact Hget1_i. }
      destruct (tbl_get t2 r) as [rs|] eqn:Er2.
      2:{ exfalso. apply (tbl_get_ids t2 t1 r) in Er2; [congruence|]. rewrite Hids2. symmetry. exact Hids1. }
      rewrite Hget2_i.
      (* the styles of r, now flattened, are merged into i: t3 *)
      set (n3 := mkSty i (setdefault_all (st_styles rs) (st_styles n1)) (st_refs n1)).
      set (t3 := tbl_put t2 n3).
      assert (Hids3 : same_ids t3) by (unfold same_ids, t3; rewrite ids_put; exact Hids2).
      assert (Hget3_i : tbl_get t3 i = Some n3) by (apply (tbl_get_put_same t2 i n1 n3 Hget2_i); reflexivity).
      assert (Hget3_o : forall j, j <> i -> tbl_get t3 j = tbl_get t2 j).
      { intros j Hj. apply tbl_get_put_other. cbn [n3 st_id]. congruence. }
      assert (Htr3 : (trefs t3 <= trefs t1)%nat).
      { pose proof (trefs_put t2 i n1 n3 Hget2_i eq_refl) as Hp. fold t3 in Hp. cbn [n3 st_refs] in Hp. clear - Hp Htr2. lia. }
      assert (Hres_r : forall p, dict_get (st_styles rs) p = resolve t0 F r p).
      { intro p. apply (entry_done t2 r rs p); [apply Hok2, Hlow1, Nat.le_refl|exact Er2|exact (Hdone2 rs eq_refl)]. }
      assert (Hok3_i : entry_ok t3 i).
      { intros s3 Hs3. rewrite Hget3_i in Hs3. inversion Hs3; subst s3. exists s0, (popped ++ [r]).
        split; [exact H0|]. split; [exact Hr0'|].
        intro p. cbn [n3 n1 st_styles]. rewrite setdefault_get, Hget0, first_res_app. cbn [first_res]. rewrite Hres_r.
        destruct (dict_get (st_styles s0) p); [reflexivity|]. destruct (first_res t0 F popped p); [reflexivity|].
        destruct (resolve t0 F r p); reflexivity. }
      assert (Hok3 : forall j, j <> i -> entry_ok t j -> entry_ok t3 j).
      { intros j Hn Hj. apply (entry_ok_same t2 t3 j (Hget3_o j Hn)), Hok2, (Hok1 j Hn), Hj. }
      apply (mc_extend t i s t3 _ Ei Hne); [clear - Htr1 Htr3; lia|exact Hok3_i|exact Hok3| | |].
      + intros j Hn Hj. rewrite (Hget3_o j Hn), Hframe2; [exact (Hget1_o j Hn)|intros ->|]; clear - Hrk Hj; lia.
      + intros j sj Hn Hsj Hnil. rewrite (Hget3_o j Hn). apply Hkeep2; [|exact Hnil]. rewrite (Hget1_o j Hn). exact Hsj.
      + apply (IH t3 i Hids3); [clear - Hfuel Htr1 Htr3; lia|].
        intros j Hj. destruct (list_eq_dec Z.eq_dec j i) as [->|Hn]; [exact Hok3_i|exact (Hok3 j Hn (Hlow j Hj))].
    - (* r is not defined: the reference is dropped ("Style id not present") *)
      assert (Hok1_i : entry_ok t1 i).
      { intros s1 Hs1. rewrite Hget1_i in Hs1. inversion Hs1; subst s1. exists s0, (popped ++ [r]).
        split; [exact H0|]. split; [exact Hr0'|].
        intro p. cbn [n1 st_styles]. rewrite Hget0, first_res_app. cbn [first_res].
        rewrite (resolve_missing t0 F r p (tbl_get_ids t1 t0 r Hids1 Er1)).
        destruct (dict_get (st_styles s0) p); [reflexivity|]. destruct (first_res t0 F popped p); reflexivity. }
      apply (mc_extend t i s t1 _ Ei Hne); [clear - Htr1; lia|exact Hok1_i|exact Hok1|intros j Hn _; exact (Hget1_o j Hn)| |].
      + intros j sj Hn Hsj _. rewrite (Hget1_o j Hn). exact Hsj.
      + apply (IH t1 i Hids1); [clear - Hfuel Htr1; lia|].
        intros j Hj. destruct (list_eq_dec Z.eq_dec j i) as [->|Hn]; [exact Hok1_i|exact (Hok1 j Hn (Hlow j Hj))].
  Qed.
End Flatten.

Lemma tbl_get_in t i s : tbl_get t i = Some s -> In i (List.map st_id t).
Proof.
  induction t as [|a t IH]; [discriminate|]. cbn [tbl_get List.map]. destruct (text_eqb (st_id a) i) eqn:E.
  - intros _. left. apply text_eqb_eq. exact E.
  - intro H. right. exact (IH H).
Qed.

Definition step (acc : list sty) (s : sty) : list sty := merge_chained (S (2 * total_refs acc + length acc)) acc (st_id s).
Lemma flatten_fold t : flatten t = fold_left step t t.
Proof. reflexivity. Qed.

(* a rank below the size of the table: every loop-free reference graph has one (number the styles along a topological order) *)
Definition acyclic_ranked (t : list sty) (rank : text -> nat) : Prop :=
  ranked t rank /\ forall j s, tbl_get t j = Some s -> (rank j < length t)%nat.

Theorem flatten_resolves t rank : acyclic_ranked t rank ->
  forall i s, tbl_get (flatten t) i = Some s -> st_refs s = [] /\ forall p, dict_get (st_styles s) p = resolve t (length t) i p.
Proof.
  intros [Hrank HF].
  set (ok := fun acc => same_ids t acc /\ forall j, entry_ok t (length t) acc j).
  assert (Hfold : forall l acc visited, ok acc ->
            (forall j s, In j visited -> tbl_get acc j = Some s -> st_refs s = []) ->
            ok (fold_left step l acc) /\
            (forall j s, In j visited \/ In j (List.map st_id l) -> tbl_get (fold_left step l acc) j = Some s -> st_refs s = [])).
  { induction l as [|a l IH]; intros acc visited [Hids Hok] Hvis.
    - split; [split; assumption|]. intros j s [Hj|[]]. apply Hvis. exact Hj.
    - cbn [fold_left List.map].
      assert (Hfuel : (trefs acc < S (2 * total_refs acc + length acc))%nat) by (rewrite total_refs_trefs; lia).
      destruct (mc_ok t rank Hrank (length t) HF _ acc (st_id a) Hids Hfuel (fun j _ => Hok j)) as [Hids' [_ [Hok' [_ [Hkeep Hdone]]]]].
      fold (step acc a) in *.
      destruct (IH (step acc a) (st_id a :: visited)) as [Hokf Hvisf].
      + split; [exact Hids'|]. intro j. apply Hok'. apply Hok.
      + intros j s [<-|Hj] Hs; [exact (Hdone s Hs)|].
        (* an entry without references is not touched any more *)
        destruct (tbl_get acc j) as [sj|] eqn:Ej.
        * pose proof (Hvis j sj Hj Ej) as Hnil. rewrite (Hkeep j sj Ej Hnil) in Hs. inversion Hs; subst. exact Hnil.
        * exfalso. apply (tbl_get_ids acc (step acc a) j) in Ej; [congruence|]. rewrite Hids'. exact Hids.
      + split; [exact Hokf|]. intros j s Hj Hs. apply (Hvisf j s); [|exact Hs].
        destruct Hj as [Hj|[Hj|Hj]]; [left; right; exact Hj|left; left; exact Hj|right; exact Hj]. }
  assert (Hinit : ok t).
  { split; [reflexivity|]. intros j s Hs. exists s, []. split; [exact Hs|]. split; [cbn [rev]; rewrite app_nil_r; reflexivity|].
    intro p. cbn [first_res]. destruct (dict_get (st_styles s) p); reflexivity. }
  destruct (Hfold t t [] Hinit ltac:(intros j s [])) as [[Hids Hok] Hall].
  intros i s Hs. rewrite flatten_fold in Hs.
  assert (Hnil : st_refs s = []).
  { apply (Hall i s); [|exact Hs]. right. rewrite <- Hids. eapply tbl_get_in. exact Hs. }
  split; [exact Hnil|]. intro p. apply (entry_done t rank Hrank (length t) HF _ i s p (Hok i) Hs Hnil).
Qed.

(* the order in which the styles are declared does not matter: the result for a style is a function of the reference graph *)
Corollary flatten_order_independent t u rank : acyclic_ranked t rank -> acyclic_ranked u rank ->
  (forall j, tbl_get t j = tbl_get u j) -> length t = length u ->
  forall i s s' p, tbl_get (flatten t) i = Some s -> tbl_get (flatten u) i = Some s' -> dict_get (st_styles s) p = dict_get (st_styles s') p.
Proof.
  intros Ht Hu Hsame Hlen i s s' p Hs Hs'.
  destruct (flatten_resolves t rank Ht i s Hs) as [_ H1]. destruct (flatten_resolves u rank Hu i s' Hs') as [_ H2].
  rewrite H1, H2, Hlen.
  assert (G : forall f j, resolve t f j p = resolve u f j p).
  { induction f as [|k IH]; intro j; [reflexivity|]. rewrite !resolve_unfold, Hsame. destruct (tbl_get u j) as [sj|]; [|reflexivity].
    destruct (dict_get (st_styles sj) p); [reflexivity|]. apply first_res_ext. intros r _. apply IH. }
  apply G.
Qed.

(* non-vacuity: c is declared first and references b, which is declared after it and references a (declared last); a and b both
   give property 1, the nearer b wins; property 2 comes from a through two steps *)
Example flatten_example :
  let ta := mkSty [97] [(1, SO 10); (2, SO 20)] [] in
  let tb := mkSty [98] [(1, SO 11)] [[97]] in
  let tc := mkSty [99] [(3, SO 30)] [[98]] in
  let t := [tc; tb; ta] in
  acyclic_ranked t (fun i => match i with [97] => O | [98] => 1%nat | _ => 2%nat end) /\
  match tbl_get (flatten t) [99] with
  | Some s => (dict_get (st_styles s) 1, dict_get (st_styles s) 2, dict_get (st_styles s) 3) = (Some (SO 11), Some (SO 20), Some (SO 30))
  | None => False
  end.
Proof.
  cbv zeta. split; [|vm_compute; reflexivity].
  split.
  - intros j s Hj r Hr Hdef. cbn [tbl_get st_id] in Hj.
    destruct (text_eqb [99] j) eqn:E1.
    { apply text_eqb_eq in E1. subst j. inversion Hj; subst s. cbn [st_refs] in Hr. destruct Hr as [<-|[]]. cbn. lia. }
    destruct (text_eqb [98] j) eqn:E2.
    { apply text_eqb_eq in E2. subst j. inversion Hj; subst s. cbn [st_refs] in Hr. destruct Hr as [<-|[]]. cbn. lia. }
    destruct (text_eqb [97] j) eqn:E3; [|discriminate].
    inversion Hj; subst s. destruct Hr.
  - intros j s Hj. cbn [tbl_get st_id length] in *.
    destruct (text_eqb [99] j) eqn:E1; [apply text_eqb_eq in E1; subst j; cbn; lia|].
    destruct (text_eqb [98] j) eqn:E2; [apply text_eqb_eq in E2; subst j; cbn; lia|].
    destruct (text_eqb [97] j) eqn:E3; [apply text_eqb_eq in E3; subst j; cbn; lia|discriminate].
Qed.
