(* C04, totality of the reader model: no Python exception leaves process, in any context that has a syncbase and with non-zero
   frame and tick rates; the document parameters the reader extracts are never zero; hence every <tt> tree is read
   (read_tt always returns a document). *)
From TT Require Import Base.Prelude Base.ImscXml Model.ImscTime Model.ImscStyles Model.ImscTiming Spec.TtmlTimingSpec Proofs.C04.TimeSyntax Proofs.C04.Interval.
From Coq Require Import QArith Qminmax Lqa.
Local Open Scope Z_scope.

Definition rates_ok (ev : env) : Prop := (0 < e_tr ev)%Q /\ (0 < e_fr ev)%Q.

Lemma read_time_some ev raw : rates_ok ev -> read_time ev raw <> None.
Proof.
  intros [H1 H2]. unfold read_time. destruct raw as [s|]; [|discriminate].
  pose proof (parse_no_zero_div _ _ s (Qeq_bool_pos_false _ H1) (Qeq_bool_pos_false _ H2)) as Hn.
  destruct (parse_time_x (Some (e_tr ev)) (Some (e_fr ev)) s); try discriminate. contradiction.
Qed.

Definition total_at (ev : env) (x : xml) : Prop :=
  forall pc, implicit_begin pc <> None -> forall e, process ev pc x <> PErr e.

(* the children loop enters a child of a sequential container only while the end of the previous child is known *)
Lemma loop_total ev k par db pr lg l : Forall (total_at ev) l ->
  forall iend send kids anims pf nst e,
    children_loop (process ev) (e_to_model ev) (e_valid ev) k par db pr lg l iend send kids anims pf nst <> LErr e.
Proof.
  induction 1 as [|c l Hc Hl IH]; intros iend send kids anims pf nst e; [discriminate|]. rewrite loop_cons.
  destruct (ekind_eqb k KRegion && is_style_elem c); [apply IH|].
  destruct (negb par && onone send) eqn:Ebr; [apply IH|]. destruct (ekind_eqb k KSet); [discriminate|].
  destruct (process ev (mkPctx par send pr lg _) c) as [e'| |r] eqn:Ep; [|apply IH..].
  exfalso. eapply Hc; [|exact Ep]. unfold implicit_begin. cbn [pc_par pc_seq_end]. destruct par, send; discriminate.
Qed.

Theorem process_total ev x : rates_ok ev -> total_at ev x.
Proof.
  intro Hr. induction x as [tag attrs txt tail cs IHcs] using xml_ind'.
  intros pc Hib e H. rewrite process_eq in H.
  pose proof (enter_inv ev pc tag attrs) as E. destruct (enter ev pc tag attrs) as [p|f].
  - rewrite H in E. destruct E as [[_ E]|[_ [E|[E|E]]]]; [exact (Hib E)|exact (read_time_some ev _ Hr E)..].
  - cbv zeta in H. destruct (children_loop _ _ _ _ _ _ _ _ _ _ _ _ _ _ _) as [iF kF aF pF nF|e'] eqn:El.
    + edestruct (leave_done ev pc attrs f) as (r & Hr' & _). rewrite Hr' in H. discriminate.
    + exact (loop_total ev _ _ _ _ _ cs IHcs _ _ _ _ _ _ _ El).
Qed.

Lemma pos_digits_pos s n : pos_digits s = Some n -> 0 < n.
Proof.
  unfold pos_digits. destruct (span_digits s) as [d r]. destruct d; [discriminate|]. destruct r; [|discriminate].
  destruct (0 <? digits_val 0 (z :: d)) eqn:E; [|discriminate]. intro H. inversion H; subst. apply Z.ltb_lt in E. exact E.
Qed.

Lemma inject_pos n : 0 < n -> (0 < inject_Z n)%Q.
Proof. intro H. unfold Qlt, inject_Z. simpl. lia. Qed.

Lemma frame_rate_positive attrs : (0 < extract_frame_rate attrs)%Q.
Proof.
  unfold extract_frame_rate.
  assert (Hfr : (0 < match frame_rate_attr attrs with Some n => inject_Z n | None => inject_Z 30 end)%Q).
  { unfold frame_rate_attr. destruct (get_attr attrs A_frameRate) as [raw|]; [|reflexivity].
    destruct (pos_digits raw) as [n|] eqn:E; [|reflexivity]. apply inject_pos. eapply pos_digits_pos; eassumption. }
  set (fr := match frame_rate_attr attrs with Some n => inject_Z n | None => inject_Z 30 end) in *.
  assert (H1 : (0 < fr * 1)%Q) by lra.
  destruct (get_attr attrs A_frameRateMultiplier) as [raw|]; [|exact H1].
  destruct (int_pair raw) as [[a b]|]; [|exact H1].
  destruct ((0 <? a) && (0 <? b)) eqn:E; [|exact H1].
  apply andb_true_iff in E as [Ea Eb].
  assert (Hq : (0 < inject_Z a / inject_Z b)%Q).
  { apply Qlt_shift_div_l; [apply inject_pos; lia|]. rewrite Qmult_0_l. apply inject_pos. lia. }
  apply Qmult_lt_0_compat; assumption.
Qed.

Lemma tick_rate_positive attrs : (0 < extract_tick_rate attrs)%Q.
Proof.
  unfold extract_tick_rate.
  destruct (match get_attr attrs A_tickRate with Some raw => pos_digits raw | None => None end) as [n|] eqn:E.
  - destruct (get_attr attrs A_tickRate) as [raw|]; [|discriminate]. apply inject_pos. eapply pos_digits_pos; eassumption.
  - destruct (frame_rate_attr attrs); [apply frame_rate_positive|reflexivity].
Qed.

Lemma read_layout_total ev preserve lang l : rates_ok ev -> forall acc e, read_layout ev preserve lang l acc <> inr e.
Proof.
  intro Hr. induction l as [|c l IH]; intros acc e; cbn [read_layout]; [discriminate|].
  destruct (qname_eqb (x_tag c) T_region); [|apply IH].
  destruct (process ev (mkPctx true (Some 0%Q) preserve lang true) c) as [e'| |r] eqn:Ep.
  - exfalso. eapply (process_total ev c Hr); [|exact Ep]. discriminate.
  - apply IH.
  - destruct (r_node r); apply IH.
Qed.

Lemma read_head_total tr fr tm vl preserve lang l : (0 < tr)%Q -> (0 < fr)%Q -> forall h e, read_head tr fr tm vl preserve lang l h <> inr e.
Proof.
  intros Ht Hf. induction l as [|c l IH]; intros h e; cbn [read_head]; [discriminate|].
  destruct (qname_eqb (x_tag c) T_layout).
  - destruct (h_layout h); [apply IH|].
    match goal with |- context [read_layout ?ev ?a ?b ?c0 ?d] =>
      pose proof (read_layout_total ev a b c0 (conj Ht Hf) d) as Hl; destruct (read_layout ev a b c0 d) as [rs|e'] end.
    + apply IH.
    + exfalso. eapply Hl. reflexivity.
  - destruct (qname_eqb (x_tag c) T_styling); [|apply IH].
    destruct (h_styling h); [apply IH|].
    destruct (read_styling tm vl (x_children c) (h_styles h) (h_initials h)). apply IH.
Qed.

Lemma read_tt_children_total tr fr tm vl preserve lang l : (0 < tr)%Q -> (0 < fr)%Q ->
  forall hb hh h body, exists d, read_tt_children tr fr tm vl preserve lang l hb hh h body = DOk d.
Proof.
  intros Ht Hf. induction l as [|c l IH]; intros hb hh h body; cbn [read_tt_children]; [eexists; reflexivity|].
  destruct (qname_eqb (x_tag c) T_body).
  - destruct hb; [apply IH|].
    match goal with |- context [process ?ev ?pc c] =>
      pose proof (process_total ev c (conj Ht Hf) pc) as Hp; destruct (process ev pc c) as [e'| |r] eqn:Ep end.
    + exfalso. eapply Hp; [|reflexivity]. discriminate.
    + apply IH.
    + apply IH.
  - destruct (qname_eqb (x_tag c) T_head); [|apply IH].
    destruct hh; [apply IH|].
    match goal with |- context [read_head ?a ?b ?c0 ?d ?e0 ?f ?g ?i] =>
      pose proof (read_head_total a b c0 d e0 f g Ht Hf i) as Hh; destruct (read_head a b c0 d e0 f g i) as [h'|e'] end.
    + apply IH.
    + exfalso. eapply Hh. reflexivity.
Qed.

Theorem read_tt_total tm vl x : exists d, read_tt tm vl x = DOk d.
Proof. unfold read_tt. apply read_tt_children_total; [apply tick_rate_positive|apply frame_rate_positive]. Qed.
