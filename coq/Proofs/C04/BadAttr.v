(* C04, "malformed attributes are ignored": an attribute whose value the reader rejects (ValueError, logged) leaves exactly the
   result of the same element without the attribute, in every parsing context.  Six kinds: begin / dur / end, xml:space,
   timeContainer, a style attribute on a content element, tts:ruby, and an attribute or value inside a <style> element. *)
From TT Require Import Base.Prelude Base.ImscXml Model.ImscTime Model.ImscStyles Model.ImscTiming Proofs.C04.Interval.
From Coq Require Import QArith.
Local Open Scope Z_scope.

Lemma get_remove_other attrs a q : qname_eqb a q = false -> get_attr (remove_attr attrs a) q = get_attr attrs q.
Proof.
  intro H. induction attrs as [|[k v] l IH]; [reflexivity|]. cbn [remove_attr get_attr].
  destruct (qname_eqb k a) eqn:E.
  - apply qname_eqb_eq in E. subst k. rewrite H. exact IH.
  - cbn [get_attr]. destruct (qname_eqb k q); [reflexivity|exact IH].
Qed.

Lemma get_remove_same attrs a : get_attr (remove_attr attrs a) a = None.
Proof.
  induction attrs as [|[k v] l IH]; [reflexivity|]. cbn [remove_attr].
  destruct (qname_eqb k a) eqn:E; [exact IH|]. cbn [get_attr]. rewrite E. exact IH.
Qed.

Section NotStyle.
  Variable tm : qname -> text -> option (Z * sv).
  Variable vl : Z -> sv -> bool.
  Variable a : qname.
  Hypothesis Hns : forall v, tm a v = None.      (* a is not a style attribute *)

  Lemma apply_specified_remove attrs : forall d, apply_specified tm vl (remove_attr attrs a) d = apply_specified tm vl attrs d.
  Proof.
    induction attrs as [|[k v] l IH]; intro d; [reflexivity|]. cbn [remove_attr apply_specified].
    destruct (qname_eqb k a) eqn:E.
    - apply qname_eqb_eq in E. subst k. rewrite Hns. apply IH.
    - cbn [apply_specified]. apply IH.
  Qed.

  Lemma first_animated_remove attrs : first_animated tm vl (remove_attr attrs a) = first_animated tm vl attrs.
  Proof.
    induction attrs as [|[k v] l IH]; [reflexivity|]. cbn [remove_attr first_animated].
    destruct (qname_eqb k a) eqn:E.
    - apply qname_eqb_eq in E. subst k. rewrite Hns. exact IH.
    - cbn [first_animated]. rewrite IH. reflexivity.
  Qed.
End NotStyle.

(* process reads the attribute list only through these look-ups *)
Lemma process_same_lookups ev pc tag attrs attrs' txt tail cs :
  (forall q, In q [A_id; A_lang; A_region; A_style] -> get_attr attrs' q = get_attr attrs q) ->
  classify tag attrs' = classify tag attrs ->
  (forall p, read_space attrs' p = read_space attrs p) ->
  read_par attrs' = read_par attrs ->
  (forall q, In q [A_begin; A_dur; A_end] -> read_time ev (get_attr attrs' q) = read_time ev (get_attr attrs q)) ->
  (forall d, apply_specified (e_to_model ev) (e_valid ev) attrs' d = apply_specified (e_to_model ev) (e_valid ev) attrs d) ->
  first_animated (e_to_model ev) (e_valid ev) attrs' = first_animated (e_to_model ev) (e_valid ev) attrs ->
  process ev pc (X tag attrs txt tail cs) = process ev pc (X tag attrs' txt tail cs).
Proof.
  intros Hraw Hcls Hspace Hpar Htime Has Hfa. rewrite !process_eq.
  assert (He : enter ev pc tag attrs' = enter ev pc tag attrs).
  { unfold enter. rewrite Hcls, (Hraw A_id), (Htime A_begin), (Htime A_dur), (Htime A_end) by (cbn [In]; tauto). reflexivity. }
  rewrite He. destruct (enter ev pc tag attrs) as [p|f]; [reflexivity|]. cbv zeta.
  unfold read_lang. rewrite Hpar, !Hspace, (Hraw A_lang) by (cbn [In]; tauto).
  destruct (children_loop _ _ _ _ _ _ _ _ _ _ _ _ _ _ _); [|reflexivity].
  cbn [leave]. unfold read_region, style_refs. rewrite Hfa, (Hraw A_id), (Hraw A_region), (Hraw A_style) by (cbn [In]; tauto).
  destruct (if k_has_children _ then _ else _) as [pushed []]; [|reflexivity]. cbn [negb]. rewrite Has. reflexivity.
Qed.

(* hence an attribute that is no style attribute can be removed when each reader that looks at it reads the same without it; the
   language, the region, the style references and the identifier are read as they stand *)
Theorem removed_attr_ignored ev pc tag attrs txt tail cs a :
  (forall v, e_to_model ev a v = None) ->
  forallb (fun q => negb (qname_eqb a q)) [A_id; A_lang; A_region; A_style] = true ->
  classify tag (remove_attr attrs a) = classify tag attrs ->
  (forall p, read_space (remove_attr attrs a) p = read_space attrs p) ->
  read_par (remove_attr attrs a) = read_par attrs ->
  (forall q, In q [A_begin; A_dur; A_end] -> read_time ev (get_attr (remove_attr attrs a) q) = read_time ev (get_attr attrs q)) ->
  process ev pc (X tag attrs txt tail cs) = process ev pc (X tag (remove_attr attrs a) txt tail cs).
Proof.
  intros Hns Hraw Hcls Hspace Hpar Htime. apply process_same_lookups; try assumption.
  - intros q Hq. apply get_remove_other. rewrite forallb_forall in Hraw. apply negb_true_iff, Hraw, Hq.
  - intro d. apply apply_specified_remove. exact Hns.
  - apply first_animated_remove. exact Hns.
Qed.

Lemma classify_remove_other tag attrs a : qname_eqb a A_ruby = false -> classify tag (remove_attr attrs a) = classify tag attrs.
Proof. intro H. unfold classify. rewrite (get_remove_other _ _ _ H). reflexivity. Qed.
Lemma read_space_remove_other attrs a p : qname_eqb a A_space = false -> read_space (remove_attr attrs a) p = read_space attrs p.
Proof. intro H. unfold read_space. rewrite (get_remove_other _ _ _ H). reflexivity. Qed.
Lemma read_par_remove_other attrs a : qname_eqb a A_timeContainer = false -> read_par (remove_attr attrs a) = read_par attrs.
Proof. intro H. unfold read_par. rewrite (get_remove_other _ _ _ H). reflexivity. Qed.
(* of the three time attributes, at most the one removed is read differently *)
Lemma read_time_remove ev attrs a q :
  (a = q -> read_time ev (get_attr attrs a) = read_time ev None) ->
  read_time ev (get_attr (remove_attr attrs a) q) = read_time ev (get_attr attrs q).
Proof.
  intro H. destruct (qname_eqb a q) eqn:E.
  - apply qname_eqb_eq in E. subst q. rewrite get_remove_same. symmetry. exact (H eq_refl).
  - rewrite (get_remove_other _ _ _ E). reflexivity.
Qed.

Definition time_attr (a : qname) : Prop := a = A_begin \/ a = A_dur \/ a = A_end.

Ltac not_time := intros q Hq; apply read_time_remove; intros <-; cbn [In] in Hq; repeat (destruct Hq as [Hq|Hq]; [discriminate Hq|]); contradiction.

Theorem bad_time_attr_ignored ev pc tag attrs txt tail cs a s :
  time_attr a -> get_attr attrs a = Some s ->
  parse_time_x (Some (e_tr ev)) (Some (e_fr ev)) s = TBad ->
  (forall v, e_to_model ev a v = None) ->
  process ev pc (X tag attrs txt tail cs) = process ev pc (X tag (remove_attr attrs a) txt tail cs).
Proof.
  intros Ha Hg Hbad Hns.
  assert (Htime : forall q, read_time ev (get_attr (remove_attr attrs a) q) = read_time ev (get_attr attrs q)).
  { intro q. apply read_time_remove. intros _. rewrite Hg. unfold read_time. rewrite Hbad. reflexivity. }
  destruct Ha as [-> | [-> | ->]];
    (apply removed_attr_ignored;
     [exact Hns|reflexivity|apply classify_remove_other; reflexivity|intro p; apply read_space_remove_other; reflexivity
     |apply read_par_remove_other; reflexivity|intros q _; apply Htime]).
Qed.

Theorem bad_space_ignored ev pc tag attrs txt tail cs v :
  get_attr attrs A_space = Some v -> text_eqb v V_default = false -> text_eqb v V_preserve = false ->
  (forall w, e_to_model ev A_space w = None) ->
  process ev pc (X tag attrs txt tail cs) = process ev pc (X tag (remove_attr attrs A_space) txt tail cs).
Proof.
  intros Hg H1 H2 Hns. apply removed_attr_ignored; [exact Hns|reflexivity|apply classify_remove_other; reflexivity| |apply read_par_remove_other; reflexivity|not_time].
  intro p. unfold read_space. rewrite get_remove_same, Hg, H1, H2. reflexivity.
Qed.

Theorem bad_time_container_ignored ev pc tag attrs txt tail cs v :
  get_attr attrs A_timeContainer = Some v -> text_eqb v V_seq = false ->
  (forall w, e_to_model ev A_timeContainer w = None) ->
  process ev pc (X tag attrs txt tail cs) = process ev pc (X tag (remove_attr attrs A_timeContainer) txt tail cs).
Proof.
  intros Hg H1 Hns. apply removed_attr_ignored; [exact Hns|reflexivity|apply classify_remove_other; reflexivity|intro p; apply read_space_remove_other; reflexivity| |not_time].
  unfold read_par. rewrite get_remove_same, Hg, H1. reflexivity.
Qed.

(* a style attribute whose value the reader rejects (to_model raises, or the model refuses the value) on an element: specified styling
   skips it *)
Theorem bad_style_attr_ignored tm vl attrs a v :
  get_attr attrs a = Some v -> (tm a v = None \/ exists p x, tm a v = Some (p, x) /\ vl p x = false) ->
  forall d, NoDup (List.map fst attrs) -> apply_specified tm vl attrs d = apply_specified tm vl (remove_attr attrs a) d.
Proof.
  intros Hg Hbad. induction attrs as [|[k w] l IH]; intros d Hnd; [reflexivity|].
  cbn [List.map] in Hnd. inversion Hnd as [|? ? Hk Hl]; subst.
  cbn [get_attr] in Hg. cbn [remove_attr apply_specified].
  destruct (qname_eqb k a) eqn:E.
  - apply qname_eqb_eq in E. subst k. inversion Hg; subst w.
    assert (Hskip : match tm a v with Some (p, x) => if vl p x then dict_set d p x else d | None => d end = d).
    { destruct Hbad as [-> | [p [x [-> Hv]]]]; [reflexivity|]. rewrite Hv. reflexivity. }
    rewrite Hskip.
    (* a does not occur again *)
    assert (Hrem : remove_attr l a = l).
    { clear -Hk. induction l as [|[k2 w2] l IH]; [reflexivity|]. cbn [remove_attr].
      destruct (qname_eqb k2 a) eqn:E2.
      - apply qname_eqb_eq in E2. subst. exfalso. apply Hk. left. reflexivity.
      - f_equal. apply IH. intro Hin. apply Hk. right. exact Hin. }
    rewrite Hrem. reflexivity.
  - cbn [apply_specified]. apply IH; assumption.
Qed.

(* a tts:ruby value that is not one of the six keywords: the span is read as a plain span, exactly as without the attribute *)
Definition ruby_keyword (v : text) : bool :=
  text_eqb v V_container || text_eqb v V_base || text_eqb v V_text || text_eqb v V_delimiter || text_eqb v V_baseContainer || text_eqb v V_textContainer.

Theorem bad_ruby_ignored ev pc tag attrs txt tail cs v :
  get_attr attrs A_ruby = Some v -> ruby_keyword v = false ->
  (forall w, e_to_model ev A_ruby w = None) ->
  process ev pc (X tag attrs txt tail cs) = process ev pc (X tag (remove_attr attrs A_ruby) txt tail cs).
Proof.
  intros Hg Hk Hns. apply removed_attr_ignored; [exact Hns|reflexivity| |intro p; apply read_space_remove_other; reflexivity|apply read_par_remove_other; reflexivity|not_time].
  unfold ruby_keyword in Hk. repeat (apply orb_false_iff in Hk as [Hk ?]).
  unfold classify. rewrite get_remove_same, Hg, Hk, H, H0, H1, H2, H3. reflexivity.
Qed.

(* a value that the model rejects in the dictionary of a referenced or nested <style> is skipped: the element is styled exactly as if
   the style did not carry it *)
Theorem invalid_style_value_ignored vl s1 k x s2 : vl k x = false ->
  forall d, merge_absent vl (s1 ++ (k, x) :: s2) d = merge_absent vl (s1 ++ s2) d.
Proof.
  intro Hv. induction s1 as [|[k1 x1] s1 IH]; intro d; cbn [app merge_absent].
  - rewrite Hv. destruct (dict_has d k); reflexivity.
  - destruct (dict_has d k1); [apply IH|]. destruct (vl k1 x1); apply IH.
Qed.

(* the dictionary of a <style> element is built like specified styling: an attribute whose value is rejected (by the parser or by the
   model) is skipped there too, so that it cannot shadow what the style inherits through chained references *)
Lemma collect_is_specified tm vl attrs : forall d, collect tm vl attrs d = apply_specified tm vl attrs d.
Proof. induction attrs as [|[q v] a IH]; intro d; [reflexivity|]. cbn [collect apply_specified]. apply IH. Qed.

Theorem bad_attr_in_style_element_ignored tm vl attrs a v :
  get_attr attrs a = Some v -> (tm a v = None \/ exists p x, tm a v = Some (p, x) /\ vl p x = false) ->
  forall d, NoDup (List.map fst attrs) -> collect tm vl attrs d = collect tm vl (remove_attr attrs a) d.
Proof. intros Hg Hb d Hn. rewrite !collect_is_specified. apply (bad_style_attr_ignored tm vl attrs a v Hg Hb d Hn). Qed.
