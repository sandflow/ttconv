(* C04, time expressions: completeness of the transcribed recognisers.  A string that the reader model accepts is a member of the
   TTML2 <time-expression> grammar: every string outside the grammar is rejected (the patterns are anchored at both ends and
   match ASCII digits only). *)
From TT Require Import Base.Prelude Base.ImscXml Model.ImscTime Spec.TtmlTimingSpec Proofs.C04.TimeSyntax.
From Coq Require Import QArith.
Local Open Scope Z_scope.

Lemma digits_are_chrs d : forallb is_digit d = true -> exists ds, all_dec ds = true /\ chrs ds = d.
Proof.
  induction d as [|c d IH]; intro H.
  - exists []. split; reflexivity.
  - cbn [forallb] in H. apply andb_true_iff in H as [H1 H2]. destruct (IH H2) as (ds & A & <-).
    exists ((c - 48) :: ds). unfold all_dec, is_digit in *. cbn [forallb chrs List.map]. rewrite A. unfold is_dec, chr. split; [lia|f_equal; lia].
Qed.

Lemma scan_number_inv s ip fp r : scan_number s = Some (ip, fp, r) ->
  exists ip' fp', is_nonempty_l ip' = true /\ all_dec ip' = true /\ all_dec fp' = true /\ s = chrs ip' ++ frac_text fp' ++ r.
Proof.
  unfold scan_number. destruct (span_digits s) as [d r0] eqn:Es. apply span_digits_split in Es as (-> & Hd & _).
  destruct (digits_are_chrs _ Hd) as (ip' & A & <-). destruct ip' as [|i ip']; [discriminate|]. cbn [chrs List.map].
  (* no fraction: the group (?:\.\d+)? matched nothing *)
  assert (Hplain : Some (chrs (i :: ip'), @nil Z, r0) = Some (ip, fp, r) ->
                   exists ip0 fp', is_nonempty_l ip0 = true /\ all_dec ip0 = true /\ all_dec fp' = true /\ chrs (i :: ip') ++ r0 = chrs ip0 ++ frac_text fp' ++ r).
  { intro H. inversion H; subst. exists (i :: ip'), []. repeat split. exact A. }
  destruct r0 as [|c0 r0]; [exact Hplain|]. rewrite on_dot. destruct (c0 =? 46) eqn:E0; [|exact Hplain]. apply Z.eqb_eq in E0. subst c0.
  destruct (span_digits r0) as [f r''] eqn:Ef. apply span_digits_split in Ef as (-> & Hf & _).
  destruct (digits_are_chrs _ Hf) as (fp' & C & <-). destruct fp' as [|f fp']; [exact Hplain|].
  intro H. inversion H; subst. exists (i :: ip'), (f :: fp'). repeat split; assumption.
Qed.

Lemma at_end_inv r : at_end r = true -> r = [].
Proof. destruct r; [reflexivity|discriminate]. Qed.

Lemma offset_in_grammar m s v : match_offset (metric_text m) s = Some v -> in_grammar s.
Proof.
  unfold match_offset. destruct (scan_number s) as [[[ip fp] r]|] eqn:Es; [|discriminate].
  destruct (strip_prefix (metric_text m) r) as [r'|] eqn:Ep; [|discriminate].
  destruct (at_end r') eqn:Ea; [|discriminate]. intros _.
  destruct (scan_number_inv _ _ _ _ Es) as (ip' & fp' & A & B & C & ->).
  apply strip_prefix_app in Ep. apply at_end_inv in Ea. subst r r'.
  exists (TOffset ip' fp' m). cbn [wf_texpr print_time]. rewrite A, B, C, app_nil_r. split; reflexivity.
Qed.

(* what both clock patterns begin with: \d{2,}:\d\d:\d\d *)
Lemma clock_head_inv hd a1 a2 b1 b2 :
  (2 <=? Z.of_nat (length hd)) = true -> forallb is_digit hd = true -> is_digit a1 && is_digit a2 && is_digit b1 && is_digit b2 = true ->
  exists hh m1 m2 s1 s2,
    (2 <=? Z.of_nat (length hh)) && all_dec hh && is_dec m1 && is_dec m2 && is_dec s1 && is_dec s2 = true /\
    forall r, hd ++ 58 :: a1 :: a2 :: 58 :: b1 :: b2 :: r = chrs hh ++ [58; chr m1; chr m2; 58; chr s1; chr s2] ++ r.
Proof.
  intros Hlen Hd Ed. destruct (digits_are_chrs _ Hd) as (hh & Hh & <-). rewrite chrs_length in Hlen.
  destruct (digits_are_chrs [a1; a2; b1; b2]) as ([|m1 [|m2 [|s1 [|s2 [|x l]]]]] & Hm & E); try discriminate.
  { cbn [forallb]. rewrite andb_true_r, !andb_assoc. exact Ed. }
  inversion E; subst. exists hh, m1, m2, s1, s2. unfold all_dec in Hm. cbn [forallb] in Hm. rewrite andb_true_r, !andb_assoc in Hm.
  split; [|reflexivity]. rewrite Hlen, Hh. exact Hm.
Qed.

Lemma clock_fraction_in_grammar s v : match_clock_fraction s = Some v -> in_grammar s.
Proof.
  unfold match_clock_fraction. destruct (span_digits s) as [hd r] eqn:Es. apply span_digits_split in Es as (-> & Hd & _).
  destruct (2 <=? Z.of_nat (length hd)) eqn:Hlen; [|discriminate].
  destruct r as [|c1 r]; [discriminate|]. rewrite on_colon. destruct (c1 =? 58) eqn:E1; [|discriminate]. apply Z.eqb_eq in E1. subst c1.
  destruct r as [|a1 [|a2 [|c2 r]]]; try discriminate. rewrite on_colon. destruct (c2 =? 58) eqn:E2; [|discriminate]. apply Z.eqb_eq in E2. subst c2.
  destruct r as [|b1 [|b2 r2]]; try discriminate.
  destruct (is_digit a1 && is_digit a2 && is_digit b1 && is_digit b2) eqn:Ed; [|discriminate].
  destruct (clock_head_inv hd a1 a2 b1 b2 Hlen Hd Ed) as (hh & m1 & m2 & s1 & s2 & W & E). rewrite E.
  assert (Hplain : at_end r2 = true -> in_grammar (chrs hh ++ [58; chr m1; chr m2; 58; chr s1; chr s2] ++ r2)).
  { intro Ha. apply at_end_inv in Ha. subst r2. exists (TClock hh m1 m2 s1 s2 []). cbn [wf_texpr]. rewrite W. split; reflexivity. }
  destruct r2 as [|c3 r3]; [intros _; apply Hplain; reflexivity|].
  rewrite on_dot. destruct (c3 =? 46) eqn:E3; [|destruct (at_end (c3 :: r3)); [intros _; apply Hplain; reflexivity|discriminate]].
  apply Z.eqb_eq in E3. subst c3.
  destruct (span_digits r3) as [f r4] eqn:Ef. apply span_digits_split in Ef as (-> & Hf & _).
  destruct (digits_are_chrs _ Hf) as (fp & F & <-). destruct fp as [|f fp]; [discriminate|].
  destruct (at_end r4) eqn:Ea; [|discriminate]. apply at_end_inv in Ea. subst r4. intros _.
  exists (TClock hh m1 m2 s1 s2 (f :: fp)). cbn [wf_texpr print_time frac_text]. rewrite W, F, app_nil_r. split; reflexivity.
Qed.

Lemma clock_frames_in_grammar s v : match_clock_frames s = Some v -> in_grammar s.
Proof.
  unfold match_clock_frames. destruct (span_digits s) as [hd r] eqn:Es. apply span_digits_split in Es as (-> & Hd & _).
  destruct (2 <=? Z.of_nat (length hd)) eqn:Hlen; [|discriminate].
  destruct r as [|c1 r]; [discriminate|]. rewrite on_colon. destruct (c1 =? 58) eqn:E1; [|discriminate]. apply Z.eqb_eq in E1. subst c1.
  destruct r as [|a1 [|a2 [|c2 r]]]; try discriminate. rewrite on_colon. destruct (c2 =? 58) eqn:E2; [|discriminate]. apply Z.eqb_eq in E2. subst c2.
  destruct r as [|b1 [|b2 [|c3 r2]]]; try discriminate. rewrite on_colon. destruct (c3 =? 58) eqn:E3; [|discriminate]. apply Z.eqb_eq in E3. subst c3.
  destruct (is_digit a1 && is_digit a2 && is_digit b1 && is_digit b2) eqn:Ed; [|discriminate].
  destruct (clock_head_inv hd a1 a2 b1 b2 Hlen Hd Ed) as (hh & m1 & m2 & s1 & s2 & W & E). rewrite E.
  destruct (span_digits r2) as [fd r3] eqn:Ef. apply span_digits_split in Ef as (-> & Hf & _).
  destruct ((2 <=? Z.of_nat (length fd)) && at_end r3) eqn:E4; [|discriminate]. intros _.
  apply andb_true_iff in E4 as [Hfl Ha]. apply at_end_inv in Ha. subst r3.
  destruct (digits_are_chrs _ Hf) as (ff & F & <-). rewrite chrs_length in Hfl.
  exists (TClockFrames hh m1 m2 s1 s2 ff). cbn [wf_texpr print_time]. rewrite W, Hfl, F, app_nil_r. split; reflexivity.
Qed.

Theorem time_accept_in_grammar tr fr s q : parse_time_x tr fr s = TVal q -> in_grammar s.
Proof.
  unfold parse_time_x.
  (* an f or t offset is in the grammar also when its rate is not known, in which case a later branch must have accepted the string *)
  destruct (match_offset U_f s) as [v|] eqn:E1; [intros _; exact (offset_in_grammar Mf s v E1)|].
  destruct (match_offset U_t s) as [v|] eqn:E2; [intros _; exact (offset_in_grammar Mt s v E2)|].
  destruct (match_offset U_ms s) as [v|] eqn:E3; [intros _; exact (offset_in_grammar Mms s v E3)|].
  destruct (match_offset U_s s) as [v|] eqn:E4; [intros _; exact (offset_in_grammar Ms s v E4)|].
  destruct (match_offset U_m s) as [v|] eqn:E5; [intros _; exact (offset_in_grammar Mm s v E5)|].
  destruct (match_offset U_h s) as [v|] eqn:E6; [intros _; exact (offset_in_grammar Mh s v E6)|].
  destruct (match_clock_fraction s) as [v|] eqn:E7; [intros _; exact (clock_fraction_in_grammar s v E7)|].
  destruct (match_clock_frames s) as [v|] eqn:E8; [intros _; exact (clock_frames_in_grammar s v E8)|].
  destruct fr, tr; discriminate.
Qed.

Corollary time_reject tr fr s : ~ in_grammar s -> parse_time tr fr s = None.
Proof.
  intros Hn. unfold parse_time. destruct (parse_time_x tr fr s) as [q| |] eqn:E; try reflexivity.
  exfalso. apply Hn. eapply time_accept_in_grammar; eassumption.
Qed.

(* TBad is ValueError, which the attribute readers catch and log; TZeroDiv (ZeroDivisionError) they would not *)
Corollary time_reject_bad tr fr s : ~ in_grammar s -> Qeq_bool tr 0 = false -> Qeq_bool fr 0 = false ->
  parse_time_x (Some tr) (Some fr) s = TBad.
Proof.
  intros Hn Ht Hf. destruct (parse_time_x (Some tr) (Some fr) s) as [q| |] eqn:E; [|reflexivity|].
  - exfalso. apply Hn. eapply time_accept_in_grammar; eassumption.
  - exfalso. exact (parse_no_zero_div tr fr s Ht Hf E).
Qed.
