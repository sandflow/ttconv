(* C04, style precedence in the reader model: what the style dictionary of an element holds for a property p after nested,
   referential and specified styling (Model/ImscStyles.v), as look-up equations.  Together they say: inline over nested over
   referential, later style references over earlier ones.  (The flattening of chained references, merge_chained, is the subject of
   Flatten.v.) *)
From TT Require Import Base.Prelude Base.ImscXml Model.ImscStyles.
Local Open Scope Z_scope.

Lemma dict_get_set_same d p x : dict_get (dict_set d p x) p = Some x.
Proof.
  induction d as [|[k w] d IH]; cbn [dict_set dict_get].
  - rewrite Z.eqb_refl. reflexivity.
  - destruct (k =? p) eqn:E; cbn [dict_get]; rewrite E; [reflexivity|exact IH].
Qed.

Lemma dict_get_set_other d p q x : q <> p -> dict_get (dict_set d q x) p = dict_get d p.
Proof.
  intro H. induction d as [|[k w] d IH]; cbn [dict_set dict_get].
  - replace (q =? p) with false by lia. reflexivity.
  - destruct (k =? q) eqn:E; cbn [dict_get].
    + apply Z.eqb_eq in E. subst k. replace (q =? p) with false by lia. reflexivity.
    + destruct (k =? p); [reflexivity|exact IH].
Qed.

Lemma dict_has_get d p : dict_has d p = match dict_get d p with Some _ => true | None => false end.
Proof. induction d as [|[k w] d IH]; cbn [dict_has dict_get]; [reflexivity|]. destruct (k =? p); [reflexivity|exact IH]. Qed.

Lemma dict_get_app d e p : dict_get (d ++ e) p = match dict_get d p with Some x => Some x | None => dict_get e p end.
Proof. induction d as [|[k w] d IH]; cbn [app dict_get]; [reflexivity|]. destruct (k =? p); [reflexivity|exact IH]. Qed.

Section Precedence.
  Variable tm : qname -> text -> option (Z * sv).
  Variable vl : Z -> sv -> bool.

  Fixpoint inline_value (attrs : list (qname * text)) (p : Z) (acc : option sv) : option sv :=
    match attrs with
    | [] => acc
    | (q, v) :: a' =>
        inline_value a' p (match tm q v with
                           | Some (p', x) => if vl p' x && (p' =? p) then Some x else acc
                           | None => acc
                           end)
    end.

  (* specified styling: an inline value wins over whatever the element already had *)
  Theorem specified_get attrs : forall d p,
    dict_get (apply_specified tm vl attrs d) p = inline_value attrs p (dict_get d p).
  Proof.
    induction attrs as [|[q v] a IH]; intros d p; [reflexivity|].
    cbn [apply_specified inline_value]. rewrite IH. f_equal.
    destruct (tm q v) as [[p' x]|]; [|reflexivity].
    destruct (vl p' x); cbn [andb]; [|reflexivity].
    destruct (p' =? p) eqn:E.
    - apply Z.eqb_eq in E. subst p'. apply dict_get_set_same.
    - apply dict_get_set_other. lia.
  Qed.

  Fixpoint valid_get (src : sdict) (p : Z) : option sv :=
    match src with
    | [] => None
    | (k, x) :: s' => if (k =? p) && vl k x then Some x else valid_get s' p
    end.

  (* set-if-absent of a style's dictionary: what the element already has is kept, the rest is taken from the style; a value the
     model rejects is skipped *)
  Theorem merge_absent_get src : forall d p,
    dict_get (merge_absent vl src d) p = match dict_get d p with Some x => Some x | None => valid_get src p end.
  Proof.
    induction src as [|[k x] s IH]; intros d p; cbn [merge_absent valid_get].
    - destruct (dict_get d p); reflexivity.
    - destruct (dict_has d k) eqn:Eh.
      + rewrite IH. destruct (dict_get d p) eqn:Eg; [reflexivity|].
        destruct (k =? p) eqn:E; [|reflexivity]. apply Z.eqb_eq in E. subst k.
        rewrite dict_has_get, Eg in Eh. discriminate.
      + destruct (vl k x) eqn:Ev.
        * rewrite IH. rewrite dict_get_app. cbn [dict_get].
          destruct (dict_get d p) eqn:Eg; [reflexivity|]. destruct (k =? p); reflexivity.
        * rewrite IH. rewrite andb_false_r. reflexivity.
  Qed.

  (* referential styling: the references are visited in the given order (the reader passes them reversed: later references first);
     the first visited style that has p provides it, unless the element already has p *)
  Fixpoint first_provider (t : list sty) (refs : list text) (p : Z) : option sv :=
    match refs with
    | [] => None
    | r :: rest => match tbl_get t r with
                   | Some s => match valid_get (st_styles s) p with Some x => Some x | None => first_provider t rest p end
                   | None => first_provider t rest p
                   end
    end.

  Theorem referential_get t refs : forall d p,
    dict_get (referential vl t refs d) p = match dict_get d p with Some x => Some x | None => first_provider t refs p end.
  Proof.
    induction refs as [|r rest IH]; intros d p; cbn [referential first_provider].
    - destruct (dict_get d p); reflexivity.
    - destruct (tbl_get t r) as [s|]; [|apply IH].
      rewrite IH, merge_absent_get.
      destruct (dict_get d p); [reflexivity|]. destruct (valid_get (st_styles s) p); reflexivity.
  Qed.
End Precedence.
