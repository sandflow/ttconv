(* C16: "... or preserved alignment": with preserve_text_align the text alignment of every element of the body, in every
   region that shows it, is the same before and after the filter — the static cascade of Spec/LcdSpec.v computed_align (nearest
   specified tts:textAlign going up, else the region's, else the initial value).  It rests on the last component of the
   fingerprint: regions are merged only when their own tts:textAlign is the same. *)
From TT Require Import Model.Doc Gen.StyleTables Model.Isd Model.Lcd Spec.IsdSpec Spec.LcdSpec Model.LcdCases
  Proofs.C16.Counting Proofs.C16.Chains Proofs.C16.Basics Proofs.C16.Prov Proofs.C16.Refs Proofs.C16.Alias Proofs.C16.Redirect.

(* region tts:textAlign values are enumeration members (style_properties.py TextAlign.validate) *)
Definition ta_typed (d : doc) : Prop :=
  forall r, In r (d_regions d) -> match own_align (eattrs r) with Some (VEnum _) | None => True | Some _ => False end.
Lemma src_ta_eq c x y : c_pta c = true ->
  match own_align (eattrs x) with Some (VEnum _) | None => True | Some _ => False end ->
  match own_align (eattrs y) with Some (VEnum _) | None => True | Some _ => False end ->
  oZ_eqb (src_ta c x) (src_ta c y) = true -> own_align (eattrs x) = own_align (eattrs y).
Proof.
  unfold src_ta, fp_align, own_align. intros ->.
  destruct (sget (e_styles (eattrs x)) p_TextAlign) as [[]|], (sget (e_styles (eattrs y)) p_TextAlign) as [[]|]; cbn; try tauto; try discriminate.
  intros _ _ E. apply Z.eqb_eq in E. subst. reflexivity.
Qed.

Lemma rid_inj l a b : NoDup (rids l) -> In a l -> In b l -> rid (eattrs a) = rid (eattrs b) -> a = b.
Proof.
  unfold rids. induction l as [|x l IH]; intros Hn Ha Hb E; [destruct Ha|]. cbn [map] in Hn. inversion Hn as [|? ? Hx Hn']; subst.
  destruct Ha as [->|Ha], Hb as [->|Hb]; [reflexivity| | |exact (IH Hn' Ha Hb E)]; exfalso; apply Hx.
  - rewrite E. apply (in_map (fun r => rid (eattrs r))). exact Hb.
  - rewrite <- E. apply (in_map (fun r => rid (eattrs r))). exact Ha.
Qed.

Lemma body_rel_align c al a a' : c_pta c = true -> body_rel c al a a' -> own_align a' = own_align a.
Proof.
  intros Hp Hrel. unfold own_align. rewrite (body_rel_sget _ _ _ _ p_TextAlign Hrel), sget_keep_styles.
  - rewrite (proj2 (supported_spec c p_TextAlign)) by auto 6. reflexivity.
  - intros v [[col [_ [_ [E _]]]] | [[col [_ [E _]]] | [E _]]]; [discriminate E | discriminate E | congruence].
Qed.

Definition al_rel (a a' : attrs) : Prop := e_kind a' = e_kind a /\ own_align a' = own_align a.
Lemma cascade_rel : forall ch ch', Forall2 al_rel ch ch' -> forall inh, cascade_align inh ch' = cascade_align inh ch.
Proof.
  intros ch ch' F. induction F as [|a a' l l' [_ Ha] F IH]; intros inh; [reflexivity|]. cbn [cascade_align]. rewrite Ha. apply IH.
Qed.
Lemma Forall2_firstn {A B} (R : A -> B -> Prop) l m : Forall2 R l m -> forall n, Forall2 R (firstn n l) (firstn n m).
Proof. intros F. induction F; intros [|n]; cbn [firstn]; constructor; auto. Qed.

(* the clause: region x of the source and the region x' of the result that stands for it (rid x' = f (rid x)) give every element of
   the body — every prefix of every chain — the same computed alignment *)
Definition align_kept (f : text -> text) (d d' : doc) : Prop :=
  forall b b' x x', d_body d = Some b -> d_body d' = Some b' -> In x (d_regions d) -> In x' (d_regions d') ->
    rid (eattrs x') = f (rid (eattrs x)) ->
    Forall2 (fun ch ch' => forall n, computed_align d' (eattrs x') (firstn n ch') = computed_align d (eattrs x) (firstn n ch)) (chains b) (chains b').

Theorem align_thm c d d' : lcd c d = Ok d' -> c_pta c = true -> regions_have_ids d -> NoDup (rids (d_regions d)) -> refs_in_doc d -> ta_typed d ->
  exists f, body_mapped f d d' /\ alias_ok f d d' /\ align_kept f d d'.
Proof.
  intros H Hp Hids Hnd Hrefs Hty.
  destruct (lcd_body_tree _ _ _ H) as [out [Ho [Er [Ei Hbody]]]].
  pose proof (lcd_regions_rel _ _ _ _ _ _ Ho) as L. exists (alias_of (replaced_of out)).
  destruct (redirected_alias c d d' out H Ho Hids Hnd Hrefs) as [Hbm Hal].
  split; [exact Hbm|]. split; [exact Hal|].
  intros b b' x x' Eb Eb' Hx Hx' Hid. rewrite Eb, Eb' in Hbody. cbn [obody_rel] in Hbody.
  (* the region: x' is the processed form of a source region r0 whose id is the alias of x's, and r0 has x's textAlign *)
  destruct (lcd_region_prov _ _ _ _ H Hx') as [r0 [wm [nda [Hr0 Hd0]]]].
  pose proof (region_done_align _ _ _ _ _ _ _ Hp Hd0) as Ea0.
  assert (rid (eattrs x') = rid (eattrs r0)) as Eid0 by (unfold rid; rewrite (proj1 (region_done_id _ _ _ _ _ _ _ Hd0)); reflexivity).
  assert (own_align (eattrs r0) = own_align (eattrs x)) as Ereg.
  { destruct (alias_kept c d out L Hnd x Hx) as [k [Hk [Ek Hs]]]. apply andb_true_iff in Hs as [_ Hta]. apply kept_src_in in Hk.
    assert (k = r0) as -> by (apply (rid_inj _ _ _ Hnd Hk Hr0); congruence).
    exact (src_ta_eq c r0 x Hp (Hty _ Hr0) (Hty _ Hx) Hta). }
  assert (initial_align d' = initial_align d) as Einit.
  { unfold initial_align. rewrite Ei, sget_keep_styles, (proj2 (supported_spec c p_TextAlign)) by auto 6. reflexivity. }
  assert (shape_rel al_rel b b') as Hshape.
  { eapply shape_rel_impl; [|exact Hbody]. intros a a' _ Hrel. split; [exact (proj1 (body_rel_fields _ _ _ _ Hrel)) | exact (body_rel_align _ _ _ _ Hp Hrel)]. }
  pose proof (chains_rel al_rel (fun a a' Hr => proj1 Hr) _ _ Hshape) as Hch.
  eapply Forall2_impl; [|exact Hch]. intros ch ch' F n. unfold computed_align.
  rewrite (cascade_rel _ _ (Forall2_firstn _ _ _ F n)), Ea0, Ereg, Einit. reflexivity.
Qed.

(* computed_align is C03's specification value: for a chain without tts:textAlign animation it is `plain d t p_TextAlign`
   of Spec/StyleSpec.v — the value that C03 (C03_plain_value, C03_snapshot_styles) proves the snapshot model computes for the element at the head of the chain. *)
From TT Require Import Spec.StyleSpec.
Definition static_ta (a : attrs) : Prop := forall s, In s (e_anims a) -> a_prop s <> p_TextAlign.
Lemma last_step_none t iv p : forall l acc, (forall s, In s l -> a_prop s <> p) -> last_step t iv p l acc = acc.
Proof.
  induction l as [|s l IH]; intros acc H; [reflexivity|]. cbn [last_step].
  assert ((a_prop s =? p) = false) as E by (apply Z.eqb_neq, H; left; reflexivity). rewrite E. cbn [andb].
  apply IH. intros x Hx. apply H. right. exact Hx.
Qed.
Lemma specified_static_ta t a iv : static_ta a -> specified t (a, iv) p_TextAlign = own_align a.
Proof. intros H. unfold specified. cbn [fst snd]. rewrite (last_step_none _ _ _ _ _ H). reflexivity. Qed.
Lemma cascade_app inh l x : cascade_align inh (l ++ [x]) = match own_align x with Some v => Some v | None => cascade_align inh l end.
Proof. revert inh. induction l as [|a l IH]; intros inh; [reflexivity|]. cbn [app cascade_align]. apply IH. Qed.

Theorem align_is_plain d t r riv : e_kind r = KRegion -> static_ta r ->
  forall links : list link, (forall x, In x links -> e_kind (fst x) <> KRegion /\ static_ta (fst x)) ->
  plain d t p_TextAlign (rev links ++ [(r, riv)]) = computed_align d r (map fst links).
Proof.
  intros Hk Hs links. unfold computed_align. induction links as [|x links IH] using rev_ind; intros H.
  - cbn [rev app plain map cascade_align]. rewrite (specified_static_ta t r riv Hs). unfold is_region. cbn [fst]. rewrite Hk. cbn [kind_eqb negb andb].
    rewrite andb_false_r. reflexivity.
  - rewrite rev_app_distr. cbn [rev app]. rewrite map_app. cbn [map]. rewrite cascade_app.
    assert (In x (links ++ [x])) as Hinx by (apply in_or_app; right; left; reflexivity).
    destruct (H x Hinx) as [Hxk Hxs].
    cbn [plain]. destruct x as [xa xiv]. cbn [fst] in *. rewrite (specified_static_ta t xa xiv Hxs).
    destruct (own_align xa); [reflexivity|].
    assert (is_region (xa, xiv) = false) as Er by (unfold is_region; cbn [fst]; destruct (e_kind xa); try reflexivity; congruence).
    rewrite Er. change (inheritable p_TextAlign) with true. cbn [negb andb].
    destruct (rev links ++ [(r, riv)]) eqn:El; [destruct (rev links); discriminate|].
    apply IH. intros y Hy. apply H. apply in_or_app. left. exact Hy.
Qed.
