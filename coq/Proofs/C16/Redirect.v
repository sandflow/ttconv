(* C16: "all references redirected to the retained region" — the body keeps its skeleton and every region reference is
   mapped by ONE function of the region id, which sends every region to a remaining region of equal timing (begin None = 0,
   equal ends) and leaves the remaining regions alone. *)
From TT Require Import Model.Doc Gen.StyleTables Model.Isd Model.Lcd Spec.IsdSpec Spec.LcdSpec Model.LcdCases
  Proofs.C16.Counting Proofs.C16.Chains Proofs.C16.Basics Proofs.C16.Prov Proofs.C16.Refs Proofs.C16.Alias.

Definition body_mapped (f : text -> text) (d d' : doc) : Prop :=
  match d_body d, d_body d' with
  | Some b, Some b' => shape_rel (tl_rel f) b b'
  | None, None => True
  | _, _ => False
  end.
Definition alias_ok (f : text -> text) (d d' : doc) : Prop :=
  forall x, In x (d_regions d) ->
    (In (rid (eattrs x)) (rids (d_regions d')) -> f (rid (eattrs x)) = rid (eattrs x)) /\
    exists k, In k (d_regions d) /\ rid (eattrs k) = f (rid (eattrs x)) /\ In (f (rid (eattrs x))) (rids (d_regions d')) /\
              time_eqb (time_of (eattrs k)) (time_of (eattrs x)) = true.

Lemma rids_retained c d inits ret rs out : loop_rel c d inits ret rs out -> rids (retained_of out) = rids (kept_src rs out).
Proof.
  intros L. pose proof (retained_kept _ _ _ _ _ _ L) as F. unfold rids. induction F as [|x k l m [Hi _] F IH]; [reflexivity|].
  cbn [map]. unfold rid at 1 3. rewrite Hi. f_equal. exact IH.
Qed.

(* the function is the alias function of the loop's alias list *)
Lemma redirected_alias c d d' out : lcd c d = Ok d' -> lcd_regions c d (keep_styles c (d_initials d)) (d_regions d) [] = Ok out ->
  regions_have_ids d -> NoDup (rids (d_regions d)) -> refs_in_doc d ->
  body_mapped (alias_of (replaced_of out)) d d' /\ alias_ok (alias_of (replaced_of out)) d d'.
Proof.
  intros H Ho Hids Hnd Hrefs. destruct (lcd_body_tree _ _ _ H) as [out' [Ho' [Er [_ Hbody]]]].
  rewrite Ho in Ho'. injection Ho' as <-. pose proof (lcd_regions_rel _ _ _ _ _ _ Ho) as L. split.
  - unfold body_mapped. destruct (d_body d) as [b|] eqn:Eb, (d_body d') as [b'|]; cbn [obody_rel] in Hbody; try contradiction; [|exact I].
    eapply shape_rel_impl; [|exact Hbody]. intros a a' Ha. apply (body_rel_tl c d out L Hnd _ _ Hrefs).
    unfold body_attrs. rewrite Eb. exact Ha.
  - intros x Hx. rewrite Er, (rids_retained _ _ _ _ _ _ L). split.
    + intros Hin. apply in_map_iff in Hin as [k [Ek Hk]]. unfold alias_of. rewrite <- Ek, (kept_not_aliased c d out L Hnd k Hk). reflexivity.
    + destruct (alias_kept c d out L Hnd x Hx) as [k [Hk [Ek Ht]]]. apply andb_true_iff in Ht as [Ht _].
      exists k. split; [exact (kept_src_in _ _ _ Hk)|]. split; [exact Ek|]. split; [|exact Ht].
      rewrite <- Ek. apply (in_map (fun r => rid (eattrs r))). exact Hk.
Qed.

Theorem redirected_thm c d d' : lcd c d = Ok d' -> regions_have_ids d -> NoDup (rids (d_regions d)) -> refs_in_doc d ->
  exists f, body_mapped f d d' /\ alias_ok f d d'.
Proof.
  intros H Hids Hnd Hrefs. destruct (lcd_ok_inv _ _ _ H) as [out [Ho _]].
  exists (alias_of (replaced_of out)). exact (redirected_alias c d d' out H Ho Hids Hnd Hrefs).
Qed.
