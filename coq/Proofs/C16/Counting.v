(* C16: list facts — Forall2, exchanging two nested flat_maps up to permutation, counting. *)
From Coq Require Import Permutation.
From TT Require Import Base.Prelude.

Lemma Forall2_impl {A B} (R S : A -> B -> Prop) l1 l2 : (forall a b, R a b -> S a b) -> Forall2 R l1 l2 -> Forall2 S l1 l2.
Proof. intros H F. induction F; constructor; auto. Qed.
Lemma Forall2_in {A B} (R : A -> B -> Prop) l m : Forall2 R l m -> Forall2 (fun x y => In x l /\ In y m /\ R x y) l m.
Proof.
  intros H. induction H; [constructor|]. constructor; [split; [left; reflexivity | split; [left; reflexivity | assumption]]|].
  eapply Forall2_impl; [|exact IHForall2]. intros a b [Ha [Hb Hr]]. split; [right; exact Ha | split; [right; exact Hb | exact Hr]].
Qed.
Lemma combine_has {A B} (l : list A) (m : list B) x : length m = length l -> In x l -> exists y, In (x, y) (combine l m).
Proof.
  revert m. induction l as [|a l IH]; intros [|b m] Hl Hi; try destruct Hi; try discriminate.
  - subst. exists b. left. reflexivity.
  - inversion Hl as [Hl']. destruct (IH _ Hl' H) as [y Hy]. exists y. right. exact Hy.
Qed.
Lemma last_indep {A} (l : list A) x y : l <> [] -> last l x = last l y.
Proof. induction l as [|a l IH]; intros H; [congruence|]. destruct l; [reflexivity|]. apply IH. discriminate. Qed.

Lemma perm_flat_map_app {X Y} (f g : X -> list Y) (l : list X) : Permutation (flat_map (fun x => f x ++ g x) l) (flat_map f l ++ flat_map g l).
Proof.
  induction l as [|x l IH]; [constructor|]. cbn [flat_map].
  rewrite <- !app_assoc. apply Permutation_app_head.
  rewrite IH. rewrite !app_assoc. apply Permutation_app_tail. apply Permutation_app_comm.
Qed.

Section Lists.
Context {A B C : Type}.

Lemma flat_map_filter_if (f : A -> list C) (p : A -> bool) l :
  flat_map f (filter p l) = flat_map (fun x => if p x then f x else []) l.
Proof. induction l as [|x l IH]; [reflexivity|]. cbn [filter flat_map]. destruct (p x); cbn [flat_map app]; rewrite IH; reflexivity. Qed.

Lemma flat_map_swap (F : A -> B -> list C) la lb :
  Permutation (flat_map (fun a => flat_map (fun b => F a b) lb) la) (flat_map (fun b => flat_map (fun a => F a b) la) lb).
Proof.
  induction la as [|a la IH]; cbn [flat_map].
  - induction lb; [constructor | assumption].
  - rewrite IH. symmetry. apply (perm_flat_map_app (fun b => F a b) (fun b => flat_map (fun a => F a b) la)).
Qed.

Lemma flat_map_const_if (p : A -> bool) (L : list C) l :
  flat_map (fun x => if p x then L else []) l = concat (repeat L (length (filter p l))).
Proof. induction l as [|x l IH]; [reflexivity|]. cbn [flat_map filter]. destruct (p x); cbn [length repeat concat app]; rewrite IH; reflexivity. Qed.

Lemma flat_map_ext_in' (f g : A -> list C) l : (forall x, In x l -> f x = g x) -> flat_map f l = flat_map g l.
Proof.
  induction l as [|x l IH]; intros H; [reflexivity|]. cbn [flat_map]. rewrite (H x (or_introl eq_refl)), IH; [reflexivity|].
  intros y Hy. apply H. right. exact Hy.
Qed.
Lemma map_flat_map' (h : C -> B) (f : A -> list C) l : map h (flat_map f l) = flat_map (fun x => map h (f x)) l.
Proof. induction l as [|x l IH]; [reflexivity|]. cbn [flat_map]. rewrite map_app, IH. reflexivity. Qed.
Lemma filter_length_F2 (p : A -> bool) (q : B -> bool) l m : Forall2 (fun x y => p x = q y) l m ->
  length (filter p l) = length (filter q m).
Proof. intros H. induction H; [reflexivity|]. cbn [filter]. rewrite H. destruct (q y); cbn [length]; congruence. Qed.

Lemma filter_map_length (p : B -> bool) (g : A -> B) l : length (filter p (map g l)) = length (filter (fun x => p (g x)) l).
Proof. induction l as [|x l IH]; [reflexivity|]. cbn [map filter]. destruct (p (g x)); cbn [length]; rewrite IH; reflexivity. Qed.
Lemma filter_length_le (p q : A -> bool) l : (forall a, In a l -> p a = true -> q a = true) -> (length (filter p l) <= length (filter q l))%nat.
Proof.
  induction l as [|a l IH]; intros H; [apply le_n|]. cbn [filter].
  assert (length (filter p l) <= length (filter q l))%nat as Hl by (apply IH; intros b Hb; apply H; right; exact Hb).
  destruct (p a) eqn:Ep.
  - rewrite (H a (or_introl eq_refl) Ep). cbn [length]. apply le_n_S, Hl.
  - destruct (q a); cbn [length]; [apply le_S, Hl | exact Hl].
Qed.

Lemma flat_map_F2 (f : A -> list C) (g : B -> list C) l m : Forall2 (fun x y => f x = g y) l m -> flat_map f l = flat_map g m.
Proof. intros H. induction H; [reflexivity|]. cbn [flat_map]. congruence. Qed.
End Lists.


Lemma filter_none {A} (p : A -> bool) l : (forall x, In x l -> p x = false) -> filter p l = [].
Proof.
  induction l as [|x l IH]; intros H; [reflexivity|]. cbn [filter]. rewrite (H x (or_introl eq_refl)). apply IH. intros y Hy. apply H. right. exact Hy.
Qed.
(* exactly one element of a list with unique keys carries a given key *)
Lemma count_unique {A} (key : A -> text) (p : A -> bool) l x : NoDup (map key l) -> In x l ->
  length (filter (fun y => p y && text_eqb (key y) (key x)) l) = if p x then 1%nat else 0%nat.
Proof.
  induction l as [|y l IH]; intros Hn Hi; [destruct Hi|]. cbn [map] in Hn. inversion Hn as [|? ? Hk Hn']; subst. cbn [filter].
  destruct Hi as [->|Hi].
  - assert (text_eqb (key x) (key x) = true) as E by (apply text_eqb_eq; reflexivity). rewrite E, andb_true_r.
    assert (filter (fun y => p y && text_eqb (key y) (key x)) l = []) as F.
    { apply filter_none. intros z Hz. destruct (text_eqb (key z) (key x)) eqn:Ez; [|apply andb_false_r].
      apply text_eqb_eq in Ez. exfalso. apply Hk. rewrite <- Ez. apply in_map. exact Hz. }
    rewrite F. destruct (p x); reflexivity.
  - assert (text_eqb (key y) (key x) = false) as E.
    { destruct (text_eqb (key y) (key x)) eqn:Ez; [|reflexivity]. apply text_eqb_eq in Ez. exfalso. apply Hk. rewrite Ez. apply in_map. exact Hi. }
    rewrite E, andb_false_r. apply IH; assumption.
Qed.
Lemma count_absent {A} (key : A -> text) (p : A -> bool) l k : ~ In k (map key l) ->
  length (filter (fun y => p y && text_eqb (key y) k) l) = 0%nat.
Proof.
  intros H. rewrite filter_none; [reflexivity|]. intros z Hz. destruct (text_eqb (key z) k) eqn:Ez; [|apply andb_false_r].
  apply text_eqb_eq in Ez. exfalso. apply H. rewrite <- Ez. apply in_map. exact Hz.
Qed.
