(* C16: the layout step of the region loop, and what it gives for every document and configuration — no animation, style
   whitelist, safe area, and that the filter succeeds whenever the region geometry is well typed. *)
From TT Require Import Model.Doc Gen.StyleTables Model.Isd Model.Lcd Spec.LcdSpec Model.LcdCases
  Proofs.Common.ElemInd Proofs.Common.StyleFrame Proofs.C16.Counting Proofs.C16.Basics Proofs.C16.Prov.

(* each of the three style computations the filter borrows only rewrites its own key (tts:position: tts:origin and its own) *)
Lemma compute_extent_shape d par st st' : compute_prop d par st p_Extent = Ok st' -> exists v, st' = sset st p_Extent v.
Proof.
  rewrite compute_prop_extent. destruct (sget st p_Extent) as [[]|]; try discriminate.
  destruct (compute_length h _ _ _ _); [|discriminate]. destruct (compute_length w _ _ _ _); [|discriminate].
  intros H. injection H as <-. eexists. reflexivity.
Qed.
Lemma compute_origin_shape d par st st' : compute_prop d par st p_Origin = Ok st' -> exists v, st' = sset st p_Origin v.
Proof.
  rewrite compute_prop_origin. destruct (sget st p_Origin) as [[]|]; try discriminate.
  destruct (compute_length y _ _ _ _); [|discriminate]. destruct (compute_length x _ _ _ _); [|discriminate].
  intros H. injection H as <-. eexists. reflexivity.
Qed.
Lemma compute_position_shape d par st st' : compute_prop d par st p_Position = Ok st' -> shas st p_Position = true ->
  exists v1 v2, st' = sset (sset st p_Origin v1) p_Position v2.
Proof.
  rewrite compute_prop_position_eq. unfold shas. destruct (sget st p_Position) as [[]|]; try discriminate. intros H _.
  destruct (sget st p_Extent) as [[]|]; try discriminate. destruct (negb _); [discriminate|].
  destruct (compute_length v _ _ _ _); [|discriminate]. destruct (compute_length h _ _ _ _); [|discriminate].
  injection H as <-. eexists. eexists. reflexivity.
Qed.

(* st is st0 up to the entries under the four geometry keys; keys stay unique *)
Definition geom_key (p : Z) : Prop := p = p_Origin \/ p = p_Extent \/ p = p_DisplayAlign \/ p = p_Position.
Definition evolved (st0 st : smap) : Prop :=
  (forall kv, In kv st -> geom_key (fst kv) \/ In kv st0) /\ (NoDup (skeys st0) -> NoDup (skeys st)) /\
  (forall q, ~ geom_key q -> sget st q = sget st0 q).
Lemma evolved_refl st : evolved st st.
Proof. repeat split; auto. Qed.
Lemma evolved_trans s0 s1 s2 : evolved s0 s1 -> evolved s1 s2 -> evolved s0 s2.
Proof.
  intros [A1 [B1 C1]] [A2 [B2 C2]]. split; [|split].
  - intros kv H. destruct (A2 _ H) as [G|H1]; [left; exact G | exact (A1 _ H1)].
  - auto.
  - intros q Hq. rewrite (C2 q Hq). exact (C1 q Hq).
Qed.
Lemma evolved_sset st p v : geom_key p -> evolved st (sset st p v).
Proof.
  intros Hp. split; [|split].
  - intros kv Hkv. apply In_sset in Hkv as [->|Hkv]; [left; exact Hp | right; exact Hkv].
  - apply NoDup_sset.
  - intros q Hq. apply sget_sset_other. intros ->. exact (Hq Hp).
Qed.
Lemma sget_sdel_other m p q : q <> p -> sget (sdel m p) q = sget m q.
Proof.
  intros Hn. induction m as [|[k w] m IH]; [reflexivity|]. cbn [sdel sget].
  destruct (k =? p) eqn:E; cbn [sget].
  - apply Z.eqb_eq in E. subst k. destruct (p =? q) eqn:E2; [apply Z.eqb_eq in E2; congruence | reflexivity].
  - destruct (k =? q); [reflexivity | exact IH].
Qed.
Lemma evolved_sdel st p : geom_key p -> evolved st (sdel st p).
Proof.
  intros Hp. split; [|split].
  - intros kv Hkv. right. exact (In_sdel _ _ _ Hkv).
  - intros Hn. apply (skeys_sdel _ p Hn).
  - intros q Hq. apply sget_sdel_other. intros ->. exact (Hq Hp).
Qed.
Lemma bind_ok {A B} (r : res A) (f : A -> res B) y : bind r f = Ok y -> exists x, r = Ok x /\ f x = Ok y.
Proof. destruct r as [x|]; [exists x; auto | discriminate]. Qed.

Lemma region_pre_evolved d inits st0 st : region_pre d inits st0 = Ok st ->
  evolved st0 st /\ (NoDup (skeys st0) -> ~ In p_Position (skeys st)).
Proof.
  unfold region_pre. intros H.
  assert (Go : geom_key p_Origin) by (left; reflexivity). assert (Ge : geom_key p_Extent) by (right; left; reflexivity).
  assert (Gp : geom_key p_Position) by (do 3 right; reflexivity).
  apply bind_ok in H as [s1 [E1 H]]. apply bind_ok in H as [s2 [E2 H]]. apply bind_ok in H as [s3 [E3 H]]. injection H as <-.
  (* extent: default, then computed *)
  assert (evolved st0 s1) as V1.
  { apply compute_extent_shape in E1 as [ve ->]. eapply evolved_trans; [|apply evolved_sset, Ge].
    destruct (shas st0 p_Extent); [apply evolved_refl | apply evolved_sset, Ge]. }
  assert (evolved s1 s2) as V2.
  { destruct (shas s1 p_Origin); [|injection E2 as <-; apply evolved_refl]. apply compute_origin_shape in E2 as [v ->]. apply evolved_sset, Go. }
  (* position: converted, then removed *)
  assert (evolved s2 s3 /\ (NoDup (skeys s2) -> ~ In p_Position (skeys s3))) as [V3 P3].
  { destruct (shas s2 p_Position) eqn:Ep.
    - apply bind_ok in E3 as [s' [E3 H]]. injection H as <-. apply compute_position_shape in E3 as [v1 [v2 ->]]; [|exact Ep]. split.
      + eapply evolved_trans; [eapply evolved_trans|]; [apply evolved_sset, Go | apply evolved_sset, Gp | apply evolved_sdel, Gp].
      + intros Hn. apply (skeys_sdel _ p_Position). apply NoDup_sset, NoDup_sset, Hn.
    - injection E3 as <-. split; [apply evolved_refl|]. intros _ Hi. apply shas_In_skeys in Hi. congruence. }
  pose proof (evolved_trans _ _ _ (evolved_trans _ _ _ V1 V2) V3) as V. pose proof (evolved_trans _ _ _ V1 V2) as V12.
  destruct (shas s3 p_Origin).
  - split; [exact V|]. intros Hn. apply P3, V12, Hn.
  - split; [eapply evolved_trans; [exact V | apply evolved_sset, Go]|].
    intros Hn Hi. apply In_skeys_sset in Hi as [Hi|Hi]; [discriminate | exact (P3 (proj1 (proj2 V12) Hn) Hi)].
Qed.

Definition before_or_after (n : Z) : Prop := n = e_DisplayAlignType_before \/ n = e_DisplayAlignType_after.
Lemma new_display_align_range wm da s n : new_display_align wm da s = Ok n -> before_or_after n.
Proof.
  unfold new_display_align, before_or_after.
  destruct (sget s p_Origin) as [[]|]; try discriminate. destruct (sget s p_Extent) as [[]|]; try discriminate.
  intros H. injection H as <-. repeat match goal with |- context [if ?b then _ else _] => destruct b end; auto.
Qed.

Lemma layout_finish sa n s : let st := sset (sset (sset s p_DisplayAlign (VEnum n)) p_Origin (VCoord (pct sa) (pct sa))) p_Extent
                                          (VExtent (pct (100 - 2 * sa)) (pct (100 - 2 * sa))) in
  evolved s st /\ (~ In p_Position (skeys s) -> ~ In p_Position (skeys st)) /\
  sget st p_Origin = Some (VCoord (pct sa) (pct sa)) /\ sget st p_Extent = Some (VExtent (pct (100 - 2 * sa)) (pct (100 - 2 * sa))) /\
  sget st p_DisplayAlign = Some (VEnum n).
Proof.
  cbv zeta. split; [|split; [|split; [|split]]].
  - eapply evolved_trans; [eapply evolved_trans|]; apply evolved_sset; unfold geom_key; auto.
  - intros Hn Hi. do 3 (apply In_skeys_sset in Hi as [Hi|Hi]; [discriminate|]). exact (Hn Hi).
  - rewrite sget_sset_other by discriminate. apply sget_sset_same.
  - apply sget_sset_same.
  - rewrite !sget_sset_other by discriminate. apply sget_sset_same.
Qed.
Lemma region_layout_final c d inits st0 st wm nda : region_layout c d inits st0 = Ok (st, wm, nda) ->
  evolved st0 st /\ (NoDup (skeys st0) -> ~ In p_Position (skeys st)) /\
  sget st p_Origin = Some (VCoord (pct (c_sa c)) (pct (c_sa c))) /\
  sget st p_Extent = Some (VExtent (pct (100 - 2 * c_sa c)) (pct (100 - 2 * c_sa c))) /\
  sget st p_DisplayAlign = Some (VEnum nda) /\ before_or_after nda /\
  wm = enum_tag (match sget st p_WritingMode with Some v => v | None => init_or inits p_WritingMode end).
Proof.
  unfold region_layout. intros H. apply bind_ok in H as [s [Ep H]]. apply region_pre_evolved in Ep as [V P].
  apply bind_ok in H as [n [En H]]. apply new_display_align_range in En.
  (* the final map is made opaque before the equation is taken apart: `injection` would expand 100 - 2 * c_sa c *)
  pose proof (layout_finish (c_sa c) n s) as F. cbv zeta in F, H. set (X := sset _ p_Extent _) in F, H. clearbody X.
  destruct F as [V' [P' [Ho [He Hd]]]]. injection H as <- <- <-.
  split; [exact (evolved_trans _ _ _ V V')|]. split; [intros Hn; exact (P' (P Hn))|]. repeat (split; [assumption|]).
  rewrite (proj2 (proj2 V')); [reflexivity|]. intros [E | [E | [E | E]]]; discriminate E.
Qed.

(* on a cleaned region: the writing mode is gone before it is read, and the result needs no second cleaning *)
Lemma geom_rsupported c p : geom_key p -> rsupported c p = true.
Proof.
  unfold rsupported. intros [-> | [-> | [-> | ->]]]; [| | |apply orb_true_r]; apply orb_true_iff; left; apply supported_spec; auto.
Qed.
Lemma not_rsupported_wm c : rsupported c p_WritingMode = false.
Proof. unfold rsupported. rewrite unsupported by discriminate. reflexivity. Qed.
Lemma region_layout_clean c d inits m st wm nda : region_layout c d inits (keep_rstyles c m) = Ok (st, wm, nda) ->
  sget inits p_WritingMode = None ->
  wm = e_WritingModeType_lrtb /\ sget st p_WritingMode = None /\ keep_rstyles c st = st.
Proof.
  intros H Hiw. apply region_layout_final in H as [[V1 [_ V3]] [_ [_ [_ [_ [_ ->]]]]]].
  assert (sget st p_WritingMode = None) as Hw.
  { rewrite V3, sget_keep_rstyles, not_rsupported_wm; [reflexivity|]. intros [H | [H | [H | H]]]; discriminate H. }
  rewrite Hw. unfold init_or. rewrite Hiw. split; [reflexivity|]. split; [reflexivity|].
  apply kfilter_all. intros kv Hkv. destruct (V1 _ Hkv) as [G|Hk]; [apply geom_rsupported, G | apply In_keep_rstyles in Hk; apply Hk].
Qed.
Lemma inits_no_wm c m : sget (keep_styles c m) p_WritingMode = None.
Proof. rewrite sget_keep_styles, unsupported by discriminate. reflexivity. Qed.

Theorem no_anim_thm c d d' : lcd c d = Ok d' -> no_anim d'.
Proof.
  intros H a Ha. unfold doc_attrs in Ha. apply in_app_or in Ha as [Ha|Ha].
  - unfold region_attrs in Ha. apply in_flat_map in Ha as [r2 [Hr Ha]].
    destruct (lcd_region_prov _ _ _ _ H Hr) as [r [wm [nda [_ Hd]]]].
    apply region_done_attrs in Hd as [st [_ E]]. rewrite E in Ha. destruct Ha as [<-|Ha]; [reflexivity|].
    apply in_map_iff in Ha as [x [<- _]]. reflexivity.
  - destruct (lcd_body_prov _ _ _ H) as [out [_ [_ [_ F]]]].
    destruct (Forall2_In_r _ _ _ _ F Ha) as [a0 [_ Hrel]]. apply (body_rel_fields _ _ _ _ Hrel).
Qed.

Theorem safe_area_thm c d d' : lcd c d = Ok d' -> safe_area (c_sa c) d'.
Proof.
  intros H r2 Hr. destruct (lcd_region_prov _ _ _ _ H Hr) as [r [wm [nda [_ [st [Hl ->]]]]]].
  apply region_layout_final in Hl as [_ [_ [Ho [He _]]]]. split; [exact Ho | exact He].
Qed.

Lemma supported_allowed c p v : supported c p = true -> allowed (c_pta c) (c_color c) (c_bg c) p v.
Proof.
  unfold allowed. intros H. apply supported_spec in H as [H | [H | [H | [[H1 H] | [[H1 H] | [H1 H]]]]]]; rewrite ?H1; auto 7.
  do 5 right. split; [exact H | congruence].
Qed.
Lemma override_allowed c k p v : override c k p v -> allowed (c_pta c) (c_color c) (c_bg c) p v.
Proof.
  unfold allowed. intros [[col [E [_ [-> ->]]]] | [[col [E [-> ->]]] | [E [-> ->]]]]; rewrite ?E; auto 8.
Qed.
Lemma kept_not_configured c m p v : In (p, v) (keep_styles c m) ->
  (p = p_Color -> c_color c = None) /\ (p = p_BackgroundColor -> c_bg c = None) /\ (p = p_TextAlign -> c_pta c = true).
Proof.
  intros H. apply In_keep_styles in H as [_ H]. cbn [fst] in H. apply supported_spec in H.
  split; [|split]; intros ->; destruct H as [H | [H | [H | [[H1 H] | [[H1 H] | [H1 H]]]]]]; try discriminate H; exact H1.
Qed.

(* style dictionaries of the regions have unique keys (they are Python dicts) *)
Definition region_keys_unique (d : doc) : Prop := forall r, In r (d_regions d) -> NoDup (skeys (e_styles (eattrs r))).
(* Region elements do not have children (model.py: Region.push_child raises RuntimeError) *)
Definition regions_childless (d : doc) : Prop := forall r, In r (d_regions d) -> echildren r = [].

Lemma existsb_false_forall {A} (f : A -> bool) l : existsb f l = false -> forall x, In x l -> f x = false.
Proof.
  intros H x Hx. destruct (f x) eqn:E; [|reflexivity].
  assert (existsb f l = true) by (apply existsb_exists; exists x; auto). congruence.
Qed.

(* no hypothesis about tts:position: the layout step removes the key after converting it (region_pre_evolved) *)
Theorem whitelist_thm c d d' : lcd c d = Ok d' -> region_keys_unique d -> regions_childless d ->
  whitelist (c_pta c) (c_color c) (c_bg c) d'.
Proof.
  intros H Hu Hch.
  destruct (lcd_body_prov _ _ _ H) as [out [_ [_ [Ein F]]]].
  split.
  - intros a p v Ha Hpv. unfold doc_attrs in Ha. apply in_app_or in Ha as [Ha|Ha].
    + unfold region_attrs in Ha. apply in_flat_map in Ha as [r2 [Hr Ha]].
      destruct (lcd_region_prov _ _ _ _ H Hr) as [r [wm [nda [Hin Hd]]]].
      apply region_done_attrs in Hd as [st [Hl E]]. rewrite E, (Hch _ Hin) in Ha. destruct Ha as [<-|[]].
      cbn [e_styles with_styles] in Hpv. apply region_layout_final in Hl as [[V _] [P _]].
      (* a key of the final map is a layout key or was kept by the region clean-up; tts:position is gone *)
      assert (p <> p_Position) as Hp.
      { intros ->. apply (P (NoDup_keep_rstyles _ _ (Hu _ Hin))). apply in_map_iff. exists (p_Position, v). auto. }
      destruct (V _ Hpv) as [[G | [G | [G | G]]] | Hk]; cbn [fst] in *; try contradiction; try (subst p; unfold allowed; tauto).
      apply In_keep_rstyles in Hk as [_ Hs]. cbn [fst] in Hs. unfold rsupported in Hs. apply orb_true_iff in Hs as [Hs|Hs].
      * exact (supported_allowed _ _ _ Hs).
      * apply Z.eqb_eq in Hs. contradiction.
    + destruct (Forall2_In_r _ _ _ _ F Ha) as [a0 [Ha0 Hrel]].
      destruct (body_rel_In _ _ _ _ _ Hrel Hpv) as [Hk | Ho]; [|exact (override_allowed _ _ _ _ Ho)].
      apply In_keep_styles in Hk as [_ Hs]. exact (supported_allowed _ _ _ Hs).
  - intros p v Hpv. rewrite Ein in Hpv. apply In_keep_styles in Hpv as [Hpv Hs]. exact (supported_allowed _ _ _ Hs).
Qed.

(* Totality.  The filter succeeds on every document whose region geometry is well typed (style_properties.py validate: origin,
   extent and position are of their value class and not in em, an extent has its height in %/px/c/rh and its width in %/px/c/rw).
   There is no trigger: tts:position is computed after the extent, so it finds the extent in rh and rw. *)
Lemma compute_length_ok l p em cc px : not_em l = true -> exists l', compute_length l (Some p) em (Some cc) (Some px) = Ok l'.
Proof. unfold not_em, compute_length. destruct (lu l); cbn; try discriminate; intros _; eexists; reflexivity. Qed.

Definition is_coord (o : option value) : Prop := exists x y, o = Some (VCoord x y).
Definition is_extent (o : option value) : Prop := exists h w, o = Some (VExtent h w).

Lemma compute_origin_ok d st x y : sget st p_Origin = Some (VCoord x y) -> not_em x = true -> not_em y = true ->
  exists x' y', compute_prop d None st p_Origin = Ok (sset st p_Origin (VCoord x' y')).
Proof.
  intros H Hx Hy. rewrite compute_prop_origin, H.
  destruct (compute_length_ok y (rh (qz 100)) None (c_h d) (px_h d) Hy) as [y' ->].
  destruct (compute_length_ok x (rw (qz 100)) None (c_w d) (px_w d) Hx) as [x' ->]. cbn [bind]. eexists. eexists. reflexivity.
Qed.
Lemma compute_height_ok l q em d : height_unit l = true ->
  exists l', compute_length l (Some (rh q)) em (Some (c_h d)) (Some (px_h d)) = Ok l' /\ lu l' = Urh.
Proof.
  unfold height_unit, not_em, compute_length. destruct l as [v u]. cbn [lu lv]. destruct u; cbn; try discriminate; intros _; eexists; split; reflexivity.
Qed.
Lemma compute_width_ok l q em d : width_unit l = true ->
  exists l', compute_length l (Some (rw q)) em (Some (c_w d)) (Some (px_w d)) = Ok l' /\ lu l' = Urw.
Proof.
  unfold width_unit, not_em, compute_length. destruct l as [v u]. cbn [lu lv]. destruct u; cbn; try discriminate; intros _; eexists; split; reflexivity.
Qed.
Lemma compute_extent_ok d st h w : sget st p_Extent = Some (VExtent h w) -> height_unit h = true -> width_unit w = true ->
  exists h' w', compute_prop d None st p_Extent = Ok (sset st p_Extent (VExtent h' w')) /\ lu h' = Urh /\ lu w' = Urw.
Proof.
  intros H Hh Hw. rewrite compute_prop_extent, H.
  destruct (compute_height_ok h (qz 100) (get_len st p_FontSize) d Hh) as [h' [-> Uh]].
  destruct (compute_width_ok w (qz 100) (get_len st p_FontSize) d Hw) as [w' [-> Uw]]. cbn [bind]. exists h', w'. auto.
Qed.
Lemma compute_position_ok d st ho he vo ve eh ew :
  sget st p_Position = Some (VPos ho he vo ve) -> not_em ho = true -> not_em vo = true ->
  sget st p_Extent = Some (VExtent eh ew) -> lu eh = Urh -> lu ew = Urw ->
  exists x y v, compute_prop d None st p_Position = Ok (sset (sset st p_Origin (VCoord x y)) p_Position v).
Proof.
  intros H Hh Hv He Uh Uw. rewrite compute_prop_position_eq, H, He, Uh, Uw. cbn [negb unit_eqb andb].
  destruct (compute_length_ok vo (rh (Qminus (qz 100) (lv eh))) None (c_h d) (px_h d) Hv) as [v1 ->]. cbn [bind].
  destruct (compute_length_ok ho (rw (Qminus (qz 100) (lv ew))) None (c_w d) (px_w d) Hh) as [h1 ->]. cbn [bind].
  eexists. eexists. eexists. reflexivity.
Qed.

Lemma init_or_coord inits : inits_typed inits = true -> is_coord (Some (init_or inits p_Origin)).
Proof.
  unfold inits_typed, init_or, is_coord. intros H. apply andb_true_iff in H as [H _].
  destruct (sget inits p_Origin) as [[]|]; try discriminate; eexists; eexists; reflexivity.
Qed.
Lemma init_or_extent inits : inits_typed inits = true ->
  exists h w, init_or inits p_Extent = VExtent h w /\ height_unit h = true /\ width_unit w = true.
Proof.
  unfold inits_typed, init_or. intros H. apply andb_true_iff in H as [_ H].
  destruct (sget inits p_Extent) as [[]|]; try discriminate.
  - apply andb_true_iff in H as [Hh Hw]. eexists. eexists. split; [reflexivity | split; assumption].
  - eexists. eexists. split; [vm_compute; reflexivity | split; vm_compute; reflexivity].
Qed.

Lemma region_pre_ok d inits st : geometry_typed st = true -> inits_typed inits = true ->
  exists s, region_pre d inits st = Ok s /\ is_coord (sget s p_Origin) /\ is_extent (sget s p_Extent).
Proof.
  intros Ht Hi. unfold geometry_typed in Ht. apply andb_true_iff in Ht as [Ht Tp]. apply andb_true_iff in Ht as [To Te].
  unfold region_pre.
  (* extent: default, then computed into rh / rw *)
  set (s0 := if shas st p_Extent then st else sset st p_Extent (init_or inits p_Extent)).
  assert (exists h w, sget s0 p_Extent = Some (VExtent h w) /\ height_unit h = true /\ width_unit w = true) as [h [w [X0 [Uh Uw]]]].
  { unfold s0, shas. destruct (sget st p_Extent) as [v|] eqn:Ee.
    - destruct v; try discriminate. apply andb_true_iff in Te as [Th Tw]. eexists. eexists. split; [exact Ee | split; assumption].
    - destruct (init_or_extent _ Hi) as [h [w [E [Th Tw]]]]. exists h, w. rewrite sget_sset_same, E. auto. }
  assert (sget s0 p_Origin = sget st p_Origin /\ sget s0 p_Position = sget st p_Position) as [O0 P0].
  { unfold s0. destruct (shas st p_Extent); [split; reflexivity | split; apply sget_sset_other; discriminate]. }
  destruct (compute_extent_ok d s0 h w X0 Uh Uw) as [h' [w' [E1 [Uh' Uw']]]]. rewrite E1. cbn [bind].
  set (s1 := sset s0 p_Extent (VExtent h' w')).
  assert (sget s1 p_Extent = Some (VExtent h' w')) as X1 by apply sget_sset_same.
  assert (sget s1 p_Origin = sget st p_Origin) as O1 by (unfold s1; rewrite sget_sset_other by discriminate; exact O0).
  assert (sget s1 p_Position = sget st p_Position) as P1 by (unfold s1; rewrite sget_sset_other by discriminate; exact P0).
  assert (exists s2, (if shas s1 p_Origin then compute_prop d None s1 p_Origin else Ok s1) = Ok s2 /\
                     (sget s2 p_Origin = None \/ is_coord (sget s2 p_Origin)) /\
                     sget s2 p_Extent = Some (VExtent h' w') /\ sget s2 p_Position = sget st p_Position) as [s2 [E2 [O2 [X2 P2]]]].
  { unfold shas. rewrite O1. destruct (sget st p_Origin) as [v|] eqn:Eo.
    - destruct v; try discriminate. apply andb_true_iff in To as [Tx Ty].
      assert (sget s1 p_Origin = Some (VCoord x y)) as Eo1 by (rewrite O1; reflexivity).
      destruct (compute_origin_ok d s1 _ _ Eo1 Tx Ty) as [x' [y' E]]. eexists. split; [exact E|].
      split; [right; rewrite sget_sset_same; eexists; eexists; reflexivity|].
      split; [rewrite sget_sset_other by discriminate; exact X1 | rewrite sget_sset_other by discriminate; exact P1].
    - exists s1. split; [reflexivity|]. split; [left; rewrite O1; reflexivity|]. split; [exact X1 | exact P1]. }
  rewrite E2. cbn [bind].
  (* position: its conversion needs the extent in rh / rw, which s2 has *)
  assert (exists s3, (if shas s2 p_Position then bind (compute_prop d None s2 p_Position) (fun st' => Ok (sdel st' p_Position)) else Ok s2) = Ok s3 /\
                     (sget s3 p_Origin = None \/ is_coord (sget s3 p_Origin)) /\ sget s3 p_Extent = Some (VExtent h' w')) as [s3 [E3 [O3 X3]]].
  { unfold shas. rewrite P2. destruct (sget st p_Position) as [v|] eqn:Epv.
    - destruct v; try discriminate. apply andb_true_iff in Tp as [Th Tv].
      assert (sget s2 p_Position = Some (VPos h0 he v ve)) as Ep2 by (rewrite P2; reflexivity).
      destruct (compute_position_ok d s2 _ _ _ _ _ _ Ep2 Th Tv X2 Uh' Uw') as [x [y [pv E]]]. rewrite E. cbn [bind]. eexists. split; [reflexivity|].
      split.
      + right. rewrite sget_sdel_other by discriminate. rewrite sget_sset_other by discriminate. rewrite sget_sset_same. eexists; eexists; reflexivity.
      + rewrite sget_sdel_other by discriminate. rewrite sget_sset_other by discriminate. rewrite sget_sset_other by discriminate. exact X2.
    - exists s2. split; [reflexivity|]. split; [exact O2 | exact X2]. }
  rewrite E3. cbn [bind]. eexists. split; [reflexivity|].
  unfold shas. destruct O3 as [O3|O3].
  - rewrite O3. split; [rewrite sget_sset_same; exact (init_or_coord _ Hi) | rewrite sget_sset_other by discriminate; rewrite X3; eexists; eexists; reflexivity].
  - destruct O3 as [x [y O3]]. rewrite O3. split; [exists x, y; exact O3 | rewrite X3; eexists; eexists; reflexivity].
Qed.

Lemma region_layout_ok c d inits st : geometry_typed st = true -> inits_typed inits = true ->
  exists r, region_layout c d inits st = Ok r.
Proof.
  intros Ht Hi. destruct (region_pre_ok d inits st Ht Hi) as [s [E [[x [y Ho]] [h [w He]]]]].
  unfold region_layout. rewrite E. cbn [bind]. unfold new_display_align. rewrite Ho, He. cbn [bind]. eexists. reflexivity.
Qed.

Lemma geometry_keep c m : geometry_typed (keep_rstyles c m) = geometry_typed m.
Proof.
  unfold geometry_typed. rewrite !sget_keep_rstyles, !geom_rsupported; [reflexivity | | |]; unfold geom_key; auto.
Qed.
Lemma inits_keep c m : inits_typed (keep_styles c m) = inits_typed m.
Proof. unfold inits_typed. rewrite !sget_keep_styles. reflexivity. Qed.

Lemma lcd_regions_ok c d inits : inits_typed inits = true -> forall rs ret,
  (forall r, In r rs -> geometry_typed (e_styles (eattrs r)) = true) ->
  exists out, lcd_regions c d inits rs ret = Ok out.
Proof.
  intros Hi. induction rs as [|r rs IH]; intros ret H; [eexists; reflexivity|].
  pose proof (H r (or_introl eq_refl)) as Ht. cbn [lcd_regions].
  assert (exists x, region_layout c d inits (e_styles (eattrs (rstyle_elem c (anim_elem r)))) = Ok x) as [[[st wm] nda] E].
  { rewrite eattrs_clean. cbn [e_styles rstyle_attrs with_styles anim_attrs with_anims]. apply region_layout_ok; [rewrite geometry_keep; exact Ht | exact Hi]. }
  rewrite E. cbn [bind].
  destruct (lookup_fp ret _).
  - destruct (IH ret) as [out Eo]; [intros x Hx; apply H; right; exact Hx|]. rewrite Eo. eexists. reflexivity.
  - match goal with |- context [lcd_regions c d inits rs ?R] => destruct (IH R) as [out Eo] end; [intros x Hx; apply H; right; exact Hx|].
    rewrite Eo. eexists. reflexivity.
Qed.

Theorem total_thm c d : lcd_typed d = true -> exists d', lcd c d = Ok d'.
Proof.
  unfold lcd_typed. intros Ht. apply andb_true_iff in Ht as [Hr Hi].
  rewrite forallb_forall in Hr.
  destruct (lcd_regions_ok c d (keep_styles c (d_initials d)) (eq_trans (inits_keep c _) Hi) (d_regions d) []) as [out Eo].
  { intros r Hin. exact (Hr _ Hin). }
  eexists. exact (lcd_eq _ _ _ Eo).
Qed.
