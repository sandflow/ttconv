(* C16 timeline, without any hypothesis about display styling or nested region conflicts: nothing that is visible before the filter
   is lost — at every time every (paragraph, leaf) occurs after the filter at least as often as before.  (The filter removes display,
   visibility and opacity, and merging regions can only resolve conflicts, so text can be gained but never lost.) *)
From Coq Require Import Permutation.
From TT Require Import Model.Doc Gen.StyleTables Model.Isd Model.Lcd Spec.IsdSpec Spec.LcdSpec Model.LcdCases
  Proofs.C16.Counting Proofs.C16.Chains Proofs.C16.Basics Proofs.C16.Prov Proofs.C16.Refs Proofs.C16.Timeline3.

Definition cnt (x : tleaf) (l : list tleaf) : nat := length (filter (tleaf_eqb x) l).
Lemma cnt_app x l m : cnt x (l ++ m) = (cnt x l + cnt x m)%nat.
Proof. unfold cnt. rewrite filter_app, app_length. reflexivity. Qed.
Lemma cnt_perm x l m : Permutation l m -> cnt x l = cnt x m.
Proof.
  unfold cnt. intros H. induction H; cbn [filter].
  - reflexivity.
  - destruct (tleaf_eqb x x0); cbn [length]; congruence.
  - destruct (tleaf_eqb x y), (tleaf_eqb x x0); reflexivity.
  - congruence.
Qed.
Lemma cnt_flat_map_le {A B} x (f : A -> list tleaf) (g : B -> list tleaf) l m :
  Forall2 (fun a b => (cnt x (f a) <= cnt x (g b))%nat) l m -> (cnt x (flat_map f l) <= cnt x (flat_map g m))%nat.
Proof. intros H. induction H; [apply le_n|]. cbn [flat_map]. rewrite !cnt_app. apply Nat.add_le_mono; assumption. Qed.
Lemma cnt_concat_repeat x L n : cnt x (concat (repeat L n)) = (n * cnt x L)%nat.
Proof. induction n as [|n IH]; [reflexivity|]. cbn [repeat concat]. rewrite cnt_app, IH. reflexivity. Qed.

Theorem timeline_kept_thm c d d' t :
  lcd c d = Ok d' -> regions_have_ids d -> NoDup (rids (d_regions d)) -> refs_in_doc d ->
  forall x, (cnt x (visible d t) <= cnt x (visible d' t))%nat.
Proof.
  intros H Hids Hnd Hrefs x.
  destruct (lcd_body_tree _ _ _ H) as [out [_ [_ [_ Hbody]]]].
  destruct (d_body d) as [b|] eqn:Eb, (d_body d') as [b'|] eqn:Eb'; cbn [obody_rel] in Hbody; try contradiction.
  - rewrite (cnt_perm x _ _ (visible_table d t b Eb)), (cnt_perm x _ _ (visible_table d' t b' Eb')).
    apply cnt_flat_map_le. eapply Forall2_impl; [|exact (timeline_chains c d d' t b b' H Hids Hnd Hrefs Eb Eb')].
    intros ch ch' [El [Hle _]]. cbv beta. rewrite El, !cnt_concat_repeat. apply Nat.mul_le_mono_r, Hle.
  - rewrite (visible_no_body d t Eb). apply Nat.le_0_l.
Qed.

(* the same as the executable clause of Spec/LcdSpec.v that the check evaluates on the implementation's result *)
Theorem timeline_kept_b_thm c d d' t :
  lcd c d = Ok d' -> regions_have_ids d -> NoDup (rids (d_regions d)) -> refs_in_doc d -> timeline_kept_b d d' t = true.
Proof.
  intros H Hids Hnd Hrefs. unfold timeline_kept_b. apply forallb_forall. intros x _. apply Z.leb_le. unfold count_tl.
  apply Nat2Z.inj_le. exact (timeline_kept_thm c d d' t H Hids Hnd Hrefs x).
Qed.
