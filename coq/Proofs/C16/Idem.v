(* C16: applying the LCD filter to its own result changes nothing.  Regions: a retained region is already at the safe area,
   so the second layout step recomputes the same three entries, and its fingerprint is the one it was retained under.
   Body: the clean-ups drop exactly what the three overrides wrote, and the overrides write it again. *)
From TT Require Import Model.Doc Gen.StyleTables Model.Isd Model.Lcd Spec.LcdSpec Model.LcdCases
  Proofs.Common.ElemInd Proofs.Common.StyleFrame Proofs.C16.Basics Proofs.C16.Prov Proofs.C16.Static.

Lemma smap_ext m1 m2 : skeys m1 = skeys m2 -> NoDup (skeys m1) -> (forall p, sget m1 p = sget m2 p) -> m1 = m2.
Proof.
  revert m2. induction m1 as [|[k w] m1 IH]; intros [|[k2 w2] m2] Hk Hn Hg; cbn [skeys map fst] in Hk; try discriminate; [reflexivity|].
  inversion Hk as [[Ek Hk']]. subst k2. inversion Hn as [|? ? Hnk Hn']; subst.
  pose proof (Hg k) as Hgk. cbn [sget] in Hgk. rewrite Z.eqb_refl in Hgk. inversion Hgk; subst w2. f_equal.
  apply IH; [exact Hk' | exact Hn'|]. intros p. pose proof (Hg p) as Hp. cbn [sget] in Hp.
  destruct (k =? p) eqn:E; [|exact Hp]. apply Z.eqb_eq in E. subst p.
  (* k is in neither tail *)
  assert (forall m, ~ In k (skeys m) -> sget m k = None) as Hnone.
  { intros m Hm. apply sget_None_keys. intros kv Hkv E. apply Hm. apply in_map_iff. exists kv. auto. }
  rewrite (Hnone m1 Hnk). symmetry. apply Hnone. unfold skeys in *. rewrite <- Hk'. exact Hnk.
Qed.
Lemma skeys_sset_stable K m p v : skeys m = K -> In p K -> skeys (sset m p v) = K.
Proof. intros <- H. rewrite skeys_sset. apply existsb_eqb_In in H. rewrite H. reflexivity. Qed.
Lemma keep_styles_all c m : (forall kv, In kv m -> supported c (fst kv) = true) -> keep_styles c m = m.
Proof. apply kfilter_all. Qed.

(* z % against the root extent of 100, as compute_length leaves it: the fraction is not reduced, so it is Qeq to z and not equal *)
Definition back (z : Z) : Q := Qdiv (Qmult (qz z) (qz 100)) (qz 100).
Lemma back_eq z : Qeq (back z) (qz z).
Proof. unfold back. apply Qdiv_mult_l. unfold qz. intro H. discriminate H. Qed.
Lemma lt50_true sa : sa < 50 -> Qltb (back sa) q50 = true.
Proof.
  intros H. unfold Qltb. apply negb_true_iff, not_true_is_false. intros E.
  apply Qle_bool_iff in E. rewrite back_eq in E. unfold q50, qz in E. rewrite <- Zle_Qle in E. exact (proj1 (Z.lt_nge _ _) H E).
Qed.
Lemma sum_ge50 sa : sa <= 50 -> Qltb (Qplus (back sa) (back (100 - 2 * sa))) q50 = false.
Proof.
  intros H. unfold Qltb. apply negb_false_iff, Qle_bool_iff.
  rewrite !back_eq. unfold q50, qz. rewrite <- inject_Z_plus, <- Zle_Qle. lia.
Qed.

Lemma compute_origin_pct dd par st sa : sget st p_Origin = Some (VCoord (pct sa) (pct sa)) ->
  compute_prop dd par st p_Origin = Ok (sset st p_Origin (VCoord (mkLen (back sa) Urw) (mkLen (back sa) Urh))).
Proof. intros H. rewrite compute_prop_origin, H. reflexivity. Qed.
Lemma compute_extent_pct dd par st e : sget st p_Extent = Some (VExtent (pct e) (pct e)) ->
  compute_prop dd par st p_Extent = Ok (sset st p_Extent (VExtent (mkLen (back e) Urh) (mkLen (back e) Urw))).
Proof. intros H. rewrite compute_prop_extent, H. reflexivity. Qed.

Lemma region_layout_again c dd inits st nda :
  NoDup (skeys st) -> shas st p_Position = false -> sget st p_WritingMode = None -> sget inits p_WritingMode = None ->
  sget st p_Origin = Some (VCoord (pct (c_sa c)) (pct (c_sa c))) ->
  sget st p_Extent = Some (VExtent (pct (100 - 2 * c_sa c)) (pct (100 - 2 * c_sa c))) ->
  sget st p_DisplayAlign = Some (VEnum nda) -> before_or_after nda -> c_sa c < 50 ->
  region_layout c dd inits st = Ok (st, e_WritingModeType_lrtb, nda).
Proof.
  intros Hn Hp Hw Hiw Ho He Hd Hba Hsa.
  assert (forall m p v, sget m p = Some v -> shas m p = true) as Has by (intros m p v E; unfold shas; rewrite E; reflexivity).
  unfold region_layout, region_pre.
  (* the extent and the origin are there and computed into root-relative lengths; there is no tts:position *)
  rewrite (Has _ _ _ He), (compute_extent_pct dd None st _ He). cbn [bind].
  set (s1 := sset st p_Extent _).
  assert (sget s1 p_Origin = Some (VCoord (pct (c_sa c)) (pct (c_sa c)))) as G1 by (unfold s1; rewrite sget_sset_other by discriminate; exact Ho).
  rewrite (Has _ _ _ G1), (compute_origin_pct dd None s1 _ G1). cbn [bind].
  set (s2 := sset s1 p_Origin _).
  assert (forall q, q <> p_Origin -> q <> p_Extent -> sget s2 q = sget st q) as G2
    by (intros q No Ne; unfold s2, s1; rewrite !sget_sset_other by assumption; reflexivity).
  unfold shas at 1. rewrite (G2 p_Position) by discriminate. unfold shas in Hp. destruct (sget st p_Position); [discriminate|]. cbn [bind].
  assert (shas s2 p_Origin = true) as O2 by apply shas_sset_eq.
  rewrite O2, (G2 p_WritingMode), Hw, (G2 p_DisplayAlign), Hd by discriminate.
  replace (init_or inits p_WritingMode) with (VEnum e_WritingModeType_lrtb) by (unfold init_or; rewrite Hiw; reflexivity).
  (* the new displayAlign is the old one: the origin is below 50 and origin + extent is not *)
  assert (sget s2 p_Origin = Some (VCoord (mkLen (back (c_sa c)) Urw) (mkLen (back (c_sa c)) Urh))) as Oc by apply sget_sset_same.
  assert (sget s2 p_Extent = Some (VExtent (mkLen (back (100 - 2 * c_sa c)) Urh) (mkLen (back (100 - 2 * c_sa c)) Urw))) as Xc
    by (unfold s2, s1; rewrite sget_sset_other by discriminate; apply sget_sset_same).
  unfold new_display_align. rewrite Oc, Xc.
  cbn [is_enum lv bind orb]. change (e_WritingModeType_lrtb =? e_WritingModeType_lrtb) with true. cbn [orb].
  rewrite (lt50_true _ Hsa), (sum_ge50 (c_sa c)) by lia.
  replace (if (nda =? e_DisplayAlignType_before) && true then e_DisplayAlignType_before else e_DisplayAlignType_after) with nda
    by (destruct Hba as [-> | ->]; reflexivity).
  cbn [bind enum_tag]. do 3 f_equal.
  (* the three final assignments give st back *)
  assert (In p_Origin (skeys st) /\ In p_Extent (skeys st) /\ In p_DisplayAlign (skeys st)) as [Io [Ie Id]]
    by (repeat split; eapply shas_In_skeys, Has; eassumption).
  assert (skeys (sset (sset (sset s2 p_DisplayAlign (VEnum nda)) p_Origin (VCoord (pct (c_sa c)) (pct (c_sa c)))) p_Extent
                      (VExtent (pct (100 - 2 * c_sa c)) (pct (100 - 2 * c_sa c)))) = skeys st) as Ek
    by (unfold s2, s1; repeat (apply skeys_sset_stable; [|assumption]); reflexivity).
  apply smap_ext; [exact Ek | rewrite Ek; exact Hn|].
  intros p.
    destruct (Z.eq_dec p p_Extent) as [-> | Ne]; [rewrite sget_sset_same; symmetry; exact He|]. rewrite sget_sset_other by exact Ne.
    destruct (Z.eq_dec p p_Origin) as [-> | No]; [rewrite sget_sset_same; symmetry; exact Ho|]. rewrite sget_sset_other by exact No.
    destruct (Z.eq_dec p p_DisplayAlign) as [-> | Nd]; [rewrite sget_sset_same; symmetry; exact Hd|]. rewrite sget_sset_other by exact Nd.
    apply G2; assumption.
Qed.

Lemma clean_attrs_idem c a : style_attrs c (anim_attrs (style_attrs c (anim_attrs a))) = style_attrs c (anim_attrs a).
Proof.
  change (with_styles (anim_attrs a) (keep_styles c (keep_styles c (e_styles a))) = with_styles (anim_attrs a) (keep_styles c (e_styles a))).
  rewrite keep_styles_idem. reflexivity.
Qed.
Lemma clean_elem_idem c e : style_elem c (anim_elem (style_elem c (anim_elem e))) = style_elem c (anim_elem e).
Proof.
  unfold style_elem, anim_elem. rewrite !map_attrs_compose. apply map_attrs_ext. intros a _. apply clean_attrs_idem.
Qed.
Lemma rclean_elem_idem c e : rstyle_elem c (anim_elem (rstyle_elem c (anim_elem e))) = rstyle_elem c (anim_elem e).
Proof.
  unfold rstyle_elem, anim_elem. rewrite !map_attrs_compose. apply map_attrs_ext. intros a _.
  change (with_styles (anim_attrs a) (keep_rstyles c (keep_rstyles c (e_styles a))) = with_styles (anim_attrs a) (keep_rstyles c (e_styles a))).
  rewrite keep_rstyles_idem. reflexivity.
Qed.
Lemma rclean_node c a cs :
  rstyle_elem c (anim_elem (Elem a cs)) = Elem (rstyle_attrs c (anim_attrs a)) (map (fun x => rstyle_elem c (anim_elem x)) cs).
Proof. cbn [rstyle_elem anim_elem map_attrs]. rewrite map_map. reflexivity. Qed.
Lemma clean_region_again c r st : keep_rstyles c st = st ->
  let r1 := rstyle_elem c (anim_elem r) in
  rstyle_elem c (anim_elem (Elem (with_styles (eattrs r1) st) (echildren r1))) = Elem (with_styles (eattrs r1) st) (echildren r1).
Proof.
  intros Hk r1. destruct r as [a cs]. unfold r1. rewrite rclean_node. cbn [eattrs echildren]. rewrite rclean_node. f_equal.
  - change (with_styles (rstyle_attrs c (anim_attrs a)) (keep_rstyles c st) = with_styles (rstyle_attrs c (anim_attrs a)) st).
    rewrite Hk. reflexivity.
  - cbn [echildren]. rewrite map_map. apply map_ext. intros x. apply rclean_elem_idem.
Qed.

Lemma loop_again c d dd inits ret rs out : loop_rel c d inits ret rs out ->
  (forall r, In r rs -> NoDup (skeys (e_styles (eattrs r)))) -> sget inits p_WritingMode = None -> c_sa c < 50 ->
  lcd_regions c dd inits (retained_of out) ret = Ok (map (fun r => (r, None)) (retained_of out)).
Proof.
  intros H. induction H; intros Hu Hiw Hsa.
  - reflexivity.
  - unfold retained_of. cbn [flat_map snd fst app]. fold (retained_of out).
    destruct H as [st [Hl ->]]. set (r1 := rstyle_elem c (anim_elem r)) in *.
    assert (e_styles (eattrs r1) = keep_rstyles c (e_styles (eattrs r))) as Es by (unfold r1; rewrite eattrs_clean; reflexivity).
    rewrite Es in Hl.
    pose proof (NoDup_keep_rstyles c _ (Hu r (or_introl eq_refl))) as Hn0.
    pose proof (region_layout_final _ _ _ _ _ _ _ Hl) as [[_ [Vn _]] [Pn [Ho [He [Hd [Hba _]]]]]].
    pose proof (region_layout_clean _ _ _ _ _ _ _ Hl Hiw) as [Ew [Hw Hall]].
    cbn [lcd_regions].
    pose proof (clean_region_again c r st Hall) as Hc. cbv zeta in Hc. fold r1 in Hc. rewrite Hc.
    cbn [eattrs echildren e_styles with_styles].
    rewrite (region_layout_again c dd inits st nda (Vn Hn0)); try assumption.
    + cbn [bind e_begin e_end with_styles].
      assert ((or0 (e_begin (eattrs r1)), e_end (eattrs r1), e_WritingModeType_lrtb, nda, fp_align c st) =
              region_fp c r (Elem (with_styles (eattrs r1) st) (echildren r1)) wm nda) as Ef
        by (unfold region_fp, r1; rewrite eattrs_clean, Ew; reflexivity).
      rewrite Ef, H0.
      assert (rid (with_styles (eattrs r1) st) = rid (eattrs r)) as Er by (unfold r1; rewrite eattrs_clean; reflexivity).
      rewrite Er, IHloop_rel; [reflexivity | intros x Hx; apply Hu; right; exact Hx | exact Hiw | exact Hsa].
    + apply not_true_is_false. intros Esp. apply shas_In_skeys in Esp. exact (Pn Hn0 Esp).
  - unfold retained_of. cbn [flat_map snd fst app]. fold (retained_of out).
    apply IHloop_rel; [intros x Hx; apply Hu; right; exact Hx | exact Hiw | exact Hsa].
Qed.

Lemma redirect_nil e : redirect_elem [] e = e.
Proof. apply map_attrs_id. intros a. unfold redirect_attrs. destruct (e_region a); reflexivity. Qed.
Lemma clear_nil e : clear_elem [] e = e.
Proof. apply map_attrs_id. intros a. unfold clear_attrs. destruct (e_region a); reflexivity. Qed.
Lemma style_set_style c a p v : supported c p = false -> style_attrs c (set_style a p v) = style_attrs c a.
Proof.
  intros Hs. change (with_styles a (keep_styles c (sset (e_styles a) p v)) = with_styles a (keep_styles c (e_styles a))).
  unfold keep_styles. rewrite (kfilter_sset_dropped _ _ _ _ Hs). reflexivity.
Qed.
Lemma style_set_root c p v e : supported c p = false -> style_elem c (set_root_style p v e) = style_elem c e.
Proof. intros Hs. destruct e as [a cs]. cbn [set_root_style style_elem map_attrs]. rewrite (style_set_style _ _ _ _ Hs). reflexivity. Qed.
Lemma style_apply_bg c col e : supported c p_BackgroundColor = false -> style_elem c (apply_bg col e) = style_elem c e.
Proof.
  intros Hs. induction e as [a cs IH] using elem_ind2. cbn [apply_bg].
  assert (map (style_elem c) (map (apply_bg col) cs) = map (style_elem c) cs) as Hm
    by (induction IH as [|x cs Hx _ IHcs]; [reflexivity | cbn [map]; rewrite Hx, IHcs; reflexivity]).
  destruct (e_kind a) eqn:Ek; cbn [style_elem map_attrs]; try (f_equal; exact Hm).
  rewrite (style_set_style _ _ _ _ Hs). reflexivity.
Qed.
Lemma style_overrides c e : style_elem c (align_step c (color_step c (bg_step c e))) = style_elem c e.
Proof.
  unfold align_step, color_step, bg_step.
  destruct (c_pta c) eqn:Ep; [|rewrite style_set_root by (apply (override_unsupported c KP _ (VEnum e_TextAlignType_center)); right; right; auto)];
  (destruct (c_color c) as [cc|] eqn:Ec; [rewrite style_set_root by (apply (override_unsupported c KP _ (VColor cc)); right; left; exists cc; auto)|]);
  (destruct (c_bg c) as [cb|] eqn:Eb; [rewrite style_apply_bg by (apply (override_unsupported c KP _ (VColor cb)); left; exists cb; auto)|]); reflexivity.
Qed.
Lemma clean_base c al b : anim_elem (style_elem c (map_attrs (body_base c al) b)) = map_attrs (body_base c al) b.
Proof.
  unfold anim_elem, style_elem. rewrite !map_attrs_compose. apply map_attrs_ext. intros a _.
  pose proof (body_base_fields c al a) as [_ [_ [_ [_ [_ [Ha Hs]]]]]]. destruct (body_base c al a) as [xk xi xb xe xr xs xan xp xl xt].
  cbn [e_anims e_styles] in Ha, Hs. subst xan xs.
  change (mkAttrs xk xi xb xe xr (keep_styles c (keep_styles c (e_styles a))) [] xp xl xt = mkAttrs xk xi xb xe xr (keep_styles c (e_styles a)) [] xp xl xt).
  rewrite keep_styles_idem. reflexivity.
Qed.

Lemma replaced_of_kept l : replaced_of (map (fun r : elem => (r, @None text)) l) = [].
Proof. unfold replaced_of. induction l as [|x l IH]; [reflexivity | cbn [map flat_map snd app]; exact IH]. Qed.
Lemma retained_of_kept l : retained_of (map (fun r : elem => (r, @None text)) l) = l.
Proof. unfold retained_of. induction l as [|x l IH]; [reflexivity | cbn [map flat_map snd fst app]; f_equal; exact IH]. Qed.

(* the second pass has an empty alias list: every region it meets is retained *)
Lemma pipeline_idem c al b : body_pipeline c [] (body_pipeline c al b) = body_pipeline c al b.
Proof.
  unfold body_pipeline. rewrite style_overrides, (base_elem_eq c al b), clean_base, redirect_nil. cbn [map]. rewrite clear_nil. reflexivity.
Qed.

Theorem idem_thm c d d' : lcd c d = Ok d' -> region_keys_unique d -> c_sa c < 50 -> lcd c d' = Ok d'.
Proof.
  intros H Hu Hsa. apply lcd_ok_inv in H as [out [Ho ->]].
  pose proof (lcd_regions_rel _ _ _ _ _ _ Ho) as L.
  rewrite (lcd_eq _ _ (map (fun r => (r, None)) (retained_of out)));
    cbn [d_initials d_body d_regions d_rows d_cols d_pxh d_pxw d_active d_dar d_lang]; rewrite keep_styles_idem;
    [|exact (loop_again c d _ _ _ _ _ L Hu (inits_no_wm c _) Hsa)].
  rewrite replaced_of_kept, retained_of_kept. apply f_equal, (f_equal (fun b => mkDoc _ b _ _ _ _ _ _ _ _)).
  destruct (d_body d) as [b|]; [cbn [option_map]; rewrite pipeline_idem|]; reflexivity.
Qed.
