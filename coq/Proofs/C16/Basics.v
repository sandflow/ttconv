(* C16: facts shared by the theorems about Model/Lcd.v — style maps, trees, the shape of the region loop. *)
From TT Require Import Model.Doc Gen.StyleTables Model.Isd Model.Lcd Spec.LcdSpec Proofs.Common.ElemInd Proofs.Common.StyleFrame.

Lemma shas_sset_eq m p v : shas (sset m p v) p = true.
Proof. unfold shas. rewrite sget_sset_same. reflexivity. Qed.

Lemma In_sset m p v kv : In kv (sset m p v) -> kv = (p, v) \/ In kv m.
Proof.
  induction m as [|[k0 w0] m IH]; cbn [sset].
  - intros [H|[]]. left. symmetry. exact H.
  - destruct (k0 =? p) eqn:E.
    + apply Z.eqb_eq in E. subst k0. intros [H|H]; [left; symmetry; exact H | right; right; exact H].
    + intros [H|H]; [right; left; exact H|]. destruct (IH H) as [?|?]; [left; assumption | right; right; assumption].
Qed.
Lemma skeys_sset m p v : skeys (sset m p v) = if existsb (Z.eqb p) (skeys m) then skeys m else skeys m ++ [p].
Proof.
  unfold skeys. induction m as [|[k w] m IH]; cbn [sset map existsb app fst]; [reflexivity|].
  rewrite (Z.eqb_sym p k). destruct (k =? p) eqn:E; cbn [map fst orb]; [reflexivity|].
  rewrite IH. destruct (existsb (Z.eqb p) (map fst m)); reflexivity.
Qed.
Lemma existsb_eqb_In p l : existsb (Z.eqb p) l = true <-> In p l.
Proof.
  rewrite existsb_exists. split.
  - intros [x [Hx E]]. apply Z.eqb_eq in E. subst. exact Hx.
  - intros H. exists p. split; [exact H | apply Z.eqb_refl].
Qed.
Lemma In_skeys_sset m p v k : In k (skeys (sset m p v)) -> k = p \/ In k (skeys m).
Proof.
  rewrite skeys_sset. destruct (existsb (Z.eqb p) (skeys m)); [right; assumption|].
  intros H. apply in_app_or in H as [H|[H|[]]]; [right; exact H | left; symmetry; exact H].
Qed.
Lemma NoDup_sset m p v : NoDup (skeys m) -> NoDup (skeys (sset m p v)).
Proof.
  intros H. rewrite skeys_sset. destruct (existsb (Z.eqb p) (skeys m)) eqn:E; [exact H|].
  assert (~ In p (skeys m)) as Hn by (intro Hi; apply existsb_eqb_In in Hi; congruence).
  apply NoDup_rev in H. rewrite <- (rev_involutive (skeys m ++ [p])). apply NoDup_rev.
  rewrite rev_app_distr. cbn [rev app]. constructor; [rewrite <- in_rev; exact Hn | exact H].
Qed.
Lemma In_sdel m p kv : In kv (sdel m p) -> In kv m.
Proof.
  induction m as [|[k w] m IH]; cbn [sdel]; [tauto|].
  destruct (k =? p); [intros H; right; exact H|]. intros [H|H]; [left; exact H | right; exact (IH H)].
Qed.
Lemma skeys_sdel m p : NoDup (skeys m) -> NoDup (skeys (sdel m p)) /\ ~ In p (skeys (sdel m p)) /\
  forall k, In k (skeys (sdel m p)) -> In k (skeys m).
Proof.
  unfold skeys. induction m as [|[k w] m IH]; cbn [sdel map fst]; intros H.
  - split; [constructor | split; [tauto | tauto]].
  - inversion H as [|? ? Hk Hm]; subst. destruct (k =? p) eqn:E.
    + apply Z.eqb_eq in E. subst k. split; [exact Hm | split; [exact Hk | intros; right; assumption]].
    + apply Z.eqb_neq in E. destruct (IH Hm) as [H1 [H2 H3]]. cbn [map fst]. split; [|split].
      * constructor; [intro Hi; apply Hk, H3, Hi | exact H1].
      * intros [Hi|Hi]; [congruence | exact (H2 Hi)].
      * intros k0 [Hi|Hi]; [left; exact Hi | right; exact (H3 _ Hi)].
Qed.
Lemma sget_In m p v : sget m p = Some v -> In (p, v) m.
Proof.
  induction m as [|[k w] m IH]; cbn [sget]; [discriminate|].
  destruct (k =? p) eqn:E; [apply Z.eqb_eq in E; subst; intros H; inversion H; left; reflexivity | intros H; right; exact (IH H)].
Qed.
Lemma sget_None_keys m p : (forall kv, In kv m -> fst kv <> p) -> sget m p = None.
Proof.
  induction m as [|[k w] m IH]; intros H; cbn [sget]; [reflexivity|].
  destruct (k =? p) eqn:E; [apply Z.eqb_eq in E; exfalso; apply (H (k, w)); [left; reflexivity | exact E]|].
  apply IH. intros kv Hkv. apply H. right. exact Hkv.
Qed.
Lemma shas_In_skeys m p : shas m p = true <-> In p (skeys m).
Proof.
  unfold shas, skeys. induction m as [|[k w] m IH]; cbn [sget map fst].
  - split; [discriminate | intros []].
  - destruct (k =? p) eqn:E.
    + apply Z.eqb_eq in E. subst. split; [intros _; left; reflexivity | reflexivity].
    + apply Z.eqb_neq in E. rewrite IH. split; [intros H; right; exact H | intros [H|H]; [congruence | exact H]].
Qed.

(* Both style clean-ups keep the entries whose key satisfies a predicate: f is `supported c` or `rsupported c`. *)
Section KeyFilter.
  Variable f : Z -> bool.
  Let keep (m : smap) : smap := filter (fun kv => f (fst kv)) m.

  Lemma skeys_kfilter m : skeys (keep m) = filter f (skeys m).
  Proof.
    unfold skeys, keep. induction m as [|[k w] m IH]; cbn [filter map fst]; [reflexivity|].
    destruct (f k); cbn [map fst]; rewrite IH; reflexivity.
  Qed.
  Lemma sget_kfilter m p : sget (keep m) p = if f p then sget m p else None.
  Proof.
    unfold keep. induction m as [|[k w] m IH]; cbn [filter fst sget]; [destruct (f p); reflexivity|].
    destruct (f k) eqn:Ek; cbn [sget]; (destruct (k =? p) eqn:E; [apply Z.eqb_eq in E; subst k; rewrite ?IH, Ek; reflexivity | exact IH]).
  Qed.
  Lemma kfilter_all m : (forall kv, In kv m -> f (fst kv) = true) -> keep m = m.
  Proof.
    unfold keep. induction m as [|kv m IH]; intros H; cbn [filter]; [reflexivity|].
    rewrite (H kv (or_introl eq_refl)). f_equal. apply IH. intros x Hx. apply H. right. exact Hx.
  Qed.
  Lemma kfilter_idem m : keep (keep m) = keep m.
  Proof. apply kfilter_all. intros kv H. apply filter_In in H. apply H. Qed.
  Lemma kfilter_sset_dropped m p v : f p = false -> keep (sset m p v) = keep m.
  Proof.
    intros Hp. unfold keep. induction m as [|[k w] m IH]; cbn [sset filter fst]; [rewrite Hp; reflexivity|].
    destruct (k =? p) eqn:E; cbn [filter fst]; [apply Z.eqb_eq in E; subst k; rewrite Hp; reflexivity | rewrite IH; reflexivity].
  Qed.
End KeyFilter.

Lemma In_keep_styles c m kv : In kv (keep_styles c m) <-> In kv m /\ supported c (fst kv) = true.
Proof. apply filter_In. Qed.
Lemma In_keep_rstyles c m kv : In kv (keep_rstyles c m) <-> In kv m /\ rsupported c (fst kv) = true.
Proof. apply filter_In. Qed.
Lemma NoDup_keep_styles c m : NoDup (skeys m) -> NoDup (skeys (keep_styles c m)).
Proof. intros H. unfold keep_styles. rewrite skeys_kfilter. apply NoDup_filter. exact H. Qed.
Lemma NoDup_keep_rstyles c m : NoDup (skeys m) -> NoDup (skeys (keep_rstyles c m)).
Proof. intros H. unfold keep_rstyles. rewrite skeys_kfilter. apply NoDup_filter. exact H. Qed.
Lemma keep_styles_idem c m : keep_styles c (keep_styles c m) = keep_styles c m.
Proof. apply kfilter_idem. Qed.
Lemma keep_rstyles_idem c m : keep_rstyles c (keep_rstyles c m) = keep_rstyles c m.
Proof. apply kfilter_idem. Qed.
Lemma sget_keep_styles c m p : sget (keep_styles c m) p = if supported c p then sget m p else None.
Proof. apply sget_kfilter. Qed.
Lemma sget_keep_rstyles c m p : sget (keep_rstyles c m) p = if rsupported c p then sget m p else None.
Proof. apply sget_kfilter. Qed.

Lemma supported_spec c p : supported c p = true <->
  p = p_DisplayAlign \/ p = p_Extent \/ p = p_Origin \/ (c_pta c = true /\ p = p_TextAlign) \/
  (c_color c = None /\ p = p_Color) \/ (c_bg c = None /\ p = p_BackgroundColor).
Proof.
  unfold supported. split.
  - intros H. repeat (apply orb_true_iff in H as [H|H]).
    + left. apply Z.eqb_eq, H.
    + right. left. apply Z.eqb_eq, H.
    + do 2 right. left. apply Z.eqb_eq, H.
    + apply andb_true_iff in H as [Ht H]. apply Z.eqb_eq in H. do 3 right. left. auto.
    + destruct (c_color c); [discriminate|]. apply Z.eqb_eq in H. do 4 right. left. auto.
    + destruct (c_bg c); [discriminate|]. apply Z.eqb_eq in H. do 5 right. auto.
  - intros [-> | [-> | [-> | [[-> ->] | [[-> ->] | [-> ->]]]]]]; try reflexivity; destruct (c_pta c), (c_color c); reflexivity.
Qed.
Lemma unsupported c p : p <> p_DisplayAlign -> p <> p_Extent -> p <> p_Origin -> p <> p_TextAlign -> p <> p_Color ->
  p <> p_BackgroundColor -> supported c p = false.
Proof.
  intros ? ? ? ? ? ?. apply not_true_is_false. intros Hs. apply supported_spec in Hs.
  destruct Hs as [Hs | [Hs | [Hs | [[_ Hs] | [[_ Hs] | [_ Hs]]]]]]; contradiction.
Qed.

Lemma elems_of_map_attrs f e : elems_of (map_attrs f e) = map f (elems_of e).
Proof.
  induction e as [a cs IH] using elem_ind2. cbn [map_attrs elems_of map]. f_equal.
  induction cs as [|c cs IHcs]; [reflexivity|].
  inversion IH as [|? ? Hc Hr]; subst. cbn [map flat_map]. rewrite map_app, Hc, (IHcs Hr). reflexivity.
Qed.
Lemma map_attrs_id f e : (forall a, f a = a) -> map_attrs f e = e.
Proof.
  intros Hf. induction e as [a cs IH] using elem_ind2. cbn [map_attrs]. rewrite Hf. f_equal.
  induction cs as [|c cs IHcs]; [reflexivity|]. inversion IH; subst. cbn [map]. f_equal; auto.
Qed.
Lemma map_attrs_ext f g e : (forall a, In a (elems_of e) -> f a = g a) -> map_attrs f e = map_attrs g e.
Proof.
  induction e as [a cs IH] using elem_ind2. intros H. cbn [map_attrs]. f_equal.
  - apply H. left. reflexivity.
  - assert (forall x, In x (flat_map elems_of cs) -> f x = g x) as H' by (intros x Hx; apply H; right; exact Hx).
    clear H. induction cs as [|c cs IHcs]; [reflexivity|]. inversion IH as [|? ? Hc Hr]; subst. cbn [map]. f_equal.
    + apply Hc. intros x Hx. apply H'. cbn [flat_map]. apply in_or_app. left. exact Hx.
    + apply IHcs; [exact Hr|]. intros x Hx. apply H'. cbn [flat_map]. apply in_or_app. right. exact Hx.
Qed.
Lemma map_attrs_compose f g e : map_attrs f (map_attrs g e) = map_attrs (fun a => f (g a)) e.
Proof.
  induction e as [a cs IH] using elem_ind2. cbn [map_attrs]. f_equal. rewrite map_map.
  induction cs as [|c cs IHcs]; [reflexivity|]. inversion IH; subst. cbn [map]. f_equal; auto.
Qed.

Definition all_attrs (P : attrs -> Prop) (e : elem) : Prop := forall a, In a (elems_of e) -> P a.
Lemma all_attrs_map_attrs (P Q : attrs -> Prop) f e :
  (forall a, Q a -> P (f a)) -> all_attrs Q e -> all_attrs P (map_attrs f e).
Proof.
  intros Hf Hq a Ha. rewrite elems_of_map_attrs in Ha. apply in_map_iff in Ha as [x [<- Hx]]. apply Hf, Hq, Hx.
Qed.
Lemma all_attrs_node (P : attrs -> Prop) a cs : all_attrs P (Elem a cs) <-> P a /\ Forall (all_attrs P) cs.
Proof.
  unfold all_attrs. cbn [elems_of]. split.
  - intros H. split; [apply H; left; reflexivity|]. apply Forall_forall. intros c Hc x Hx. apply H. right.
    apply in_flat_map. exists c. split; assumption.
  - intros [Ha Hcs] x [<-|Hx]; [exact Ha|]. apply in_flat_map in Hx as [c [Hc Hx]].
    rewrite Forall_forall in Hcs. exact (Hcs c Hc x Hx).
Qed.
Lemma all_attrs_apply_bg (P Q : attrs -> Prop) col e :
  (forall a, Q a -> P a) -> (forall a, Q a -> e_kind a = KP -> P (set_style a p_BackgroundColor (VColor col))) ->
  all_attrs Q e -> all_attrs P (apply_bg col e).
Proof.
  intros H1 H2. induction e as [a cs IH] using elem_ind2. intros Hq.
  apply all_attrs_node in Hq as [Hqa Hqc]. cbn [apply_bg].
  assert (Forall (all_attrs P) (map (apply_bg col) cs)) as Hmap.
  { clear Hqa. induction cs as [|c cs IHcs]; [constructor|].
    inversion IH; subst. inversion Hqc; subst. cbn [map]. constructor; auto. }
  assert (Forall (all_attrs P) cs) as Hsame.
  { clear Hmap IH. induction cs as [|c cs IHcs]; [constructor|]. inversion Hqc; subst. constructor; [|auto].
    intros x Hx. apply H1. auto. }
  destruct (e_kind a) eqn:Ek; apply all_attrs_node; try (split; [apply H1, Hqa | exact Hmap]).
  split; [apply H2; assumption | exact Hsame].
Qed.

(* what one iteration of the region loop makes of a region *)
Definition region_done (c : lcd_cfg) (d : doc) (inits : smap) (r r2 : elem) (wm nda : Z) : Prop :=
  exists st, region_layout c d inits (e_styles (eattrs (rstyle_elem c (anim_elem r)))) = Ok (st, wm, nda) /\
             r2 = Elem (with_styles (eattrs (rstyle_elem c (anim_elem r))) st) (echildren (rstyle_elem c (anim_elem r))).
(* the fingerprint of a processed region: timing of the source region, writing mode, new displayAlign, and the textAlign
   of the processed region when it is preserved *)
Definition region_fp (c : lcd_cfg) (r r2 : elem) (wm nda : Z) : fp :=
  (or0 (e_begin (eattrs r)), e_end (eattrs r), wm, nda, fp_align c (e_styles (eattrs r2))).

Lemma eattrs_clean c r : eattrs (rstyle_elem c (anim_elem r)) = rstyle_attrs c (anim_attrs (eattrs r)).
Proof. destruct r as [a cs]. reflexivity. Qed.

(* out is rs processed one by one; a region is aliased exactly when an earlier retained one (or one of `retained`)
   has its fingerprint *)
Inductive loop_rel (c : lcd_cfg) (d : doc) (inits : smap) : list (fp * text) -> list elem -> list (elem * option text) -> Prop :=
| loop_nil ret : loop_rel c d inits ret [] []
| loop_keep ret r rs r2 wm nda out :
    region_done c d inits r r2 wm nda -> lookup_fp ret (region_fp c r r2 wm nda) = None ->
    loop_rel c d inits ((region_fp c r r2 wm nda, rid (eattrs r)) :: ret) rs out ->
    loop_rel c d inits ret (r :: rs) ((r2, None) :: out)
| loop_alias ret r rs r2 wm nda t out :
    region_done c d inits r r2 wm nda -> lookup_fp ret (region_fp c r r2 wm nda) = Some t ->
    loop_rel c d inits ret rs out ->
    loop_rel c d inits ret (r :: rs) ((r2, Some t) :: out).

Lemma lcd_regions_rel c d inits : forall rs ret out, lcd_regions c d inits rs ret = Ok out -> loop_rel c d inits ret rs out.
Proof.
  induction rs as [|r rs IH]; intros ret out H; cbn [lcd_regions] in H.
  - inversion H. constructor.
  - destruct (region_layout c d inits (e_styles (eattrs (rstyle_elem c (anim_elem r))))) as [[[st wm] nda]|] eqn:El; cbn [bind] in H; [|discriminate].
    set (r2 := Elem (with_styles (eattrs (rstyle_elem c (anim_elem r))) st) (echildren (rstyle_elem c (anim_elem r)))) in *.
    assert (region_fp c r r2 wm nda = (or0 (e_begin (eattrs (rstyle_elem c (anim_elem r)))), e_end (eattrs (rstyle_elem c (anim_elem r))), wm, nda, fp_align c st)) as Ef
      by (unfold region_fp, r2; rewrite eattrs_clean; reflexivity).
    assert (rid (eattrs (rstyle_elem c (anim_elem r))) = rid (eattrs r)) as Er by (rewrite eattrs_clean; reflexivity).
    rewrite <- Ef, Er in H.
    destruct (lookup_fp ret (region_fp c r r2 wm nda)) as [t|] eqn:Elk.
    + destruct (lcd_regions c d inits rs ret) as [out'|] eqn:Eo; cbn [bind] in H; [|discriminate]. inversion H; subst.
      eapply loop_alias; [exists st; split; [exact El | reflexivity] | exact Elk | apply IH; exact Eo].
    + destruct (lcd_regions c d inits rs _) as [out'|] eqn:Eo; cbn [bind] in H; [|discriminate]. inversion H; subst.
      eapply loop_keep; [exists st; split; [exact El | reflexivity] | exact Elk | apply IH; exact Eo].
Qed.

(* the document assembled by lcd: the body goes through the four clean-ups, then the three configured overrides *)
Definition bg_step (c : lcd_cfg) (e : elem) : elem := match c_bg c with Some col => apply_bg col e | None => e end.
Definition color_step (c : lcd_cfg) (e : elem) : elem :=
  match c_color c with Some col => set_root_style p_Color (VColor col) e | None => e end.
Definition align_step (c : lcd_cfg) (e : elem) : elem :=
  if c_pta c then e else set_root_style p_TextAlign (VEnum e_TextAlignType_center) e.
Definition body_pipeline (c : lcd_cfg) (al : list (text * text)) (b : elem) : elem :=
  align_step c (color_step c (bg_step c (clear_elem (map fst al) (redirect_elem al (anim_elem (style_elem c b)))))).
Lemma lcd_eq c d out : lcd_regions c d (keep_styles c (d_initials d)) (d_regions d) [] = Ok out ->
  lcd c d = Ok (mkDoc (retained_of out) (option_map (body_pipeline c (replaced_of out)) (d_body d))
                      (keep_styles c (d_initials d)) (d_rows d) (d_cols d) (d_pxh d) (d_pxw d) (d_active d) (d_dar d) (d_lang d)).
Proof.
  intros Ho. unfold lcd. rewrite Ho. cbn [bind]. apply f_equal, (f_equal (fun b => mkDoc _ b _ _ _ _ _ _ _ _)).
  unfold body_pipeline, align_step, color_step, bg_step. destruct (d_body d), (c_bg c), (c_color c), (c_pta c); reflexivity.
Qed.
Lemma lcd_ok_inv c d d' : lcd c d = Ok d' ->
  exists out,
    lcd_regions c d (keep_styles c (d_initials d)) (d_regions d) [] = Ok out /\
    d' = mkDoc (retained_of out) (option_map (body_pipeline c (replaced_of out)) (d_body d))
               (keep_styles c (d_initials d)) (d_rows d) (d_cols d) (d_pxh d) (d_pxw d) (d_active d) (d_dar d) (d_lang d).
Proof.
  intros H. destruct (lcd_regions c d (keep_styles c (d_initials d)) (d_regions d) []) as [out|] eqn:Eo.
  - rewrite (lcd_eq _ _ _ Eo) in H. injection H as <-. exists out. auto.
  - unfold lcd in H. rewrite Eo in H. discriminate H.
Qed.
