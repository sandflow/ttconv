(* C16: the alias structure the region loop leaves behind — every aliased region goes to a kept region with the same
   timing (and, when it is preserved, the same tts:textAlign); the alias list maps exactly the aliased ids; the body's
   region references are mapped by the alias function; and how many regions show a chain before and after. *)
From TT Require Import Model.Doc Gen.StyleTables Model.Isd Model.Lcd Spec.IsdSpec Spec.LcdSpec Model.LcdCases
  Proofs.Common.ElemInd Proofs.C16.Counting Proofs.C16.Chains Proofs.C16.Basics Proofs.C16.Prov Proofs.C16.Static Proofs.C16.Refs.

Definition time_of (a : attrs) : Q * option Q := (or0 (e_begin a), e_end a).
Definition time_eqb (x y : Q * option Q) : bool := Qeq_bool (fst x) (fst y) && oQ_eqb (snd x) (snd y).
Definition fp_time (f : fp) : Q * option Q := let '(b, e, _, _, _) := f in (b, e).

(* the source regions that stay, in order; out is the loop's output for rs *)
Fixpoint kept_src (rs : list elem) (out : list (elem * option text)) : list elem :=
  match rs, out with
  | r :: rs', (_, None) :: out' => r :: kept_src rs' out'
  | _ :: rs', (_, Some _) :: out' => kept_src rs' out'
  | _, _ => []
  end.

Lemma lookup_fp_inv ret f t : lookup_fp ret f = Some t -> exists g, In (g, t) ret /\ fp_eqb g f = true.
Proof.
  induction ret as [|[g u] ret IH]; cbn [lookup_fp]; [discriminate|].
  destruct (fp_eqb g f) eqn:E.
  - intros H. inversion H; subst. exists g. split; [left; reflexivity | exact E].
  - intros H. destruct (IH H) as [g' [Hi He]]. exists g'. split; [right; exact Hi | exact He].
Qed.
Lemma fp_eqb_time g f : fp_eqb g f = true -> time_eqb (fp_time g) (fp_time f) = true.
Proof.
  destruct g as [[[[b1 e1] w1] d1] t1], f as [[[[b2 e2] w2] d2] t2]. unfold fp_eqb, time_eqb, fp_time. cbn [fst snd].
  intros H. apply andb_true_iff in H as [H _]. apply andb_true_iff in H as [H _]. apply andb_true_iff in H as [H _]. exact H.
Qed.

(* tts:textAlign of a region survives the layout step; it is the last component of the fingerprint *)
Definition fp_ta (f : fp) : option Z := let '(_, _, _, _, a) := f in a.
Definition src_ta (c : lcd_cfg) (k : elem) : option Z := fp_align c (e_styles (eattrs k)).
Lemma fp_eqb_ta g f : fp_eqb g f = true -> oZ_eqb (fp_ta g) (fp_ta f) = true.
Proof.
  destruct g as [[[[b1 e1] w1] d1] t1], f as [[[[b2 e2] w2] d2] t2]. unfold fp_eqb, fp_ta.
  intros H. apply andb_true_iff in H as [_ H]. exact H.
Qed.
Lemma region_done_align c d inits r r2 wm nda : c_pta c = true -> region_done c d inits r r2 wm nda ->
  own_align (eattrs r2) = own_align (eattrs r).
Proof.
  intros Hp [st [Hl ->]]. unfold own_align. cbn [eattrs e_styles with_styles]. rewrite eattrs_clean in *.
  cbn [e_styles rstyle_attrs with_styles anim_attrs with_anims] in *. apply region_layout_final in Hl as [[_ [_ V]] _].
  rewrite V by (intros [H | [H | [H | H]]]; discriminate H). rewrite sget_keep_rstyles.
  unfold rsupported. rewrite (proj2 (supported_spec c p_TextAlign)) by auto 6. reflexivity.
Qed.
Lemma region_fp_ta c d inits r r2 wm nda : region_done c d inits r r2 wm nda -> fp_ta (region_fp c r r2 wm nda) = src_ta c r.
Proof.
  intros Hd. unfold region_fp, fp_ta, src_ta, fp_align. destruct (c_pta c) eqn:Hp; [|reflexivity].
  pose proof (region_done_align _ _ _ _ _ _ _ Hp Hd) as E. unfold own_align in E. rewrite E. reflexivity.
Qed.

(* an aliased region goes to a kept one with an equal fingerprint: equal timing and equal preserved tts:textAlign *)
Definition src_eqb (c : lcd_cfg) (k r : elem) : bool :=
  time_eqb (time_of (eattrs k)) (time_of (eattrs r)) && oZ_eqb (src_ta c k) (src_ta c r).
Lemma loop_alias_src c d inits ret rs out : loop_rel c d inits ret rs out ->
  forall K, (forall f t, In (f, t) ret -> exists k, In k K /\ rid (eattrs k) = t /\ fp_time f = time_of (eattrs k) /\ fp_ta f = src_ta c k) ->
  forall r r2 t, In (r, (r2, Some t)) (combine rs out) ->
  exists k, In k (K ++ kept_src rs out) /\ rid (eattrs k) = t /\ src_eqb c k r = true.
Proof.
  intros H. induction H; intros K HK x x2 u Hi.
  - destruct Hi.
  - cbn [combine] in Hi. destruct Hi as [Hi|Hi]; [inversion Hi|].
    destruct (IHloop_rel (K ++ [r])) with (r := x) (r2 := x2) (t := u) as [k [Hk [Hid Ht]]].
    + intros f t [Hf|Hf].
      * inversion Hf; subst. exists r. split; [apply in_or_app; right; left; reflexivity|]. repeat split. exact (region_fp_ta _ _ _ _ _ _ _ H).
      * destruct (HK _ _ Hf) as [k [Hk Hr]]. exists k. split; [apply in_or_app; left; exact Hk | exact Hr].
    + exact Hi.
    + exists k. cbn [kept_src]. rewrite <- app_assoc in Hk. cbn [app] in Hk. auto.
  - cbn [combine] in Hi. destruct Hi as [Hi|Hi].
    + inversion Hi; subst. apply lookup_fp_inv in H0 as [g [Hg He]]. destruct (HK _ _ Hg) as [k [Hk [Hid [Ht Ha]]]].
      exists k. split; [apply in_or_app; left; exact Hk|]. split; [exact Hid|]. unfold src_eqb. apply andb_true_iff. split.
      * apply fp_eqb_time in He. rewrite Ht in He. exact He.
      * apply fp_eqb_ta in He. rewrite Ha, (region_fp_ta _ _ _ _ _ _ _ H) in He. exact He.
    + destruct (IHloop_rel K HK _ _ _ Hi) as [k [Hk Hr]]. exists k. cbn [kept_src]. auto.
Qed.
(* from the empty table the loop starts with *)
Lemma alias_target c d inits rs out : loop_rel c d inits [] rs out ->
  forall r r2 t, In (r, (r2, Some t)) (combine rs out) -> exists k, In k (kept_src rs out) /\ rid (eattrs k) = t /\ src_eqb c k r = true.
Proof. intros L. exact (loop_alias_src _ _ _ _ _ _ L [] (fun f t (H : In (f, t) []) => match H with end)). Qed.

Lemma loop_combine c d inits ret rs out : loop_rel c d inits ret rs out ->
  length out = length rs /\
  forall r x, In (r, x) (combine rs out) ->
    e_id (eattrs (fst x)) = e_id (eattrs r) /\ e_begin (eattrs (fst x)) = e_begin (eattrs r) /\ e_end (eattrs (fst x)) = e_end (eattrs r).
Proof.
  intros H. induction H; [split; [reflexivity | intros ? ? []]| |];
    (destruct IHloop_rel as [Hl Hc]; split; [cbn [length]; congruence|];
     intros y x [Hi|Hi]; [inversion Hi; subst; cbn [fst]; exact (region_done_id _ _ _ _ _ _ _ H) | exact (Hc _ _ Hi)]).
Qed.
Lemma kept_src_sub rs out k : In k (kept_src rs out) -> exists r2, In (k, (r2, None)) (combine rs out).
Proof.
  revert out. induction rs as [|r rs IH]; intros [|[r2 [t|]] out] Hi; cbn [kept_src] in Hi; try destruct Hi.
  - destruct (IH _ Hi) as [y Hy]. exists y. right. exact Hy.
  - subst. exists r2. left. reflexivity.
  - destruct (IH _ H) as [y Hy]. exists y. right. exact Hy.
Qed.
Lemma retained_kept c d inits ret rs out : loop_rel c d inits ret rs out ->
  Forall2 (fun r2 k => e_id (eattrs r2) = e_id (eattrs k) /\ e_begin (eattrs r2) = e_begin (eattrs k) /\ e_end (eattrs r2) = e_end (eattrs k))
          (retained_of out) (kept_src rs out).
Proof.
  intros H. induction H; unfold retained_of in *; cbn [flat_map snd fst app kept_src]; [constructor| |exact IHloop_rel].
  constructor; [exact (region_done_id _ _ _ _ _ _ _ H) | exact IHloop_rel].
Qed.

Lemma replaced_keys c d inits ret rs out : loop_rel c d inits ret rs out ->
  forall k, In k (map fst (replaced_of out)) -> exists r r2 t, In (r, (r2, Some t)) (combine rs out) /\ rid (eattrs r) = k.
Proof.
  intros H. induction H; intros k Hk; unfold replaced_of in *; cbn [flat_map snd fst app map] in Hk.
  - destruct Hk.
  - destruct (IHloop_rel _ Hk) as [x [x2 [u [Hi He]]]]. exists x, x2, u. split; [right; exact Hi | exact He].
  - destruct Hk as [Hk|Hk].
    + exists r, r2, t. split; [left; reflexivity|]. rewrite <- Hk. unfold rid. rewrite (proj1 (region_done_id _ _ _ _ _ _ _ H)). reflexivity.
    + destruct (IHloop_rel _ Hk) as [x [x2 [u [Hi He]]]]. exists x, x2, u. split; [right; exact Hi | exact He].
Qed.
Lemma combine_In_l {A B} (l : list A) (m : list B) x y : In (x, y) (combine l m) -> In x l.
Proof. apply in_combine_l. Qed.

(* with unique ids the alias list maps an aliased region to its target and knows no kept region *)
Lemma lookup_alias c d inits ret rs out : loop_rel c d inits ret rs out -> NoDup (rids rs) ->
  forall r r2 tag, In (r, (r2, tag)) (combine rs out) -> lookup_id (replaced_of out) (rid (eattrs r)) = tag.
Proof.
  intros H. induction H; intros Hn x x2 tag Hi.
  - destruct Hi.
  - unfold rids in Hn. cbn [map] in Hn. inversion Hn as [|? ? Hk Hn']; subst.
    unfold replaced_of. cbn [flat_map snd app]. fold (replaced_of out). destruct Hi as [Hi|Hi]; [|exact (IHloop_rel Hn' _ _ _ Hi)].
    inversion Hi; subst.
    destruct (lookup_id (replaced_of out) (rid (eattrs x))) as [u|] eqn:El; [|reflexivity].
    apply lookup_id_In in El. assert (In (rid (eattrs x)) (map fst (replaced_of out))) as Hm by (apply in_map_iff; exists (rid (eattrs x), u); auto).
    destruct (replaced_keys _ _ _ _ _ _ H1 _ Hm) as [y [y2 [v [Hy He]]]]. exfalso. apply Hk. unfold rids in *. rewrite <- He.
    apply (in_map (fun r => rid (eattrs r)) rs y). exact (in_combine_l _ _ _ _ Hy).
  - unfold rids in Hn. cbn [map] in Hn. inversion Hn as [|? ? Hk Hn']; subst.
    unfold replaced_of. cbn [flat_map snd fst app lookup_id]. fold (replaced_of out).
    assert (rid (eattrs r2) = rid (eattrs r)) as Er by (unfold rid; rewrite (proj1 (region_done_id _ _ _ _ _ _ _ H)); reflexivity).
    rewrite Er. destruct Hi as [Hi|Hi].
    + inversion Hi; subst. rewrite text_eqb_refl. reflexivity.
    + destruct (text_eqb (rid (eattrs r)) (rid (eattrs x))) eqn:E; [|exact (IHloop_rel Hn' _ _ _ Hi)].
      apply text_eqb_eq in E. exfalso. apply Hk. rewrite E. apply (in_map (fun r => rid (eattrs r)) rs x). exact (in_combine_l _ _ _ _ Hi).
Qed.

Lemma Qle_bool_eq_l x y t : Qeq x y -> Qle_bool x t = Qle_bool y t.
Proof.
  intros H. destruct (Qle_bool x t) eqn:E1, (Qle_bool y t) eqn:E2; try reflexivity.
  - apply Qle_bool_iff in E1. rewrite H in E1. apply Qle_bool_iff in E1. congruence.
  - apply Qle_bool_iff in E2. rewrite <- H in E2. apply Qle_bool_iff in E2. congruence.
Qed.
Lemma act_time_eq t a b : time_eqb (time_of a) (time_of b) = true -> act t a = act t b.
Proof.
  unfold time_eqb, time_of. cbn [fst snd]. intros H.
  apply andb_true_iff in H as [H1 H2]. apply Qeq_bool_iff in H1.
  unfold act, resolve, root_interval, is_active. cbn [fst snd].
  assert (Qeq (0 + match e_begin a with Some x => x | None => 0 end) (0 + match e_begin b with Some x => x | None => 0 end))%Q as Eb
    by (unfold or0 in H1; rewrite H1; reflexivity).
  rewrite (Qle_bool_eq_l _ _ t Eb). f_equal.
  destruct (e_end a) as [x|], (e_end b) as [y|]; cbn [oQ_eqb] in H2; try discriminate; [|reflexivity].
  apply Qeq_bool_iff in H2. cbn [snd]. f_equal. apply Qle_bool_eq_l. rewrite H2. reflexivity.
Qed.

Lemma kept_src_in rs out k : In k (kept_src rs out) -> In k rs.
Proof. intros H. apply kept_src_sub in H as [r2 H]. exact (in_combine_l _ _ _ _ H). Qed.
Lemma combine_kept : forall rs out x x2, In (x, (x2, @None text)) (combine rs out) -> In x (kept_src rs out).
Proof.
  induction rs as [|r rs IH]; intros [|[y [u|]] out] x x2 H; cbn [combine kept_src] in *; try destruct H.
  - inversion H.
  - exact (IH _ _ _ H).
  - inversion H; subst. left. reflexivity.
  - right. exact (IH _ _ _ H).
Qed.
Lemma kept_src_nodup : forall rs out, NoDup (rids rs) -> NoDup (rids (kept_src rs out)).
Proof.
  unfold rids. induction rs as [|r rs IH]; intros [|[y [u|]] out] H; cbn [kept_src map]; try constructor.
  - cbn [map] in H. inversion H; subst. exact (IH _ H3).
  - cbn [map] in H. inversion H as [|? ? Hk Hn]; subst. intros Hi. apply Hk. apply in_map_iff in Hi as [k [Ek Hk']].
    apply in_map_iff. exists k. split; [exact Ek | exact (kept_src_in _ _ _ Hk')].
  - cbn [map] in H. inversion H; subst. exact (IH _ H3).
Qed.

Lemma mem_id_not_in k l : ~ In k l -> mem_id k l = false.
Proof.
  intros H. unfold mem_id. destruct (existsb (text_eqb k) l) eqn:E; [|reflexivity].
  apply existsb_exists in E as [x [Hx Ex]]. apply text_eqb_eq in Ex. subst. contradiction.
Qed.
Lemma time_eqb_refl x : time_eqb x x = true.
Proof.
  unfold time_eqb. apply andb_true_iff. split; [apply Qeq_bool_iff; reflexivity|].
  destruct (snd x); [apply Qeq_bool_iff; reflexivity | reflexivity].
Qed.
Lemma src_eqb_refl c x : src_eqb c x x = true.
Proof. unfold src_eqb. rewrite time_eqb_refl. destruct (src_ta c x); [apply Z.eqb_refl | reflexivity]. Qed.

Section Doc.
  Variables (c : lcd_cfg) (d : doc) (out : list (elem * option text)).
  Hypothesis L : loop_rel c d (keep_styles c (d_initials d)) [] (d_regions d) out.
  Hypothesis Hnd : NoDup (rids (d_regions d)).
  Let al := replaced_of out.
  Let regs := d_regions d.
  Let kept := kept_src regs out.

  (* the alias function on the ids of the source regions: kept regions are not aliased, and every region goes to a kept one
     with the same timing and preserved tts:textAlign *)
  Lemma kept_not_aliased k : In k kept -> lookup_id al (rid (eattrs k)) = None.
  Proof. intros Hk. apply kept_src_sub in Hk as [k2 Hk]. exact (lookup_alias _ _ _ _ _ _ L Hnd _ _ _ Hk). Qed.
  Lemma alias_kept x : In x regs -> exists k, In k kept /\ rid (eattrs k) = alias_of al (rid (eattrs x)) /\ src_eqb c k x = true.
  Proof.
    intros Hx. destruct (combine_has _ out x (proj1 (loop_combine _ _ _ _ _ _ L)) Hx) as [[x2 tag] Hp].
    unfold alias_of, al. rewrite (lookup_alias _ _ _ _ _ _ L Hnd _ _ _ Hp). destruct tag as [u|].
    - exact (alias_target _ _ _ _ _ L _ _ _ Hp).
    - exists x. split; [exact (combine_kept _ _ _ _ Hp) | split; [reflexivity | apply src_eqb_refl]].
  Qed.

  (* the alias of a region id is never an aliased region *)
  Lemma alias_not_removed r : In r (rids regs) -> mem_id (alias_of al r) (map fst al) = false.
  Proof.
    intros Hr. apply mem_id_not_in. intros Hin. apply in_map_iff in Hr as [x [<- Hx]].
    destruct (alias_kept x Hx) as [k [Hk [Ek _]]]. rewrite <- Ek in Hin. apply kept_not_aliased in Hk.
    apply in_map_iff in Hin as [[i u] [Ei Hi]]. cbn [fst] in Ei. subst i.
    destruct (replaced_keys _ _ _ _ _ _ L _ (in_map fst _ _ Hi)) as [y [y2 [v [Hy Ey]]]]. cbn [fst] in Ey.
    pose proof (lookup_alias _ _ _ _ _ _ L Hnd _ _ _ Hy) as Ely. fold al in Ely. rewrite Ey in Ely. congruence.
  Qed.

  Lemma body_rel_tl a a' : refs_in_doc d -> In a (body_attrs d) -> body_rel c al a a' -> tl_rel (alias_of al) a a'.
  Proof.
    intros Hrefs Ha Hrel. destruct (body_rel_fields _ _ _ _ Hrel) as [Hk [Hi [Hb [He [Ht [_ Hr]]]]]].
    unfold tl_rel. repeat (split; [assumption|]).
    rewrite Hr, region_body_base. destruct (e_region a) as [r|] eqn:Er; [|reflexivity].
    cbn [option_map]. rewrite alias_not_removed; [reflexivity|].
    destruct (Hrefs _ _ Ha Er) as [reg [Hreg Hid]]. apply in_map_iff. exists reg. split; [unfold rid; rewrite Hid; reflexivity | exact Hreg].
  Qed.

  (* how many regions show a chain: never fewer after the filter, and as many when the chain crosses no nested conflict *)
  Definition shown_by (t : Q) (ch : list attrs) (R : elem) : bool :=
    act t (eattrs R) && chain_active t root_interval ch && chain_sel (e_id (eattrs R)) None ch.
  Hypothesis Hids : regions_have_ids d.
  Lemma id_some r : In r regs -> e_id (eattrs r) = Some (rid (eattrs r)).
  Proof. intros H. destruct (Hids _ H) as [i Hi]. unfold rid. rewrite Hi. reflexivity. Qed.

  Lemma count_chain t ch ch' :
    Forall2 (tl_rel (alias_of al)) ch ch' -> ch <> [] -> (forall r, In r (refs ch) -> In r (rids regs)) ->
    (length (filter (shown_by t ch) regs) <= length (filter (shown_by t ch') kept))%nat /\
    (chain_noconf al None ch = true -> length (filter (shown_by t ch) regs) = length (filter (shown_by t ch') kept)).
  Proof.
    intros F Hne Hin. unfold shown_by. rewrite (tl_chain_active _ t _ _ F).
    assert (ch' <> []) as Hne' by (destruct F; [congruence | discriminate]).
    destruct (chain_active t root_interval ch).
    2:{ rewrite !filter_none; [split; reflexivity | |]; intros x _; rewrite andb_false_r; reflexivity. }
    (* both predicates through the characterisation of chain_sel *)
    rewrite (filter_ext_in _ (fun R => act t (eattrs R) && (negb (is_nil (refs ch)) && all_eq (rid (eattrs R)) (refs ch)))).
    2:{ intros R HR. rewrite andb_true_r, (id_some _ HR). rewrite (proj2 (chain_sel_some _ ch) Hne). reflexivity. }
    rewrite (filter_ext_in (fun k => act t (eattrs k) && true && chain_sel (e_id (eattrs k)) None ch')
                           (fun k => act t (eattrs k) && (negb (is_nil (refs ch')) && all_eq (rid (eattrs k)) (refs ch')))).
    2:{ intros k Hk. rewrite andb_true_r, (id_some _ (kept_src_in _ _ _ Hk)). rewrite (proj2 (chain_sel_some _ ch') Hne'). reflexivity. }
    rewrite (tl_refs _ _ _ F). pose proof (noconf_none al ch) as Hno.
    destruct (refs ch) as [|rho rest] eqn:Erefs.
    { rewrite !filter_none; [split; reflexivity | |]; intros x _; cbn [map is_nil negb andb]; apply andb_false_r. }
    cbn [map is_nil negb andb].
    assert (In rho (rids regs)) as Hrho by (apply Hin; left; reflexivity).
    apply in_map_iff in Hrho as [Rr [Erho HRr]].
    destruct (all_eq rho rest) eqn:Ea.
    - (* all references name rho: shown by region rho before, by its alias after *)
      destruct (alias_kept Rr HRr) as [k [Hk [Ek Ht]]]. rewrite Erho in Ek. apply andb_true_iff in Ht as [Ht _].
      rewrite (filter_ext_in _ (fun R => act t (eattrs R) && text_eqb (rid (eattrs R)) (rid (eattrs Rr)))).
      2:{ intros R _. rewrite (all_eq_head _ _ _ Ea), Erho. reflexivity. }
      rewrite (filter_ext_in (fun x => act t (eattrs x) && all_eq (rid (eattrs x)) (alias_of al rho :: map (alias_of al) rest))
                             (fun x => act t (eattrs x) && text_eqb (rid (eattrs x)) (rid (eattrs k)))).
      2:{ intros x _. rewrite (all_eq_head _ _ _ (all_eq_map (alias_of al) _ _ Ea)), Ek. reflexivity. }
      rewrite (count_unique (fun R => rid (eattrs R)) (fun R => act t (eattrs R)) regs Rr Hnd HRr).
      rewrite (count_unique (fun R => rid (eattrs R)) (fun R => act t (eattrs R)) kept k (kept_src_nodup _ out Hnd) Hk).
      rewrite (act_time_eq t _ _ Ht). split; reflexivity.
    - (* two different references: shown nowhere before, and nowhere after unless a conflict was merged away *)
      rewrite (filter_none (fun R => act t (eattrs R) && all_eq (rid (eattrs R)) (rho :: rest)))
        by (intros x _; rewrite (all_eq_head_false _ _ _ Ea); apply andb_false_r).
      split; [apply Nat.le_0_l|]. intros Hnc. symmetry. rewrite filter_none; [reflexivity|]. intros x _.
      rewrite all_eq_head_false; [apply andb_false_r|]. apply not_true_is_false. intros E. specialize (Hno Hnc E). congruence.
  Qed.
End Doc.
