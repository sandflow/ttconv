(* C16: the text timeline.  What is visible at t is a table: every chain of the body contributes its leaves once per region
   that shows it.  The filter keeps the chains (up to the alias function on region references) and never lowers the number of
   regions showing a chain; it keeps that number when the source hides nothing and the chain crosses no merged nested
   conflict.  The theorems about `visible` follow chain by chain. *)
From Coq Require Import Permutation.
From TT Require Import Model.Doc Gen.StyleTables Model.Isd Model.Lcd Spec.IsdSpec Spec.LcdSpec Model.LcdCases
  Proofs.Common.ElemInd Proofs.C16.Counting Proofs.C16.Chains Proofs.C16.Basics Proofs.C16.Prov Proofs.C16.Static Proofs.C16.Refs
  Proofs.C16.Alias.

Lemma last_active_display_none t iv l acc : (forall s, In s l -> a_prop s <> p_Display) -> last_active_display t iv l acc = acc.
Proof.
  revert acc. induction l as [|s l IH]; intros acc H; [reflexivity|]. cbn [last_active_display].
  assert ((a_prop s =? p_Display) = false) as E by (apply Z.eqb_neq, H; left; reflexivity). rewrite E. cbn [andb].
  apply IH. intros x Hx. apply H. right. exact Hx.
Qed.
Lemma displayed_true d t iv a : (forall s, In s (e_anims a) -> a_prop s <> p_Display) -> sget (e_styles a) p_Display = None ->
  sget (d_initials d) p_Display = None -> displayed d t iv a = true.
Proof.
  intros Ha Hs Hi. unfold displayed. rewrite (last_active_display_none _ _ _ _ Ha), Hs, Hi. destruct (e_kind a); reflexivity.
Qed.
Lemma chain_disp_true d t : forall ch parent, (forall a iv, In a ch -> displayed d t iv a = true) -> chain_disp d t parent ch = true.
Proof.
  induction ch as [|a c' IH]; intros parent H; [reflexivity|]. cbn [chain_disp]. rewrite (H a _ (or_introl eq_refl)). cbn [andb].
  apply IH. intros x iv Hx. apply H. right. exact Hx.
Qed.

Lemma no_hiding_keys (m : list (Z * value)) : forallb (fun kv => negb (hiding_prop (fst kv))) m = true -> sget m p_Display = None.
Proof.
  intros H. rewrite forallb_forall in H. apply sget_None_keys. intros kv Hkv E. specialize (H kv Hkv). rewrite E in H. discriminate H.
Qed.
Lemma no_hiding_displayed d t iv a : no_hiding_b d = true -> In a (doc_attrs d) -> displayed d t iv a = true.
Proof.
  unfold no_hiding_b. intros H Ha. apply andb_true_iff in H as [H Hi]. rewrite forallb_forall in H. specialize (H a Ha).
  apply andb_true_iff in H as [Hs Han]. rewrite forallb_forall in Han.
  apply displayed_true; [|exact (no_hiding_keys _ Hs) | exact (no_hiding_keys _ Hi)].
  intros s Hin E. specialize (Han s Hin). rewrite E in Han. discriminate Han.
Qed.
Lemma no_hiding_default d t iv : no_hiding_b d = true -> displayed d t iv default_region_attrs = true.
Proof.
  unfold no_hiding_b. intros H. apply andb_true_iff in H as [_ Hi]. apply displayed_true; [intros s [] | reflexivity | exact (no_hiding_keys _ Hi)].
Qed.

(* the result hides nothing either: the clean-ups remove tts:display *)
Lemma kept_no_display c m : sget (keep_styles c m) p_Display = None.
Proof. rewrite sget_keep_styles, unsupported by discriminate. reflexivity. Qed.
Lemma result_body_displayed c d d' t iv a' : lcd c d = Ok d' -> In a' (body_attrs d') -> displayed d' t iv a' = true.
Proof.
  intros H Ha. destruct (lcd_body_prov _ _ _ H) as [out [_ [_ [Ei F]]]].
  destruct (Forall2_In_r _ _ _ _ F Ha) as [a [_ Hrel]]. apply displayed_true.
  - destruct (body_rel_fields _ _ _ _ Hrel) as [_ [_ [_ [_ [_ [Han _]]]]]]. rewrite Han. intros s [].
  - rewrite (body_rel_sget _ _ _ _ p_Display Hrel); [apply kept_no_display|].
    intros v [[col [_ [_ [E _]]]] | [[col [_ [E _]]] | [_ [E _]]]]; discriminate E.
  - rewrite Ei. apply kept_no_display.
Qed.
Lemma result_region_displayed c d d' t iv r2 : lcd c d = Ok d' -> In r2 (d_regions d') -> displayed d' t iv (eattrs r2) = true.
Proof.
  intros H Hr. destruct (lcd_body_prov _ _ _ H) as [out [_ [_ [Ei _]]]].
  destruct (lcd_region_prov _ _ _ _ H Hr) as [r [wm [nda [_ [st [Hl ->]]]]]]. cbn [eattrs]. rewrite eattrs_clean in *.
  cbn [e_styles rstyle_attrs with_styles anim_attrs with_anims] in Hl. apply displayed_true.
  - intros s [].
  - cbn [e_styles with_styles]. apply region_layout_final in Hl as [[_ [_ V]] _].
    rewrite V by (intros [E | [E | [E | E]]]; discriminate E). rewrite sget_keep_rstyles. unfold rsupported.
    rewrite unsupported by discriminate. reflexivity.
  - rewrite Ei. apply kept_no_display.
Qed.
Lemma result_default_displayed c d d' t iv : lcd c d = Ok d' -> displayed d' t iv default_region_attrs = true.
Proof.
  intros H. destruct (lcd_body_prov _ _ _ H) as [out [_ [_ [Ei _]]]].
  apply displayed_true; [intros s [] | reflexivity | rewrite Ei; apply kept_no_display].
Qed.

(* the regions that select, each with the association it selects for: the document's, or the default region *)
Definition rows (d : doc) : list (attrs * option text) :=
  match d_regions d with [] => [(default_region_attrs, None)] | rs => map (fun r => (eattrs r, e_id (eattrs r))) rs end.
Definition shows (d : doc) (t : Q) (ch : list attrs) (r : attrs * option text) : bool :=
  (act t (fst r) && displayed d t (resolve root_interval (e_begin (fst r)) (e_end (fst r))) (fst r)) &&
  (chain_active t root_interval ch && chain_sel (snd r) None ch && chain_disp d t root_interval ch).
Definition shown (d : doc) (t : Q) (ch : list attrs) : nat := length (filter (shows d t ch) (rows d)).

Lemma tagged_leaves_table d t r b : d_body d = Some b ->
  tagged_leaves d t (fst r) (snd r) = flat_map (fun ch => if shows d t ch r then chain_leaves ch else []) (chains b).
Proof.
  intros Hb. unfold tagged_leaves, shows. rewrite Hb. fold (act t (fst r)).
  destruct (act t (fst r) && displayed d t _ (fst r)).
  - rewrite flat_map_filter_if. apply flat_map_ext_in. intros ch Hch.
    rewrite chain_visible_split. cbn [andb]. unfold chain_leaves.
    rewrite (last_indep ch (fst r) default_region_attrs (chains_nonempty _ _ Hch)). reflexivity.
  - cbn [andb]. induction (chains b); [reflexivity | assumption].
Qed.
Lemma visible_rows d t : visible d t = flat_map (fun r => tagged_leaves d t (fst r) (snd r)) (rows d).
Proof.
  unfold visible, rows. destruct (d_regions d) as [|r rs]; [cbn [flat_map fst snd]; rewrite app_nil_r; reflexivity|].
  induction (r :: rs) as [|x l IH]; [reflexivity|]. cbn [map flat_map fst snd]. rewrite IH. reflexivity.
Qed.
Theorem visible_table d t b : d_body d = Some b ->
  Permutation (visible d t) (flat_map (fun ch => concat (repeat (chain_leaves ch) (shown d t ch))) (chains b)).
Proof.
  intros Hb. rewrite visible_rows.
  rewrite (flat_map_ext_in _ (fun r => flat_map (fun ch => if shows d t ch r then chain_leaves ch else []) (chains b)))
    by (intros r _; apply tagged_leaves_table, Hb).
  rewrite (flat_map_swap (fun r ch => if shows d t ch r then chain_leaves ch else [])).
  erewrite flat_map_ext; [reflexivity|]. intros ch. apply flat_map_const_if.
Qed.
Lemma visible_no_body d t : d_body d = None -> visible d t = [].
Proof.
  intros Hb. rewrite visible_rows. unfold tagged_leaves. rewrite Hb.
  induction (rows d) as [|r l IH]; [reflexivity|]. cbn [flat_map]. rewrite IH. destruct (_ && _); reflexivity.
Qed.

Theorem timeline_chains c d d' t b b' :
  lcd c d = Ok d' -> regions_have_ids d -> NoDup (rids (d_regions d)) -> refs_in_doc d -> d_body d = Some b -> d_body d' = Some b' ->
  Forall2 (fun ch ch' => chain_leaves ch' = chain_leaves ch /\ (shown d t ch <= shown d' t ch')%nat /\
                         (no_hiding_b d = true -> trig_nested c d = false -> shown d t ch = shown d' t ch'))
          (chains b) (chains b').
Proof.
  intros H Hids Hnd Hrefs Eb Eb'.
  destruct (lcd_body_tree _ _ _ H) as [out [Ho [Er [Ei Hbody]]]]. rewrite Eb, Eb' in Hbody. cbn [obody_rel] in Hbody.
  pose proof (lcd_regions_rel _ _ _ _ _ _ Ho) as L. set (al := replaced_of out) in *.
  assert (shape_rel (tl_rel (alias_of al)) b b') as Hshape.
  { eapply shape_rel_impl; [|exact Hbody]. intros a a' Ha. apply (body_rel_tl c d out L Hnd _ _ Hrefs).
    unfold body_attrs. rewrite Eb. exact Ha. }
  eapply Forall2_impl; [|exact (Forall2_in _ _ _ (chains_rel _ (fun a a' Hr => proj1 Hr) _ _ Hshape))].
  intros ch ch' [Hin [Hin' F]]. cbv beta. pose proof (chains_nonempty _ _ Hin) as Hne.
  split; [exact (tl_chain_leaves _ _ _ F Hne)|].
  (* in the result display hides nothing; in the source it can only hide *)
  assert (chain_disp d' t root_interval ch' = true) as Hd'.
  { apply chain_disp_true. intros a iv Ha. apply (result_body_displayed c d d'); [exact H|].
    unfold body_attrs. rewrite Eb'. exact (chains_elems _ _ _ Hin' Ha). }
  assert (no_hiding_b d = true -> chain_disp d t root_interval ch = true) as Hd.
  { intros Hh. apply chain_disp_true. intros a iv Ha. apply no_hiding_displayed; [exact Hh|].
    unfold doc_attrs, body_attrs. rewrite Eb. apply in_or_app. right. exact (chains_elems _ _ _ Hin Ha). }
  assert (trig_nested c d = false -> chain_noconf al None ch = true) as Hnc.
  { intros Hn. unfold trig_nested, lcd_aliases in Hn. rewrite Ho, Eb in Hn. exact (nested_chains _ _ _ Hn _ Hin). }
  unfold shown, rows. rewrite Er. destruct (d_regions d) as [|r0 rs0] eqn:Eregs.
  - (* no region: the default region on both sides *)
    inversion L; subst. cbn [retained_of flat_map filter]. unfold shows. cbn [fst snd].
    rewrite (result_default_displayed c d d' t _ H), Hd', (tl_chain_active _ t _ _ F), !chain_sel_none, (tl_refs _ _ _ F), !andb_true_r.
    assert (is_nil (map (alias_of al) (refs ch)) = is_nil (refs ch)) as -> by (destruct (refs ch); reflexivity).
    split.
    + destruct (act t default_region_attrs), (chain_active t root_interval ch), (is_nil (refs ch)); cbn [andb length];
        try apply Nat.le_0_l; rewrite ?andb_false_r; cbn [length]; try apply Nat.le_0_l; destruct (_ && _); auto.
    + intros Hh _. rewrite (no_hiding_default d t _ Hh), (Hd Hh), !andb_true_r. reflexivity.
  - (* regions: the first one is always retained, so the result has regions too *)
    assert (retained_of out <> []) as Hret by (inversion L; subst; [|discriminate]; unfold retained_of; cbn [flat_map snd fst app]; discriminate).
    destruct (retained_of out) as [|r2 rs2] eqn:Eret; [congruence|]. rewrite <- Eret, <- Eregs in *. clear Hret.
    rewrite !filter_map_length. unfold shows. cbn [fst snd].
    assert (forall r, In r (refs ch) -> In r (rids (d_regions d))) as Hrin.
    { intros r Hr. apply refs_in_elems in Hr as [a [Ha Hra]].
      destruct (Hrefs a r) as [reg [Hreg Hid]]; [unfold body_attrs; rewrite Eb; exact (chains_elems _ _ _ Hin Ha) | exact Hra|].
      apply in_map_iff. exists reg. split; [unfold rid; rewrite Hid; reflexivity | exact Hreg]. }
    destruct (count_chain c d out L Hnd Hids t ch ch' F Hne Hrin) as [Cle Ceq].
    (* the result's side of the table counts the kept source regions *)
    assert (length (filter (fun x => (act t (eattrs x) && displayed d' t (resolve root_interval (e_begin (eattrs x)) (e_end (eattrs x))) (eattrs x)) &&
                                     (chain_active t root_interval ch' && chain_sel (e_id (eattrs x)) None ch' && chain_disp d' t root_interval ch'))
                           (retained_of out)) =
            length (filter (shown_by t ch') (kept_src (d_regions d) out))) as ->.
    { apply filter_length_F2. eapply Forall2_impl; [|exact (Forall2_in _ _ _ (retained_kept _ _ _ _ _ _ L))].
      intros x k [Hx [_ [Hi [Hb He]]]]. cbv beta. rewrite (result_region_displayed c d d' t _ x H) by (rewrite Er; exact Hx).
      unfold shown_by, act. rewrite Hd', Hi, Hb, He, !andb_true_r, ?andb_assoc. reflexivity. }
    split.
    + eapply Nat.le_trans; [|exact Cle]. apply filter_length_le. intros R _ HB. unfold shown_by.
      apply andb_true_iff in HB as [H1 H2]. apply andb_true_iff in H1 as [Ha _]. apply andb_true_iff in H2 as [H2 _].
      rewrite Ha. exact H2.
    + intros Hh Hn. rewrite <- (Ceq (Hnc Hn)). f_equal. apply filter_ext_in. intros R HR. unfold shown_by.
      rewrite (Hd Hh), !andb_true_r, no_hiding_displayed, andb_true_r; [apply andb_assoc | exact Hh|].
      unfold doc_attrs, region_attrs. apply in_or_app. left. apply in_flat_map. exists R. split; [exact HR|]. destruct R. left. reflexivity.
Qed.

Theorem timeline_thm c d d' t :
  lcd c d = Ok d' -> regions_have_ids d -> NoDup (rids (d_regions d)) -> refs_in_doc d ->
  no_hiding_b d = true -> trig_nested c d = false ->
  timeline_at d d' t.
Proof.
  intros H Hids Hnd Hrefs Hhide Hnest. unfold timeline_at.
  destruct (lcd_body_tree _ _ _ H) as [out [_ [_ [_ Hbody]]]].
  destruct (d_body d) as [b|] eqn:Eb, (d_body d') as [b'|] eqn:Eb'; cbn [obody_rel] in Hbody; try contradiction.
  - rewrite (visible_table d t b Eb), (visible_table d' t b' Eb').
    erewrite flat_map_F2; [apply Permutation_refl|].
    eapply Forall2_impl; [|exact (timeline_chains c d d' t b b' H Hids Hnd Hrefs Eb Eb')].
    intros ch ch' [El [_ En]]. cbv beta. rewrite El, (En Hhide Hnest). reflexivity.
  - rewrite (visible_no_body d t Eb), (visible_no_body d' t Eb'). constructor.
Qed.

(* the tags are an addition: without them the lists are those of Spec/IsdSpec.v (C01: what a snapshot region shows) *)
Lemma tagged_leaves_untag d t r sel : map snd (tagged_leaves d t r sel) = leaves_spec d t r sel.
Proof.
  unfold tagged_leaves, leaves_spec. destruct (_ && _); [|reflexivity]. destruct (d_body d) as [b|]; [|reflexivity].
  induction (filter _ (chains b)) as [|ch l IH]; [reflexivity|]. cbn [flat_map]. rewrite map_app, IH. f_equal.
  rewrite map_map. cbn [snd]. apply map_id.
Qed.
Definition all_leaves_spec (d : doc) (t : Q) : list leaf :=
  match d_regions d with
  | [] => leaves_spec d t default_region_attrs None
  | rs => flat_map (fun r => leaves_spec d t (eattrs r) (e_id (eattrs r))) rs
  end.
Lemma visible_untag d t : map snd (visible d t) = all_leaves_spec d t.
Proof.
  unfold visible, all_leaves_spec. destruct (d_regions d) as [|r rs]; [apply tagged_leaves_untag|].
  rewrite map_flat_map'. apply flat_map_ext. intros x. apply tagged_leaves_untag.
Qed.
Theorem timeline_leaves_thm c d d' t :
  lcd c d = Ok d' -> regions_have_ids d -> NoDup (rids (d_regions d)) -> refs_in_doc d ->
  no_hiding_b d = true -> trig_nested c d = false ->
  Permutation (all_leaves_spec d t) (all_leaves_spec d' t).
Proof.
  intros. rewrite <- !visible_untag. apply Permutation_map. eapply timeline_thm; eassumption.
Qed.

Theorem total_timeline_thm c d t :
  lcd_typed d = true -> regions_have_ids d -> NoDup (rids (d_regions d)) -> refs_in_doc d ->
  no_hiding_b d = true -> trig_nested c d = false ->
  exists d', lcd c d = Ok d' /\ timeline_at d d' t.
Proof.
  intros Ht Hids Hnd Hrefs Hh Hn. destruct (total_thm c d Ht) as [d' E]. exists d'. split; [exact E|].
  exact (timeline_thm c d d' t E Hids Hnd Hrefs Hh Hn).
Qed.
