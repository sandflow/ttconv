(* C16: "the configured color, background color and centered alignment are what snapshots compute" — for every document,
   configuration and time: every element of every snapshot (Model/Isd.v, the transcription of ISD.from_model that C01/C03/C13
   tie to isd.py) of the filtered document carries the configured colour wherever it carries a colour, and every paragraph the
   configured background colour and (unless text alignment is preserved) textAlign = center.
   The style cascade is not redone here: the value of a plain property after the style phase is C03's style_phase_plain. *)
From TT Require Import Model.Doc Gen.StyleTables Model.Isd Model.Lcd Spec.IsdSpec Spec.IsdShape Spec.StyleSpec Spec.LcdSpec Model.LcdCases.
From TT Require Import Proofs.Common.ElemInd Proofs.Common.StyleFrame Proofs.Common.Walk Proofs.C13.Shape Proofs.C13.Styles Proofs.C03.Cascade.
From TT Require Import Proofs.C16.Counting Proofs.C16.Chains Proofs.C16.Basics Proofs.C16.Prov.

Lemma content_ok_node in_p a cs : content_ok in_p (Elem a cs) =
  negb (kind_eqb (e_kind a) KRegion) &&
  (if is_leaf_kind (e_kind a) then match cs with [] => true | _ => false end else true) &&
  negb (in_p && kind_eqb (e_kind a) KP) &&
  forallb (content_ok (in_p || kind_eqb (e_kind a) KP)) cs.
Proof. reflexivity. Qed.

Lemma content_ok_rel (R : attrs -> attrs -> Prop) : (forall a a', R a a' -> e_kind a' = e_kind a) ->
  forall e e' in_p, shape_rel R e e' -> content_ok in_p e' = content_ok in_p e.
Proof.
  intros Hk. induction e as [a cs IH] using elem_ind2. intros [a' cs'] in_p H. apply shape_rel_node in H as [Ha Hcs].
  rewrite !content_ok_node, (Hk _ _ Ha).
  assert ((if is_leaf_kind (e_kind a) then match cs' with [] => true | _ => false end else true) =
          (if is_leaf_kind (e_kind a) then match cs with [] => true | _ => false end else true)) as E1.
  { destruct (is_leaf_kind (e_kind a)); [|reflexivity]. destruct Hcs; reflexivity. }
  assert (forall b, forallb (content_ok b) cs' = forallb (content_ok b) cs) as E2.
  { intros b. clear E1 Ha. revert cs' Hcs. induction cs as [|x cs IHcs]; intros cs' Hcs; inversion Hcs; subst; [reflexivity|].
    inversion IH; subst. cbn [forallb]. f_equal; auto. }
  rewrite E1, E2. reflexivity.
Qed.

Lemma kind_eqb_refl k : kind_eqb k k = true.
Proof. destruct k; reflexivity. Qed.

Lemma content_in_p_no_p : forall e, content_ok true e = true -> all_attrs (fun a => e_kind a <> KP) e.
Proof.
  induction e as [a cs IH] using elem_ind2. rewrite content_ok_node. intros H.
  apply andb_true_iff in H as [H Hcs]. apply andb_true_iff in H as [_ Hp]. cbn [andb] in Hp. apply negb_true_iff in Hp.
  apply all_attrs_node. split; [intros E; rewrite E in Hp; discriminate|].
  cbn [orb] in Hcs. rewrite forallb_forall in Hcs. rewrite Forall_forall in IH. apply Forall_forall. intros x Hx. exact (IH x Hx (Hcs x Hx)).
Qed.

(* _apply_bg_color stops at a p; it reaches every p because the content model puts no p below a p *)
Definition bg_on_p (col : Z) (a : attrs) : Prop := e_kind a = KP -> sget (e_styles a) p_BackgroundColor = Some (VColor col).
Lemma apply_bg_all_p col : forall e, content_ok false e = true -> all_attrs (bg_on_p col) (apply_bg col e).
Proof.
  induction e as [a cs IH] using elem_ind2. rewrite content_ok_node. intros H. apply andb_true_iff in H as [_ Hcs]. cbn [orb] in Hcs.
  rewrite forallb_forall in Hcs. rewrite Forall_forall in IH. cbn [apply_bg].
  assert (e_kind a <> KP -> all_attrs (bg_on_p col) (Elem a (map (apply_bg col) cs))) as Hother.
  { intros Hn. apply all_attrs_node. split; [intros E; contradiction|]. apply Forall_forall. intros y Hy.
    apply in_map_iff in Hy as [x [<- Hx]]. apply (IH x Hx). specialize (Hcs x Hx).
    destruct (e_kind a); try exact Hcs. contradiction Hn. reflexivity. }
  destruct (e_kind a) eqn:Ek; try (apply Hother; discriminate).
  apply all_attrs_node. split.
  - intros _. cbn [set_style e_styles with_styles]. apply sget_sset_same.
  - apply Forall_forall. intros x Hx y Hy. intros E. exfalso. specialize (Hcs x Hx). cbn [kind_eqb] in Hcs.
    exact (content_in_p_no_p x Hcs y Hy E).
Qed.
Lemma all_attrs_set_root (P : attrs -> Prop) p v e : (forall a, P a -> P (set_style a p v)) -> all_attrs P e -> all_attrs P (set_root_style p v e).
Proof.
  destruct e as [a cs]. intros Hf H. cbn [set_root_style]. apply all_attrs_node in H as [Ha Hcs]. apply all_attrs_node. split; [apply Hf, Ha | exact Hcs].
Qed.
Lemma bg_on_p_set col a p v : p <> p_BackgroundColor -> bg_on_p col a -> bg_on_p col (set_style a p v).
Proof.
  intros Hp H E. cbn [set_style e_styles with_styles e_kind] in *. rewrite sget_sset_other by congruence. exact (H E).
Qed.

Lemma content_ok_map_attrs f : (forall a, e_kind (f a) = e_kind a) -> forall e in_p, content_ok in_p (map_attrs f e) = content_ok in_p e.
Proof.
  intros Hf e in_p. apply (content_ok_rel (fun a a' => a' = f a)); [intros a a' ->; apply Hf | apply shape_rel_map_attrs].
Qed.

Definition opt_is (o : option value) (v : value) : Prop := o = None \/ o = Some v.
Section Styled.
  Variables (pta : bool) (color bg : option Z).
  Definition center : value := VEnum e_TextAlignType_center.
  (* The filter specifies colour and alignment on the root of the body only (own); below it an element specifies the same
     value or none (styled), so the computed value of its snapshot parent (inh_ok) is passed down by inheritance. *)
  Definition styled (a : attrs) : Prop :=
    e_anims a = [] /\
    (forall col, color = Some col -> opt_is (sget (e_styles a) p_Color) (VColor col)) /\
    (pta = false -> opt_is (sget (e_styles a) p_TextAlign) center) /\
    (forall col, bg = Some col -> bg_on_p col a).
  Definition own (a : attrs) : Prop :=
    (forall col, color = Some col -> sget (e_styles a) p_Color = Some (VColor col)) /\
    (pta = false -> sget (e_styles a) p_TextAlign = Some center).
  Definition inh_ok (pst : smap) : Prop :=
    (forall col, color = Some col -> sget pst p_Color = Some (VColor col)) /\
    (pta = false -> sget pst p_TextAlign = Some center).
  Definition complete (pst : smap) : Prop := forall p, In p all_props -> shas pst p = true.
  Definition pa : attrs -> bool := computed_attrs_b pta color bg.

  Lemma pa_text a t :
    pa (mkAttrs (e_kind a) (e_id a) (e_begin a) (e_end a) (e_region a) (e_styles a) (e_anims a) (e_preserve a) (e_lang a) t) = pa a.
  Proof. reflexivity. Qed.

  Lemma plain_Color : plain_prop p_Color = true /\ In p_Color all_props /\ inheritable p_Color = true.
  Proof. split; [reflexivity | split; [apply existsb_eqb_In|]; reflexivity]. Qed.
  Lemma plain_TextAlign : plain_prop p_TextAlign = true /\ In p_TextAlign all_props /\ inheritable p_TextAlign = true.
  Proof. split; [reflexivity | split; [apply existsb_eqb_In|]; reflexivity]. Qed.
  Lemma plain_Bg : plain_prop p_BackgroundColor = true /\ In p_BackgroundColor all_props.
  Proof. split; [|apply existsb_eqb_In]; reflexivity. Qed.

  Lemma specified_static t a iv p : e_anims a = [] -> specified t (a, iv) p = sget (e_styles a) p.
  Proof. intros H. unfold specified. cbn [fst snd]. rewrite H. reflexivity. Qed.

  Lemma element_style d t a pk pst iv st :
    is_leaf_kind (e_kind a) = false -> kind_eqb (e_kind a) KRegion = false -> styled a -> complete pst -> inh_ok pst \/ own a ->
    style_phase d t a (Some (pk, pst)) iv = Ok st ->
    inh_ok st /\ complete st /\ (forall col, bg = Some col -> e_kind a = KP -> sget st p_BackgroundColor = Some (VColor col)).
  Proof.
    intros Hleaf Hreg [Han [Hc [Ht Hb]]] Hcomp Hio H.
    destruct plain_Color as [C1 [C2 C3]]. destruct plain_TextAlign as [T1 [T2 T3]]. destruct plain_Bg as [B1 B2].
    assert (forall p, In p all_props -> forall pk0 pst0, Some (pk, pst) = Some (pk0, pst0) -> shas pst0 p = true) as Hpar
      by (intros p Hp pk0 pst0 E; inversion E; subst; apply Hcomp, Hp).
    pose proof (style_phase_plain d t a _ iv st p_Color Hleaf C1 C2 (Hpar _ C2) H) as GC.
    pose proof (style_phase_plain d t a _ iv st p_TextAlign Hleaf T1 T2 (Hpar _ T2) H) as GT.
    pose proof (style_phase_plain d t a _ iv st p_BackgroundColor Hleaf B1 B2 (Hpar _ B2) H) as GB.
    rewrite (specified_static t a iv _ Han) in GC. rewrite (specified_static t a iv _ Han) in GT. rewrite (specified_static t a iv _ Han) in GB.
    rewrite Hreg in GC, GT. rewrite C3 in GC. rewrite T3 in GT. cbn [negb andb] in GC, GT.
    split; [split|split].
    - intros col Ec. rewrite GC. destruct (Hc col Ec) as [E|E]; rewrite E; [|reflexivity].
      destruct Hio as [[Hi _]|[Ho _]]; [exact (Hi col Ec) | rewrite (Ho col Ec) in E; discriminate].
    - intros Ep. rewrite GT. destruct (Ht Ep) as [E|E]; rewrite E; [|reflexivity].
      destruct Hio as [[_ Hi]|[_ Ho]]; [exact (Hi Ep) | rewrite (Ho Ep) in E; discriminate].
    - exact (style_phase_complete d t a _ iv st Hleaf H).
    - intros col Eb Ek. rewrite GB, (Hb col Eb Ek). reflexivity.
  Qed.

  Lemma applicable_leaf k p : is_leaf_kind k = true -> applicable k p = false.
  Proof. destruct k; cbn; try discriminate; reflexivity. Qed.
  Lemma is_color_refl col : is_color (VColor col) col = true.
  Proof. cbn. apply Z.eqb_refl. Qed.

  Lemma pa_out_leaf a st : is_leaf_kind (e_kind a) = true -> pa (isd_attrs a (strip_inapplicable (e_kind a) st)) = true.
  Proof.
    intros Hl. unfold pa, computed_attrs_b. cbn [isd_attrs e_styles e_kind]. rewrite sget_strip, (applicable_leaf _ _ Hl).
    destruct color; destruct (e_kind a); try discriminate; reflexivity.
  Qed.
  Lemma pa_out a st : inh_ok st -> (forall col, bg = Some col -> e_kind a = KP -> sget st p_BackgroundColor = Some (VColor col)) ->
    pa (isd_attrs a (strip_inapplicable (e_kind a) st)) = true.
  Proof.
    intros [Hc Ht] Hb. unfold pa, computed_attrs_b. cbn [isd_attrs e_styles e_kind]. rewrite !sget_strip.
    apply andb_true_iff. split.
    - destruct color as [col|]; [|reflexivity]. destruct (applicable (e_kind a) p_Color); [|reflexivity].
      rewrite (Hc col eq_refl). apply is_color_refl.
    - destruct (e_kind a) eqn:Ek; try reflexivity.
      change (applicable KP p_BackgroundColor) with true. change (applicable KP p_TextAlign) with true. cbv iota.
      apply andb_true_iff. split.
      + destruct bg as [col|]; [|reflexivity]. rewrite (Hb col eq_refl eq_refl). apply is_color_refl.
      + destruct pta; [reflexivity|]. rewrite (Ht eq_refl). cbn. reflexivity.
  Qed.
  (* a region element never shows a colour and is not a paragraph *)
  Lemma pa_out_region a st : e_kind a = KRegion -> pa (isd_attrs a (strip_inapplicable (e_kind a) st)) = true.
  Proof.
    intros Ek. unfold pa, computed_attrs_b. cbn [isd_attrs e_styles e_kind]. rewrite sget_strip, Ek.
    change (applicable KRegion p_Color) with false. destruct color; reflexivity.
  Qed.

  Lemma proc_pa d t sel : forall e in_p inh pk pst pb pe r,
    content_ok in_p e = true -> all_attrs styled e -> complete pst -> inh_ok pst \/ own (eattrs e) ->
    proc d t sel inh (Some (pk, pst)) pb pe e = Ok (Some r) -> allp pa r = true.
  Proof.
    induction e as [a cs IH] using elem_ind2. intros in_p inh pk pst pb pe r Hcont Hst Hcomp Hio H.
    rewrite content_ok_node in Hcont. apply andb_true_iff in Hcont as [Hcont Hcs]. apply andb_true_iff in Hcont as [Hcont _].
    apply andb_true_iff in Hcont as [Hreg Hleafcs]. apply negb_true_iff in Hreg.
    apply all_attrs_node in Hst as [Hsa Hscs].
    apply proc_kept in H as (st & children & Est & Edn & Hl & H).
    destruct (is_leaf_kind (e_kind a)) eqn:Eleaf.
    - destruct cs; [|discriminate]. injection Hl as <-.
      apply (finish_element_allp pa pa_text a st [] r); [apply pa_out_leaf, Eleaf | reflexivity | exact H].
    - cbn [eattrs] in Hio.
      destruct (element_style d t a pk pst _ st Eleaf Hreg Hsa Hcomp Hio Est) as [Hinh [Hcst Hbg]].
      apply (finish_element_allp pa pa_text a st children r); [apply pa_out; assumption| |exact H].
      rewrite forallb_forall in Hcs. rewrite Forall_forall in Hscs, IH.
      apply forallb_forall. intros y Hy. destruct (collect_map_in _ _ _ _ Hl Hy) as (x & Hx & Ec).
      exact (IH x Hx _ _ _ _ _ _ _ (Hcs x Hx) (Hscs x Hx) Hcst (or_introl Hinh) Ec).
  Qed.

  Lemma proc_region_pa d t sel r res : e_kind (eattrs r) = KRegion ->
    (forall b, d_body d = Some b -> content_ok false b = true /\ all_attrs styled b /\ own (eattrs b)) ->
    proc_region d t sel r = Ok (Some res) -> allp pa res = true.
  Proof.
    intros Ek Hbody H. apply proc_region_kept in H as (st & children & Est & Edn & Hch & H).
    apply (finish_element_allp pa pa_text (eattrs r) st children res); [apply pa_out_region, Ek| |exact H].
    destruct Hch as [->|(b & x & Eb0 & Eb & ->)]; [reflexivity|]. destruct (Hbody b Eb0) as [Hc [Hs Ho]].
    unfold allp_list. cbn [forallb]. rewrite andb_true_r.
    apply (proc_pa d t sel b false None KRegion st None None x Hc Hs); [|right; exact Ho | exact Eb].
    intros p Hp. eapply style_phase_complete; [|exact Est | exact Hp]. rewrite Ek. reflexivity.
  Qed.

  Lemma isd_pa d t rs : (forall r, In r (d_regions d) -> e_kind (eattrs r) = KRegion) ->
    (forall b, d_body d = Some b -> content_ok false b = true /\ all_attrs styled b /\ own (eattrs b)) ->
    isd d t = Ok rs -> allp_list pa rs = true.
  Proof.
    intros Hk Hbody H. apply forallb_forall. intros o Ho. destruct (isd_in d t rs o H Ho) as (sel & r & Hr & Hp).
    apply proc_region_pa in Hp; [exact Hp | destruct Hr as [Hr|[_ ->]]; [exact (Hk r Hr) | reflexivity] | exact Hbody].
  Qed.
End Styled.

Lemma elems_all_elems : forall e, elems_of e = map eattrs (all_elems e).
Proof.
  induction e as [a cs IH] using elem_ind2. rewrite all_elems_node. cbn [elems_of map eattrs]. f_equal.
  induction cs as [|x cs IHcs]; [reflexivity|]. inversion IH; subst. cbn [flat_map]. rewrite map_app. f_equal; auto.
Qed.
Lemma computed_allp pta color bg s : allp_list (pa pta color bg) s = true -> computed_b pta color bg s = true.
Proof.
  unfold computed_b, allp_list. induction s as [|e s IH]; [reflexivity|]. cbn [forallb flat_map]. intros H.
  apply andb_true_iff in H as [He Hs]. rewrite forallb_app, (IH Hs), andb_true_r.
  unfold allp in He. rewrite elems_all_elems. rewrite forallb_forall in He. apply forallb_forall. intros a Ha.
  apply in_map_iff in Ha as [x [<- Hx]]. exact (He x Hx).
Qed.

Lemma body_rel_kind c al a a' : body_rel c al a a' -> e_kind a' = e_kind a.
Proof. intros H. apply (body_rel_fields _ _ _ _ H). Qed.

(* a kept entry is under a supported key and the keys of the overrides are unsupported, so an entry under p_Color or
   p_TextAlign was written by an override *)
Lemma body_rel_styled c al a a' : body_rel c al a a' ->
  e_anims a' = [] /\
  (forall col, c_color c = Some col -> opt_is (sget (e_styles a') p_Color) (VColor col)) /\
  (c_pta c = false -> opt_is (sget (e_styles a') p_TextAlign) center).
Proof.
  intros Hrel. split; [apply (body_rel_fields _ _ _ _ Hrel)|].
  assert (forall p v w, sget (e_styles a') p = Some w -> override c (e_kind a) p v -> (forall u, override c (e_kind a) p u -> u = v) -> w = v) as Hov.
  { intros p v w E Ho Hu. apply sget_In in E. destruct (body_rel_In _ _ _ _ _ Hrel E) as [Hk | Ho']; [|exact (Hu _ Ho')].
    apply In_keep_styles in Hk as [_ Hk]. cbn [fst] in Hk. rewrite (override_unsupported _ _ _ _ Ho) in Hk. discriminate. }
  split.
  - intros col Ec. destruct (sget (e_styles a') p_Color) as [w|] eqn:E; [right | left; reflexivity]. f_equal.
    apply (Hov _ _ _ E); [right; left; exists col; auto|].
    intros u [[cb [_ [_ [Hp _]]]] | [[cc [Ecc [_ ->]]] | [_ [Hp _]]]]; try discriminate Hp. congruence.
  - intros Ep. destruct (sget (e_styles a') p_TextAlign) as [w|] eqn:E; [right | left; reflexivity]. f_equal.
    apply (Hov _ _ _ E); [right; right; auto|].
    intros u [[cb [_ [_ [Hp _]]]] | [[cc [_ [Hp _]]] | [_ [_ ->]]]]; try discriminate Hp. reflexivity.
Qed.

Lemma eattrs_set_root p v e : eattrs (set_root_style p v e) = set_style (eattrs e) p v.
Proof. destruct e. reflexivity. Qed.
Lemma content_ok_apply_bg col e in_p : content_ok in_p (apply_bg col e) = content_ok in_p e.
Proof.
  apply (content_ok_rel (bg_rel col)); [|apply shape_rel_apply_bg]. intros a a' [->|[_ ->]]; reflexivity.
Qed.
Lemma content_ok_set_root p v e in_p : content_ok in_p (set_root_style p v e) = content_ok in_p e.
Proof.
  apply (content_ok_rel (root_rel p v)); [|apply shape_rel_set_root]. intros a a' [->| ->]; reflexivity.
Qed.

Lemma pipeline_facts c al b : content_ok false b = true ->
  content_ok false (body_pipeline c al b) = true /\ (forall col, c_bg c = Some col -> all_attrs (bg_on_p col) (body_pipeline c al b)) /\
  own (c_pta c) (c_color c) (eattrs (body_pipeline c al b)).
Proof.
  intros Hc. unfold body_pipeline. rewrite base_elem_eq. set (b1 := map_attrs (body_base c al) b).
  assert (content_ok false b1 = true) as C1 by (unfold b1; rewrite content_ok_map_attrs; [exact Hc | intros a; apply kind_body_base]).
  assert (content_ok false (bg_step c b1) = true /\ (forall col, c_bg c = Some col -> all_attrs (bg_on_p col) (bg_step c b1))) as [C2 B2].
  { unfold bg_step. destruct (c_bg c) as [cb|]; [|split; [exact C1 | discriminate]].
    split; [rewrite content_ok_apply_bg; exact C1|]. intros col E. injection E as <-. apply apply_bg_all_p, C1. }
  set (b2 := bg_step c b1) in *.
  assert (content_ok false (color_step c b2) = true /\ (forall col, c_bg c = Some col -> all_attrs (bg_on_p col) (color_step c b2)) /\
          (forall col, c_color c = Some col -> sget (e_styles (eattrs (color_step c b2))) p_Color = Some (VColor col))) as [C3 [B3 O3]].
  { unfold color_step. destruct (c_color c) as [cc|]; [|split; [exact C2 | split; [exact B2 | discriminate]]].
    split; [rewrite content_ok_set_root; exact C2|]. split.
    - intros col E. apply all_attrs_set_root; [intros a; apply bg_on_p_set; discriminate | exact (B2 col E)].
    - intros col E. injection E as <-. rewrite eattrs_set_root. cbn [set_style e_styles with_styles]. apply sget_sset_same. }
  set (b3 := color_step c b2) in *. unfold align_step, own. destruct (c_pta c) eqn:Ep.
  - split; [exact C3|]. split; [exact B3|]. split; [exact O3 | discriminate].
  - split; [rewrite content_ok_set_root; exact C3|]. split; [|split].
    + intros col E. apply all_attrs_set_root; [intros a; apply bg_on_p_set; discriminate | exact (B3 col E)].
    + intros col E. rewrite eattrs_set_root. cbn [set_style e_styles with_styles]. rewrite sget_sset_other by discriminate. exact (O3 col E).
    + intros _. rewrite eattrs_set_root. cbn [set_style e_styles with_styles]. apply sget_sset_same.
Qed.

Theorem computed_thm c d d' t s : lcd c d = Ok d' -> lcd_content_b d = true -> isd d' t = Ok s ->
  computed_b (c_pta c) (c_color c) (c_bg c) s = true.
Proof.
  intros H Hcont Hisd. apply computed_allp. apply (isd_pa _ _ _ d' t s); [| |exact Hisd].
  - intros r2 Hr2. destruct (lcd_region_prov _ _ _ _ H Hr2) as [r [wm [nda [Hin [st [_ ->]]]]]].
    cbn [eattrs e_kind with_styles]. rewrite eattrs_clean. cbn.
    unfold lcd_content_b in Hcont. apply andb_true_iff in Hcont as [Hk _]. rewrite forallb_forall in Hk.
    specialize (Hk r Hin). destruct (e_kind (eattrs r)); try discriminate Hk. reflexivity.
  - intros b' Eb'. destruct (lcd_body_prov _ _ _ H) as [out [Ho [_ [_ F]]]].
    pose proof H as H'. apply lcd_ok_inv in H' as [out' [Ho' Ed']]. rewrite Ho in Ho'. injection Ho' as <-.
    rewrite Ed' in Eb'. cbn [d_body] in Eb'. destruct (d_body d) as [b|] eqn:Eb; [|discriminate]. injection Eb' as <-.
    unfold lcd_content_b in Hcont. apply andb_true_iff in Hcont as [_ Hc]. rewrite Eb in Hc.
    destruct (pipeline_facts c (replaced_of out) b Hc) as [C [B O]].
    split; [exact C|]. split; [|exact O].
    intros a' Ha'. assert (In a' (body_attrs d')) as Hin by (rewrite Ed'; unfold body_attrs; cbn [d_body option_map]; exact Ha').
    destruct (Forall2_In_r _ _ _ _ F Hin) as [a [_ Hrel]]. destruct (body_rel_styled _ _ _ _ Hrel) as [S1 [S2 S3]].
    split; [exact S1|]. split; [exact S2|]. split; [exact S3|]. intros col E. exact (B col E a' Ha').
Qed.
