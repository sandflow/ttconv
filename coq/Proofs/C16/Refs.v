(* C16: the regions that remain are source regions, pairwise different in (timing, resulting displayAlign, preserved
   textAlign) — hence in (timing, writing mode, resulting displayAlign); and every region reference of the result names
   one of them. *)
From TT Require Import Model.Doc Gen.StyleTables Model.Isd Model.Lcd Spec.IsdSpec Spec.LcdSpec Model.LcdCases
  Proofs.Common.ElemInd Proofs.C16.Counting Proofs.C16.Basics Proofs.C16.Prov Proofs.C16.Static.

Definition rids (l : list elem) : list text := map (fun r => rid (eattrs r)) l.

Lemma region_done_id c d inits r r2 wm nda : region_done c d inits r r2 wm nda ->
  e_id (eattrs r2) = e_id (eattrs r) /\ e_begin (eattrs r2) = e_begin (eattrs r) /\ e_end (eattrs r2) = e_end (eattrs r).
Proof. intros [st [_ ->]]. rewrite eattrs_clean. cbn. auto. Qed.

Lemma lookup_fp_In ret f t : lookup_fp ret f = Some t -> In t (map snd ret).
Proof.
  induction ret as [|[g u] ret IH]; cbn [lookup_fp map snd]; [discriminate|].
  destruct (fp_eqb g f); [intros H; inversion H; left; reflexivity | intros H; right; exact (IH H)].
Qed.

(* every alias target is a retained region (or was retained before the loop started) *)
Lemma loop_targets c d inits ret rs out : loop_rel c d inits ret rs out ->
  forall r2 t, In (r2, Some t) out -> In t (map snd ret) \/ In t (rids (retained_of out)).
Proof.
  intros H. induction H; intros x u Hi.
  - destruct Hi.
  - destruct Hi as [Hi|Hi]; [discriminate|]. destruct (IHloop_rel _ _ Hi) as [Ht|Ht].
    + cbn [map snd] in Ht. destruct Ht as [<-|Ht]; [|left; exact Ht]. right. unfold retained_of, rids. cbn [flat_map snd fst app map].
      left. unfold rid. rewrite (proj1 (region_done_id _ _ _ _ _ _ _ H)). reflexivity.
    + right. unfold retained_of, rids in *. cbn [flat_map snd fst app map]. right. exact Ht.
  - destruct Hi as [Hi|Hi].
    + inversion Hi; subst. left. exact (lookup_fp_In _ _ _ H0).
    + destruct (IHloop_rel _ _ Hi) as [Ht|Ht]; [left; exact Ht | right; exact Ht].
Qed.
Lemma loop_ids c d inits ret rs out : loop_rel c d inits ret rs out -> rids (map fst out) = rids rs.
Proof.
  intros H. unfold rids. induction H; cbn [map fst]; [reflexivity| |];
    (f_equal; [unfold rid; rewrite (proj1 (region_done_id _ _ _ _ _ _ _ H)); reflexivity | exact IHloop_rel]).
Qed.
Lemma out_split out x : In x out -> In (fst x) (retained_of out) \/ In (rid (eattrs (fst x))) (map fst (replaced_of out)).
Proof.
  induction out as [|[y o] out IH]; [intros []|]. intros [<-|Hi].
  - destruct o as [t|]; unfold retained_of, replaced_of; cbn [flat_map snd fst app map]; [right; left; reflexivity | left; left; reflexivity].
  - destruct (IH Hi) as [H|H]; unfold retained_of, replaced_of in *; cbn [flat_map snd fst];
      [left; apply in_or_app; right; exact H | right; rewrite map_app; apply in_or_app; right; exact H].
Qed.
Lemma In_replaced_of out k t : In (k, t) (replaced_of out) -> exists r2, In (r2, Some t) out.
Proof.
  unfold replaced_of. intros H. apply in_flat_map in H as [[r2 o] [Hi Hx]]. cbn [snd fst] in Hx.
  destruct o as [u|]; [|destruct Hx]. destruct Hx as [Hx|[]]. inversion Hx; subst. exists r2. exact Hi.
Qed.
Lemma lookup_id_In al r t : lookup_id al r = Some t -> In (r, t) al.
Proof.
  induction al as [|[k u] al IH]; cbn [lookup_id]; [discriminate|].
  destruct (text_eqb k r) eqn:E; [apply text_eqb_eq in E; subst; intros H; inversion H; left; reflexivity | intros H; right; exact (IH H)].
Qed.
Lemma mem_id_false k l : mem_id k l = false -> ~ In k l.
Proof.
  unfold mem_id. intros H Hi. assert (existsb (text_eqb k) l = true) as E; [|congruence].
  apply existsb_exists. exists k. split; [exact Hi | apply text_eqb_eq; reflexivity].
Qed.

(* well-formedness of the source (C15): regions have ids, references name regions of the document *)
Definition regions_have_ids (d : doc) : Prop := forall r, In r (d_regions d) -> exists i, e_id (eattrs r) = Some i.
Definition refs_in_doc (d : doc) : Prop :=
  forall a r, In a (body_attrs d) -> e_region a = Some r -> exists reg, In reg (d_regions d) /\ e_id (eattrs reg) = Some r.

Theorem refs_resolved_thm c d d' : lcd c d = Ok d' -> regions_have_ids d -> refs_in_doc d -> refs_resolved d'.
Proof.
  intros H Hids Hrefs a' x Ha' Hx.
  destruct (lcd_body_prov _ _ _ H) as [out [Ho [Er [_ F]]]].
  pose proof (lcd_regions_rel _ _ _ _ _ _ Ho) as L.
  destruct (Forall2_In_r _ _ _ _ F Ha') as [a [Ha Hrel]].
  destruct (body_rel_fields _ _ _ _ Hrel) as [_ [_ [_ [_ [_ [_ Ereg']]]]]]. rewrite Ereg', region_body_base in Hx.
  destruct (e_region a) as [r|] eqn:Era; [|discriminate].
  set (al := replaced_of out) in *.
  destruct (mem_id _ (map fst al)) eqn:Em; [discriminate|]. injection Hx as Ex.
  apply mem_id_false in Em. rewrite Ex in Em. unfold alias_of in Ex.
  (* an aliased reference goes to an alias target; any other names a source region that is not an alias key, hence retained *)
  assert (In x (rids (retained_of out))) as Hin.
  { destruct (lookup_id al r) as [t|] eqn:El.
    - subst x. apply lookup_id_In in El. apply In_replaced_of in El as [r2 Hi].
      destruct (loop_targets _ _ _ _ _ _ L _ _ Hi) as [[]|Ht]. exact Ht.
    - subst x. destruct (Hrefs _ _ Ha Era) as [reg [Hreg Hid]].
      assert (In r (rids (d_regions d))) as Hr by (apply in_map_iff; exists reg; split; [unfold rid; rewrite Hid; reflexivity | exact Hreg]).
      rewrite <- (loop_ids _ _ _ _ _ _ L) in Hr. unfold rids in Hr. rewrite map_map in Hr. apply in_map_iff in Hr as [y [Ey Hy]].
      destruct (out_split _ _ Hy) as [Hk|Hk]; [|rewrite Ey in Hk; contradiction].
      apply in_map_iff. exists (fst y). split; [exact Ey | exact Hk]. }
  unfold rids in Hin. apply in_map_iff in Hin as [reg [Ereg Hreg]].
  exists reg. rewrite Er. split; [exact Hreg|].
  assert (In reg (d_regions d')) as Hreg' by (rewrite Er; exact Hreg).
  destruct (lcd_region_prov _ _ _ _ H Hreg') as [r0 [wm [nda [Hr0 Hd]]]].
  destruct (Hids _ Hr0) as [i Hi]. unfold rid in Ereg. rewrite (proj1 (region_done_id _ _ _ _ _ _ _ Hd)), Hi in *. congruence.
Qed.

(* the fingerprint of the loop, read back from the attributes of a finished region (region_done_fp) *)
Definition da_tag (a : attrs) : Z := match sget (e_styles a) p_DisplayAlign with Some (VEnum x) => x | _ => -1 end.
Definition fp_attrs (c : lcd_cfg) (a : attrs) : fp := (or0 (e_begin a), e_end a, e_WritingModeType_lrtb, da_tag a, fp_align c (e_styles a)).

Lemma lookup_fp_none ret f : lookup_fp ret f = None -> forall g t, In (g, t) ret -> fp_eqb g f = false.
Proof.
  induction ret as [|[h u] ret IH]; intros H g t Hi; [destruct Hi|]. cbn [lookup_fp] in H.
  destruct (fp_eqb h f) eqn:E; [discriminate|]. destruct Hi as [Hi|Hi]; [inversion Hi; subst; exact E | exact (IH H _ _ Hi)].
Qed.

Lemma same_class_fp c d a b : da_tag a <> -1 -> same_class (c_pta c) d a b = true -> fp_eqb (fp_attrs c a) (fp_attrs c b) = true.
Proof.
  unfold same_class, same_timing, fp_attrs, fp_eqb. intros Hda H.
  apply andb_true_iff in H as [H Hta]. apply andb_true_iff in H as [H Hd]. apply andb_true_iff in H as [H _]. apply andb_true_iff in H as [Hb He].
  unfold begin_of in Hb. unfold or0. rewrite Hb. cbn [andb]. rewrite Z.eqb_refl, andb_true_r.
  assert (oQ_eqb (e_end a) (e_end b) = true) as Ee.
  { destruct (e_end a) as [x|], (e_end b) as [y|]; try discriminate; [exact He | reflexivity]. }
  rewrite Ee. cbn [andb].
  assert (oZ_eqb (fp_align c (e_styles a)) (fp_align c (e_styles b)) = true) as Et.
  { unfold fp_align. destruct (c_pta c); [|reflexivity]. cbn [negb orb] in Hta. unfold oenum_eqb in Hta.
    destruct (sget (e_styles a) p_TextAlign) as [[]|]; try discriminate; (destruct (sget (e_styles b) p_TextAlign) as [[]|]; try discriminate); [exact Hta | reflexivity]. }
  rewrite Et, andb_true_r. unfold enum_eqb, da_tag in *.
  destruct (sget (e_styles a) p_DisplayAlign) as [[]|]; try discriminate; try congruence;
    (destruct (sget (e_styles b) p_DisplayAlign) as [[]|]; try discriminate); exact Hd.
Qed.

Section Loop.
  Variables (c : lcd_cfg) (d : doc) (inits : smap).
  Hypothesis Hiw : sget inits p_WritingMode = None.

  Lemma region_done_fp r r2 wm nda : region_done c d inits r r2 wm nda ->
    fp_attrs c (eattrs r2) = region_fp c r r2 wm nda /\ da_tag (eattrs r2) <> -1.
  Proof.
    intros [st [Hl ->]].
    rewrite eattrs_clean in Hl. cbn [e_styles rstyle_attrs with_styles anim_attrs with_anims] in Hl.
    pose proof (region_layout_final _ _ _ _ _ _ _ Hl) as [_ [_ [_ [_ [Hd [Hba _]]]]]].
    pose proof (region_layout_clean _ _ _ _ _ _ _ Hl Hiw) as [Ew _].
    unfold fp_attrs, da_tag, region_fp. cbn [eattrs e_styles with_styles e_begin e_end]. rewrite Hd, Ew, eattrs_clean. cbn.
    split; [reflexivity|]. destruct Hba as [-> | ->]; discriminate.
  Qed.

  Lemma loop_pairwise ret rs out : loop_rel c d inits ret rs out ->
    pairwise (fun a b => negb (same_class (c_pta c) d a b)) (map eattrs (retained_of out)) = true /\
    forall x g t, In x (retained_of out) -> In (g, t) ret -> fp_eqb g (fp_attrs c (eattrs x)) = false.
  Proof.
    intros H. induction H.
    - split; [reflexivity | intros x g t []].
    - destruct IHloop_rel as [IP IQ]. destruct (region_done_fp _ _ _ _ H) as [Ef Hda].
      unfold retained_of in *. cbn [flat_map snd fst app map pairwise]. split.
      + rewrite IP, andb_true_r. apply forallb_forall. intros b Hb. apply in_map_iff in Hb as [x [<- Hx]].
        apply negb_true_iff. destruct (same_class (c_pta c) d (eattrs r2) (eattrs x)) eqn:E; [|reflexivity].
        apply (same_class_fp c _ _ _ Hda) in E. rewrite Ef in E.
        rewrite (IQ x _ _ Hx (or_introl eq_refl)) in E. discriminate.
      + intros x g t [<-|Hx] Hg; [rewrite Ef; exact (lookup_fp_none _ _ H0 _ _ Hg) | exact (IQ x g t Hx (or_intror Hg))].
    - unfold retained_of in *. cbn [flat_map snd fst app]. exact IHloop_rel.
  Qed.
End Loop.

Lemma find_exists {A} (p : A -> bool) l x : In x l -> p x = true -> exists y, find p l = Some y.
Proof.
  induction l as [|a l IH]; intros Hi Hp; [destruct Hi|]. cbn [find]. destruct (p a) eqn:E; [eexists; reflexivity|].
  destruct Hi as [->|Hi]; [congruence | exact (IH Hi Hp)].
Qed.

Theorem merged_thm c d d' : lcd c d = Ok d' -> regions_have_ids d -> merged (c_pta c) d d'.
Proof.
  intros H Hids. unfold merged, merged_b. apply andb_true_iff. split.
  - apply forallb_forall. intros r2 Hr. destruct (lcd_region_prov _ _ _ _ H Hr) as [r [wm [nda [Hin Hd]]]].
    rewrite (proj1 (region_done_id _ _ _ _ _ _ _ Hd)). destruct (Hids _ Hin) as [i Hi]. rewrite Hi. unfold find_region.
    destruct (find_exists (fun x => otext_eqb (e_id (eattrs x)) (Some i)) _ r Hin) as [y Ey]; [rewrite Hi; cbn; apply text_eqb_eq; reflexivity|].
    rewrite Ey. reflexivity.
  - destruct (lcd_body_prov _ _ _ H) as [out [Ho [Er _]]]. rewrite Er.
    apply lcd_regions_rel in Ho. apply (loop_pairwise c d _) in Ho; [exact (proj1 Ho) | apply inits_no_wm].
Qed.
