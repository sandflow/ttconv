(* C16: leaf chains.  The visibility of a chain splits into activity, region selection and display; region selection is
   characterised by the explicit region attributes along the chain; two trees of the same shape have corresponding chains;
   the nested-conflict trigger of Model/LcdCases.v, chain by chain. *)
From TT Require Import Model.Doc Gen.StyleTables Model.Isd Model.Lcd Spec.IsdSpec Spec.LcdSpec Model.LcdCases
  Proofs.Common.ElemInd Proofs.C16.Counting.

Definition act (t : Q) (a : attrs) : bool := is_active t (resolve root_interval (e_begin a) (e_end a)).
Fixpoint chain_active (t : Q) (parent : interval) (ch : list attrs) : bool :=
  match ch with
  | [] => true
  | a :: c' => let iv := resolve parent (e_begin a) (e_end a) in is_active t iv && chain_active t iv c'
  end.
Fixpoint chain_disp (d : doc) (t : Q) (parent : interval) (ch : list attrs) : bool :=
  match ch with
  | [] => true
  | a :: c' => let iv := resolve parent (e_begin a) (e_end a) in displayed d t iv a && chain_disp d t iv c'
  end.
Definition is_nil {A} (l : list A) : bool := match l with [] => true | _ => false end.
Definition is_none {A} (o : option A) : bool := match o with None => true | Some _ => false end.
Definition assoc_of (a : attrs) (inh : option text) : option text := match e_region a with Some r => Some r | None => inh end.
Fixpoint chain_sel (sel inh : option text) (ch : list attrs) : bool :=
  match ch with
  | [] => true
  | a :: c' => (otext_eqb (assoc_of a inh) sel || (negb (is_nil c') && is_none (assoc_of a inh))) && chain_sel sel (assoc_of a inh) c'
  end.

Lemma chain_visible_split d t sel : forall ch parent inh,
  chain_visible d t sel parent inh ch = chain_active t parent ch && chain_sel sel inh ch && chain_disp d t parent ch.
Proof.
  induction ch as [|a c' IH]; intros parent inh; [reflexivity|].
  cbn [chain_visible chain_active chain_sel chain_disp]. rewrite IH. fold (assoc_of a inh).
  change (match c' with [] => true | _ :: _ => false end) with (is_nil c').
  change (match assoc_of a inh with Some _ => false | None => true end) with (is_none (assoc_of a inh)).
  destruct (is_active t _); [|reflexivity]. destruct (displayed d t _ a); [|rewrite !andb_false_r; reflexivity].
  destruct (chain_active t _ c'); [|rewrite !andb_false_r; reflexivity]. cbn [andb]. rewrite andb_true_r. apply andb_assoc.
Qed.


(* explicit region attributes along a chain *)
Definition refs (ch : list attrs) : list text := flat_map (fun a => match e_region a with Some r => [r] | None => [] end) ch.
Definition all_eq (i : text) (l : list text) : bool := forallb (text_eqb i) l.

(* selection by region i, entered with an inherited association that is i itself or none *)
Lemma chain_sel_some i : forall ch,
  chain_sel (Some i) (Some i) ch = all_eq i (refs ch) /\
  (ch <> [] -> chain_sel (Some i) None ch = negb (is_nil (refs ch)) && all_eq i (refs ch)).
Proof.
  induction ch as [|a c' [IH1 IH2]]; [split; [reflexivity | intros H; congruence]|].
  assert (text_eqb i i = true) as Eii by (apply text_eqb_eq; reflexivity).
  unfold refs in *. cbn [chain_sel flat_map]. unfold assoc_of. split; [|intros _].
  - destruct (e_region a) as [r|]; cbn [app all_eq forallb otext_eqb is_none andb orb].
    + rewrite (text_eqb_sym r i). destruct (text_eqb i r) eqn:E; cbn [orb andb]; [|rewrite andb_false_r; reflexivity || reflexivity].
      apply text_eqb_eq in E. subst r. exact IH1.
    + rewrite Eii. cbn [orb andb]. exact IH1.
  - destruct (e_region a) as [r|]; cbn [app all_eq forallb otext_eqb is_none andb orb is_nil negb].
    + rewrite (text_eqb_sym r i). destruct (text_eqb i r) eqn:E; cbn [orb andb]; [|rewrite andb_false_r; reflexivity || reflexivity].
      apply text_eqb_eq in E. subst r. exact IH1.
    + rewrite andb_true_r. destruct c' as [|b c'']; [reflexivity|]. cbn [is_nil negb andb]. apply IH2. discriminate.
Qed.

Lemma chain_sel_none : forall ch, chain_sel None None ch = is_nil (refs ch).
Proof.
  induction ch as [|a c' IH]; [reflexivity|]. unfold refs in *. cbn [chain_sel flat_map]. unfold assoc_of.
  destruct (e_region a) as [r|]; cbn [otext_eqb is_none app is_nil andb orb]; [rewrite andb_false_r; reflexivity | exact IH].
Qed.

Fixpoint shape_rel (R : attrs -> attrs -> Prop) (e e' : elem) : Prop :=
  match e, e' with
  | Elem a cs, Elem a' cs' =>
      R a a' /\ (fix go (l l' : list elem) : Prop :=
                   match l, l' with
                   | [], [] => True
                   | x :: l1, y :: l2 => shape_rel R x y /\ go l1 l2
                   | _, _ => False
                   end) cs cs'
  end.
Lemma shape_rel_node R a cs a' cs' : shape_rel R (Elem a cs) (Elem a' cs') <-> R a a' /\ Forall2 (shape_rel R) cs cs'.
Proof.
  cbn [shape_rel]. split; intros [H1 H2]; (split; [exact H1|]).
  - revert cs' H2. induction cs as [|x cs IH]; intros [|y cs'] H2; try contradiction; constructor; [tauto | apply IH; tauto].
  - induction H2; [exact I | split; assumption].
Qed.

Lemma shape_rel_same (R : attrs -> attrs -> Prop) e : (forall a, R a a) -> shape_rel R e e.
Proof.
  intros H. induction e as [a cs IH] using elem_ind2. apply shape_rel_node. split; [apply H|].
  induction IH; constructor; assumption.
Qed.
(* a relation may be weakened using that its left argument occurs in the tree *)
Lemma shape_rel_impl (R S : attrs -> attrs -> Prop) : forall e e',
  (forall a a', In a (elems_of e) -> R a a' -> S a a') -> shape_rel R e e' -> shape_rel S e e'.
Proof.
  induction e as [a cs IH] using elem_ind2. intros [a' cs'] H Hr. apply shape_rel_node in Hr as [Ha Hcs]. apply shape_rel_node.
  split; [apply H; [left; reflexivity | exact Ha]|].
  assert (forall x, In x (flat_map elems_of cs) -> forall x', R x x' -> S x x') as H' by (intros x Hx x' Hr; apply (H x x'); [right; exact Hx | exact Hr]).
  clear H Ha. revert cs' Hcs H'. induction IH as [|x cs IHx _ IHcs]; intros cs' Hcs H'; inversion Hcs as [|? y ? l' Hxy Hrest]; subst; constructor.
  - apply IHx; [|exact Hxy]. intros z z' Hz. apply H'. cbn [flat_map]. apply in_or_app. left. exact Hz.
  - apply IHcs; [exact Hrest|]. intros z Hz. apply H'. cbn [flat_map]. apply in_or_app. right. exact Hz.
Qed.
Lemma shape_rel_comp (R S : attrs -> attrs -> Prop) e : forall e' e'', shape_rel R e e' -> shape_rel S e' e'' ->
  shape_rel (fun a c => exists b, R a b /\ S b c) e e''.
Proof.
  induction e as [a cs IH] using elem_ind2. intros [a' cs'] [a'' cs''] H1 H2.
  apply shape_rel_node in H1 as [Ha1 H1]. apply shape_rel_node in H2 as [Ha2 H2]. apply shape_rel_node. split; [eauto|].
  clear Ha1 Ha2. revert cs'' H2. induction H1 as [|x y cs cs' Hxy H1 IH1]; intros cs'' H2; inversion H2; subst; [constructor|].
  inversion IH; subst. constructor; eauto.
Qed.
Lemma shape_rel_elems R : forall e e', shape_rel R e e' -> Forall2 R (elems_of e) (elems_of e').
Proof.
  induction e as [a cs IH] using elem_ind2. intros [a' cs'] H. apply shape_rel_node in H as [Ha Hcs]. cbn [elems_of].
  constructor; [exact Ha|]. induction Hcs; [constructor|]. inversion IH; subst. cbn [flat_map]. apply Forall2_app; auto.
Qed.

Lemma In_chains a cs ch : In ch (chains (Elem a cs)) -> ch = [a] \/ exists c l, In c cs /\ In l (chains c) /\ ch = a :: l.
Proof.
  rewrite chains_node. intros H.
  assert (G : In ch [[a]] \/ In ch (map (cons a) (flat_map chains cs))) by (destruct (e_kind a); auto). clear H.
  destruct G as [[<-|[]]|H]; [left; reflexivity|].
  apply in_map_iff in H as [l [<- Hl]]. apply in_flat_map in Hl as [c [Hc Hl]]. right. exists c, l. auto.
Qed.
Lemma chains_elems : forall e ch a, In ch (chains e) -> In a ch -> In a (elems_of e).
Proof.
  induction e as [a0 cs IH] using elem_ind2. intros ch a Hch Ha. cbn [elems_of].
  apply In_chains in Hch as [->|[c [l [Hc [Hl ->]]]]]; destruct Ha as [<-|Ha]; try (left; reflexivity); [destruct Ha|].
  right. apply in_flat_map. exists c. rewrite Forall_forall in IH. split; [exact Hc | exact (IH c Hc l a Hl Ha)].
Qed.
Lemma chains_rel (R : attrs -> attrs -> Prop) : (forall a a', R a a' -> e_kind a' = e_kind a) ->
  forall e e', shape_rel R e e' -> Forall2 (Forall2 R) (chains e) (chains e').
Proof.
  intros Hk. induction e as [a cs IH] using elem_ind2. intros [a' cs'] H. apply shape_rel_node in H as [Ha Hcs].
  assert (Forall2 (Forall2 R) (flat_map chains cs) (flat_map chains cs')) as Hm.
  { induction Hcs; [constructor|]. inversion IH; subst. cbn [flat_map]. apply Forall2_app; auto. }
  assert (Hn : Forall2 (Forall2 R) (map (cons a) (flat_map chains cs)) (map (cons a') (flat_map chains cs')))
    by (induction Hm; cbn [map]; constructor; [constructor; assumption | assumption]).
  rewrite !chains_node, (Hk _ _ Ha). destruct (e_kind a); first [exact Hn | repeat constructor; exact Ha].
Qed.

(* what the timeline needs of two corresponding attribute records: same skeleton, reference mapped by f *)
Definition tl_rel (f : text -> text) (a a' : attrs) : Prop :=
  e_kind a' = e_kind a /\ e_id a' = e_id a /\ e_begin a' = e_begin a /\ e_end a' = e_end a /\ e_text a' = e_text a /\
  e_region a' = option_map f (e_region a).

Lemma tl_chain_active f t : forall ch ch', Forall2 (tl_rel f) ch ch' -> forall parent, chain_active t parent ch' = chain_active t parent ch.
Proof.
  intros ch ch' F. induction F as [|a a' c c' Ha F IH]; intros parent; [reflexivity|].
  destruct Ha as [_ [_ [Hb [He _]]]]. cbn [chain_active]. rewrite Hb, He, IH. reflexivity.
Qed.
Lemma tl_refs f : forall ch ch', Forall2 (tl_rel f) ch ch' -> refs ch' = map f (refs ch).
Proof.
  intros ch ch' F. unfold refs. induction F as [|a a' c c' Ha F IH]; [reflexivity|].
  destruct Ha as [_ [_ [_ [_ [_ Hr]]]]]. cbn [flat_map]. rewrite map_app, IH, Hr. destruct (e_region a); reflexivity.
Qed.
Lemma tl_para f : forall ch ch', Forall2 (tl_rel f) ch ch' -> para_of ch' = para_of ch.
Proof.
  intros ch ch' F. unfold para_of. induction F as [|a a' c c' Ha F IH]; [reflexivity|].
  destruct Ha as [Hk [Hi _]]. cbn [find]. rewrite Hk. destruct (kind_eqb (e_kind a) KP); [exact Hi | exact IH].
Qed.
Lemma tl_leaf f : forall ch ch', Forall2 (tl_rel f) ch ch' -> ch <> [] -> forall r r', leaf_of (last ch' r') = leaf_of (last ch r).
Proof.
  intros ch ch' F. induction F as [|a a' c c' Ha F IH]; intros Hn r r'; [congruence|].
  destruct F as [|b b' c c' Hb F].
  - cbn [last]. destruct Ha as [Hk [_ [_ [_ [Ht _]]]]]. unfold leaf_of. rewrite Hk, Ht. reflexivity.
  - change (last (a' :: b' :: c') r') with (last (b' :: c') r'). change (last (a :: b :: c) r) with (last (b :: c) r).
    apply IH. discriminate.
Qed.
(* the leaves one chain contributes, whatever region shows it *)
Definition chain_leaves (ch : list attrs) : list tleaf := map (pair (para_of ch)) (leaf_of (last ch default_region_attrs)).
Lemma tl_chain_leaves f ch ch' : Forall2 (tl_rel f) ch ch' -> ch <> [] -> chain_leaves ch' = chain_leaves ch.
Proof. intros F Hn. unfold chain_leaves. rewrite (tl_para _ _ _ F), (tl_leaf _ _ _ F Hn default_region_attrs default_region_attrs). reflexivity. Qed.

Lemma refs_in_elems ch r : In r (refs ch) -> exists a, In a ch /\ e_region a = Some r.
Proof.
  unfold refs. intros H. apply in_flat_map in H as [a [Ha Hr]]. exists a. split; [exact Ha|].
  destruct (e_region a); [destruct Hr as [->|[]]; reflexivity | destruct Hr].
Qed.


(* nested_conflict of Model/LcdCases.v, read along one chain *)
Definition here_conflict (al : list (text * text)) (a : attrs) (inh : option text) : bool :=
  match e_region a, inh with
  | Some r, Some i => negb (text_eqb r i) && text_eqb (alias_of al r) (alias_of al i)
  | _, _ => false
  end.
Fixpoint chain_noconf (al : list (text * text)) (inh : option text) (ch : list attrs) : bool :=
  match ch with
  | [] => true
  | a :: c' => negb (here_conflict al a inh) && chain_noconf al (assoc_of a inh) c'
  end.
Lemma nested_chains al : forall e inh, nested_conflict al inh e = false -> forall ch, In ch (chains e) -> chain_noconf al inh ch = true.
Proof.
  induction e as [a cs IH] using elem_ind2. intros inh H ch Hch. cbn [nested_conflict] in H.
  apply orb_false_iff in H as [Hh Hcs]. fold (here_conflict al a inh) in Hh. fold (assoc_of a inh) in Hcs.
  apply In_chains in Hch as [->|[c [l [Hc [Hl ->]]]]]; cbn [chain_noconf]; rewrite Hh; [reflexivity|].
  rewrite Forall_forall in IH. apply (IH c Hc); [|exact Hl].
  destruct (nested_conflict al (assoc_of a inh) c) eqn:E; [|reflexivity].
  rewrite <- Hcs. symmetry. apply existsb_exists. exists c. auto.
Qed.

(* if the aliases of the references along a chain are all equal, so are the references *)
Lemma noconf_some al i : forall ch, chain_noconf al (Some i) ch = true ->
  all_eq (alias_of al i) (map (alias_of al) (refs ch)) = true -> all_eq i (refs ch) = true.
Proof.
  induction ch as [|a c' IH]; intros Hn Ha; [reflexivity|]. unfold refs in *. cbn [chain_noconf flat_map] in *.
  apply andb_true_iff in Hn as [Hh Hn]. unfold here_conflict, assoc_of in *.
  destruct (e_region a) as [r|]; cbn [app map all_eq forallb] in *; [|exact (IH Hn Ha)].
  apply andb_true_iff in Ha as [Ha1 Ha2]. rewrite (text_eqb_sym (alias_of al r)), Ha1, andb_true_r in Hh.
  apply negb_true_iff, negb_false_iff in Hh. apply text_eqb_eq in Hh. subst r. rewrite text_eqb_refl. cbn [andb]. exact (IH Hn Ha2).
Qed.
Lemma noconf_none al : forall ch, chain_noconf al None ch = true ->
  match refs ch with
  | [] => True
  | r :: rest => all_eq (alias_of al r) (map (alias_of al) rest) = true -> all_eq r rest = true
  end.
Proof.
  induction ch as [|a c' IH]; intros Hn; [exact I|]. unfold refs in *. cbn [chain_noconf flat_map] in *.
  apply andb_true_iff in Hn as [_ Hn]. unfold assoc_of in *.
  destruct (e_region a) as [r|]; cbn [app]; [|exact (IH Hn)].
  exact (noconf_some al r c' Hn).
Qed.

Lemma all_eq_head i r rest : all_eq r rest = true -> all_eq i (r :: rest) = text_eqb i r.
Proof.
  intros H. cbn [all_eq forallb]. destruct (text_eqb i r) eqn:E; [|reflexivity]. apply text_eqb_eq in E. subst. exact H.
Qed.
Lemma all_eq_head_false i r rest : all_eq r rest = false -> all_eq i (r :: rest) = false.
Proof.
  intros H. cbn [all_eq forallb]. destruct (text_eqb i r) eqn:E; [|reflexivity]. apply text_eqb_eq in E. subst. exact H.
Qed.
Lemma all_eq_map f r rest : all_eq r rest = true -> all_eq (f r) (map f rest) = true.
Proof.
  unfold all_eq. induction rest as [|x rest IH]; [reflexivity|]. cbn [forallb map]. intros H. apply andb_true_iff in H as [H1 H2].
  apply text_eqb_eq in H1. subst. rewrite text_eqb_refl. exact (IH H2).
Qed.
