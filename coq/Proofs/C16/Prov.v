(* C16: provenance — the filtered body has the shape of the source body, and every attribute record of the filtered
   document comes from the record at the same position of the source through a known chain of updates (body_rel for the
   body, region_done for the regions).  The theorems about the result are read off this description. *)
From TT Require Import Model.Doc Gen.StyleTables Model.Isd Model.Lcd Spec.LcdSpec Model.LcdCases Proofs.Common.ElemInd
  Proofs.Common.StyleFrame Proofs.C16.Counting Proofs.C16.Chains Proofs.C16.Basics.

Definition body_base (c : lcd_cfg) (al : list (text * text)) (a : attrs) : attrs :=
  clear_attrs (map fst al) (redirect_attrs al (anim_attrs (style_attrs c a))).
(* a' is what the filter makes of the source record a *)
Definition body_rel (c : lcd_cfg) (al : list (text * text)) (a a' : attrs) : Prop :=
  exists a4 a5,
    (a4 = body_base c al a \/ exists col, c_bg c = Some col /\ e_kind a = KP /\ a4 = set_style (body_base c al a) p_BackgroundColor (VColor col)) /\
    (a5 = a4 \/ exists col, c_color c = Some col /\ a5 = set_style a4 p_Color (VColor col)) /\
    (a' = a5 \/ (c_pta c = false /\ a' = set_style a5 p_TextAlign (VEnum e_TextAlignType_center))).

(* body_base touches the style map, the animations and the region reference *)
Lemma body_base_fields c al a :
  e_kind (body_base c al a) = e_kind a /\ e_id (body_base c al a) = e_id a /\ e_begin (body_base c al a) = e_begin a /\
  e_end (body_base c al a) = e_end a /\ e_text (body_base c al a) = e_text a /\
  e_anims (body_base c al a) = [] /\ e_styles (body_base c al a) = keep_styles c (e_styles a).
Proof.
  unfold body_base, clear_attrs, redirect_attrs. set (x := anim_attrs (style_attrs c a)).
  destruct (e_region x) as [r|] eqn:Er; [destruct (lookup_id al r) as [u|]; cbn [e_region with_region]|]; rewrite ?Er;
    try destruct (mem_id _ _); repeat split; reflexivity.
Qed.
Lemma kind_body_base c al a : e_kind (body_base c al a) = e_kind a.
Proof. apply body_base_fields. Qed.
Lemma styles_body_base c al a : e_styles (body_base c al a) = keep_styles c (e_styles a).
Proof. apply body_base_fields. Qed.
Lemma region_body_base c al a : e_region (body_base c al a) =
  match e_region a with
  | Some r => if mem_id (alias_of al r) (map fst al) then None else Some (alias_of al r)
  | None => None
  end.
Proof.
  unfold body_base, clear_attrs, redirect_attrs, alias_of. set (x := anim_attrs (style_attrs c a)). change (e_region a) with (e_region x).
  destruct (e_region x) as [r|] eqn:Er; [destruct (lookup_id al r) as [u|]; cbn [e_region with_region]|]; rewrite ?Er;
    try destruct (mem_id _ _); try reflexivity; exact Er.
Qed.

(* what the three configured overrides may write on an element of kind k *)
Definition override (c : lcd_cfg) (k : kind) (p : Z) (v : value) : Prop :=
  (exists col, c_bg c = Some col /\ k = KP /\ p = p_BackgroundColor /\ v = VColor col) \/
  (exists col, c_color c = Some col /\ p = p_Color /\ v = VColor col) \/
  (c_pta c = false /\ p = p_TextAlign /\ v = VEnum e_TextAlignType_center).
Lemma override_unsupported c k p v : override c k p v -> supported c p = false.
Proof.
  intros H. apply not_true_is_false. intros Hs. apply supported_spec in Hs.
  destruct H as [[col [E [_ [-> _]]]] | [[col [E [-> _]]] | [E [-> _]]]];
    destruct Hs as [Hs | [Hs | [Hs | [[H1 Hs] | [[H1 Hs] | [H1 Hs]]]]]]; try discriminate Hs; congruence.
Qed.

(* a property of the base record that every permitted override preserves holds of the filtered record *)
Lemma body_rel_ind c al a (P : attrs -> Prop) :
  P (body_base c al a) -> (forall x p v, override c (e_kind a) p v -> P x -> P (set_style x p v)) ->
  forall a', body_rel c al a a' -> P a'.
Proof.
  intros Hb Hs a' [a4 [a5 [H4 [H5 H6]]]].
  assert (P a4) as P4 by (destruct H4 as [-> | [col [Ec [Ek ->]]]]; [exact Hb | apply Hs; [left; exists col; auto | exact Hb]]).
  assert (P a5) as P5 by (destruct H5 as [-> | [col [Ec ->]]]; [exact P4 | apply Hs; [right; left; exists col; auto | exact P4]]).
  destruct H6 as [-> | [Ep ->]]; [exact P5 | apply Hs; [right; right; auto | exact P5]].
Qed.
Lemma body_rel_fields c al a a' : body_rel c al a a' ->
  e_kind a' = e_kind a /\ e_id a' = e_id a /\ e_begin a' = e_begin a /\ e_end a' = e_end a /\ e_text a' = e_text a /\
  e_anims a' = [] /\ e_region a' = e_region (body_base c al a).
Proof. revert a'. apply body_rel_ind; [pose proof (body_base_fields c al a); tauto | intros x p v _ H; exact H]. Qed.
Lemma body_rel_In c al a a' kv : body_rel c al a a' -> In kv (e_styles a') ->
  In kv (keep_styles c (e_styles a)) \/ override c (e_kind a) (fst kv) (snd kv).
Proof.
  revert a'. apply (body_rel_ind c al a (fun x => In kv (e_styles x) -> In kv (keep_styles c (e_styles a)) \/ override c (e_kind a) (fst kv) (snd kv)));
    [rewrite styles_body_base; auto|]. intros x p v Ho IH Hin.
  cbn [set_style with_styles e_styles] in Hin. apply In_sset in Hin as [-> | Hin]; [right; exact Ho | exact (IH Hin)].
Qed.
Lemma body_rel_sget c al a a' q : body_rel c al a a' -> (forall v, ~ override c (e_kind a) q v) ->
  sget (e_styles a') q = sget (keep_styles c (e_styles a)) q.
Proof.
  intros H Hq. revert a' H. apply (body_rel_ind c al a (fun x => sget (e_styles x) q = sget (keep_styles c (e_styles a)) q));
    [rewrite styles_body_base; reflexivity|]. intros x p v Ho IH.
  cbn [set_style with_styles e_styles]. rewrite sget_sset_other; [exact IH | intros ->; exact (Hq v Ho)].
Qed.

Lemma shape_rel_map_attrs f e : shape_rel (fun a a' => a' = f a) e (map_attrs f e).
Proof.
  induction e as [a cs IH] using elem_ind2. cbn [map_attrs]. apply shape_rel_node. split; [reflexivity|].
  induction IH; cbn [map]; constructor; assumption.
Qed.
Definition bg_rel (col : Z) (a a' : attrs) : Prop := a' = a \/ (e_kind a = KP /\ a' = set_style a p_BackgroundColor (VColor col)).
Lemma shape_rel_apply_bg col e : shape_rel (bg_rel col) e (apply_bg col e).
Proof.
  induction e as [a cs IH] using elem_ind2. cbn [apply_bg].
  assert (Forall2 (shape_rel (bg_rel col)) cs (map (apply_bg col) cs)) as Hm by (induction IH; cbn [map]; constructor; assumption).
  destruct (e_kind a) eqn:Ek; apply shape_rel_node; try (split; [left; reflexivity | exact Hm]).
  split; [right; split; [exact Ek | reflexivity]|].
  clear. induction cs; constructor; [apply shape_rel_same; intros; left; reflexivity | assumption].
Qed.
Definition root_rel (p : Z) (v : value) (a a' : attrs) : Prop := a' = a \/ a' = set_style a p v.
Lemma shape_rel_set_root p v e : shape_rel (root_rel p v) e (set_root_style p v e).
Proof.
  destruct e as [a cs]. cbn [set_root_style]. apply shape_rel_node. split; [right; reflexivity|].
  induction cs; constructor; [apply shape_rel_same; intros; left; reflexivity | assumption].
Qed.

Lemma base_elem_eq c al b :
  clear_elem (map fst al) (redirect_elem al (anim_elem (style_elem c b))) = map_attrs (body_base c al) b.
Proof. unfold clear_elem, redirect_elem, anim_elem, style_elem. rewrite !map_attrs_compose. reflexivity. Qed.

Theorem pipeline_rel c al b : shape_rel (body_rel c al) b (body_pipeline c al b).
Proof.
  unfold body_pipeline. rewrite base_elem_eq. set (b1 := map_attrs (body_base c al) b).
  pose proof (shape_rel_map_attrs (body_base c al) b) as F1. fold b1 in F1.
  assert (shape_rel (fun x x' => x' = x \/ exists col, c_bg c = Some col /\ e_kind x = KP /\ x' = set_style x p_BackgroundColor (VColor col))
                    b1 (bg_step c b1)) as F2.
  { unfold bg_step. destruct (c_bg c) as [col|]; [|apply shape_rel_same; auto].
    eapply shape_rel_impl; [|apply shape_rel_apply_bg]. intros x x' _ [-> | [Hk ->]]; [left | right; exists col]; auto. }
  assert (shape_rel (fun x x' => x' = x \/ exists col, c_color c = Some col /\ x' = set_style x p_Color (VColor col))
                    (bg_step c b1) (color_step c (bg_step c b1))) as F3.
  { unfold color_step. destruct (c_color c) as [col|]; [|apply shape_rel_same; auto].
    eapply shape_rel_impl; [|apply shape_rel_set_root]. intros x x' _ [-> | ->]; [left | right; exists col]; auto. }
  assert (shape_rel (fun x x' => x' = x \/ (c_pta c = false /\ x' = set_style x p_TextAlign (VEnum e_TextAlignType_center)))
                    (color_step c (bg_step c b1)) (align_step c (color_step c (bg_step c b1)))) as F4.
  { unfold align_step. destruct (c_pta c); [apply shape_rel_same; auto|].
    eapply shape_rel_impl; [|apply shape_rel_set_root]. intros x x' _ [-> | ->]; auto. }
  eapply shape_rel_impl; [|exact (shape_rel_comp _ _ _ _ _ (shape_rel_comp _ _ _ _ _ (shape_rel_comp _ _ _ _ _ F1 F2) F3) F4)].
  intros a a' _ [a5 [[a4 [[a0 [-> H4]] H5]] H6]]. exists a4, a5. rewrite kind_body_base in H4. auto.
Qed.

Definition obody_rel (R : attrs -> attrs -> Prop) (b b' : option elem) : Prop :=
  match b, b' with Some x, Some y => shape_rel R x y | None, None => True | _, _ => False end.

Theorem lcd_body_tree c d d' : lcd c d = Ok d' ->
  exists out, lcd_regions c d (keep_styles c (d_initials d)) (d_regions d) [] = Ok out /\
              d_regions d' = retained_of out /\ d_initials d' = keep_styles c (d_initials d) /\
              obody_rel (body_rel c (replaced_of out)) (d_body d) (d_body d').
Proof.
  intros H. apply lcd_ok_inv in H as [out [Ho ->]]. exists out. split; [exact Ho|]. split; [reflexivity|]. split; [reflexivity|].
  cbn [d_body]. destruct (d_body d) as [b|]; [apply pipeline_rel | exact I].
Qed.
(* the same, position by position in document order *)
Theorem lcd_body_prov c d d' : lcd c d = Ok d' ->
  exists out, lcd_regions c d (keep_styles c (d_initials d)) (d_regions d) [] = Ok out /\
              d_regions d' = retained_of out /\ d_initials d' = keep_styles c (d_initials d) /\
              Forall2 (body_rel c (replaced_of out)) (body_attrs d) (body_attrs d').
Proof.
  intros H. destruct (lcd_body_tree _ _ _ H) as [out [Ho [Er [Ei Hb]]]]. exists out. repeat (split; [assumption|]).
  unfold body_attrs. destruct (d_body d), (d_body d'); try contradiction; [apply shape_rel_elems, Hb | constructor].
Qed.

Lemma loop_rel_done c d inits ret rs out : loop_rel c d inits ret rs out ->
  Forall (fun x => exists r wm nda, In r rs /\ region_done c d inits r (fst x) wm nda) out.
Proof.
  intros H. induction H; [constructor| |];
    (constructor; [exists r, wm, nda; split; [left; reflexivity | assumption]|];
     eapply Forall_impl; [|exact IHloop_rel]; intros x [r0 [w0 [n0 [Hi Hd]]]]; exists r0, w0, n0; split; [right; exact Hi | exact Hd]).
Qed.
Lemma In_retained_of out r2 : In r2 (retained_of out) -> In (r2, None) out.
Proof.
  unfold retained_of. intros H. apply in_flat_map in H as [[x o] [Hx Hi]]. cbn [snd fst] in Hi.
  destruct o; [destruct Hi|]. destruct Hi as [<-|[]]. exact Hx.
Qed.

(* every region of the result is a processed source region *)
Theorem lcd_region_prov c d d' r2 : lcd c d = Ok d' -> In r2 (d_regions d') ->
  exists r wm nda, In r (d_regions d) /\ region_done c d (keep_styles c (d_initials d)) r r2 wm nda.
Proof.
  intros H Hi. destruct (lcd_body_prov _ _ _ H) as [out [Ho [Hr _]]]. rewrite Hr in Hi.
  apply In_retained_of in Hi. apply lcd_regions_rel, loop_rel_done in Ho. rewrite Forall_forall in Ho.
  exact (Ho _ Hi).
Qed.

(* the attribute records of a processed region: the root with its new style map, the rest cleaned *)
Lemma region_done_attrs c d inits r r2 wm nda : region_done c d inits r r2 wm nda ->
  exists st, region_layout c d inits (keep_rstyles c (e_styles (eattrs r))) = Ok (st, wm, nda) /\
             elems_of r2 = with_styles (rstyle_attrs c (anim_attrs (eattrs r))) st
                           :: map (fun a => rstyle_attrs c (anim_attrs a)) (flat_map elems_of (echildren r)).
Proof.
  intros [st [Hl ->]]. exists st. rewrite eattrs_clean in *. split; [exact Hl|].
  destruct r as [a cs]. cbn [elems_of eattrs echildren rstyle_elem anim_elem map_attrs]. f_equal.
  clear Hl. rewrite map_map. induction cs as [|x cs IH]; [reflexivity|]. cbn [map flat_map]. rewrite map_app, IH. f_equal.
  fold (anim_elem x). fold (rstyle_elem c (anim_elem x)). unfold rstyle_elem, anim_elem.
  rewrite map_attrs_compose, elems_of_map_attrs. reflexivity.
Qed.
