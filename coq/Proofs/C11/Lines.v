(* C11: the file-level line machine.  For every WebVTT file made of a header line and cue blocks (optional
   identifier line, timing line with any setting words, zero or more non-blank payload lines), separated by one
   blank line, to_model isolates exactly the cue blocks: one paragraph per cue that has a payload, in order, with
   exactly the printed begin and end, the region its settings select, and the tree parsed from its payload lines
   joined by line feeds; a cue without payload lines yields no paragraph (its region is still created) and does
   not disturb its neighbours.  Blocks the reader must skip (NOTE, STYLE, REGION, …) may stand between the cue blocks
   (file_blocks, by induction on the list of blocks); the file of cue blocks only (file_cues) is the case without them. *)
From Coq Require Import QArith.
From TT Require Import Base.Prelude Gen.VttTables Model.VttTokenizer Model.VttReader Spec.VttSpec.
From TT Require Import Proofs.C11.Tokenizer Proofs.C11.Time Proofs.C11.Region.
Local Open Scope Z_scope.

Record rcue := mkRcue {
  rc_id : option text;
  rc_begin : tstamp; rc_end : tstamp;
  rc_settings : list text;        (* setting words, any strings without white space *)
  rc_lines : list text            (* payload lines, without their line terminator *)
}.

Definition nl (l : text) : text := l ++ [10].
Definition arrow : text := [32;45;45;62;32].
Definition timing_line (c : rcue) : text :=
  nl (print_ts (rc_begin c) ++ arrow ++ print_ts (rc_end c) ++ flat_map (fun s => 32 :: s) (rc_settings c)).
Definition cue_lines (c : rcue) : list text :=
  match rc_id c with Some i => [nl i] | None => [] end ++ timing_line c :: map nl (rc_lines c).
Definition file_lines (hdr : text) (cs : list rcue) : list text :=
  nl (s_WEBVTT ++ hdr) :: flat_map (fun c => [10] :: cue_lines c) cs.
Definition file_text (hdr : text) (cs : list rcue) : text := concat (file_lines hdr cs).

Definition no_lf (l : text) : bool := negb (mem_z 10 l).
Definition word_ok (w : text) : bool := negb (is_nil w) && forallb (fun c => negb (is_space c)) w.
Definition id_ok (i : text) : bool :=
  no_lf i && negb (is_blank (nl i)) && negb (starts_with s_NOTE_ (nl i)) && negb (starts_with s_STYLE (nl i)) &&
  negb (contains s_arrow (nl i)).
Definition line_ok (l : text) : bool := no_lf l && negb (is_blank (nl l)).
Definition rcue_ok (c : rcue) : Prop :=
  match rc_id c with Some i => id_ok i = true | None => True end /\
  wf_ts (rc_begin c) /\ wf_ts (rc_end c) /\
  forallb word_ok (rc_settings c) = true /\
  forallb line_ok (rc_lines c) = true.

Definition rcue_okb (c : rcue) : bool :=
  match rc_id c with Some i => id_ok i | None => true end &&
  (wf_tsb (rc_begin c) && (wf_tsb (rc_end c) && (forallb word_ok (rc_settings c) && forallb line_ok (rc_lines c)))).
Lemma rcue_okb_ok c : rcue_okb c = true -> rcue_ok c.
Proof.
  apply andb_both; [destruct (rc_id c); trivial|].
  apply andb_both; [apply wf_tsb_ok|apply andb_both; [apply wf_tsb_ok|apply andb_both; trivial]].
Qed.

Lemma line_ok_spec l : line_ok l = true -> no_lf l = true /\ is_blank (nl l) = false.
Proof. apply andb_both; [trivial|apply negb_true_iff]. Qed.
Lemma word_ok_spec w : word_ok w = true -> w <> [] /\ Forall (fun c => is_space c = false) w.
Proof. apply andb_both; [apply is_nil_false|apply forallb_Forall; intros c; apply negb_true_iff]. Qed.
(* an identifier line is one line that the machine, looking for a block, passes over *)
Lemma id_ok_spec i : id_ok i = true -> no_lf i = true /\ forall s, looking (nl i) s = s.
Proof.
  unfold id_ok, looking. rewrite !andb_true_iff, !negb_true_iff. intros [[[[A B] N] S] R].
  split; [exact A|]. intros s. rewrite B, N, S, R. reflexivity.
Qed.

Definition cue_text (c : rcue) : text := replace_raw (strip_crlf (concat (map nl (rc_lines c)))).
Fixpoint read_cues (cs : list rcue) (regions : list region) (paras : list para) : outcome :=
  match cs with
  | [] => OkDoc regions paras
  | c :: cs' =>
    let '(regions', ri) := get_or_make_region regions (rc_settings c) in
    let b := Qmake (ts_ms (rc_begin c)) 1000 in
    match rc_lines c with
    | [] => read_cues cs' regions' paras            (* no payload: nothing is shown, nothing is attached *)
    | _ =>
      match parse_cue_text b (cue_text c) with
      | inr e => Raised e
      | inl children => read_cues cs' regions' (paras ++ [mkPara b (Qmake (ts_ms (rc_end c)) 1000) ri children])
      end
    end
  end.

Lemma readlines_aux_acc : forall l cur rest, no_lf l = true ->
  readlines_aux cur (l ++ rest) = readlines_aux (cur ++ l) rest.
Proof.
  induction l as [|c l IH]; intros cur rest H; [rewrite app_nil_r; reflexivity|].
  unfold no_lf in H. cbn [mem_z existsb] in H. apply negb_true_iff in H. apply orb_false_iff in H as [H1 H2].
  cbn [app readlines_aux]. replace (c =? 10) with false by lia.
  rewrite IH by (unfold no_lf, mem_z; rewrite H2; reflexivity). rewrite <- app_assoc. reflexivity.
Qed.
Lemma readlines_line l rest : no_lf l = true -> readlines_aux [] (nl l ++ rest) = nl l :: readlines_aux [] rest.
Proof.
  intros H. unfold nl. rewrite <- app_assoc. rewrite readlines_aux_acc by exact H. cbn. reflexivity.
Qed.
Definition nl_line (l : text) : Prop := exists r, l = nl r /\ no_lf r = true.
Lemma readlines_nl_lines : forall ls, Forall nl_line ls -> readlines (concat ls) = ls.
Proof.
  unfold readlines. induction 1 as [|l ls (r & -> & Hr) _ IH]; [reflexivity|].
  cbn [concat]. rewrite readlines_line by exact Hr. rewrite IH. reflexivity.
Qed.
Lemma readlines_lines : forall ls, forallb no_lf ls = true -> readlines (concat (map nl ls)) = map nl ls.
Proof.
  intros ls H. apply readlines_nl_lines, Forall_map. revert H. apply forallb_Forall.
  intros l Hl. exists l. split; [reflexivity|exact Hl].
Qed.

Lemma dig_not_space c : dig c -> is_space c = false.
Proof. unfold dig, is_space, mem_z, unicode_space. cbn [existsb]. lia. Qed.
Lemma print_ts_chars t : wf_ts t -> Forall (fun c => dig c \/ c = 58 \/ c = 46) (print_ts t).
Proof.
  destruct t as [h m s f]. unfold wf_ts, print_ts. cbn [ts_hours ts_min ts_sec ts_frac].
  intros (Hh & Hm & Hs & Hf).
  assert (L : forall l, Forall dig l -> Forall (fun c => dig c \/ c = 58 \/ c = 46) l)
    by (intros l Hl; eapply Forall_impl; [|exact Hl]; cbn; auto).
  apply Forall_app; split.
  - destruct h as [hd|]; [|constructor]. destruct Hh as [_ Hd].
    apply Forall_app; split; [apply L; apply hours_dig; exact Hd|constructor; [right; left; reflexivity|constructor]].
  - apply Forall_app; split; [apply L; apply pad2_dig; lia|].
    apply Forall_app; split; [constructor; [right; left; reflexivity|constructor]|].
    apply Forall_app; split; [apply L; apply pad2_dig; lia|].
    apply Forall_app; split; [constructor; [right; right; reflexivity|constructor]|apply L; apply pad3_dig; lia].
Qed.
Lemma print_ts_word t : wf_ts t -> Forall (fun c => is_space c = false) (print_ts t).
Proof.
  intros H. eapply Forall_impl; [|apply print_ts_chars; exact H].
  cbn. intros c [D|[->| ->]]; [apply dig_not_space; exact D|reflexivity|reflexivity].
Qed.
Lemma print_ts_head t : wf_ts t -> exists c r, print_ts t = c :: r /\ dig c.
Proof.
  destruct t as [h m s f]. unfold wf_ts, print_ts. cbn [ts_hours ts_min ts_sec ts_frac].
  intros (Hh & Hm & _). destruct h as [[|d hd]|].
  - destruct Hh as [Hl _]. cbn in Hl. lia.
  - destruct Hh as [_ Hd]. inversion Hd; subst. cbn [map app]. eexists; eexists; split; [reflexivity|]. unfold digit_ok, dig in *. lia.
  - unfold pad2. cbn [app]. eexists; eexists; split; [reflexivity|]. unfold dig. lia.
Qed.

Lemma split_ws_word : forall w cur rest, Forall (fun c => is_space c = false) w ->
  split_ws_aux cur (w ++ rest) = split_ws_aux (cur ++ w) rest.
Proof.
  induction w as [|c w IH]; intros cur rest H; [rewrite app_nil_r; reflexivity|].
  inversion H; subst. cbn [app split_ws_aux]. rewrite H2. rewrite IH by assumption. rewrite <- app_assoc. reflexivity.
Qed.
Lemma split_ws_sep cur c rest : is_space c = true -> cur <> [] ->
  split_ws_aux cur (c :: rest) = cur :: split_ws_aux [] rest.
Proof. intros H Hc. cbn [split_ws_aux]. rewrite H. destruct cur; [congruence|reflexivity]. Qed.

Lemma split_ws_settings : forall ss, forallb word_ok ss = true ->
  split_ws_aux [] (flat_map (fun s => 32 :: s) ss ++ [10]) = ss /\
  forall cur, cur <> [] -> split_ws_aux cur (flat_map (fun s => 32 :: s) ss ++ [10]) = cur :: ss.
Proof.
  induction ss as [|s ss IH]; intros H.
  - split; [reflexivity|]. intros cur Hc. cbn. destruct cur; [congruence|reflexivity].
  - cbn [forallb] in H. apply andb_true_iff in H as [Hs Hss]. destruct (IH Hss) as [IH1 IH2].
    destruct (word_ok_spec s Hs) as [Hs' Hw'].
    assert (E : split_ws_aux [] (s ++ flat_map (fun s0 => 32 :: s0) ss ++ [10]) = s :: ss).
    { rewrite split_ws_word by exact Hw'. cbn [app]. apply IH2. exact Hs'. }
    cbn [flat_map]. rewrite <- app_assoc. cbn [app]. split.
    + cbn [split_ws_aux]. replace (is_space 32) with true by reflexivity. cbn [is_nil]. exact E.
    + intros cur Hc. rewrite split_ws_sep by (auto; reflexivity). rewrite E. reflexivity.
Qed.

Lemma timing_split c : wf_ts (rc_begin c) -> wf_ts (rc_end c) -> forallb word_ok (rc_settings c) = true ->
  split_ws (timing_line c) = print_ts (rc_begin c) :: s_arrow :: print_ts (rc_end c) :: rc_settings c.
Proof.
  intros Hb He Hs. unfold split_ws, timing_line, nl, arrow.
  destruct (print_ts_head _ Hb) as (cb & rb & Eb & _). destruct (print_ts_head _ He) as (ce & re & Ee & _).
  rewrite <- !app_assoc. rewrite split_ws_word by (apply print_ts_word; exact Hb).
  cbn [app]. rewrite split_ws_sep by (try reflexivity; rewrite Eb; discriminate).
  change (45 :: 45 :: 62 :: 32 :: print_ts (rc_end c) ++ flat_map (fun s => 32 :: s) (rc_settings c) ++ [10])
    with ([45;45;62] ++ 32 :: print_ts (rc_end c) ++ flat_map (fun s => 32 :: s) (rc_settings c) ++ [10]).
  rewrite split_ws_word by (repeat constructor).
  rewrite split_ws_sep by (try reflexivity; discriminate).
  rewrite split_ws_word by (apply print_ts_word; exact He). cbn [app].
  destruct (split_ws_settings _ Hs) as [_ H2]. rewrite H2 by (rewrite Ee; discriminate). reflexivity.
Qed.

Lemma contains_app : forall a p b, contains p (a ++ p ++ b) = true.
Proof.
  assert (S : forall p b, starts_with p (p ++ b) = true)
    by (induction p as [|x p IH]; intros b; [reflexivity|cbn; rewrite Z.eqb_refl; apply IH]).
  induction a as [|x a IH]; intros p b.
  - cbn [app]. destruct (p ++ b) eqn:E; cbn [contains]; rewrite <- ?E, S; reflexivity.
  - cbn [app contains]. rewrite IH. apply orb_true_r.
Qed.

Lemma timing_looking c s : rcue_ok c ->
  looking (timing_line c) s =
  let '(regions, ri) := get_or_make_region (rs_regions s) (rc_settings c) in
  mkR LText regions (rs_paras s)
      (Some (mkPara (Qmake (ts_ms (rc_begin c)) 1000) (Qmake (ts_ms (rc_end c)) 1000) ri [])) false (Some []).
Proof.
  intros (_ & Hb & He & Hs & _). unfold looking.
  destruct (print_ts_head _ Hb) as (cb & rb & Eb & Db).
  assert (Hhd : exists r, timing_line c = cb :: r).
  { unfold timing_line, nl. rewrite Eb. cbn [app]. eexists; reflexivity. }
  destruct Hhd as [r Er].
  assert (B : is_blank (timing_line c) = false).
  { rewrite Er. unfold is_blank. cbn [is_nil negb forallb]. rewrite dig_not_space by exact Db. reflexivity. }
  assert (N : starts_with s_NOTE_ (timing_line c) = false).
  { rewrite Er. unfold s_NOTE_. cbn [starts_with]. unfold dig in Db. replace (78 =? cb) with false by lia. reflexivity. }
  assert (St : starts_with s_STYLE (timing_line c) = false).
  { rewrite Er. unfold s_STYLE. cbn [starts_with]. unfold dig in Db. replace (83 =? cb) with false by lia. reflexivity. }
  assert (A : contains s_arrow (timing_line c) = true).
  { unfold timing_line, nl, arrow.
    change (print_ts (rc_begin c) ++ [32;45;45;62;32] ++ print_ts (rc_end c) ++ flat_map (fun s0 => 32 :: s0) (rc_settings c))
      with (print_ts (rc_begin c) ++ [32] ++ s_arrow ++ 32 :: print_ts (rc_end c) ++ flat_map (fun s0 => 32 :: s0) (rc_settings c)).
    rewrite <- !app_assoc. rewrite (app_assoc (print_ts (rc_begin c)) [32]). apply contains_app. }
  rewrite B, N, St, A. cbn [negb].
  rewrite timing_split by assumption. cbn [length Nat.ltb Nat.leb nth_text nth skipn].
  replace (S (S (S (length (rc_settings c)))) <? 3)%nat with false by (symmetry; apply Nat.ltb_ge; lia).
  rewrite !exact_time by assumption. reflexivity.
Qed.

Lemma step_looking l rest s : rs_state s = LLooking -> run_lines (Some l :: rest) s = run_lines rest (looking l s).
Proof. intros L. cbn [run_lines]. rewrite L. reflexivity. Qed.
Lemma step_blank rest s : rs_state s = LLooking -> run_lines (Some [10] :: rest) s = run_lines rest s.
Proof. apply step_looking. Qed.
Lemma step_eof rest s : rs_state s = LLooking -> run_lines (None :: rest) s = OkDoc (rs_regions s) (rs_paras s).
Proof. intros L. cbn [run_lines]. rewrite L. reflexivity. Qed.
Lemma step_note l rest s : rs_state s = LNote \/ rs_state s = LStyle ->
  run_lines (Some l :: rest) s = run_lines rest (if is_blank l then set_state LLooking s else s).
Proof. intros [E|E]; cbn [run_lines]; rewrite E; destruct (is_blank l); reflexivity. Qed.
Lemma step_note_eof rest s : rs_state s = LNote \/ rs_state s = LStyle ->
  run_lines (None :: rest) s = OkDoc (rs_regions s) (rs_paras s).
Proof. intros [E|E]; cbn [run_lines]; rewrite E; reflexivity. Qed.

Definition looking_state (s : rstate) : Prop := rs_state s = LLooking.

Lemma run_text_more : forall ls rest rg ps cur att txt, forallb line_ok ls = true ->
  run_lines (map Some (map nl ls) ++ rest) (mkR LTextMore rg ps (Some cur) att (Some txt)) =
  run_lines rest (mkR LTextMore rg ps (Some cur) att (Some (txt ++ concat (map nl ls)))).
Proof.
  induction ls as [|l ls IH]; intros rest rg ps cur att txt H; [cbn; rewrite app_nil_r; reflexivity|].
  cbn [forallb] in H. apply andb_true_iff in H as [Hl Hls]. destruct (line_ok_spec l Hl) as [_ Hb].
  cbn [map app run_lines rs_state]. rewrite Hb. cbn [rs_cur rs_regions rs_paras rs_attached rs_text].
  rewrite IH by exact Hls. cbn [concat]. rewrite app_assoc. reflexivity.
Qed.

Lemma replace_last_app : forall l p q, replace_last (l ++ [p]) q = l ++ [q].
Proof.
  induction l as [|x l IH]; intros p q; [reflexivity|].
  change ((x :: l) ++ [p]) with (x :: (l ++ [p])).
  destruct (l ++ [p]) as [|y r] eqn:E.
  - destruct l; discriminate.
  - change (replace_last (x :: y :: r) q) with (x :: replace_last (y :: r) q).
    rewrite <- E, IH. reflexivity.
Qed.

Definition terminator (t : option text) : Prop := t = None \/ t = Some [10].

Lemma run_cue c t rest s : rcue_ok c -> terminator t -> rs_state s = LLooking ->
  run_lines (map Some (cue_lines c) ++ t :: rest) s =
  let '(regions, ri) := get_or_make_region (rs_regions s) (rc_settings c) in
  let b := Qmake (ts_ms (rc_begin c)) 1000 in
  let p := mkPara b (Qmake (ts_ms (rc_end c)) 1000) ri in
  match rc_lines c with
  | [] => run_lines rest (mkR LLooking regions (rs_paras s) (Some (p [])) false (Some []))
  | _ =>
    match parse_cue_text b (cue_text c) with
    | inr e => Raised e
    | inl children =>
      run_lines rest (mkR LLooking regions (rs_paras s ++ [p children]) (Some (p [])) true
                          (Some (concat (map nl (rc_lines c)))))
    end
  end.
Proof.
  intros W T L. pose proof W as (Hid & Hb & He & Hs & Hl).
  unfold cue_lines.
  (* the identifier line is skipped *)
  assert (Skip : forall items, run_lines (map Some (match rc_id c with Some i => [nl i] | None => [] end) ++ items) s = run_lines items s).
  { intros items. destruct (rc_id c) as [i|]; [|reflexivity].
    cbn [map app]. rewrite step_looking by exact L. rewrite (proj2 (id_ok_spec i Hid)). reflexivity. }
  rewrite map_app, <- app_assoc. rewrite Skip.
  cbn [map app]. rewrite step_looking, timing_looking by assumption.
  destruct (get_or_make_region (rs_regions s) (rc_settings c)) as [rg ri].
  assert (TB : match t with None => true | Some l => is_blank l end = true) by (destruct T as [-> | ->]; reflexivity).
  destruct (rc_lines c) as [|l1 ls] eqn:El.
  - (* no payload: subtitle_text is "", the paragraph is never attached *)
    cbn [map app run_lines rs_state]. rewrite TB.
    cbn [rs_text rs_cur rs_attached rs_paras rs_regions pa_begin pa_end pa_region]. reflexivity.
  - cbn [forallb] in Hl. apply andb_true_iff in Hl as [Hl1 Hls].
    destruct (line_ok_spec l1 Hl1) as [_ Hb1].
    cbn [map app run_lines rs_state]. rewrite Hb1. cbn [rs_cur rs_state rs_regions rs_paras rs_attached rs_text].
    rewrite run_text_more by exact Hls.
    cbn [run_lines rs_state]. rewrite TB. cbn [rs_text rs_cur rs_attached rs_paras rs_regions pa_begin pa_end pa_region].
    unfold cue_text. rewrite El. cbn [map concat].
    destruct (parse_cue_text _ _) as [ch|e]; [|reflexivity].
    rewrite replace_last_app. reflexivity.
Qed.

Lemma no_lf_app a b : no_lf a = true -> no_lf b = true -> no_lf (a ++ b) = true.
Proof.
  unfold no_lf, mem_z. rewrite existsb_app. intros Ha Hb.
  apply negb_true_iff in Ha. apply negb_true_iff in Hb. rewrite Ha, Hb. reflexivity.
Qed.
Lemma no_space_no_lf w : Forall (fun c => is_space c = false) w -> no_lf w = true.
Proof.
  unfold no_lf, mem_z. induction 1 as [|c w Hc _ IH]; [reflexivity|].
  cbn [existsb]. apply negb_true_iff. apply orb_false_iff. split.
  - destruct (10 =? c) eqn:E; [|reflexivity]. apply Z.eqb_eq in E. subst c. discriminate.
  - apply negb_true_iff in IH. exact IH.
Qed.
Lemma settings_no_lf : forall ss, forallb word_ok ss = true -> no_lf (flat_map (fun s => 32 :: s) ss) = true.
Proof.
  induction ss as [|s ss IH]; intros H; [reflexivity|].
  cbn [forallb] in H. apply andb_true_iff in H as [Hs Hss]. cbn [flat_map].
  change (32 :: s) with ([32] ++ s). rewrite <- app_assoc. apply no_lf_app; [reflexivity|]. apply no_lf_app; [|apply IH; exact Hss].
  apply no_space_no_lf, word_ok_spec, Hs.
Qed.
Lemma lines_nl : forall ls, forallb line_ok ls = true -> Forall nl_line (map nl ls).
Proof.
  intros ls H. apply Forall_map. revert H. apply forallb_Forall.
  intros l Hl. exists l. split; [reflexivity|apply line_ok_spec; exact Hl].
Qed.
Lemma cue_lines_nl c : rcue_ok c -> Forall nl_line (cue_lines c).
Proof.
  intros (Hid & Hb & He & Hs & Hl). unfold cue_lines. apply Forall_app; split.
  - destruct (rc_id c) as [i|]; [|constructor]. constructor; [|constructor].
    exists i. split; [reflexivity|apply id_ok_spec; exact Hid].
  - constructor; [|apply lines_nl; exact Hl].
    eexists. split; [reflexivity|].
    apply no_lf_app; [apply no_space_no_lf; apply print_ts_word; exact Hb|].
    apply no_lf_app; [reflexivity|].
    apply no_lf_app; [apply no_space_no_lf; apply print_ts_word; exact He|apply settings_no_lf; exact Hs].
Qed.

(* A WebVTT file is a header and blocks separated by blank lines.  Besides cue blocks there are blocks the reader
   must skip: comments (first line starts with "NOTE "), style blocks (first line starts with "STYLE") - whatever
   non-blank lines follow, lines holding "-->" included - and any other block none of whose lines holds "-->"
   (REGION blocks, a bare NOTE line with a comment below it, stray identifiers).  For EVERY such line list the line
   machine leaves regions and paragraphs untouched and resumes looking for the next block. *)
Inductive rblock := RCue (c : rcue) | RSkip (ls : list text).       (* lines without their terminator *)

Definition note_or_style (l : text) : bool := starts_with s_NOTE_ (nl l) || starts_with s_STYLE (nl l).
Fixpoint skip_lines_ok (ls : list text) : bool :=
  match ls with
  | [] => true
  | l :: ls' =>
    line_ok l && (if note_or_style l then forallb line_ok ls' else negb (contains s_arrow (nl l)) && skip_lines_ok ls')
  end.
Definition rblock_ok (b : rblock) : Prop :=
  match b with RCue c => rcue_ok c | RSkip ls => ls <> [] /\ skip_lines_ok ls = true end.

Definition block_lines (b : rblock) : list text := match b with RCue c => cue_lines c | RSkip ls => map nl ls end.
Definition file_lines_b (hdr : text) (bs : list rblock) : list text :=
  nl (s_WEBVTT ++ hdr) :: flat_map (fun b => [10] :: block_lines b) bs.
Definition file_text_b (hdr : text) (bs : list rblock) : text := concat (file_lines_b hdr bs).
Definition cues_of_blocks (bs : list rblock) : list rcue :=
  flat_map (fun b => match b with RCue c => [c] | RSkip _ => [] end) bs.

Lemma set_looking s : rs_state s = LLooking -> forall st, set_state LLooking (set_state st s) = s.
Proof. destruct s as [st0 rg ps cur att txt]. cbn. intros -> st. reflexivity. Qed.

(* inside a comment or style block every non-blank line is skipped *)
Lemma run_note_lines : forall ls rest s, (rs_state s = LNote \/ rs_state s = LStyle) -> forallb line_ok ls = true ->
  run_lines (map Some (map nl ls) ++ rest) s = run_lines rest s.
Proof.
  induction ls as [|l ls IH]; intros rest s St H; [reflexivity|].
  cbn [forallb] in H. apply andb_true_iff in H as [Hl Hls]. destruct (line_ok_spec l Hl) as [_ Hb].
  cbn [map app]. rewrite step_note, Hb by exact St. apply IH; assumption.
Qed.
(* … and the block's end finds the machine where the block found it *)
Lemma run_note_end t rest s st : terminator t -> rs_state s = LLooking -> st = LNote \/ st = LStyle ->
  run_lines (t :: rest) (set_state st s) = run_lines (t :: rest) s.
Proof.
  intros T L St. assert (St' : rs_state (set_state st s) = LNote \/ rs_state (set_state st s) = LStyle) by exact St.
  destruct T as [-> | ->].
  - rewrite step_note_eof, step_eof by assumption. reflexivity.
  - rewrite step_note, step_blank by assumption. change (is_blank [10]) with true. cbv iota.
    rewrite set_looking by exact L. reflexivity.
Qed.

Lemma run_skip : forall ls t rest s, skip_lines_ok ls = true -> terminator t -> rs_state s = LLooking ->
  run_lines (map Some (map nl ls) ++ t :: rest) s = run_lines (t :: rest) s.
Proof.
  induction ls as [|l ls IH]; intros t rest s H T L; [reflexivity|].
  cbn [skip_lines_ok] in H. apply andb_true_iff in H as [Hl H]. destruct (line_ok_spec l Hl) as [_ Hb].
  cbn [map app]. rewrite step_looking by exact L. unfold looking. rewrite Hb.
  unfold note_or_style in H.
  destruct (starts_with s_NOTE_ (nl l)) eqn:N; [|destruct (starts_with s_STYLE (nl l)) eqn:St]; cbn [orb] in H.
  - rewrite run_note_lines by (auto; exact H). apply run_note_end; auto.
  - rewrite run_note_lines by (auto; exact H). apply run_note_end; auto.
  - apply andb_true_iff in H as [Ha H]. rewrite Ha. apply IH; assumption.
Qed.

(* the items after the header line: every block is preceded by a blank line, the end of the file follows the last *)
Fixpoint block_items (bs : list rblock) : list (option text) :=
  match bs with
  | [] => [None]
  | b :: bs' => Some [10] :: map Some (block_lines b) ++ block_items bs'
  end.
Lemma file_items hdr bs : map Some (file_lines_b hdr bs) ++ [None] = Some (nl (s_WEBVTT ++ hdr)) :: block_items bs.
Proof.
  unfold file_lines_b. cbn [map app]. f_equal.
  induction bs as [|b bs IH]; [reflexivity|]. cbn [flat_map map app block_items]. rewrite map_app, <- app_assoc. do 2 f_equal. exact IH.
Qed.
(* what follows a block ends it; while looking for a block neither a blank line nor the end of the file changes anything *)
Lemma block_items_head bs : exists t rest, block_items bs = t :: rest /\ terminator t /\
  forall s, rs_state s = LLooking -> run_lines rest s = run_lines (t :: rest) s.
Proof.
  destruct bs as [|b bs]; cbn [block_items]; eexists; eexists; (split; [reflexivity|]).
  - split; [left; reflexivity|]. intros s L. rewrite step_eof by exact L. reflexivity.
  - split; [right; reflexivity|]. intros s L. rewrite step_blank by exact L. reflexivity.
Qed.

Lemma run_blocks : forall bs s, Forall rblock_ok bs -> rs_state s = LLooking ->
  run_lines (block_items bs) s = read_cues (cues_of_blocks bs) (rs_regions s) (rs_paras s).
Proof.
  induction bs as [|b bs IH]; intros s W L; cbn [block_items]; [apply step_eof; exact L|rewrite step_blank by exact L].
  inversion W as [|? ? Hb Hbs]; subst.
  destruct (block_items_head bs) as (t & rest & E & T & Hrest). rewrite E.
  cbn [cues_of_blocks flat_map]. fold (cues_of_blocks bs).
  destruct b as [c|ls]; cbn [block_lines rblock_ok app read_cues] in *.
  - rewrite run_cue by assumption.
    destruct (get_or_make_region _ _) as [rg ri]. cbv zeta.
    destruct (rc_lines c); [|destruct (parse_cue_text _ _) as [ch|e]; [|reflexivity]];
      (rewrite Hrest, <- E, IH by (assumption || reflexivity); reflexivity).
  - rewrite run_skip, <- E; [apply IH; assumption|apply Hb|exact T|exact L].
Qed.

Lemma skip_lines_line_ok : forall ls, skip_lines_ok ls = true -> forallb line_ok ls = true.
Proof.
  induction ls as [|l ls IH]; intros H; [reflexivity|]. cbn [skip_lines_ok] in H. apply andb_true_iff in H as [Hl H].
  cbn [forallb]. rewrite Hl. destruct (note_or_style l); [exact H|]. apply andb_true_iff in H as [_ H]. apply IH. exact H.
Qed.
Lemma block_lines_nl b : rblock_ok b -> Forall nl_line (block_lines b).
Proof.
  destruct b as [c|ls]; cbn [rblock_ok block_lines]; [apply cue_lines_nl|]. intros [_ H].
  apply lines_nl, skip_lines_line_ok, H.
Qed.
Lemma file_lines_b_nl hdr bs : no_lf hdr = true -> Forall rblock_ok bs -> Forall nl_line (file_lines_b hdr bs).
Proof.
  intros Hh W. unfold file_lines_b. constructor.
  - eexists. split; [reflexivity|]. apply no_lf_app; [reflexivity|exact Hh].
  - induction W as [|b bs Hb _ IH]; [constructor|]. cbn [flat_map].
    constructor; [exists []; split; reflexivity|]. apply Forall_app; split; [apply block_lines_nl; exact Hb|exact IH].
Qed.

(* NOTE / STYLE / REGION blocks are skipped: a file of cue blocks and blocks to skip, in any order, reads exactly as
   the file of its cue blocks *)
Theorem file_blocks hdr bs : no_lf hdr = true -> Forall rblock_ok bs ->
  to_model (file_text_b hdr bs) = read_cues (cues_of_blocks bs) [] [].
Proof.
  intros Hh W. unfold to_model, file_text_b.
  rewrite readlines_nl_lines by (apply file_lines_b_nl; assumption).
  rewrite file_items. cbn [run_lines rs_state set_state].
  apply (run_blocks bs (mkR LLooking [] [] None false None)); [exact W|reflexivity].
Qed.
Lemma file_text_cues hdr cs : file_text hdr cs = file_text_b hdr (map RCue cs).
Proof.
  unfold file_text, file_text_b, file_lines, file_lines_b. rewrite !flat_map_concat_map, map_map. reflexivity.
Qed.
Lemma cues_of_cue_blocks cs : cues_of_blocks (map RCue cs) = cs.
Proof. induction cs as [|c cs IH]; [reflexivity|]. cbn [map cues_of_blocks flat_map app]. f_equal. exact IH. Qed.
Theorem file_cues hdr cs : no_lf hdr = true -> Forall rcue_ok cs ->
  to_model (file_text hdr cs) = read_cues cs [] [].
Proof.
  intros Hh W. rewrite file_text_cues, file_blocks, cues_of_cue_blocks; [reflexivity|exact Hh|].
  apply Forall_map. exact W.
Qed.
Corollary skipped_blocks_invisible hdr bs : no_lf hdr = true -> Forall rblock_ok bs ->
  to_model (file_text_b hdr bs) = to_model (file_text hdr (cues_of_blocks bs)).
Proof.
  intros Hh W. rewrite file_blocks by assumption. rewrite file_cues; [reflexivity|exact Hh|].
  induction W as [|b bs Hb _ IH]; [constructor|]. destruct b; cbn [cues_of_blocks flat_map app]; [constructor; assumption|exact IH].
Qed.

Definition rblock_okb (b : rblock) : bool :=
  match b with RCue c => rcue_okb c | RSkip ls => negb (is_nil ls) && skip_lines_ok ls end.
Lemma rblock_okb_ok b : rblock_okb b = true -> rblock_ok b.
Proof.
  destruct b as [c|ls]; [apply rcue_okb_ok|apply andb_both; [apply is_nil_false|trivial]].
Qed.

(* the three kinds of block the WebVTT syntax defines, with ANY body lines *)
Lemma note_block_ok first body : line_ok (s_NOTE_ ++ first) = true -> forallb line_ok body = true ->
  rblock_ok (RSkip ((s_NOTE_ ++ first) :: body)).
Proof.
  intros H1 H2. split; [discriminate|]. cbn [skip_lines_ok]. rewrite H1.
  replace (note_or_style (s_NOTE_ ++ first)) with true by reflexivity. exact H2.
Qed.
Lemma style_block_ok first body : line_ok (s_STYLE ++ first) = true -> forallb line_ok body = true ->
  rblock_ok (RSkip ((s_STYLE ++ first) :: body)).
Proof.
  intros H1 H2. split; [discriminate|]. cbn [skip_lines_ok]. rewrite H1.
  assert (E : note_or_style (s_STYLE ++ first) = true).
  { unfold note_or_style. replace (starts_with s_STYLE (nl (s_STYLE ++ first))) with true by reflexivity. apply orb_true_r. }
  rewrite E. exact H2.
Qed.
Definition s_REGION : text := [82;69;71;73;79;78].
Lemma region_block_ok body : forallb (fun l => line_ok l && negb (note_or_style l) && negb (contains s_arrow (nl l))) body = true ->
  rblock_ok (RSkip (s_REGION :: body)).
Proof.
  intros H. split; [discriminate|]. cbn [skip_lines_ok]. replace (line_ok s_REGION) with true by reflexivity.
  replace (note_or_style s_REGION) with false by reflexivity. replace (contains s_arrow (nl s_REGION)) with false by reflexivity.
  cbn [negb andb]. induction body as [|l body IH]; [reflexivity|].
  cbn [forallb] in H. apply andb_true_iff in H as [Hl H]. apply andb_true_iff in Hl as [Hl Ha]. apply andb_true_iff in Hl as [Hl Hn].
  apply negb_true_iff in Hn. cbn [skip_lines_ok]. rewrite Hl, Hn, Ha. cbn [andb]. apply IH. exact H.
Qed.

Example blocks_example :
  Forall rblock_ok
    [RSkip [[78;79;84;69;32;97]; [48;48;58;48;49;46;48;48;48;32;45;45;62;32;120]];       (* NOTE a / 00:01.000 --> x *)
     RCue (mkRcue None (mkTs None 0 1 0) (mkTs None 0 2 0) [] [[97]]);
     RSkip [[83;84;89;76;69]; [58;58;99;117;101;32;123;125]];                           (* STYLE / ::cue {} *)
     RSkip [s_REGION; [105;100;58;102;114;101;100]];                                    (* REGION / id:fred *)
     RCue (mkRcue (Some [105;100]) (mkTs None 0 3 0) (mkTs None 0 4 0) [] [[98]])].
Proof.
  apply (Forall_impl _ rblock_okb_ok), Forall_forall, forallb_forall. vm_compute. reflexivity.
Qed.

(* the paragraphs of a file whose cues all have a payload carry the region indices `assign` computes, hence
   (region_sharing_iff) two cues share a region iff their settings compute the same region value *)
Lemma read_cues_assign : forall cs rs ps rs' ps', Forall (fun c => rc_lines c <> []) cs ->
  read_cues cs rs ps = OkDoc rs' ps' ->
  exists qs, ps' = ps ++ qs /\ assign rs (map rc_settings cs) = (rs', map pa_region qs).
Proof.
  induction cs as [|c cs IH]; intros rs ps rs' ps' Hp H; cbn [read_cues map assign] in *.
  - inversion H; subst. exists []. rewrite app_nil_r. split; reflexivity.
  - inversion Hp as [|? ? Hc Hcs]; subst.
    destruct (get_or_make_region rs (rc_settings c)) as [rs1 i] eqn:G.
    destruct (rc_lines c) as [|l1 ls] eqn:El; [congruence|].
    destruct (parse_cue_text _ _) as [ch|e]; [|discriminate].
    destruct (IH _ _ _ _ Hcs H) as (qs & -> & A). rewrite A.
    eexists (_ :: qs). rewrite <- app_assoc. split; reflexivity.
Qed.
Theorem cues_share_region_iff : forall cs rs ps a b ca cb pa pb, Forall (fun c => rc_lines c <> []) cs ->
  read_cues cs [] [] = OkDoc rs ps ->
  nth_error cs a = Some ca -> nth_error cs b = Some cb -> nth_error ps a = Some pa -> nth_error ps b = Some pb ->
  (pa_region pa = pa_region pb <->
   region_eqb (compute_region (rc_settings ca)) (compute_region (rc_settings cb)) = true).
Proof.
  intros cs rs ps a b ca cb pa pb Hp H Ha Hb Hpa Hpb.
  destruct (read_cues_assign _ _ _ _ _ Hp H) as (qs & E & A). cbn [app] in E. subst qs.
  eapply region_sharing_iff; [exact A| | | |].
  - rewrite nth_error_map, Ha. reflexivity.
  - rewrite nth_error_map, Hb. reflexivity.
  - rewrite nth_error_map, Hpa. reflexivity.
  - rewrite nth_error_map, Hpb. reflexivity.
Qed.

(* when the payload lines neither begin nor end with CR/LF and contain no literal backslash-n-backslash-r, the
   text handed to the cue parser is the lines joined by LF *)
Fixpoint join_lf (ls : list text) : text :=
  match ls with [] => [] | [l] => l | l :: ls' => l ++ 10 :: join_lf ls' end.

Definition first_ok (s : text) : bool := match s with c :: _ => negb (is_crlf c) | [] => false end.
Definition plain_payload (ls : list text) : bool :=
  first_ok (join_lf ls) && first_ok (rev (join_lf ls)) && negb (mem_z 92 (join_lf ls)).

Lemma drop_first_ok s : first_ok s = true -> drop_while is_crlf s = s.
Proof. destruct s as [|c s]; [discriminate|]. cbn. intros H. apply negb_true_iff in H. rewrite H. reflexivity. Qed.
Lemma strip_line s : first_ok s = true -> first_ok (rev s) = true -> strip_crlf (s ++ [10]) = s.
Proof.
  intros H1 H2. unfold strip_crlf.
  assert (E : drop_while is_crlf (s ++ [10]) = s ++ [10]).
  { destruct s as [|c s]; [discriminate|]. cbn [app]. apply drop_first_ok. exact H1. }
  rewrite E, rev_app_distr. cbn [rev app drop_while is_crlf Z.eqb Pos.eqb orb].
  rewrite drop_first_ok by exact H2. apply rev_involutive.
Qed.
Lemma replace_raw_id : forall s, mem_z 92 s = false -> replace_raw s = s.
Proof.
  induction s as [|c s IH]; intros H; [reflexivity|].
  unfold mem_z in H. cbn [existsb] in H. apply orb_false_iff in H as [Hc Hs].
  assert (c <> 92) by lia.
  assert (E : replace_raw (c :: s) = c :: replace_raw s).
  { destruct c as [|p|p]; try reflexivity.
    do 7 (destruct p as [p|p|]; try reflexivity). contradiction. }
  rewrite E, IH by exact Hs. reflexivity.
Qed.
Lemma concat_join : forall ls, ls <> [] -> concat (map nl ls) = join_lf ls ++ [10].
Proof.
  induction ls as [|l ls IH]; intros H; [congruence|]. destruct ls as [|l2 ls].
  - cbn. rewrite app_nil_r. reflexivity.
  - change (concat (map nl (l :: l2 :: ls))) with (nl l ++ concat (map nl (l2 :: ls))).
    rewrite IH by discriminate.
    change (join_lf (l :: l2 :: ls)) with (l ++ 10 :: join_lf (l2 :: ls)).
    unfold nl. rewrite <- !app_assoc. reflexivity.
Qed.
Lemma cue_text_plain c : rc_lines c <> [] -> plain_payload (rc_lines c) = true -> cue_text c = join_lf (rc_lines c).
Proof.
  intros Hne H. unfold plain_payload in H. apply andb_true_iff in H as [H H3]. apply andb_true_iff in H as [H1 H2].
  unfold cue_text. rewrite concat_join by exact Hne. rewrite strip_line by assumption.
  apply replace_raw_id. apply negb_true_iff in H3. exact H3.
Qed.

Lemma empty_file : to_model [] = OkDoc [] [].
Proof. reflexivity. Qed.

(* non-vacuity: a three-cue file, the second cue without payload *)
Example file_example :
  Forall rcue_ok [mkRcue (Some [105;100]) (mkTs None 0 1 0) (mkTs (Some [0;0]) 0 2 500) [[108;105;110;101;58;48]] [[97];[98;32;99]];
                  mkRcue None (mkTs None 0 2 600) (mkTs None 0 2 900) [] [];
                  mkRcue None (mkTs None 0 3 0) (mkTs None 0 4 0) [] [[60;98;62;120]]].
Proof.
  apply (Forall_impl _ rcue_okb_ok), Forall_forall, forallb_forall. vm_compute. reflexivity.
Qed.
