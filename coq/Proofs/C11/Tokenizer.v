(* C11: the cue-text tokenizer inverts the token printer, for ALL token lists in normal form.
   print_tokens is the WebVTT cue-text syntax of a token list: text with & < > escaped, <tag.class… annotation>,
   </tag>, <timestamp>.  Normal form = what the syntax can express uniquely: non-empty strings, no two adjacent
   strings, tag names / classes free of their delimiters, annotations white-space-normalised (any characters:
   `&`, `<` and `>` are printed as character references, which the annotation state decodes). *)
From TT Require Import Base.Prelude Gen.VttTables Model.VttTokenizer Spec.VttSpec.

Definition print_classes (cs : list text) : text := flat_map (fun c => 46 :: c) cs.
Definition print_token (t : token) : text :=
  match t with
  | TString v => escape v
  | TStart tag cls an =>
    [60] ++ tag ++ match cls with Some cs => print_classes cs | None => [] end ++
    match an with Some a => 32 :: escape a | None => [] end ++ [62]
  | TEnd tag => [60; 47] ++ tag ++ [62]
  | TTs ts => [60] ++ ts ++ [62]
  end.
Definition print_tokens (ts : list token) : text := flat_map print_token ts.

Definition name_char (c : Z) : Prop := c <> 9 /\ c <> 10 /\ c <> 12 /\ c <> 32 /\ c <> 46 /\ c <> 62.
Definition first_char (c : Z) : Prop := name_char c /\ c <> 47 /\ is_digit c = false.
Definition class_ok (c : text) : Prop := Forall name_char c.

Definition nf_token (t : token) : Prop :=
  match t with
  | TString v => v <> []
  | TStart tag cls an =>
    (exists c r, tag = c :: r /\ first_char c /\ Forall name_char r) /\
    match cls, an with
    | None, None => True
    | Some cs, None => cs <> [] /\ Forall class_ok cs
    | Some cs, Some a => Forall class_ok cs /\ norm_annot a = a
    | None, Some _ => False
    end
  | TEnd tag => Forall (fun c => c <> 62) tag
  | TTs ts => exists d r, ts = d :: r /\ is_digit d = true /\ Forall (fun c => c <> 62) r
  end.
Definition is_string (t : token) : bool := match t with TString _ => true | _ => false end.
Fixpoint nf_list (ts : list token) : Prop :=
  match ts with
  | [] => True
  | t :: ts' => nf_token t /\ nf_list ts' /\
                match ts' with t' :: _ => is_string t && is_string t' = false | [] => True end
  end.

(* A string token may be spelled with any mix of literal characters (escaped) and character references `&…;`.
   An item is such a spelled string or any other token; the tokenizer returns the string's VALUE: literal
   characters as they are, each reference as html.unescape decodes it. *)
Inductive piece := PLit (t : text) | PRef (r : cref).
Definition piece_print (p : piece) : text := match p with PLit t => escape t | PRef r => print_cref r end.
Definition piece_value (p : piece) : text := match p with PLit t => t | PRef r => unescape (print_cref r) end.
Definition pieces_print (ps : list piece) : text := flat_map piece_print ps.
Definition pieces_value (ps : list piece) : text := flat_map piece_value ps.
(* a reference is `&`, a body without `;`, and `;` *)
Definition ref_ok (r : cref) : Prop := exists body, print_cref r = 38 :: body ++ [59] /\ Forall (fun c => c <> 59) body.
Definition piece_ok (p : piece) : Prop := match p with PLit t => t <> [] | PRef r => ref_ok r end.

Inductive item := IStr (ps : list piece) | ITok (t : token).
Definition item_print (i : item) : text := match i with IStr ps => pieces_print ps | ITok t => print_token t end.
Definition item_token (i : item) : token := match i with IStr ps => TString (pieces_value ps) | ITok t => t end.
Definition items_print (l : list item) : text := flat_map item_print l.
Definition nf_item (i : item) : Prop :=
  match i with
  | IStr ps => ps <> [] /\ Forall piece_ok ps /\ pieces_value ps <> []
  | ITok t => nf_token t /\ is_string t = false
  end.
Definition is_istr (i : item) : bool := match i with IStr _ => true | ITok _ => false end.
Fixpoint nf_items (l : list item) : Prop :=
  match l with
  | [] => True
  | i :: l' => nf_item i /\ nf_items l' /\ match l' with i' :: _ => is_istr i && is_istr i' = false | [] => True end
  end.

Definition lt_or_nil (s : text) : Prop := s = [] \/ exists r, s = 60 :: r.

Lemma app_cons_assoc {A} (l : list A) (x : A) (r : list A) : (l ++ [x]) ++ r = l ++ x :: r.
Proof. rewrite <- app_assoc. reflexivity. Qed.

(* `&`, `<`, `>` are printed as the references html.unescape decodes to them, every other character as itself *)
Lemma escape_char_cases c :
  (escape_char c = [c] /\ c <> 38 /\ c <> 60 /\ c <> 62) \/
  exists body, escape_char c = 38 :: body ++ [59] /\ Forall (fun x => x <> 59 /\ x <> 62) body /\
               unescape (38 :: body ++ [59]) = [c].
Proof.
  unfold escape_char.
  destruct (Z.eqb_spec c 38) as [->|A]; [|destruct (Z.eqb_spec c 60) as [->|B]; [|destruct (Z.eqb_spec c 62) as [->|C]]].
  - right. exists [97;109;112]. split; [reflexivity|]. split; [repeat constructor; lia|vm_compute; reflexivity].
  - right. exists [108;116]. split; [reflexivity|]. split; [repeat constructor; lia|vm_compute; reflexivity].
  - right. exists [103;116]. split; [reflexivity|]. split; [repeat constructor; lia|vm_compute; reflexivity].
  - left. auto.
Qed.

Lemma scan_data_end res buf cls rest :
  lt_or_nil rest -> res <> [] -> scan SData res buf cls rest = (TString res, rest).
Proof.
  intros [->|[r ->]] Hne.
  - reflexivity.
  - cbn. destruct res; [congruence|reflexivity].
Qed.

Lemma name_char_tests c : name_char c ->
  tag_ws c = false /\ (c =? 10) = false /\ (c =? 46) = false /\ (c =? 62) = false.
Proof.
  unfold tag_ws. intros (A & B & C & D & E & F). apply Z.eqb_neq in A, B, C, D, E, F. rewrite A, B, C, D, E, F.
  repeat split; reflexivity.
Qed.

Lemma scan_start_acc : forall t res buf cls rest, Forall name_char t ->
  scan SStart res buf cls (t ++ rest) = scan SStart (res ++ t) buf cls rest.
Proof.
  induction t as [|c t IH]; intros res buf cls rest H.
  - rewrite app_nil_r. reflexivity.
  - inversion H as [|? ? Hc Ht]; subst. destruct (name_char_tests c Hc) as (A & B & D & E).
    cbn [app scan]. rewrite A, B, D, E. rewrite IH by assumption. rewrite app_cons_assoc. reflexivity.
Qed.
Lemma scan_class_acc : forall t res buf cls rest, Forall name_char t ->
  scan SClass res buf cls (t ++ rest) = scan SClass res (buf ++ t) cls rest.
Proof.
  induction t as [|c t IH]; intros res buf cls rest H.
  - rewrite app_nil_r. reflexivity.
  - inversion H as [|? ? Hc Ht]; subst. destruct (name_char_tests c Hc) as (A & B & D & E).
    cbn [app scan]. rewrite A, B, D, E. rewrite IH by assumption. rewrite app_cons_assoc. reflexivity.
Qed.
(* the name of an end tag and the text of a timestamp tag are collected up to `>` *)
Lemma scan_to_gt st : st = SEnd \/ st = STs -> forall t res buf cls rest, Forall (fun c => c <> 62) t ->
  scan st res buf cls (t ++ rest) = scan st (res ++ t) buf cls rest.
Proof.
  intros St. induction t as [|c t IH]; intros res buf cls rest H.
  - rewrite app_nil_r. reflexivity.
  - inversion H as [|? ? Hc Ht]; subst. rewrite <- app_cons_assoc, <- IH by exact Ht.
    destruct St as [-> | ->]; cbn [app scan]; replace (c =? 62) with false by lia; reflexivity.
Qed.
Lemma scan_cref_acc : forall body res buf cls more, Forall (fun c => c <> 59) body ->
  scan SCref res buf cls (body ++ more) = scan SCref res (buf ++ body) cls more.
Proof.
  induction body as [|c body IH]; intros res buf cls more H; [rewrite app_nil_r; reflexivity|].
  inversion H; subst. cbn [app scan]. replace (c =? 59) with false by lia.
  rewrite IH by assumption. rewrite app_cons_assoc. reflexivity.
Qed.
Lemma scan_annot_cref_acc : forall body cref res buf cls more, Forall (fun c => c <> 59 /\ c <> 62) body ->
  scan (SAnnotCref cref) res buf cls (body ++ more) = scan (SAnnotCref (cref ++ body)) res buf cls more.
Proof.
  induction body as [|c body IH]; intros cref res buf cls more H; [rewrite app_nil_r; reflexivity|].
  inversion H as [|? ? [A B] Hb]; subst. cbn [app scan]. replace (c =? 59) with false by lia. replace (c =? 62) with false by lia.
  rewrite IH by assumption. rewrite app_cons_assoc. reflexivity.
Qed.

(* a character reference `&body;` in the data state and in an annotation: html.unescape of the whole reference is
   appended; the data state leaves `&body` behind in `buffer` *)
Lemma scan_data_amp body res buf cls more : Forall (fun c => c <> 59) body ->
  scan SData res buf cls (38 :: body ++ 59 :: more) = scan SData (res ++ unescape (38 :: body ++ [59])) (38 :: body) cls more.
Proof. intros H. cbn [scan Z.eqb Pos.eqb]. rewrite scan_cref_acc by exact H. cbn [app scan Z.eqb Pos.eqb]. reflexivity. Qed.
Lemma scan_annot_amp body res buf cls more : Forall (fun c => c <> 59 /\ c <> 62) body ->
  scan SAnnot res buf cls (38 :: body ++ 59 :: more) = scan SAnnot res (buf ++ unescape (38 :: body ++ [59])) cls more.
Proof. intros H. cbn [scan Z.eqb Pos.eqb]. rewrite scan_annot_cref_acc by exact H. cbn [app scan Z.eqb Pos.eqb]. reflexivity. Qed.

(* the annotation state on an escaped annotation: every `&`, `<`, `>` comes back through annot_cref *)
Lemma scan_annot_escape : forall a res buf cls rest,
  scan SAnnot res buf cls (escape a ++ 62 :: rest) = (TStart res (Some cls) (Some (norm_annot (buf ++ a))), rest).
Proof.
  induction a as [|c a IH]; intros res buf cls rest.
  - cbn. rewrite app_nil_r. reflexivity.
  - unfold escape. cbn [flat_map]. fold (escape a). rewrite <- (app_cons_assoc buf c a), <- IH, <- app_assoc.
    destruct (escape_char_cases c) as [(-> & A & _ & C)|(body & -> & Hb & U)].
    + cbn [app scan]. replace (c =? 38) with false by lia. replace (c =? 62) with false by lia. reflexivity.
    + cbn [app]. rewrite <- app_assoc. cbn [app]. rewrite scan_annot_amp by exact Hb. rewrite U. reflexivity.
Qed.

(* the class list: we are in SClass just after a '.', with `done` classes collected; the character d that ends the list
   (`>` or a space) hands all classes to what follows (K) *)
Lemma scan_classes (K : list text -> text -> token * text) d res :
  (forall buf cls more, scan SClass res buf cls (d :: more) = K (cls ++ [buf]) more) ->
  forall cs c done more, Forall class_ok (c :: cs) ->
  scan SClass res [] done (c ++ print_classes cs ++ d :: more) = K (done ++ c :: cs) more.
Proof.
  intros HK. induction cs as [|c' cs IH]; intros c done more H; inversion H as [|? ? Hc Hcs]; subst;
    cbn [print_classes flat_map app]; rewrite scan_class_acc by assumption.
  - apply HK.
  - fold (print_classes cs). cbn [app scan tag_ws Z.eqb Pos.eqb orb].
    rewrite <- app_assoc, IH, <- app_assoc by assumption. reflexivity.
Qed.

Lemma scan_token : forall t rest, nf_token t -> is_string t = false ->
  scan SData [] [] [] (print_token t ++ rest) = (t, rest).
Proof.
  intros [v|tag cls an|tag|ts] rest Hnf Hs; [discriminate| | |].
  - (* start tag *)
    destruct Hnf as [(c & r & -> & (Hn & H47 & Hd) & Hr) Hca].
    destruct (name_char_tests c Hn) as (A & B & D & E).
    cbn [print_token app]. cbn [scan Z.eqb Pos.eqb is_nil].
    rewrite A, B, D, Hd, E. replace (c =? 47) with false by lia. cbn [orb].
    rewrite <- !app_assoc.
    rewrite scan_start_acc by assumption. cbn [app].
    destruct cls as [cs|], an as [a|]; try contradiction.
    + destruct Hca as (Hcs & Hnorm).
      destruct cs as [|c1 cs].
      * cbn [print_classes flat_map app scan tag_ws Z.eqb Pos.eqb orb].
        rewrite scan_annot_escape. cbn [app]. rewrite Hnorm. reflexivity.
      * cbn [print_classes flat_map app]. fold (print_classes cs). cbn [scan tag_ws Z.eqb Pos.eqb orb].
        rewrite <- !app_assoc. cbn [app].
        rewrite (scan_classes (scan SAnnot (c :: r) []) 32) by (reflexivity || assumption).
        rewrite scan_annot_escape. cbn [app]. rewrite Hnorm. reflexivity.
    + destruct Hca as (Hne & Hcs). destruct cs as [|c1 cs]; [congruence|].
      cbn [print_classes flat_map app]. fold (print_classes cs). cbn [scan tag_ws Z.eqb Pos.eqb orb].
      rewrite <- !app_assoc. cbn [app].
      apply (scan_classes (fun cls more => (TStart (c :: r) (Some cls) None, more)) 62); [reflexivity|assumption].
    + cbn. reflexivity.
  - (* end tag *)
    cbn [print_token app scan Z.eqb Pos.eqb is_nil tag_ws orb is_digit Z.leb Z.compare Pos.compare Pos.compare_cont andb].
    rewrite <- app_assoc. rewrite (scan_to_gt SEnd) by (auto; exact Hnf). cbn. reflexivity.
  - (* timestamp *)
    destruct Hnf as (d & r & -> & Hd & Hr).
    assert (Hd' := Hd). unfold is_digit in Hd'.
    cbn [print_token app]. cbn [scan Z.eqb Pos.eqb is_nil].
    replace (tag_ws d) with false by (unfold tag_ws; lia).
    replace (d =? 10) with false by lia. replace (d =? 46) with false by lia. replace (d =? 47) with false by lia.
    rewrite Hd. cbn [orb]. rewrite <- app_assoc. rewrite (scan_to_gt STs) by (auto; exact Hr). cbn. reflexivity.
Qed.

(* the data state passes over an escaped literal / a reference, accumulating its value; `buffer` is whatever the
   last reference left in it *)
Lemma scan_data_lit : forall v res buf cls more,
  exists buf', scan SData res buf cls (escape v ++ more) = scan SData (res ++ v) buf' cls more.
Proof.
  induction v as [|c v IH]; intros res buf cls more.
  - exists buf. cbn [escape flat_map app]. rewrite app_nil_r. reflexivity.
  - unfold escape. cbn [flat_map]. fold (escape v). rewrite <- (app_cons_assoc res c v), <- app_assoc.
    destruct (escape_char_cases c) as [(-> & A & B & _)|(body & -> & Hb & U)].
    + destruct (IH (res ++ [c]) buf cls more) as [b' E]. exists b'. rewrite <- E.
      cbn [app scan]. replace (c =? 38) with false by lia. replace (c =? 60) with false by lia. reflexivity.
    + destruct (IH (res ++ [c]) (38 :: body) cls more) as [b' E]. exists b'. rewrite <- E, <- U.
      cbn [app]. rewrite <- app_assoc. apply scan_data_amp. eapply Forall_impl; [|exact Hb]. cbn. tauto.
Qed.
Lemma scan_data_ref r res buf cls more : ref_ok r ->
  exists buf', scan SData res buf cls (print_cref r ++ more) = scan SData (res ++ unescape (print_cref r)) buf' cls more.
Proof.
  intros (body & E & Hb). rewrite E. exists (38 :: body). cbn [app]. rewrite <- app_assoc. apply scan_data_amp. exact Hb.
Qed.
Lemma scan_data_pieces : forall ps res buf cls more, Forall piece_ok ps ->
  exists buf', scan SData res buf cls (pieces_print ps ++ more) = scan SData (res ++ pieces_value ps) buf' cls more.
Proof.
  induction ps as [|p ps IH]; intros res buf cls more H.
  - exists buf. cbn. rewrite app_nil_r. reflexivity.
  - inversion H as [|? ? Hp Hps]; subst. unfold pieces_print, pieces_value. cbn [flat_map].
    fold (pieces_print ps). fold (pieces_value ps). rewrite <- app_assoc.
    destruct p as [t|r]; cbn [piece_print piece_value piece_ok] in *.
    + destruct (scan_data_lit t res buf cls (pieces_print ps ++ more)) as [b1 E1]. rewrite E1.
      destruct (IH (res ++ t) b1 cls more Hps) as [b2 E2]. exists b2. rewrite E2, app_assoc. reflexivity.
    + destruct (scan_data_ref r res buf cls (pieces_print ps ++ more) Hp) as [b1 E1]. rewrite E1.
      destruct (IH (res ++ unescape (print_cref r)) b1 cls more Hps) as [b2 E2]. exists b2. rewrite E2, app_assoc. reflexivity.
Qed.

Lemma scan_item : forall i rest, nf_item i -> (is_istr i = true -> lt_or_nil rest) ->
  scan SData [] [] [] (item_print i ++ rest) = (item_token i, rest).
Proof.
  intros [ps|t] rest Hnf Hrest; cbn [item_print item_token].
  - destruct Hnf as (_ & Hps & Hv).
    destruct (scan_data_pieces ps [] [] [] rest Hps) as [b E]. rewrite E. cbn [app].
    apply scan_data_end; [apply Hrest; reflexivity|exact Hv].
  - apply scan_token; apply Hnf.
Qed.

Lemma escape_nonempty v : v <> [] -> exists c r, escape v = c :: r.
Proof.
  destruct v as [|c v]; [congruence|]. intros _. unfold escape. cbn [flat_map].
  destruct (escape_char_cases c) as [(-> & _)|(body & -> & _)]; eexists; eexists; reflexivity.
Qed.
Lemma item_print_nonempty i : nf_item i -> exists c r, item_print i = c :: r.
Proof.
  destruct i as [ps|t]; cbn [nf_item item_print].
  - intros (Hne & Hps & _). destruct ps as [|p ps]; [congruence|]. inversion Hps as [|? ? Hp _]; subst.
    unfold pieces_print. cbn [flat_map]. destruct p as [v|r]; cbn [piece_ok piece_print] in *.
    + destruct (escape_nonempty v Hp) as (c & r & ->). eexists; eexists; reflexivity.
    + destruct Hp as (body & -> & _). eexists; eexists; reflexivity.
  - intros [_ H]. destruct t; [discriminate| | |]; eexists; eexists; reflexivity.
Qed.
Lemma items_print_head l : nf_items l ->
  match l with i :: _ => is_istr i = false -> lt_or_nil (items_print l) | [] => True end.
Proof.
  destruct l as [|i l]; [trivial|]. intros (Hi & _) Hs. right.
  destruct i as [ps|t]; [discriminate|]. destruct Hi as [_ Ht]. destruct t; try discriminate; cbn; eexists; reflexivity.
Qed.

Lemma tok_loop_items : forall l n, nf_items l -> (length (items_print l) <= n)%nat ->
  tok_loop n (items_print l) = map item_token l.
Proof.
  induction l as [|i l IH]; intros n Hnf Hlen.
  - destruct n; reflexivity.
  - destruct Hnf as (Hi & Hl & Hadj).
    unfold items_print in *. cbn [flat_map map] in *. fold (items_print l) in *.
    destruct (item_print_nonempty i Hi) as (c & r & Hp).
    destruct n as [|n].
    + rewrite Hp in Hlen. cbn in Hlen. lia.
    + cbn [tok_loop].
      destruct (item_print i ++ items_print l) as [|z w] eqn:E.
      { rewrite Hp in E. discriminate. }
      rewrite <- E. rewrite scan_item; [| exact Hi |].
      * f_equal. apply IH; [exact Hl|].
        assert (Hw : (length (item_print i ++ items_print l) <= S n)%nat) by (rewrite E; exact Hlen).
        rewrite app_length, Hp in Hw. cbn in Hw. lia.
      * intros Hs. destruct l as [|i' l'].
        -- left. reflexivity.
        -- rewrite Hs in Hadj. cbn in Hadj.
           apply (items_print_head (i' :: l') Hl). exact Hadj.
Qed.

(* the tokenizer returns the VALUE of every string however it is spelled, and every other token as printed *)
Theorem tokenizer_items : forall l, nf_items l -> tokenize (items_print l) = map item_token l.
Proof. intros l H. unfold tokenize. apply tok_loop_items; [exact H|lia]. Qed.

(* a token list is the item list whose strings are spelled with literal characters only *)
Definition tok_item (t : token) : item := match t with TString v => IStr [PLit v] | _ => ITok t end.
Lemma tok_item_print t : item_print (tok_item t) = print_token t.
Proof. destruct t; try reflexivity. cbn. apply app_nil_r. Qed.
Lemma tok_item_token t : item_token (tok_item t) = t.
Proof. destruct t; try reflexivity. cbn. rewrite app_nil_r. reflexivity. Qed.
Lemma tok_item_nf t : nf_token t -> nf_item (tok_item t).
Proof.
  destruct t as [v| | |]; cbn [tok_item nf_item]; [|split; [assumption|reflexivity]..].
  intros H. split; [discriminate|]. split; [repeat constructor; exact H|]. cbn. rewrite app_nil_r. exact H.
Qed.
Lemma tok_items_nf : forall ts, nf_list ts -> nf_items (map tok_item ts).
Proof.
  induction ts as [|t ts IH]; [intros _; exact I|]. intros (Ht & Hts & Hadj). cbn [map nf_items].
  split; [apply tok_item_nf; exact Ht|]. split; [apply IH; exact Hts|].
  destruct ts as [|t' ts]; [exact I|]. destruct t, t'; try reflexivity. exact Hadj.
Qed.

Theorem tokenizer_roundtrip : forall ts, nf_list ts -> tokenize (print_tokens ts) = ts.
Proof.
  intros ts H. rewrite <- (map_id ts) at 2. rewrite <- (map_ext _ _ tok_item_token), <- map_map.
  rewrite <- tokenizer_items by (apply tok_items_nf; exact H). f_equal.
  unfold print_tokens, items_print. rewrite flat_map_concat_map, (flat_map_concat_map item_print), map_map. f_equal.
  apply map_ext. intros t. symmetry. apply tok_item_print.
Qed.

(* the normal forms are decidable; concrete lists are checked by evaluation *)
Lemma forallb_Forall {A} (p : A -> bool) (P : A -> Prop) l :
  (forall x, p x = true -> P x) -> forallb p l = true -> Forall P l.
Proof. intros H Hl. apply Forall_forall. intros x Hx. apply H. exact (proj1 (forallb_forall p l) Hl x Hx). Qed.
Lemma andb_both (a b : bool) (P Q : Prop) : (a = true -> P) -> (b = true -> Q) -> a && b = true -> P /\ Q.
Proof. intros HP HQ H. apply andb_true_iff in H as [A B]. split; [apply HP; exact A|apply HQ; exact B]. Qed.
Lemma is_nil_false {A} (l : list A) : negb (is_nil l) = true -> l <> [].
Proof. destruct l; [discriminate|discriminate]. Qed.

Definition name_charb (c : Z) : bool := negb (mem_z c [9;10;12;32;46;62]).
Definition tag_nameb (tag : text) : bool :=
  match tag with c :: r => (name_charb c && (negb (c =? 47) && negb (is_digit c))) && forallb name_charb r | [] => false end.
Definition classesb (cs : list text) : bool := forallb (forallb name_charb) cs.
Definition no_gt (s : text) : bool := forallb (fun c => negb (c =? 62)) s.
Definition nf_tokenb (t : token) : bool :=
  match t with
  | TString v => negb (is_nil v)
  | TStart tag cls an =>
    tag_nameb tag &&
    match cls, an with
    | None, None => true
    | Some cs, None => negb (is_nil cs) && classesb cs
    | Some cs, Some a => classesb cs && text_eqb (norm_annot a) a
    | None, Some _ => false
    end
  | TEnd tag => no_gt tag
  | TTs ts => match ts with d :: r => is_digit d && no_gt r | [] => false end
  end.
Fixpoint nf_listb (ts : list token) : bool :=
  match ts with
  | [] => true
  | t :: ts' => nf_tokenb t && (nf_listb ts' && match ts' with t' :: _ => negb (is_string t && is_string t') | [] => true end)
  end.

Lemma name_charb_ok c : name_charb c = true -> name_char c.
Proof.
  unfold name_charb, mem_z. cbn [existsb]. intros H. apply negb_true_iff in H.
  repeat (apply orb_false_iff in H as [? H]). repeat split; apply Z.eqb_neq; assumption.
Qed.
Lemma tag_nameb_ok tag : tag_nameb tag = true -> exists c r, tag = c :: r /\ first_char c /\ Forall name_char r.
Proof.
  destruct tag as [|c r]; [discriminate|]. intros H. exists c, r. split; [reflexivity|]. revert H.
  apply andb_both; [|apply forallb_Forall, name_charb_ok].
  apply andb_both; [apply name_charb_ok|apply andb_both; [lia|apply negb_true_iff]].
Qed.
Lemma classesb_ok cs : classesb cs = true -> Forall class_ok cs.
Proof. apply forallb_Forall. intros c. apply forallb_Forall, name_charb_ok. Qed.
Lemma no_gt_ok s : no_gt s = true -> Forall (fun c => c <> 62) s.
Proof. apply forallb_Forall. intros c. lia. Qed.
Lemma nf_tokenb_ok t : nf_tokenb t = true -> nf_token t.
Proof.
  destruct t as [v|tag cls an|tag|[|d r]]; cbn [nf_tokenb nf_token]; try discriminate.
  - apply is_nil_false.
  - apply andb_both; [apply tag_nameb_ok|]. destruct cls as [cs|], an as [a|]; try discriminate; [| |trivial]; apply andb_both.
    + apply classesb_ok.
    + apply text_eqb_eq.
    + apply is_nil_false.
    + apply classesb_ok.
  - apply no_gt_ok.
  - intros H. exists d, r. split; [reflexivity|]. revert H. apply andb_both; [trivial|apply no_gt_ok].
Qed.
Lemma nf_listb_ok : forall ts, nf_listb ts = true -> nf_list ts.
Proof.
  induction ts as [|t ts IH]; [intros _; exact I|]. cbn [nf_listb nf_list].
  apply andb_both; [apply nf_tokenb_ok|apply andb_both; [exact IH|destruct ts; [trivial|apply negb_true_iff]]].
Qed.

Definition ref_body (r : cref) : text :=
  match r with RefNamed n => n | RefDec n => 35 :: print_dec n | RefHex n => 35 :: 120 :: print_hex_digits 40 n [] end.
Definition ref_okb (r : cref) : bool := forallb (fun c => negb (c =? 59)) (ref_body r).
Definition piece_okb (p : piece) : bool := match p with PLit t => negb (is_nil t) | PRef r => ref_okb r end.
Definition nf_itemb (i : item) : bool :=
  match i with
  | IStr ps => negb (is_nil ps) && (forallb piece_okb ps && negb (is_nil (pieces_value ps)))
  | ITok t => nf_tokenb t && negb (is_string t)
  end.
Fixpoint nf_itemsb (l : list item) : bool :=
  match l with
  | [] => true
  | i :: l' => nf_itemb i && (nf_itemsb l' && match l' with i' :: _ => negb (is_istr i && is_istr i') | [] => true end)
  end.

Lemma ref_okb_ok r : ref_okb r = true -> ref_ok r.
Proof.
  intros H. exists (ref_body r). split; [destruct r; reflexivity|].
  revert H. apply forallb_Forall. intros c. lia.
Qed.
Lemma piece_okb_ok p : piece_okb p = true -> piece_ok p.
Proof. destruct p; [apply is_nil_false|apply ref_okb_ok]. Qed.
Lemma nf_itemb_ok i : nf_itemb i = true -> nf_item i.
Proof.
  destruct i as [ps|t]; cbn [nf_itemb nf_item]; apply andb_both.
  - apply is_nil_false.
  - apply andb_both; [apply forallb_Forall, piece_okb_ok|apply is_nil_false].
  - apply nf_tokenb_ok.
  - apply negb_true_iff.
Qed.
Lemma nf_itemsb_ok : forall l, nf_itemsb l = true -> nf_items l.
Proof.
  induction l as [|i l IH]; [intros _; exact I|]. cbn [nf_itemsb nf_items].
  apply andb_both; [apply nf_itemb_ok|apply andb_both; [exact IH|destruct l; [trivial|apply negb_true_iff]]].
Qed.

(* non-vacuity: a normal-form list with every token kind *)
Example nf_example :
  nf_list [TString [97;38;60]; TStart [99] (Some [[114;101;100];[98;103;95;98;108;117;101]]) None; TString [120];
           TEnd [99]; TStart [118] (Some []) (Some [84;111;109;32;38;32;74]); TTs [48;48;58;48;49;46;48;48;48]; TEnd []].
Proof. apply nf_listb_ok. vm_compute. reflexivity. Qed.

(* the references WebVTT allows by name decode to the characters the standard gives them *)
Lemma webvtt_named_refs :
  map (fun n => unescape (print_cref (RefNamed n))) [[97;109;112]; [108;116]; [103;116]; [108;114;109]; [114;108;109]; [110;98;115;112]]
  = [[38]; [60]; [62]; [8206]; [8207]; [160]].
Proof. vm_compute. reflexivity. Qed.
Lemma named_ref_ok n : Forall (fun c => c <> 59) n -> ref_ok (RefNamed n).
Proof. intros H. exists n. split; [reflexivity|exact H]. Qed.

Example items_example :
  nf_items [IStr [PLit [97]; PRef (RefNamed [108;114;109]); PRef (RefDec 233); PRef (RefHex 128512); PLit [38;60]];
            ITok (TStart [98] None None); IStr [PRef (RefNamed [110;98;115;112])]; ITok (TEnd [98])].
Proof. apply nf_itemsb_ok. vm_compute. reflexivity. Qed.
