(* C11: cue tree round trip.  For every tree of text (spelled with literal characters and character references),
   inline timestamps, b / i / u / c.classes / lang / v elements (annotations with any characters) nested to any depth
   and END TAGS THAT CLOSE NOTHING (SEnd: an end tag that does not name, in lower case, the element it sits in - any end
   tag at the top level of the cue text), parsing its printed WebVTT cue text (tokenizer, then _TextCueParser) yields
   exactly one span per element carrying that element's style, around exactly the spans of its content, with one span
   per text line and a br between lines, every text span carrying the begin (relative to the cue) of the last timestamp
   that precedes it in the cue text, whatever the nesting; an ignored end tag adds nothing and ends nothing
   (tree_roundtrip).  Cue texts in which end tags are missing (tree_unclosed_roundtrip): every unclosed element lasts
   to the end of the cue text.  With ruby (tree_ruby_roundtrip): the same for cue texts that also hold ruby elements
   outside the recorded finding ruby-structure - at the top level of the cue, every base one line of text, no line
   break directly inside rt, the last </rt> present or omitted.  By induction on the tree, on top of the tokenizer
   round trip.  At the end: the numeric character references of every number below 10^40 (16^40) that html.unescape maps
   to itself are references the trees may use (dec_ref_good, hex_ref_good). *)
From Coq Require Import QArith.
From TT Require Import Base.Prelude Gen.VttTables Model.VttTokenizer Model.VttReader Spec.VttSpec.
From TT Require Import Proofs.C11.Tokenizer Proofs.C11.Time Proofs.C11.Lines.
Local Open Scope Z_scope.

(* SEnd: an end tag that closes nothing (it does not name the innermost open element) *)
Inductive snode := SText (ps : list piece) | STs (t : tstamp) | STag (k : ctag) (cs : list snode) | SEnd (name : text).

Lemma snode_ind' (P : snode -> Prop) :
  (forall t, P (SText t)) -> (forall t, P (STs t)) -> (forall k cs, Forall P cs -> P (STag k cs)) ->
  (forall name, P (SEnd name)) -> forall n, P n.
Proof.
  intros Ht Hs Hg He. fix IH 1. intros [t|t|k cs|name]; [apply Ht|apply Hs| |apply He]. apply Hg.
  induction cs as [|c cs IHcs]; constructor; [apply IH|exact IHcs].
Qed.

(* the grammar derivation (Spec.VttSpec.cnode) of a tree *)
Definition piece_node (p : piece) : cnode := match p with PLit t => CText t | PRef r => CRef r end.
Fixpoint nodes_of (n : snode) : list cnode :=
  match n with
  | SText ps => map piece_node ps
  | STs t => [CTs t]
  | STag k cs => [CTag k (flat_map nodes_of cs)]
  | SEnd name => [CEnd name]
  end.

(* a reference means what S says it means (the six names WebVTT lists; numeric references of scalar values) *)
Definition ref_good (r : cref) : Prop := ref_ok r /\ unescape (print_cref r) = cref_value r.
Definition piece_good (p : piece) : Prop := match p with PLit t => t <> [] | PRef r => ref_good r end.
(* the characters a spelled text shows, by S's reading of the references *)
Definition piece_svalue (p : piece) : text := match p with PLit t => t | PRef r => cref_value r end.
Definition pieces_svalue (ps : list piece) : text := flat_map piece_svalue ps.
Definition text_ok (ps : list piece) : Prop := ps <> [] /\ Forall piece_good ps /\ pieces_svalue ps <> [].

Definition annot_ok (a : text) : Prop := norm_annot a = a.
Definition tag_ok (k : ctag) : Prop :=
  match k with TgC cls => Forall class_ok cls | TgLang l => annot_ok l | TgV n => annot_ok n | _ => True end.
Definition is_text (n : snode) : bool := match n with SText _ => true | _ => false end.
Fixpoint no_adj (l : list snode) : Prop :=
  match l with
  | x :: l' => match l' with y :: _ => is_text x && is_text y = false | [] => True end /\ no_adj l'
  | [] => True
  end.
(* an end tag is ignored where it does not name (in lower case, as the reader compares) the element it sits in;
   `enc` is the name of that element, None at the top level of the cue text, where every end tag is ignored *)
Definition ignored_end (enc : option text) (name : text) : Prop :=
  Forall (fun c => c <> 62) name /\ match enc with Some t => lower name <> t | None => True end.
Inductive wf_node : option text -> snode -> Prop :=
| wf_text enc ps : text_ok ps -> wf_node enc (SText ps)
| wf_tsn enc t : wf_ts t -> wf_node enc (STs t)
| wf_tag enc k cs : tag_ok k -> Forall (wf_node (Some (tag_name k))) cs -> no_adj cs -> wf_node enc (STag k cs)
| wf_end enc name : ignored_end enc name -> wf_node enc (SEnd name).
Definition wf_nodes (ns : list snode) : Prop := Forall (wf_node None) ns /\ no_adj ns.
Definition one_line (ps : list piece) : Prop := mem_z 10 (pieces_svalue ps) = false.
(* directly inside rt: text is one line; an ignored end tag is not </ruby> either (that one ends the ruby) *)
Definition rt_ok (n : snode) : Prop :=
  match n with SText ps => one_line ps | SEnd name => lower name <> s_ruby | _ => True end.

Lemma pieces_value_svalue ps : Forall piece_good ps -> pieces_value ps = pieces_svalue ps.
Proof.
  induction 1 as [|p ps Hp _ IH]; [reflexivity|]. unfold pieces_value, pieces_svalue in *. cbn [flat_map]. rewrite IH.
  destruct p as [t|r]; [reflexivity|]. destruct Hp as [_ E]. cbn [piece_value piece_svalue]. rewrite E. reflexivity.
Qed.
Lemma piece_good_ok p : piece_good p -> piece_ok p.
Proof. destruct p; cbn; [auto|intros [H _]; exact H]. Qed.

Definition bg_attrs : attrs := mkAttrs None (Some default_bg_color) None false false false None.
Definition base_attrs (top : bool) : attrs := if top then bg_attrs else no_attrs.
Definition expected_attrs (k : ctag) (a : attrs) : attrs :=
  match k with
  | TgB => mkAttrs (a_begin a) (a_bg a) (a_color a) true (a_italic a) (a_under a) (a_lang a)
  | TgI => mkAttrs (a_begin a) (a_bg a) (a_color a) (a_bold a) true (a_under a) (a_lang a)
  | TgU => mkAttrs (a_begin a) (a_bg a) (a_color a) (a_bold a) (a_italic a) true (a_lang a)
  | TgC cls => fold_left apply_class cls a
  | TgLang l => mkAttrs (a_begin a) (a_bg a) (a_color a) (a_bold a) (a_italic a) (a_under a) (Some l)
  | TgV _ => a
  end.
(* the relative begin after a timestamp tag: a timestamp before the cue's begin is ignored *)
Definition ts_begin (pb : Q) (now : option Q) (t : tstamp) : option Q :=
  let ts := Qmake (ts_ms t) 1000 in if Qle_bool pb ts then Some (ts - pb)%Q else now.
Fixpoint lines_elems (top : bool) (now : option Q) (first : bool) (ls : list text) : list elem :=
  match ls with
  | [] => []
  | l :: ls' => (if first then [] else [EBr]) ++ ENode KSpan (with_begin now (base_attrs top)) [EText l] :: lines_elems top now false ls'
  end.
(* `now` (the relative begin set by the last timestamp) is threaded left to right through the whole tree *)
Fixpoint span_of (pb : Q) (top : bool) (now : option Q) (n : snode) {struct n} : list elem * option Q :=
  match n with
  | SText ps => (lines_elems top now true (split_on 10 (pieces_svalue ps)), now)
  | STs t => ([], ts_begin pb now t)
  | STag k cs =>
    let fix go (now : option Q) (cs : list snode) {struct cs} : list elem * option Q :=
      match cs with
      | [] => ([], now)
      | c :: cs' => let '(e1, n1) := span_of pb false now c in let '(e2, n2) := go n1 cs' in (e1 ++ e2, n2)
      end in
    let '(es, now') := go now cs in ([ENode KSpan (expected_attrs k (base_attrs top)) es], now')
  | SEnd _ => ([], now)                        (* ignored: no element, no effect on what follows *)
  end.
Fixpoint spans_of (pb : Q) (top : bool) (now : option Q) (ns : list snode) : list elem * option Q :=
  match ns with
  | [] => ([], now)
  | n :: ns' => let '(e1, n1) := span_of pb top now n in let '(e2, n2) := spans_of pb top n1 ns' in (e1 ++ e2, n2)
  end.
Lemma span_of_tag pb top now k cs :
  span_of pb top now (STag k cs) =
  let '(es, now') := spans_of pb false now cs in ([ENode KSpan (expected_attrs k (base_attrs top)) es], now').
Proof.
  cbn [span_of].
  match goal with |- (let '(es, now') := ?g now cs in _) = _ => assert (E : forall cs now, g now cs = spans_of pb false now cs) end.
  { induction cs0 as [|c cs0 IH]; intros now0; [reflexivity|]. cbn [spans_of]. cbn -[span_of].
    destruct (span_of pb false now0 c) as [e1 n1]. rewrite IH. reflexivity. }
  rewrite E. reflexivity.
Qed.

(* the items of a tree: what is printed, and what the tokenizer hands to the parser *)
Definition start_token (k : ctag) : token :=
  match k with
  | TgB => TStart [98] None None
  | TgI => TStart [105] None None
  | TgU => TStart [117] None None
  | TgC [] => TStart [99] None None
  | TgC cls => TStart [99] (Some cls) None
  | TgLang l => TStart [108;97;110;103] (Some []) (Some l)
  | TgV n => TStart [118] (Some []) (Some n)
  end.
Fixpoint items_of (n : snode) : list item :=
  match n with
  | SText ps => [IStr ps]
  | STs t => [ITok (TTs (print_ts t))]
  | STag k cs => ITok (start_token k) :: flat_map items_of cs ++ [ITok (TEnd (tag_name k))]
  | SEnd name => [ITok (TEnd name)]
  end.

Lemma print_start k : tag_ok k -> print_token (start_token k) = print_open k.
Proof.
  destruct k as [| | |cls|l|n]; cbn [tag_ok]; intros H; try reflexivity.
  destruct cls; cbn; rewrite ?app_nil_r; reflexivity.
Qed.

Lemma items_print_app a b : items_print (a ++ b) = items_print a ++ items_print b.
Proof. unfold items_print. apply flat_map_app. Qed.
Lemma items_print_cons i l : items_print (i :: l) = item_print i ++ items_print l.
Proof. reflexivity. Qed.
Lemma items_print_tok t : items_print [ITok t] = print_token t.
Proof. apply app_nil_r. Qed.
Lemma print_pieces ps : flat_map print_node (map piece_node ps) = pieces_print ps.
Proof.
  induction ps as [|p ps IH]; [reflexivity|]. unfold pieces_print in *. cbn [map flat_map]. rewrite IH.
  destruct p; reflexivity.
Qed.
Lemma print_forest {A} (nd : A -> list cnode) (it : A -> list item) ns :
  Forall (fun n => flat_map print_node (nd n) = items_print (it n)) ns ->
  flat_map print_node (flat_map nd ns) = items_print (flat_map it ns).
Proof.
  induction 1 as [|n ns Hn _ IH]; [reflexivity|]. cbn [flat_map]. rewrite flat_map_app, items_print_app, Hn, IH. reflexivity.
Qed.

Lemma print_tree : forall n enc, wf_node enc n -> flat_map print_node (nodes_of n) = items_print (items_of n).
Proof.
  induction n as [ps|t|k cs IH|name] using snode_ind'; intros enc W; cbn [nodes_of items_of flat_map print_node];
    rewrite ?app_nil_r.
  - rewrite print_pieces. symmetry. apply app_nil_r.
  - symmetry. apply items_print_tok.
  - inversion W as [| |? ? ? Hk Hcs Hadj|]; subst.
    rewrite items_print_cons, items_print_app, items_print_tok. cbn [item_print]. rewrite print_start by exact Hk.
    f_equal. f_equal. apply print_forest. rewrite Forall_forall in *. intros n Hn. apply (IH n Hn _ (Hcs n Hn)).
  - symmetry. apply items_print_tok.
Qed.
Lemma print_trees enc ns : Forall (wf_node enc) ns ->
  print_cue_text (flat_map nodes_of ns) = items_print (flat_map items_of ns).
Proof. intros W. apply print_forest. eapply Forall_impl; [|exact W]. intros n. apply print_tree. Qed.

Definition head_istr (l : list item) : bool := match l with i :: _ => is_istr i | [] => false end.
Fixpoint last_istr (l : list item) : bool :=
  match l with [] => false | i :: l' => match l' with [] => is_istr i | _ => last_istr l' end end.

Lemma nf_app : forall a b, nf_items a -> nf_items b -> last_istr a && head_istr b = false -> nf_items (a ++ b).
Proof.
  induction a as [|x a IH]; intros b Ha Hb Hl; [exact Hb|].
  destruct Ha as (Hx & Ha & Hadj). cbn [app nf_items]. split; [exact Hx|]. split.
  - apply IH; [exact Ha|exact Hb|]. destruct a as [|y a]; [reflexivity|exact Hl].
  - destruct a as [|y a]; cbn [app].
    + destruct b as [|z b]; [exact I|]. exact Hl.
    + exact Hadj.
Qed.

Lemma nf_cons_tok t l : nf_item (ITok t) -> nf_items l -> nf_items (ITok t :: l).
Proof. intros H L. split; [exact H|]. split; [exact L|]. destruct l; [exact I|reflexivity]. Qed.
Lemma nf_snoc_tok l t : nf_items l -> nf_item (ITok t) -> nf_items (l ++ [ITok t]).
Proof. intros L H. apply nf_app; [exact L|exact (nf_cons_tok t [] H I)|apply andb_false_r]. Qed.

Lemma nf_start k : tag_ok k -> nf_item (ITok (start_token k)).
Proof.
  intros H. split; [|destruct k as [| | |[|]| |]; reflexivity]. revert H.
  destruct k as [| | |cls|l|n]; cbn [tag_ok start_token]; intros H; [| | |destruct cls as [|c cls]|..];
    (split; [apply tag_nameb_ok; reflexivity|]); try exact I.
  - split; [discriminate|exact H].
  - split; [constructor|exact H].
  - split; [constructor|exact H].
Qed.
Lemma nf_ts t : wf_ts t -> nf_item (ITok (TTs (print_ts t))).
Proof.
  intros W. split; [|reflexivity]. destruct (print_ts_head t W) as (c & r & E & D). cbn [nf_token]. exists c, r. split; [exact E|].
  split; [apply dig_is_digit; exact D|].
  pose proof (print_ts_chars t W) as F. rewrite E in F. inversion F as [|? ? _ Fr]; subst.
  eapply Forall_impl; [|exact Fr]. cbn. unfold dig. intros a [Ha|[Ha|Ha]]; lia.
Qed.
Lemma nf_end_tag tag : Forall (fun c => c <> 62) tag -> nf_item (ITok (TEnd tag)).
Proof. intros H. split; [exact H|reflexivity]. Qed.
Lemma nf_end k : nf_item (ITok (TEnd (tag_name k))).
Proof. apply nf_end_tag. destruct k; cbn; repeat constructor; lia. Qed.
Lemma nf_text ps : text_ok ps -> nf_item (IStr ps).
Proof.
  intros (Hne & Hg & Hv). split; [exact Hne|]. split.
  - eapply Forall_impl; [|exact Hg]. apply piece_good_ok.
  - rewrite pieces_value_svalue by exact Hg. exact Hv.
Qed.

Lemma last_istr_app : forall a b, b <> [] -> last_istr (a ++ b) = last_istr b.
Proof.
  induction a as [|x a IH]; intros b Hb; [reflexivity|].
  cbn [app]. specialize (IH b Hb). destruct (a ++ b) eqn:E.
  - destruct a; [cbn in E; contradiction|discriminate].
  - cbn [last_istr] in *. exact IH.
Qed.
Lemma last_istr_snoc l t : last_istr (l ++ [ITok t]) = false.
Proof. rewrite last_istr_app by discriminate. reflexivity. Qed.
(* the items of a forest: those of each node are in normal form and begin and end with a string exactly for a text
   node (f), and no two text nodes are adjacent (no_adj ns, no_tadj ns are `adj is_text ns`, `adj is_ttext ns`) *)
Definition adj {A} (f : A -> bool) : list A -> Prop :=
  fix adj (l : list A) : Prop :=
    match l with
    | x :: l' => match l' with y :: _ => f x && f y = false | [] => True end /\ adj l'
    | [] => True
    end.
Lemma nf_concat {A} (it : A -> list item) (f : A -> bool) :
  (forall n, it n <> [] /\ head_istr (it n) = f n /\ last_istr (it n) = f n) ->
  forall ns, Forall (fun n => nf_items (it n)) ns -> adj f ns ->
  nf_items (flat_map it ns) /\ head_istr (flat_map it ns) = match ns with n :: _ => f n | [] => false end.
Proof.
  intros Hit. induction ns as [|n ns IH]; intros Hw Hadj; [split; [exact I|reflexivity]|].
  inversion Hw as [|? ? Hn Hns]; subst. destruct Hadj as [Hxy Hadj]. destruct (Hit n) as (Hne & Hh & Hl).
  destruct (IH Hns Hadj) as [Hnf Hhead]. cbn [flat_map]. split.
  - apply nf_app; [exact Hn|exact Hnf|]. rewrite Hl, Hhead. destruct ns; [apply andb_false_r|exact Hxy].
  - destruct (it n); [contradiction|exact Hh].
Qed.
Lemma items_ends n : items_of n <> [] /\ head_istr (items_of n) = is_text n /\ last_istr (items_of n) = is_text n.
Proof.
  destruct n as [t|t|k cs|name]; (split; [discriminate|]); split; try reflexivity. exact (last_istr_snoc (_ :: _) _).
Qed.

Lemma nf_tree : forall n enc, wf_node enc n -> nf_items (items_of n).
Proof.
  induction n as [t|t|k cs IH|name] using snode_ind'; intros enc W; inversion W as [? ? Ht|? ? Ht|? ? ? Hk Hcs Hadj|? ? Hn]; subst;
    cbn [items_of].
  - exact (conj (nf_text t Ht) (conj I I)).
  - exact (nf_cons_tok _ [] (nf_ts t Ht) I).
  - apply nf_cons_tok; [apply nf_start; exact Hk|]. apply nf_snoc_tok; [|apply nf_end].
    apply (nf_concat items_of is_text items_ends); [|exact Hadj].
    rewrite Forall_forall in *. intros n Hn. apply (IH n Hn _ (Hcs n Hn)).
  - exact (nf_cons_tok _ [] (nf_end_tag name (proj1 Hn)) I).
Qed.
Lemma nf_forest enc ns : Forall (wf_node enc) ns -> no_adj ns -> nf_items (flat_map items_of ns).
Proof.
  intros Hw Hadj. apply (nf_concat items_of is_text items_ends); [|exact Hadj].
  eapply Forall_impl; [|exact Hw]. intros n. apply nf_tree.
Qed.

(* what the handlers consult besides the content collected so far: the open tags, innermost first, each with the kind of
   element it opened (None: a ruby), and whether a ruby is open.  Appending content to the current parent leaves it as
   it is, so every condition on the state below is a condition on this. *)
Definition frame_head (f : frame) : text * option nkind :=
  match f with FNode tg k _ _ => (tg, Some k) | FRuby tg _ _ => (tg, None) end.
Definition ctx (s : pstate) : list (text * option nkind) * bool := (map frame_head (p_stack s), p_ruby s).
(* the name of the innermost open tag (self.open_tags[-1][0]) *)
Definition top_tag (s : pstate) : option text := match fst (ctx s) with [] => None | (tg, _) :: _ => Some tg end.
(* the current parent is the paragraph or a span *)
Definition regular (s : pstate) : Prop := match fst (ctx s) with [] | (_, Some KSpan) :: _ => True | _ => False end.
(* the current parent is the rt element of the open ruby, opened by <rt> directly inside <ruby> *)
Definition in_rt (s : pstate) : Prop :=
  match fst (ctx s) with (tg, Some KRt) :: (tg2, None) :: _ => tg = s_rt /\ tg2 = s_ruby | _ => False end.
Definition at_tag (enc : option text) (s : pstate) : Prop := regular s /\ top_tag s = enc.
(* the paragraph is the current parent and no ruby is open *)
Definition at_p (s : pstate) : Prop := ctx s = ([], false).

Definition add_all (es : list elem) (s : pstate) : pstate := fold_left (fun s e => add_leaf e s) es s.
Definition set_begin (b : option Q) (s : pstate) : pstate := mkP (p_root s) (p_stack s) (p_ruby s) b.
(* the effect of a parsed forest: its elements are appended to the current parent, self.begin becomes its last time *)
Definition apply_res (r : list elem * option Q) (s : pstate) : pstate := set_begin (snd r) (add_all (fst r) s).

Lemma add_leaf_ctx e s : ctx (add_leaf e s) = ctx s /\ p_begin (add_leaf e s) = p_begin s.
Proof. destruct s as [root [|[tg k a d|tg b t] st] rb bg]; split; reflexivity. Qed.
Lemma add_all_ctx es : forall s, ctx (add_all es s) = ctx s /\ p_begin (add_all es s) = p_begin s.
Proof.
  induction es as [|e es IH]; intros s; [split; reflexivity|]. cbn [add_all fold_left].
  destruct (add_leaf_ctx e s) as [C B]. destruct (IH (add_leaf e s)) as [C' B']. unfold add_all in *. rewrite C', B'. split; assumption.
Qed.
Lemma apply_ctx r s : ctx (apply_res r s) = ctx s.
Proof. exact (proj1 (add_all_ctx (fst r) s)). Qed.
Lemma parent_ctx s : parent_is_p s = is_nil (fst (ctx s)).
Proof. unfold parent_is_p, ctx. destruct (p_stack s); reflexivity. Qed.
Lemma apply_facts r s : parent_is_p (apply_res r s) = parent_is_p s /\ p_begin (apply_res r s) = snd r.
Proof. rewrite !parent_ctx, apply_ctx. split; reflexivity. Qed.
Lemma at_tag_apply enc r s : at_tag enc s -> at_tag enc (apply_res r s).
Proof. unfold at_tag, regular, top_tag. rewrite apply_ctx. trivial. Qed.
Lemma at_p_apply r s : at_p s -> at_p (apply_res r s).
Proof. unfold at_p. rewrite apply_ctx. trivial. Qed.
Lemma add_all_length es s : length (p_stack (add_all es s)) = length (p_stack s).
Proof.
  rewrite <- (map_length frame_head), <- (map_length frame_head (p_stack s)).
  exact (f_equal (fun c => length (fst c)) (proj1 (add_all_ctx es s))).
Qed.

Lemma add_all_app a b s : add_all (a ++ b) s = add_all b (add_all a s).
Proof. unfold add_all. apply fold_left_app. Qed.
Lemma set_begin_same s : set_begin (p_begin s) s = s.
Proof. destruct s; reflexivity. Qed.
Lemma add_leaf_set_begin e b s : add_leaf e (set_begin b s) = set_begin b (add_leaf e s).
Proof. destruct s as [r st rb bg]. unfold add_leaf, set_begin. cbn [p_root p_stack p_ruby p_begin]. destruct (attach e r st). reflexivity. Qed.
Lemma add_all_set_begin es : forall b s, add_all es (set_begin b s) = set_begin b (add_all es s).
Proof.
  induction es as [|e es IH]; intros b s; [reflexivity|]. cbn [add_all fold_left].
  rewrite add_leaf_set_begin. apply IH.
Qed.
Lemma apply_res_app e1 n1 e2 n2 s : apply_res (e2, n2) (apply_res (e1, n1) s) = apply_res (e1 ++ e2, n2) s.
Proof.
  unfold apply_res. cbn [fst snd]. rewrite add_all_set_begin, add_all_app.
  destruct (add_all e2 (add_all e1 s)); reflexivity.
Qed.
Lemma apply_res_nil s : apply_res ([], p_begin s) s = s.
Proof. unfold apply_res. cbn [fst snd add_all fold_left]. apply set_begin_same. Qed.

Lemma push_span_ok s : regular s \/ in_rt s -> push_check s CSpan = None.
Proof.
  destruct s as [root [|[tg [| |] a d|tg b t] st] rb bg]; intros [T|T]; try reflexivity; try exact (match T with end).
Qed.
Lemma push_br_ok s : regular s -> push_check s CBr = None.
Proof. destruct s as [root [|[tg [| |] a d|tg b t] st] rb bg]; intros T; try reflexivity; exact (match T with end). Qed.

Lemma make_span_attrs_eq s : make_span_attrs s = base_attrs (parent_is_p s).
Proof. unfold make_span_attrs, base_attrs. destruct (parent_is_p s); reflexivity. Qed.

Lemma push_line_ok l s : regular s \/ in_rt s ->
  push_text_line l s = inl (add_leaf (ENode KSpan (with_begin (p_begin s) (base_attrs (parent_is_p s))) [EText l]) s).
Proof.
  intros R. unfold push_text_line.
  rewrite make_span_attrs_eq. rewrite (push_span_ok s R).
  destruct s as [root [|[tg k a d|tg b t] st] rb bg]; try reflexivity.
  exfalso. destruct R as [T|T]; exact T.
Qed.

Lemma push_lines : forall ls first s, regular s ->
  push_text_lines first ls s = inl (add_all (lines_elems (parent_is_p s) (p_begin s) first ls) s).
Proof.
  assert (K : forall e s, regular s -> regular (add_leaf e s) /\ parent_is_p (add_leaf e s) = parent_is_p s /\
                                    p_begin (add_leaf e s) = p_begin s).
  { intros e s R. destruct (add_leaf_ctx e s) as [C B]. unfold regular. rewrite !parent_ctx, C. auto. }
  induction ls as [|l ls IH]; intros first s R; [reflexivity|].
  cbn [push_text_lines lines_elems]. destruct first.
  - rewrite push_line_ok by (left; exact R). destruct (K (ENode KSpan (with_begin (p_begin s) (base_attrs (parent_is_p s))) [EText l]) s R) as (R1 & P1 & B1).
    rewrite IH by exact R1. rewrite P1, B1. reflexivity.
  - rewrite push_br_ok by exact R. destruct (K EBr s R) as (R0 & P0 & B0).
    rewrite push_line_ok by (left; exact R0). rewrite P0, B0.
    destruct (K (ENode KSpan (with_begin (p_begin s) (base_attrs (parent_is_p s))) [EText l]) _ R0) as (R1 & P1 & B1).
    rewrite IH by exact R1. rewrite P1, B1, P0, B0. reflexivity.
Qed.

Lemma split_no_lf : forall t cur, mem_z 10 t = false -> split_on_aux 10 cur t = [cur ++ t].
Proof.
  induction t as [|c t IH]; intros cur H; [rewrite app_nil_r; reflexivity|].
  unfold mem_z in H. cbn [existsb] in H. apply orb_false_iff in H as [Hc Ht].
  cbn [split_on_aux]. replace (c =? 10) with false by lia. rewrite IH by exact Ht. rewrite <- app_assoc. reflexivity.
Qed.

Lemma handle_tokens_app pb : forall a b s,
  handle_tokens pb (a ++ b) s =
  match handle_tokens pb a s with inr e => inr e | inl s' => handle_tokens pb b s' end.
Proof.
  induction a as [|t a IH]; intros b s; [reflexivity|]. cbn [app handle_tokens].
  destruct (handle_token pb t s); [apply IH|reflexivity].
Qed.

Lemma add_all_top es : forall r tg k a d st rb bg,
  add_all es (mkP r (FNode tg k a d :: st) rb bg) = mkP r (FNode tg k a (d ++ es) :: st) rb bg.
Proof.
  induction es as [|e es IH]; intros; [rewrite app_nil_r; reflexivity|].
  cbn [add_all fold_left]. unfold add_leaf at 2. cbn [attach p_root p_stack p_ruby p_begin].
  fold (add_all es (mkP r (FNode tg k a (d ++ [e]) :: st) rb bg)). rewrite IH, <- app_assoc. reflexivity.
Qed.

Lemma lower_tag_name k : lower (tag_name k) = tag_name k.
Proof. destruct k; reflexivity. Qed.
(* the end tag of the innermost open span, whose content was the forest r: the element is appended to the parent of
   the span, self.begin stays *)
Lemma close_tag r k a s : handle_end (tag_name k) (apply_res r (open_node (tag_name k) KSpan a s)) =
  apply_res ([ENode KSpan a (fst r)], snd r) s.
Proof.
  destruct s as [rt st rb bg]. unfold handle_end, apply_res, open_node, set_begin. cbn [p_root p_stack p_ruby p_begin fst snd].
  rewrite add_all_top. cbn [add_all fold_left p_stack frame_tag]. rewrite lower_tag_name, text_eqb_refl.
  unfold pop, add_leaf, attach_closed. cbn [p_root p_stack p_ruby p_begin close_frame app].
  destruct (attach (ENode KSpan a (fst r)) rt st). reflexivity.
Qed.

Lemma handle_start_tag pb k s : push_check s CSpan = None ->
  handle_token pb (start_token k) s = inl (open_node (tag_name k) KSpan (expected_attrs k (base_attrs (parent_is_p s))) s).
Proof.
  intros R. rewrite <- make_span_attrs_eq.
  destruct k as [| | |[|c cls]|l|n]; cbn [start_token handle_token]; unfold handle_start; cbn -[make_span_attrs open_node push_check];
    rewrite R; reflexivity.
Qed.

Lemma regular_open tg a s :
  at_tag (Some tg) (open_node tg KSpan a s) /\ parent_is_p (open_node tg KSpan a s) = false /\
  p_begin (open_node tg KSpan a s) = p_begin s.
Proof. unfold at_tag, regular, top_tag, open_node, parent_is_p. cbn [p_ruby p_stack p_begin frame_tag is_nil]. repeat split; auto. Qed.

Lemma handle_ts_print pb t s : wf_ts t ->
  handle_ts pb (print_ts t) s = inl (apply_res ([], ts_begin pb (p_begin s) t) s).
Proof.
  intros W. unfold handle_ts, apply_res, ts_begin. rewrite exact_time by exact W. cbn [fst snd add_all fold_left].
  destruct (Qle_bool pb (Qmake (ts_ms t) 1000)); [reflexivity|]. rewrite set_begin_same. reflexivity.
Qed.

(* where a node may stand: in the paragraph or a span, or directly in the rt of a ruby (there with rt_ok); in both
   places it is well-formed for the innermost open tag *)
Definition node_ok (s : pstate) (n : snode) : Prop := wf_node (top_tag s) n /\ (regular s \/ in_rt s /\ rt_ok n).
Lemma node_ok_apply r s n : node_ok s n -> node_ok (apply_res r s) n.
Proof. unfold node_ok, top_tag, regular, in_rt. rewrite apply_ctx. trivial. Qed.

(* an end tag that does not name the innermost open tag - nor, in rt, the ruby - is ignored *)
Lemma handle_end_ignored name s : node_ok s (SEnd name) -> handle_end name s = s.
Proof.
  unfold node_ok, top_tag, regular, in_rt, ctx, handle_end. intros [W R]. inversion W as [| | |? ? [_ H]]; subst.
  destruct (p_stack s) as [|[tg [| |] a d|tg b t] st]; cbn [map frame_head fst frame_tag rt_ok] in *; [reflexivity| | | |].
  - rewrite text_eqb_neq by (intros E; apply H; symmetry; exact E). reflexivity.
  - destruct R as [[]|[[] _]].
  - destruct R as [[]|[T H2]]. destruct st as [|[tg2 k2 a2 d2|tg2 b2 t2] st]; try exact (match T with end). destruct T as [-> ->].
    rewrite text_eqb_neq by (intros E; apply H; symmetry; exact E).
    rewrite text_eqb_neq by (intros E; apply H2; symmetry; exact E). reflexivity.
  - destruct R as [[]|[[] _]].
Qed.

(* the parser on items: it receives the tokens the tokenizer makes of them, each string with its value *)
Definition run (pb : Q) (its : list item) (s : pstate) : pstate + exn := handle_tokens pb (map item_token its) s.
Lemma run_tok pb t its s :
  run pb (ITok t :: its) s = match handle_token pb t s with inl s' => run pb its s' | inr e => inr e end.
Proof. reflexivity. Qed.
Lemma run_str pb ps its s :
  run pb (IStr ps :: its) s = match handle_string (pieces_value ps) s with inl s' => run pb its s' | inr e => inr e end.
Proof. reflexivity. Qed.

Definition node_eqn (pb : Q) (n : snode) : Prop := forall s, node_ok s n -> forall rest,
  run pb (items_of n ++ rest) s = run pb rest (apply_res (span_of pb (parent_is_p s) (p_begin s) n) s).

Lemma parse_list pb : forall cs, Forall (node_eqn pb) cs -> forall s, Forall (node_ok s) cs -> forall rest,
  run pb (flat_map items_of cs ++ rest) s = run pb rest (apply_res (spans_of pb (parent_is_p s) (p_begin s) cs) s).
Proof.
  induction 1 as [|c cs Hc _ IH]; intros s Hw rest.
  - cbn [flat_map app spans_of]. rewrite apply_res_nil. reflexivity.
  - inversion Hw as [|? ? Wc Wcs]; subst.
    cbn [flat_map spans_of]. rewrite <- app_assoc, (Hc s Wc).
    destruct (span_of pb (parent_is_p s) (p_begin s) c) as [e1 n1].
    destruct (apply_facts (e1, n1) s) as (P' & B').
    rewrite IH by (eapply Forall_impl; [|exact Wcs]; intros n; apply node_ok_apply).
    rewrite P', B'. cbn [snd]. destruct (spans_of pb (parent_is_p s) n1 cs) as [e2 n2].
    rewrite apply_res_app. reflexivity.
Qed.
Lemma parse_forest pb enc cs : Forall (node_eqn pb) cs -> Forall (wf_node enc) cs -> forall rest s, at_tag enc s ->
  run pb (flat_map items_of cs ++ rest) s = run pb rest (apply_res (spans_of pb (parent_is_p s) (p_begin s) cs) s).
Proof.
  intros IH Hw rest s [R <-]. apply (parse_list pb cs IH).
  eapply Forall_impl; [|exact Hw]. intros n Wn. split; [exact Wn|left; exact R].
Qed.

(* an element: from any state whose current parent accepts a span; its own end tag closes it *)
Lemma parse_tag pb k cs : tag_ok k -> Forall (wf_node (Some (tag_name k))) cs -> Forall (node_eqn pb) cs ->
  forall rest s, push_check s CSpan = None ->
  run pb (items_of (STag k cs) ++ rest) s = run pb rest (apply_res (span_of pb (parent_is_p s) (p_begin s) (STag k cs)) s).
Proof.
  intros Hk Hcs IH rest s Hpush.
  cbn [items_of app]. rewrite run_tok, (handle_start_tag pb k s Hpush).
  set (a := expected_attrs k (base_attrs (parent_is_p s))).
  destruct (regular_open (tag_name k) a s) as (R1 & P1 & B1).
  rewrite <- app_assoc, (parse_forest pb _ cs IH Hcs _ _ R1), P1, B1.
  cbn [app]. rewrite run_tok. cbn [handle_token].
  rewrite span_of_tag. destruct (spans_of pb false (p_begin s) cs) as [es now'] eqn:Es.
  rewrite close_tag. reflexivity.
Qed.

Lemma parse_tree pb : forall n, node_eqn pb n.
Proof.
  induction n as [ps|t|k cs IH|name] using snode_ind'; intros s WR rest; pose proof WR as [W R].
  - (* text: any number of lines in a span, one line in rt *)
    inversion W as [? ? (Hne & Hg & Hv)| | |]; subst. cbn [items_of app span_of]. rewrite run_str. unfold handle_string.
    rewrite pieces_value_svalue by exact Hg. unfold apply_res. cbn [fst snd]. rewrite <- add_all_set_begin, set_begin_same.
    destruct R as [R|[R Hrt]]; [rewrite push_lines by exact R; reflexivity|].
    unfold split_on. rewrite split_no_lf by exact Hrt. cbn [app push_text_lines lines_elems].
    rewrite push_line_ok by (right; exact R). reflexivity.
  - inversion W as [|? ? Ht| |]; subst. cbn [items_of app span_of]. rewrite run_tok. cbn [handle_token].
    rewrite handle_ts_print by exact Ht. reflexivity.
  - inversion W as [| |? ? ? Hk Hcs Hadj|]; subst. apply parse_tag; [exact Hk|exact Hcs|exact IH|].
    apply push_span_ok. destruct R as [R|[R _]]; [left|right]; exact R.
  - cbn [items_of app span_of]. rewrite run_tok. cbn [handle_token].
    rewrite (handle_end_ignored name s WR), apply_res_nil. reflexivity.
Qed.

Lemma parse_trees pb enc ns : Forall (wf_node enc) ns -> forall rest s, at_tag enc s ->
  run pb (flat_map items_of ns ++ rest) s = run pb rest (apply_res (spans_of pb (parent_is_p s) (p_begin s) ns) s).
Proof. apply parse_forest, Forall_forall. intros n _. apply parse_tree. Qed.

Lemma add_all_root es : forall r bg, add_all es (mkP r [] false bg) = mkP (r ++ es) [] false bg.
Proof.
  induction es as [|e es IH]; intros r bg; [rewrite app_nil_r; reflexivity|].
  cbn [add_all fold_left]. unfold add_leaf at 2. cbn [attach p_root p_stack p_ruby p_begin].
  fold (add_all es (mkP (r ++ [e]) [] false bg)). rewrite IH, <- app_assoc. reflexivity.
Qed.

(* A cue text that ends inside elements: a forest, then optionally a start tag that nothing closes followed by the
   same again.  (An end tag that names an outer element while an inner one is open is ignored - SEnd - so the outer
   one is not closed either: this is the general shape of a cue text of text, timestamps, b/i/u/c/lang/v tags and end
   tags in which some end tags are missing.)  Every unclosed element lasts to the end of the cue text. *)
Inductive otree := ODone (ns : list snode) | OOpen (ns : list snode) (k : ctag) (inner : otree).
Fixpoint onodes (t : otree) : list cnode :=
  match t with
  | ODone ns => flat_map nodes_of ns
  | OOpen ns k inner => flat_map nodes_of ns ++ [COpen k (onodes inner)]
  end.
Fixpoint oitems (t : otree) : list item :=
  match t with
  | ODone ns => flat_map items_of ns
  | OOpen ns k inner => flat_map items_of ns ++ ITok (start_token k) :: oitems inner
  end.
Fixpoint wf_otree (enc : option text) (t : otree) : Prop :=
  match t with
  | ODone ns => Forall (wf_node enc) ns /\ no_adj ns
  | OOpen ns k inner => Forall (wf_node enc) ns /\ no_adj ns /\ tag_ok k /\ wf_otree (Some (tag_name k)) inner
  end.
Fixpoint ospans (pb : Q) (top : bool) (now : option Q) (t : otree) : list elem :=
  match t with
  | ODone ns => fst (spans_of pb top now ns)
  | OOpen ns k inner =>
    let '(es, n1) := spans_of pb top now ns in
    es ++ [ENode KSpan (expected_attrs k (base_attrs top)) (ospans pb false n1 inner)]
  end.

Lemma print_otree : forall t enc, wf_otree enc t -> print_cue_text (onodes t) = items_print (oitems t).
Proof.
  induction t as [ns|ns k inner IH]; intros enc W.
  - apply (print_trees enc). apply W.
  - destruct W as (Hw & _ & Hk & Hi). cbn [onodes oitems]. unfold print_cue_text in *.
    rewrite flat_map_app, items_print_app. fold (print_cue_text (flat_map nodes_of ns)). rewrite (print_trees enc) by exact Hw.
    f_equal. cbn [flat_map print_node]. rewrite app_nil_r. rewrite (IH _ Hi).
    rewrite <- print_start by exact Hk. reflexivity.
Qed.
Lemma nf_otree : forall t enc, wf_otree enc t -> nf_items (oitems t).
Proof.
  induction t as [ns|ns k inner IH]; intros enc W.
  - apply (nf_forest enc); apply W.
  - destruct W as (Hw & Hadj & Hk & Hi). cbn [oitems].
    apply nf_app; [apply (nf_forest enc); assumption| |apply andb_false_r].
    apply nf_cons_tok; [apply nf_start; exact Hk|apply (IH _ Hi)].
Qed.

(* the end of the cue text: every open element is closed, innermost first *)
Definition finish (s : pstate) : list elem := p_root (close_all (length (p_stack s)) s).
Lemma finish_set_begin b s : finish (set_begin b s) = finish s.
Proof.
  unfold finish, set_begin. destruct s as [r st rb bg]. cbn [p_root p_stack p_ruby]. generalize (length st) as n. intros n.
  revert r st rb. induction n as [|n IH]; intros r st rb; [reflexivity|]. cbn [close_all p_stack].
  destruct st as [|f st]; [reflexivity|]. unfold pop. cbn [p_root p_stack p_ruby p_begin].
  destruct (attach_closed f r st). apply IH.
Qed.
(* an unclosed span with content es' ends at the end of the text like a closed one *)
Lemma finish_open es' tg a s :
  finish (add_all es' (open_node tg KSpan a s)) = finish (add_all [ENode KSpan a es'] s).
Proof.
  unfold finish. rewrite !add_all_length. destruct s as [r st rb bg]. unfold open_node. cbn [p_root p_stack p_ruby p_begin].
  rewrite add_all_top. cbn [app length close_all p_stack add_all fold_left]. reflexivity.
Qed.

Lemma parse_otree pb : forall t enc, wf_otree enc t -> forall s, at_tag enc s ->
  exists s', run pb (oitems t) s = inl s' /\
             finish s' = finish (add_all (ospans pb (parent_is_p s) (p_begin s) t) s).
Proof.
  induction t as [ns|ns k inner IH]; intros enc W s R.
  - destruct W as [Hw _]. cbn [oitems ospans]. rewrite <- (app_nil_r (flat_map items_of ns)).
    rewrite (parse_trees pb enc ns Hw [] s R). eexists. split; [reflexivity|].
    unfold apply_res. apply finish_set_begin.
  - destruct W as (Hw & _ & Hk & Hi). cbn [oitems ospans]. rewrite (parse_trees pb enc ns Hw _ s R).
    destruct (spans_of pb (parent_is_p s) (p_begin s) ns) as [es n1].
    set (s1 := apply_res (es, n1) s).
    destruct (apply_facts (es, n1) s) as (P1 & B1). fold s1 in P1, B1. cbn [snd] in B1.
    pose proof (at_tag_apply enc (es, n1) s R) as R1. fold s1 in R1.
    rewrite run_tok, (handle_start_tag pb k s1 (push_span_ok s1 (or_introl (proj1 R1)))), P1.
    set (a := expected_attrs k (base_attrs (parent_is_p s))).
    destruct (regular_open (tag_name k) a s1) as (R2 & P2 & B2).
    destruct (IH _ Hi _ R2) as (s' & E & F). exists s'. split; [exact E|].
    rewrite F, P2, B2, B1. rewrite finish_open. unfold s1, apply_res. cbn [fst snd].
    rewrite add_all_set_begin, finish_set_begin. rewrite add_all_app. reflexivity.
Qed.

(* the cue tree theorem for cue texts in which end tags are missing *)
Theorem tree_unclosed_roundtrip pb t : wf_otree None t ->
  parse_cue_text pb (print_cue_text (onodes t)) = inl (ospans pb true None t).
Proof.
  intros W. unfold parse_cue_text. rewrite (print_otree t None W).
  rewrite tokenizer_items by (apply (nf_otree t None W)).
  destruct (parse_otree pb t None W (mkP [] [] false None)) as (s' & E & F); [split; [exact I|reflexivity]|].
  unfold run in E. rewrite E. fold (finish s'). rewrite F. cbn [parent_is_p p_stack p_begin is_nil].
  rewrite add_all_root. reflexivity.
Qed.

(* … and for every tree without ruby whose elements are all closed, end tags that close nothing included *)
Theorem tree_roundtrip pb ns : wf_nodes ns ->
  parse_cue_text pb (print_cue_text (flat_map nodes_of ns)) = inl (fst (spans_of pb true None ns)).
Proof. exact (tree_unclosed_roundtrip pb (ODone ns)). Qed.

(* the WebVTT default colour classes mean the same colours in the reader's table (finite check) *)
Lemma default_classes_agree :
  forallb (fun nc : text * Z => match assoc_tz (fst nc) named_colors with Some c => c =? snd nc | None => false end)
          webvtt_colors = true.
Proof. vm_compute. reflexivity. Qed.

(* Ruby, outside the recorded finding ruby-structure.
   A ruby element at the top level of the cue: <ruby> base <rt> annotation </rt> base <rt> … </rt> </ruby>, every base
   one line of text (literal characters and references), every annotation a forest of text, timestamps, elements and
   ignored end tags with no line break directly inside rt; the last </rt> may be omitted (TRubyOmit: </ruby> then ends
   the ruby text as well).  What the finding covers is excluded by construction: ruby inside another element,
   markup / timestamps / line breaks in a base, a line break directly in rt. *)
Definition seg := (list piece * list snode)%type.
Inductive tnode := TPlain (n : snode) | TRuby (segs : list seg) | TRubyOmit (segs : list seg) (last : seg).

Definition seg_node (sg : seg) : list cnode * list cnode :=
  (map piece_node (fst sg), flat_map nodes_of (snd sg)).
Definition tnodes_of (n : tnode) : list cnode :=
  match n with
  | TPlain n => nodes_of n
  | TRuby segs => [CRuby (map seg_node segs)]
  | TRubyOmit segs last => [CRubyOmit (map seg_node (segs ++ [last]))]
  end.

Definition ruby_tok : token := TStart s_ruby None None.
Definition rt_tok : token := TStart s_rt None None.
Definition seg_open_items (sg : seg) : list item := IStr (fst sg) :: ITok rt_tok :: flat_map items_of (snd sg).
Definition seg_items (sg : seg) : list item :=
  IStr (fst sg) :: ITok rt_tok :: flat_map items_of (snd sg) ++ [ITok (TEnd s_rt)].
Definition titems_of (n : tnode) : list item :=
  match n with
  | TPlain n => items_of n
  | TRuby segs => ITok ruby_tok :: flat_map seg_items segs ++ [ITok (TEnd s_ruby)]
  | TRubyOmit segs last => ITok ruby_tok :: flat_map seg_items segs ++ seg_open_items last ++ [ITok (TEnd s_ruby)]
  end.

Definition seg_ok (sg : seg) : Prop :=
  text_ok (fst sg) /\ one_line (fst sg) /\ Forall (wf_node (Some s_rt)) (snd sg) /\ no_adj (snd sg) /\ Forall rt_ok (snd sg).
Definition wf_tnode (n : tnode) : Prop :=
  match n with
  | TPlain n => wf_node None n
  | TRuby segs => Forall seg_ok segs
  | TRubyOmit segs last => Forall seg_ok segs /\ seg_ok last
  end.
Definition is_ttext (n : tnode) : bool := match n with TPlain n => is_text n | _ => false end.
Fixpoint no_tadj (l : list tnode) : Prop :=
  match l with
  | x :: l' => match l' with y :: _ => is_ttext x && is_ttext y = false | [] => True end /\ no_tadj l'
  | [] => True
  end.
Definition wf_tnodes (ns : list tnode) : Prop := Forall wf_tnode ns /\ no_tadj ns.

(* the expected ruby: Rbc holds one Rb per base, Rtc one Rt per annotation; the time is threaded base, annotation, … *)
Fixpoint segs_elems (pb : Q) (now : option Q) (segs : list seg) : list elem * list elem * option Q :=
  match segs with
  | [] => ([], [], now)
  | sg :: segs' =>
    let rb := ENode KRb no_attrs [ENode KSpan (with_begin now no_attrs) [EText (pieces_svalue (fst sg))]] in
    let '(es, n1) := spans_of pb false now (snd sg) in
    let '(rbs, rts, n2) := segs_elems pb n1 segs' in
    (rb :: rbs, ENode KRt no_attrs es :: rts, n2)
  end.
Definition tspan_of (pb : Q) (now : option Q) (n : tnode) : list elem * option Q :=
  match n with
  | TPlain n => span_of pb true now n
  | TRuby segs => let '(rbs, rts, now') := segs_elems pb now segs in ([ERuby rbs rts], now')
  | TRubyOmit segs last => let '(rbs, rts, now') := segs_elems pb now (segs ++ [last]) in ([ERuby rbs rts], now')
  end.
Fixpoint tspans_of (pb : Q) (now : option Q) (ns : list tnode) : list elem * option Q :=
  match ns with
  | [] => ([], now)
  | n :: ns' => let '(e1, n1) := tspan_of pb now n in let '(e2, n2) := tspans_of pb n1 ns' in (e1 ++ e2, n2)
  end.

Lemma print_seg_open (sg : seg) : Forall (wf_node (Some s_rt)) (snd sg) ->
  flat_map print_node (fst (seg_node sg)) ++ [60;114;116;62] ++ flat_map print_node (snd (seg_node sg))
  = items_print (seg_open_items sg).
Proof.
  intros W. unfold seg_node, seg_open_items. cbn [fst snd]. rewrite !items_print_cons, print_pieces.
  fold (print_cue_text (flat_map nodes_of (snd sg))). rewrite (print_trees (Some s_rt)) by exact W. reflexivity.
Qed.
Lemma seg_items_open sg : seg_items sg = seg_open_items sg ++ [ITok (TEnd s_rt)].
Proof. reflexivity. Qed.
Lemma print_seg (sg : seg) : Forall (wf_node (Some s_rt)) (snd sg) ->
  flat_map print_node (fst (seg_node sg)) ++ [60;114;116;62] ++ flat_map print_node (snd (seg_node sg)) ++ [60;47;114;116;62]
  = items_print (seg_items sg).
Proof.
  intros W. rewrite seg_items_open, items_print_app, <- (print_seg_open sg W). rewrite <- !app_assoc.
  unfold items_print. cbn [flat_map item_print print_token s_rt app]. reflexivity.
Qed.
Lemma print_segs_closed segs : Forall seg_ok segs ->
  flat_map (fun sg : list cnode * list cnode =>
              flat_map print_node (fst sg) ++ [60;114;116;62] ++ flat_map print_node (snd sg) ++ [60;47;114;116;62]) (map seg_node segs)
  = items_print (flat_map seg_items segs).
Proof.
  induction 1 as [|sg segs Hsg _ IH]; [reflexivity|].
  cbn [map flat_map]. rewrite items_print_app, <- IH.
  destruct Hsg as (_ & _ & Hw & _). rewrite <- (print_seg sg Hw). rewrite <- !app_assoc. reflexivity.
Qed.
Lemma print_segs_omit_cons pn sg sg' :
  print_segs_omit pn (sg :: sg') =
  pn (fst sg) ++ [60;114;116;62] ++ pn (snd sg) ++ match sg' with [] => [] | _ => [60;47;114;116;62] ++ print_segs_omit pn sg' end.
Proof. reflexivity. Qed.
Lemma print_segs_omitted segs last : Forall seg_ok segs -> seg_ok last ->
  print_segs_omit (flat_map print_node) (map seg_node (segs ++ [last]))
  = items_print (flat_map seg_items segs ++ seg_open_items last).
Proof.
  intros Hs (_ & _ & Hl & _). induction Hs as [|sg segs Hsg _ IH].
  - cbn [app map flat_map]. rewrite print_segs_omit_cons. rewrite app_nil_r. apply print_seg_open. exact Hl.
  - cbn [app map flat_map]. rewrite print_segs_omit_cons.
    destruct (map seg_node (segs ++ [last])) as [|x l] eqn:E; [destruct segs; discriminate|].
    rewrite IH. rewrite !items_print_app.
    destruct Hsg as (_ & _ & Hw & _). rewrite <- (print_seg sg Hw). rewrite <- !app_assoc. reflexivity.
Qed.
Lemma print_ttree n : wf_tnode n -> flat_map print_node (tnodes_of n) = items_print (titems_of n).
Proof.
  destruct n as [n|segs|segs last]; cbn [wf_tnode tnodes_of titems_of]; [apply print_tree| |]; intros W;
    cbn [flat_map print_node]; rewrite app_nil_r, items_print_cons.
  - rewrite items_print_app, items_print_tok, <- (print_segs_closed segs W). reflexivity.
  - destruct W as [Ws Wl].
    rewrite (app_assoc (flat_map seg_items segs)), items_print_app, items_print_tok, <- (print_segs_omitted segs last Ws Wl).
    reflexivity.
Qed.
Lemma print_ttrees ns : Forall wf_tnode ns ->
  print_cue_text (flat_map tnodes_of ns) = items_print (flat_map titems_of ns).
Proof. intros W. apply print_forest. eapply Forall_impl; [|exact W]. exact print_ttree. Qed.

Lemma nf_plain_tok tag : tag_nameb tag = true -> nf_item (ITok (TStart tag None None)).
Proof. intros H. split; [split; [apply tag_nameb_ok; exact H|exact I]|reflexivity]. Qed.
Lemma nf_seg_open sg : seg_ok sg -> nf_items (seg_open_items sg).
Proof.
  intros (Hb & _ & Hw & Hadj & _). split; [apply nf_text; exact Hb|]. split; [|reflexivity].
  apply nf_cons_tok; [apply nf_plain_tok; reflexivity|apply (nf_forest (Some s_rt)); assumption].
Qed.
Lemma last_istr_false_app a b : last_istr a = false -> last_istr b = false -> last_istr (a ++ b) = false.
Proof.
  intros Ha Hb. destruct b as [|y b]; [rewrite app_nil_r; exact Ha|]. rewrite last_istr_app by discriminate. exact Hb.
Qed.
Lemma nf_segs segs : Forall seg_ok segs -> nf_items (flat_map seg_items segs) /\ last_istr (flat_map seg_items segs) = false.
Proof.
  induction 1 as [|sg segs Hsg _ [IH1 IH2]]; [split; [exact I|reflexivity]|]. cbn [flat_map]. rewrite seg_items_open.
  pose proof (last_istr_snoc (seg_open_items sg) (TEnd s_rt)) as L.
  split; [|apply last_istr_false_app; assumption].
  apply nf_app; [|exact IH1|rewrite L; reflexivity].
  apply nf_snoc_tok; [apply nf_seg_open; exact Hsg|apply nf_end_tag; repeat constructor; lia].
Qed.
Lemma nf_ttree n : wf_tnode n -> nf_items (titems_of n).
Proof.
  destruct n as [n|segs|segs last]; cbn [wf_tnode titems_of]; [apply nf_tree| |]; intros W;
    (apply nf_cons_tok; [apply nf_plain_tok; reflexivity|]).
  - apply nf_snoc_tok; [apply nf_segs; exact W|apply nf_end_tag; repeat constructor; lia].
  - destruct W as [Ws Wl]. destruct (nf_segs segs Ws) as [N L]. apply nf_app; [exact N| |rewrite L; reflexivity].
    apply nf_snoc_tok; [apply nf_seg_open; exact Wl|apply nf_end_tag; repeat constructor; lia].
Qed.
Lemma titems_ends n : titems_of n <> [] /\ head_istr (titems_of n) = is_ttext n /\ last_istr (titems_of n) = is_ttext n.
Proof.
  destruct n as [n|segs|segs last]; [apply items_ends| |]; (split; [discriminate|]); (split; [reflexivity|]);
    cbn [titems_of is_ttext]; rewrite ?(app_assoc (flat_map seg_items segs)); exact (last_istr_snoc (_ :: _) _).
Qed.
Lemma nf_ttrees ns : Forall wf_tnode ns -> no_tadj ns -> nf_items (flat_map titems_of ns).
Proof.
  intros Hw Hadj. apply (nf_concat titems_of is_ttext titems_ends); [|exact Hadj].
  eapply Forall_impl; [|exact Hw]. exact nf_ttree.
Qed.

(* an annotation, the current parent being the rt element *)
Lemma parse_rt_nodes pb cs : Forall (wf_node (Some s_rt)) cs -> Forall rt_ok cs -> forall rest s, in_rt s ->
  run pb (flat_map items_of cs ++ rest) s = run pb rest (apply_res (spans_of pb (parent_is_p s) (p_begin s) cs) s).
Proof.
  intros Hw Hrt rest s R. apply parse_list; [apply Forall_forall; intros n _; apply parse_tree|].
  assert (T : top_tag s = Some s_rt).
  { unfold in_rt, top_tag in *. destruct (fst (ctx s)) as [|[tg [[| |]|]] [|[tg2 [|]] c]]; try exact (match R with end).
    destruct R as [-> _]. reflexivity. }
  eapply Forall_impl; [|exact (Forall_and Hw Hrt)]. intros n [Wn Rn]. split; [rewrite T; exact Wn|right; split; assumption].
Qed.

Lemma has_none_somes (t : list elem) : has_none (map Some t) = false.
Proof. induction t; [reflexivity|exact IHt]. Qed.
Lemma fill_last_slot e (t : list elem) : fill_last e (map Some t ++ [None]) = map Some (t ++ [e]).
Proof.
  induction t as [|x t IH]; [reflexivity|]. cbn [map app fill_last].
  replace (has_none (map Some t ++ [None])) with true; [rewrite IH; reflexivity|].
  clear. induction t; [reflexivity|exact IHt].
Qed.
Lemma some_elems_somes (t : list elem) : some_elems (map Some t) = t.
Proof. unfold some_elems. induction t as [|x t IH]; [reflexivity|]. cbn [map flat_map app]. rewrite IH. reflexivity. Qed.

(* the parser directly inside a ruby element, the bases b and annotations t of the pairs read so far collected *)
Definition in_ruby (r b t : list elem) (st : list frame) (bg : option Q) : pstate :=
  mkP r (FRuby s_ruby b (map Some t) :: st) true bg.
Definition rb_elem (now : option Q) (sg : seg) : elem :=
  ENode KRb no_attrs [ENode KSpan (with_begin now no_attrs) [EText (pieces_svalue (fst sg))]].

(* one base and the annotation that follows <rt>; the rt stays open *)
Lemma parse_seg_open pb sg : seg_ok sg -> forall rest r b t st bg,
  run pb (seg_open_items sg ++ rest) (in_ruby r b t st bg) =
  let '(es, n1) := spans_of pb false bg (snd sg) in
  run pb rest
    (mkP r (FNode s_rt KRt no_attrs es :: FRuby s_ruby (b ++ [rb_elem bg sg]) (map Some t ++ [None]) :: st) true n1).
Proof.
  intros ((Hne & Hg & Hv) & Hone & Hw & Hadj & Hrt) rest r b t st bg. unfold in_ruby.
  unfold seg_open_items. cbn [app]. rewrite run_str. unfold handle_string.
  rewrite pieces_value_svalue by exact Hg. unfold split_on. rewrite split_no_lf by exact Hone. cbn [app].
  cbn [push_text_lines]. unfold push_text_line. cbn [p_stack p_ruby p_root p_begin].
  replace (make_span_attrs (mkP r (FRuby s_ruby b (map Some t) :: st) true bg)) with no_attrs by reflexivity.
  (* <rt> *)
  fold (rb_elem bg sg). set (b1 := b ++ [rb_elem bg sg]).
  set (s1 := mkP r (FNode s_rt KRt no_attrs [] :: FRuby s_ruby b1 (map Some t ++ [None]) :: st) true bg).
  rewrite run_tok. replace (handle_token pb rt_tok (mkP r (FRuby s_ruby b1 (map Some t) :: st) true bg)) with (@inl pstate exn s1) by reflexivity.
  assert (R1 : in_rt s1) by (split; reflexivity).
  rewrite parse_rt_nodes by assumption.
  change (parent_is_p s1) with false. change (p_begin s1) with bg.
  destruct (spans_of pb false bg (snd sg)) as [es n1].
  unfold apply_res, s1, set_begin. cbn [fst snd]. rewrite add_all_top. reflexivity.
Qed.
(* the pairs of a ruby, each closed by </rt> *)
Lemma parse_segs pb : forall segs, Forall seg_ok segs -> forall rest r b t st bg,
  run pb (flat_map seg_items segs ++ rest) (in_ruby r b t st bg) =
  let '(rbs, rts, n2) := segs_elems pb bg segs in run pb rest (in_ruby r (b ++ rbs) (t ++ rts) st n2).
Proof.
  induction 1 as [|sg segs Hsg _ IH]; intros rest r b t st bg.
  - cbn [flat_map app segs_elems]. rewrite !app_nil_r. reflexivity.
  - cbn [flat_map segs_elems]. rewrite seg_items_open, <- !app_assoc, parse_seg_open by exact Hsg.
    destruct (spans_of pb false bg (snd sg)) as [es n1].
    cbn [app]. rewrite run_tok. cbn [handle_token]. unfold handle_end. cbn [p_stack frame_tag].
    change (lower s_rt) with s_rt. rewrite text_eqb_refl.
    unfold pop, attach_closed. cbn [p_stack p_root p_ruby p_begin fill_rt]. rewrite fill_last_slot.
    fold (in_ruby r (b ++ [rb_elem bg sg]) (t ++ [ENode KRt no_attrs es]) st n1). rewrite IH.
    destruct (segs_elems pb n1 segs) as [[rbs rts] n2]. rewrite <- !app_assoc. reflexivity.
Qed.
Lemma at_p_eq s : at_p s -> s = mkP (p_root s) [] false (p_begin s).
Proof.
  destruct s as [r st rb bg]. unfold at_p, ctx. cbn [p_stack p_ruby p_root p_begin]. intros E. injection E as S ->.
  apply map_eq_nil in S. subst. reflexivity.
Qed.

Lemma open_ruby pb rest r bg :
  run pb (ITok ruby_tok :: rest) (mkP r [] false bg) = run pb rest (in_ruby r [] [] [] bg).
Proof. reflexivity. Qed.
(* a ruby in the paragraph: <ruby>, the pairs of base and annotation, </ruby> *)
Lemma parse_ruby pb segs : Forall seg_ok segs -> forall rest r bg,
  run pb (ITok ruby_tok :: flat_map seg_items segs ++ ITok (TEnd s_ruby) :: rest) (mkP r [] false bg) =
  run pb rest (apply_res (tspan_of pb bg (TRuby segs)) (mkP r [] false bg)).
Proof.
  intros W rest r bg. rewrite open_ruby, parse_segs by exact W. cbn [tspan_of].
  destruct (segs_elems pb bg segs) as [[rbs rts] n2]. unfold in_ruby.
  rewrite run_tok. cbn [handle_token]. unfold handle_end. cbn [p_stack frame_tag].
  change (lower s_ruby) with s_ruby. rewrite text_eqb_refl.
  unfold pop, attach_closed. cbn [p_stack p_root p_ruby p_begin close_frame attach]. rewrite some_elems_somes.
  unfold apply_res, add_all, add_leaf, set_begin. cbn [fold_left fst snd attach p_root p_stack p_ruby p_begin]. reflexivity.
Qed.
(* </ruby> directly after an annotation ends the open rt as well, as if </rt> stood before it *)
Lemma parse_ruby_omit pb segs last : Forall seg_ok segs -> seg_ok last -> forall rest r bg,
  run pb (ITok ruby_tok :: flat_map seg_items segs ++ seg_open_items last ++ ITok (TEnd s_ruby) :: rest) (mkP r [] false bg) =
  run pb (ITok ruby_tok :: flat_map seg_items (segs ++ [last]) ++ ITok (TEnd s_ruby) :: rest) (mkP r [] false bg).
Proof.
  intros Ws Wl rest r bg. rewrite flat_map_app. cbn [flat_map]. rewrite app_nil_r, seg_items_open, <- !app_assoc.
  rewrite !open_ruby, !parse_segs by exact Ws. destruct (segs_elems pb bg segs) as [[rbs rts] n2].
  rewrite !parse_seg_open by exact Wl. destruct (spans_of pb false n2 (snd last)) as [es n3]. reflexivity.
Qed.

Lemma parse_tnode pb n : wf_tnode n -> forall rest s, at_p s ->
  run pb (titems_of n ++ rest) s = run pb rest (apply_res (tspan_of pb (p_begin s) n) s).
Proof.
  intros W rest s P. destruct n as [n|segs|segs last]; cbn [wf_tnode titems_of] in *.
  - assert (T : top_tag s = None /\ regular s /\ parent_is_p s = true) by (unfold top_tag, regular; rewrite parent_ctx, P; repeat split).
    destruct T as (T & R & Hp). rewrite (parse_tree pb n s) by (split; [rewrite T; exact W|left; exact R]).
    rewrite Hp. reflexivity.
  - rewrite (at_p_eq s P). cbn [p_begin app]. rewrite <- app_assoc. apply parse_ruby. exact W.
  - destruct W as [Ws Wl]. rewrite (at_p_eq s P). cbn [p_begin app]. rewrite <- !app_assoc. cbn [app].
    rewrite parse_ruby_omit by assumption.
    apply parse_ruby, Forall_app. split; [exact Ws|constructor; [exact Wl|constructor]].
Qed.

Lemma parse_tnodes pb : forall ns, Forall wf_tnode ns -> forall rest s, at_p s ->
  run pb (flat_map titems_of ns ++ rest) s = run pb rest (apply_res (tspans_of pb (p_begin s) ns) s).
Proof.
  induction 1 as [|n ns Hn _ IH]; intros rest s P.
  - cbn [flat_map app tspans_of]. rewrite apply_res_nil. reflexivity.
  - cbn [flat_map tspans_of]. rewrite <- app_assoc, parse_tnode by assumption.
    destruct (tspan_of pb (p_begin s) n) as [e1 n1]. destruct (apply_facts (e1, n1) s) as (_ & B').
    rewrite IH by (apply at_p_apply; exact P). rewrite B'. cbn [snd].
    destruct (tspans_of pb n1 ns) as [e2 n2]. rewrite apply_res_app. reflexivity.
Qed.

(* the cue tree theorem with ruby: every cue text of the grammar outside the recorded finding *)
Theorem tree_ruby_roundtrip pb ns : wf_tnodes ns ->
  parse_cue_text pb (print_cue_text (flat_map tnodes_of ns)) = inl (fst (tspans_of pb None ns)).
Proof.
  intros [Hw Hadj]. unfold parse_cue_text. rewrite print_ttrees by exact Hw.
  rewrite tokenizer_items by (apply nf_ttrees; assumption).
  fold (run pb (flat_map titems_of ns) (mkP [] [] false None)). rewrite <- (app_nil_r (flat_map titems_of ns)).
  rewrite parse_tnodes; [|exact Hw|repeat split].
  unfold run, apply_res. cbn [map handle_tokens]. cbn [p_begin]. rewrite add_all_root. reflexivity.
Qed.

(* well-formedness is decidable; concrete trees are checked by evaluation *)
Definition ref_goodb (r : cref) : bool := ref_okb r && text_eqb (unescape (print_cref r)) (cref_value r).
Definition piece_goodb (p : piece) : bool := match p with PLit t => negb (is_nil t) | PRef r => ref_goodb r end.
Definition text_okb (ps : list piece) : bool :=
  negb (is_nil ps) && (forallb piece_goodb ps && negb (is_nil (pieces_svalue ps))).
Definition tag_okb (k : ctag) : bool :=
  match k with TgC cls => classesb cls | TgLang l | TgV l => text_eqb (norm_annot l) l | _ => true end.
Fixpoint adjb {A} (f : A -> bool) (l : list A) : bool :=
  match l with
  | x :: l' => match l' with y :: _ => negb (f x && f y) | [] => true end && adjb f l'
  | [] => true
  end.
Definition ignored_endb (enc : option text) (name : text) : bool :=
  no_gt name && match enc with Some t => negb (text_eqb (lower name) t) | None => true end.
Fixpoint wf_nodeb (enc : option text) (n : snode) : bool :=
  match n with
  | SText ps => text_okb ps
  | STs t => wf_tsb t
  | STag k cs => tag_okb k && forallb (wf_nodeb (Some (tag_name k))) cs && adjb is_text cs
  | SEnd name => ignored_endb enc name
  end.
Definition forestb (enc : option text) (ns : list snode) : bool := forallb (wf_nodeb enc) ns && adjb is_text ns.
Fixpoint wf_otreeb (enc : option text) (t : otree) : bool :=
  match t with
  | ODone ns => forestb enc ns
  | OOpen ns k inner => forallb (wf_nodeb enc) ns && (adjb is_text ns && (tag_okb k && wf_otreeb (Some (tag_name k)) inner))
  end.
Definition one_lineb (ps : list piece) : bool := negb (mem_z 10 (pieces_svalue ps)).
Definition rt_okb (n : snode) : bool :=
  match n with SText ps => one_lineb ps | SEnd name => negb (text_eqb (lower name) s_ruby) | _ => true end.
Definition seg_okb (sg : seg) : bool :=
  text_okb (fst sg) && (one_lineb (fst sg) && (forallb (wf_nodeb (Some s_rt)) (snd sg) && (adjb is_text (snd sg) && forallb rt_okb (snd sg)))).
Definition wf_tnodeb (n : tnode) : bool :=
  match n with
  | TPlain n => wf_nodeb None n
  | TRuby segs => forallb seg_okb segs
  | TRubyOmit segs last => forallb seg_okb segs && seg_okb last
  end.

Lemma ref_goodb_ok r : ref_goodb r = true -> ref_good r.
Proof. apply andb_both; [apply ref_okb_ok|apply text_eqb_eq]. Qed.
Lemma text_okb_ok ps : text_okb ps = true -> text_ok ps.
Proof.
  apply andb_both; [apply is_nil_false|apply andb_both; [|apply is_nil_false]].
  apply forallb_Forall. intros [t|r]; [apply is_nil_false|apply ref_goodb_ok].
Qed.
Lemma tag_okb_ok k : tag_okb k = true -> tag_ok k.
Proof. destruct k; cbn [tag_okb tag_ok]; try (intros _; exact I); [apply classesb_ok|apply text_eqb_eq..]. Qed.
Lemma text_eqb_false a b : negb (text_eqb a b) = true -> a <> b.
Proof. intros H E. apply text_eqb_eq in E. rewrite E in H. discriminate. Qed.
Lemma adjb_ok {A} (f : A -> bool) : forall l, adjb f l = true -> adj f l.
Proof.
  induction l as [|x l IH]; [intros _; exact I|]. cbn [adjb]. rewrite andb_true_iff. intros [A0 B].
  split; [destruct l; [exact I|apply negb_true_iff; exact A0]|apply IH; exact B].
Qed.
Lemma wf_nodeb_ok : forall n enc, wf_nodeb enc n = true -> wf_node enc n.
Proof.
  induction n as [ps|t|k cs IH|name] using snode_ind'; intros enc; cbn [wf_nodeb].
  - intros H. apply wf_text, text_okb_ok, H.
  - intros H. apply wf_tsn, wf_tsb_ok, H.
  - rewrite !andb_true_iff. intros [[A B] C]. apply wf_tag; [apply tag_okb_ok; exact A| |exact (adjb_ok _ _ C)].
    rewrite Forall_forall in *. intros n Hn. apply IH; [exact Hn|]. exact (proj1 (forallb_forall _ _) B n Hn).
  - intros H. apply wf_end. revert H. apply andb_both; [apply no_gt_ok|]. destruct enc; [apply text_eqb_false|trivial].
Qed.
Lemma wf_nodesb_ok enc ns : forallb (wf_nodeb enc) ns = true -> Forall (wf_node enc) ns.
Proof. apply forallb_Forall. intros n. apply wf_nodeb_ok. Qed.
Lemma forestb_ok enc ns : forestb enc ns = true -> Forall (wf_node enc) ns /\ no_adj ns.
Proof. apply andb_both; [apply wf_nodesb_ok|apply adjb_ok]. Qed.
Lemma wf_otreeb_ok : forall t enc, wf_otreeb enc t = true -> wf_otree enc t.
Proof.
  induction t as [ns|ns k inner IH]; intros enc; cbn [wf_otreeb wf_otree]; [apply forestb_ok|].
  apply andb_both; [apply wf_nodesb_ok|apply andb_both; [apply adjb_ok|apply andb_both; [apply tag_okb_ok|apply IH]]].
Qed.
Lemma seg_okb_ok sg : seg_okb sg = true -> seg_ok sg.
Proof.
  apply andb_both; [apply text_okb_ok|apply andb_both; [apply negb_true_iff|]].
  apply andb_both; [apply wf_nodesb_ok|apply andb_both; [apply adjb_ok|]].
  apply forallb_Forall. intros [ps|t|k cs|name]; cbn [rt_okb rt_ok]; [apply negb_true_iff|trivial|trivial|apply text_eqb_false].
Qed.
Lemma wf_tnodeb_ok n : wf_tnodeb n = true -> wf_tnode n.
Proof.
  destruct n as [n|segs|segs last]; cbn [wf_tnodeb wf_tnode]; [apply wf_nodeb_ok|apply forallb_Forall, seg_okb_ok|].
  apply andb_both; [apply forallb_Forall, seg_okb_ok|apply seg_okb_ok].
Qed.

(* the six references WebVTT allows by name are good *)
Lemma webvtt_refs_good :
  Forall ref_good (map RefNamed [[97;109;112]; [108;116]; [103;116]; [108;114;109]; [114;108;109]; [110;98;115;112]]).
Proof.
  apply Forall_map, Forall_forall. intros n Hn. split.
  - apply named_ref_ok. cbn [In] in Hn. decompose [or] Hn; subst; try contradiction; repeat constructor; discriminate.
  - revert n Hn. apply map_ext_in_iff. rewrite webvtt_named_refs. reflexivity.
Qed.

(* a<LF>b</b><b><c.red>x</c></i><00:12.000></I>y</b></b><v Tom & J>z&lrm;</v><lang en></lang>
   (the first </b> has nothing to close, </i> and </I> sit in a b element, the last </b> follows the end of that element) *)
Example tree_example :
  wf_nodes [SText [PLit [97;10;98]]; SEnd [98];
            STag TgB [STag (TgC [[114;101;100]]) [SText [PLit [120]]]; SEnd [105]; STs (mkTs None 0 12 0); SEnd [73]; SText [PLit [121]]];
            SEnd [98];
            STag (TgV [84;111;109;32;38;32;74]) [SText [PLit [122]; PRef (RefNamed [108;114;109])]]; STag (TgLang [101;110]) []].
Proof. apply forestb_ok. vm_compute. reflexivity. Qed.
(* a<b>x<i>y</b>z : </b> is ignored inside the i element, so neither element is closed *)
Example tree_unclosed_example :
  wf_otree None (OOpen [SText [PLit [97]]] TgB (OOpen [SText [PLit [120]]] TgI
                   (ODone [SText [PLit [121]]; SEnd [98]; SText [PLit [122]]]))).
Proof. apply wf_otreeb_ok. vm_compute. reflexivity. Qed.
(* x <ruby>base<rt>an<b>n</b></x></rt>b2<rt></rt></ruby> y <ruby>b3<rt>c</ruby> *)
Example tree_ruby_example :
  wf_tnodes [TPlain (SText [PLit [120]]);
             TRuby [([PLit [98;97;115;101]], [SText [PLit [97;110]]; STag TgB [SText [PLit [110]]]; SEnd [120]]); ([PLit [98;50]], [])];
             TPlain (SText [PLit [121]]);
             TRubyOmit [] ([PLit [98;51]], [SText [PLit [99]]])].
Proof.
  split; [apply (forallb_Forall wf_tnodeb); [exact wf_tnodeb_ok|]|apply (adjb_ok is_ttext)]; vm_compute; reflexivity.
Qed.

(* Numeric character references, as a class:
   &#D…; and &#xH…; of ANY number n below 10^40 that html.unescape maps to itself (numeric_charref n = [n]: a scalar
   value outside html's remapping and removal tables - an executable condition) are good references. *)
Lemma fold_shift (b : Z) (f : Z -> Z) : forall l a, fold_left (fun a c => a * b + f c) l a =
  a * b ^ Z.of_nat (length l) + fold_left (fun a c => a * b + f c) l 0.
Proof.
  induction l as [|c l IH]; intros a; [cbn; lia|].
  cbn [fold_left length]. rewrite IH, (IH (0 * b + f c)), Nat2Z.inj_succ, Z.pow_succ_r by lia. ring.
Qed.
Lemma fold_dec_shift : forall l a, fold_left (fun a c => a * 10 + (c - 48)) l a =
  a * 10 ^ Z.of_nat (length l) + fold_left (fun a c => a * 10 + (c - 48)) l 0.
Proof. exact (fold_shift 10 (fun c => c - 48)). Qed.
Lemma fold_hex_shift : forall l a, fold_left (fun a c => a * 16 + hexval c) l a =
  a * 16 ^ Z.of_nat (length l) + fold_left (fun a c => a * 16 + hexval c) l 0.
Proof. exact (fold_shift 16 hexval). Qed.

(* the digits of n in base b, most significant first: `pd` is S's printer (print_nat_digits, print_hex_digits), `dg`
   its digit characters, `val` the reader's value of a digit character, `okd` what the reader accepts as a digit *)
Section Digits.
  Variables (b : Z) (dg val : Z -> Z) (okd : Z -> Prop) (pd : nat -> Z -> text -> text).
  Hypothesis Hb : 1 < b.
  Hypothesis Hdg : forall d, 0 <= d < b -> okd (dg d) /\ val (dg d) = d.
  Hypothesis Hpd : forall f n acc, pd (S f) n acc = if n <? b then dg n :: acc else pd f (n / b) (dg (n mod b) :: acc).

  Lemma digits_spec : forall fuel n acc, (0 < fuel)%nat -> 0 <= n < b ^ Z.of_nat fuel ->
    exists ds, pd fuel n acc = ds ++ acc /\ ds <> [] /\ Forall okd ds /\ fold_left (fun a c => a * b + val c) ds 0 = n.
  Proof.
    induction fuel as [|f IH]; intros n acc Hf H; [lia|]. rewrite Hpd. destruct (n <? b) eqn:E.
    - apply Z.ltb_lt in E. destruct (Hdg n) as [A B]; [lia|].
      exists [dg n]. split; [reflexivity|]. split; [discriminate|]. split; [repeat constructor; exact A|].
      cbn [fold_left]. rewrite B. ring.
    - apply Z.ltb_ge in E. rewrite Nat2Z.inj_succ, Z.pow_succ_r in H by lia.
      assert (Hf' : (0 < f)%nat) by (destruct f; [rewrite Z.mul_1_r in H; lia|lia]).
      assert (Hq : 0 <= n / b < b ^ Z.of_nat f) by (split; [apply Z.div_pos; lia|apply Z.div_lt_upper_bound; lia]).
      destruct (IH (n / b) (dg (n mod b) :: acc) Hf' Hq) as (ds & E1 & Hne & Hd & Hv).
      destruct (Hdg (n mod b)) as [A B]; [apply Z.mod_pos_bound; lia|].
      exists (ds ++ [dg (n mod b)]). rewrite E1, <- app_assoc. split; [reflexivity|]. split; [destruct ds; discriminate|]. split.
      + apply Forall_app. split; [exact Hd|repeat constructor; exact A].
      + rewrite fold_left_app, Hv. cbn [fold_left]. rewrite B, (Z.mul_comm (n / b) b). symmetry. apply Z.div_mod. lia.
  Qed.
End Digits.

Lemma hex_digit_ok d : 0 <= d < 16 -> is_hexdigit (hex_digit d) = true /\ hexval (hex_digit d) = d.
Proof.
  intros H. unfold hex_digit, is_hexdigit, hexval, is_digit. destruct (d <? 10) eqn:E.
  - replace ((48 <=? 48 + d) && (48 + d <=? 57)) with true by lia. cbn [orb]. repeat split; lia.
  - replace ((48 <=? 87 + d) && (87 + d <=? 57)) with false by lia.
    replace ((65 <=? 87 + d) && (87 + d <=? 70)) with false by lia. repeat split; lia.
Qed.

Lemma take_drop_stop (p : Z -> bool) : forall ds c rest, Forall (fun x => p x = true) ds -> p c = false ->
  take_while p (ds ++ c :: rest) = ds /\ drop_while p (ds ++ c :: rest) = c :: rest.
Proof.
  induction ds as [|d ds IH]; intros c rest H Hc; cbn [app take_while drop_while].
  - rewrite Hc. split; reflexivity.
  - inversion H; subst. rewrite H2. destruct (IH c rest H3 Hc) as [A B]. rewrite A, B. split; reflexivity.
Qed.

Lemma unescape_fuel_nil f : unescape_fuel f [] = [].
Proof. destruct f; reflexivity. Qed.
Lemma unescape_dec ds : ds <> [] -> Forall (fun c => is_digit c = true) ds ->
  unescape ([38;35] ++ ds ++ [59]) = numeric_charref (dec_value ds).
Proof.
  intros Hne Hd. destruct (take_drop_stop is_digit ds 59 [] Hd eq_refl) as [A B].
  unfold unescape. generalize (length ([38; 35] ++ ds ++ [59])). intros f. cbn [app unescape_fuel]. rewrite A, B.
  destruct ds; [congruence|]. cbn [is_nil negb skip_semi]. rewrite unescape_fuel_nil. apply app_nil_r.
Qed.
Lemma unescape_hex ds : ds <> [] -> Forall (fun c => is_hexdigit c = true) ds ->
  unescape ([38;35;120] ++ ds ++ [59]) = numeric_charref (hex_value ds).
Proof.
  intros Hne Hd. destruct (take_drop_stop is_hexdigit ds 59 [] Hd eq_refl) as [A B].
  unfold unescape. generalize (length ([38; 35; 120] ++ ds ++ [59])). intros f. cbn [app unescape_fuel].
  change (take_while is_digit (120 :: ds ++ [59])) with (@nil Z). cbn [is_nil negb]. rewrite A, B.
  destruct ds; [congruence|]. cbn [is_nil negb andb skip_semi]. rewrite unescape_fuel_nil. apply app_nil_r.
Qed.

Theorem dec_ref_good n : 0 <= n < 10 ^ 40 -> numeric_charref n = [n] -> ref_good (RefDec n).
Proof.
  intros Hn Hv.
  destruct (digits_spec 10 (fun d => 48 + d) (fun c => c - 48) (fun c => is_digit c = true) print_nat_digits) with (fuel := 40%nat) (n := n) (acc := @nil Z)
    as (ds & E & Hne & Hd & Hval); [lia|unfold is_digit; lia|reflexivity|lia|exact Hn|].
  rewrite app_nil_r in E. split.
  - exists (35 :: ds). cbn [print_cref]. unfold print_dec. rewrite E. split; [reflexivity|].
    constructor; [lia|]. eapply Forall_impl; [|exact Hd]. cbn. unfold is_digit. intros; lia.
  - cbn [print_cref cref_value]. unfold print_dec. rewrite E, unescape_dec by assumption. unfold dec_value. rewrite Hval. exact Hv.
Qed.
Theorem hex_ref_good n : 0 <= n < 16 ^ 40 -> numeric_charref n = [n] -> ref_good (RefHex n).
Proof.
  intros Hn Hv.
  destruct (digits_spec 16 hex_digit hexval (fun c => is_hexdigit c = true) print_hex_digits) with (fuel := 40%nat) (n := n) (acc := @nil Z)
    as (ds & E & Hne & Hd & Hval); [lia|exact hex_digit_ok|reflexivity|lia|exact Hn|].
  rewrite app_nil_r in E. split.
  - exists (35 :: 120 :: ds). cbn [print_cref]. rewrite E. split; [reflexivity|].
    constructor; [lia|]. constructor; [lia|]. eapply Forall_impl; [|exact Hd]. cbn. unfold is_hexdigit, is_digit. intros; lia.
  - cbn [print_cref cref_value]. rewrite E, unescape_hex by assumption. unfold hex_value. rewrite Hval. exact Hv.
Qed.
Example numeric_refs_example : ref_good (RefDec 233) /\ ref_good (RefHex 128512) /\ ref_good (RefDec 60).
Proof.
  assert (B : forall n, 0 <= n < 1000000 -> 0 <= n < 10 ^ 40 /\ 0 <= n < 16 ^ 40).
  { intros n H. assert (1000000 < 10 ^ 40) by reflexivity. assert (1000000 < 16 ^ 40) by reflexivity. lia. }
  split; [apply dec_ref_good; [apply B; lia|reflexivity]|].
  split; [apply hex_ref_good; [apply B; lia|reflexivity]|apply dec_ref_good; [apply B; lia|reflexivity]].
Qed.
