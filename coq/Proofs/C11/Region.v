(* C11: cue settings -> region.
   - region_sharing: once a cue's settings have produced (or found) region i, every later cue with the same
     settings list finds the same region i and creates nothing, whatever regions were added in between;
   - region_inside: for EVERY list of setting strings the region lies inside the root container [0,100]x[0,100]
     with non-negative extent (exact rational arithmetic), without exception: a size that the position limits,
     line numbers beyond the grid or non-positive, percentages above 100 and the vertical centre are all covered;
   - region_sharing_iff: over any sequence of cues read into one document, two cues get the same region
     if and only if their settings compute the same region (box, writing mode, alignments). *)
From Coq Require Import QArith Qminmax Lqa.
From TT Require Import Base.Prelude Gen.VttTables Model.VttTokenizer Model.VttReader.
From TT Require Spec.VttSpec Model.VttCases.
Local Open Scope Z_scope.

Lemma region_eqb_true a b : region_eqb a b = true <->
  r_wm a = r_wm b /\ (r_ew a == r_ew b)%Q /\ (r_eh a == r_eh b)%Q /\ (r_ox a == r_ox b)%Q /\ (r_oy a == r_oy b)%Q /\
  r_ta a = r_ta b /\ r_da a = r_da b.
Proof.
  unfold region_eqb. rewrite !andb_true_iff, !Qeq_bool_iff.
  assert (W : forall x y, wmode_eqb x y = true <-> x = y) by (intros [] []; cbn; split; congruence).
  assert (T : forall x y, talign_eqb x y = true <-> x = y) by (intros [] []; cbn; split; congruence).
  assert (D : forall x y, dalign_eqb x y = true <-> x = y) by (intros [] []; cbn; split; congruence).
  rewrite W, T, D. tauto.
Qed.
Lemma region_eqb_refl r : region_eqb r r = true.
Proof. apply region_eqb_true. repeat split; reflexivity. Qed.

Lemma find_app_some : forall rs r i k ext, find_region r i rs = Some k -> find_region r i (rs ++ ext) = Some k.
Proof.
  induction rs as [|x rs IH]; intros r i k ext H; cbn in *; [discriminate|].
  destruct (region_eqb x r); [exact H|apply IH; exact H].
Qed.
Lemma find_app_none : forall rs r i ext, find_region r i rs = None ->
  find_region r i (rs ++ r :: ext) = Some (i + Z.of_nat (length rs)).
Proof.
  induction rs as [|x rs IH]; intros r i ext H; cbn [app find_region length] in *.
  - rewrite region_eqb_refl. f_equal. cbn. lia.
  - destruct (region_eqb x r); [discriminate|]. rewrite IH by exact H. f_equal. lia.
Qed.

Lemma find_some_nth : forall rs r j k, find_region r j rs = Some k ->
  j <= k /\ exists x, nth_error rs (Z.to_nat (k - j)) = Some x /\ region_eqb x r = true.
Proof.
  induction rs as [|x rs IH]; intros r j k H; cbn in H; [discriminate|].
  destruct (region_eqb x r) eqn:E.
  - inversion H; subst. split; [lia|]. exists x. rewrite Z.sub_diag. split; [reflexivity|exact E].
  - destruct (IH _ _ _ H) as (Hle & y & Hn & Hr). split; [lia|]. exists y. split; [|exact Hr].
    replace (Z.to_nat (k - j)) with (S (Z.to_nat (k - (j + 1)))) by lia. exact Hn.
Qed.

Lemma region_eqb_sym a b : region_eqb a b = true -> region_eqb b a = true.
Proof.
  rewrite !region_eqb_true. intros (A & B & C & D & E & F & G).
  repeat split; try (symmetry; assumption).
Qed.
Lemma region_eqb_trans a b c : region_eqb a b = true -> region_eqb b c = true -> region_eqb a c = true.
Proof.
  rewrite !region_eqb_true. intros (A & B & C & D & E & F & G) (A' & B' & C' & D' & E' & F' & G').
  repeat split; try congruence; etransitivity; eassumption.
Qed.

(* the regions of a document, cue after cue (file order), and the region index each cue receives *)
Fixpoint assign (rs : list region) (ls : list (list text)) : list region * list Z :=
  match ls with
  | [] => (rs, [])
  | l :: ls' =>
    let '(rs1, i) := get_or_make_region rs l in
    let '(rs2, ids) := assign rs1 ls' in (rs2, i :: ids)
  end.

Fixpoint distinct (rs : list region) : Prop :=
  match rs with [] => True | r :: t => Forall (fun x => region_eqb r x = false) t /\ distinct t end.

Lemma find_none_forall : forall rs r i, find_region r i rs = None -> Forall (fun x => region_eqb x r = false) rs.
Proof.
  induction rs as [|x rs IH]; intros r i H; [constructor|]. cbn in H.
  destruct (region_eqb x r) eqn:E; [discriminate|]. constructor; [exact E|eapply IH; exact H].
Qed.
Lemma distinct_snoc : forall rs r, distinct rs -> Forall (fun x => region_eqb x r = false) rs -> distinct (rs ++ [r]).
Proof.
  induction rs as [|x rs IH]; intros r D F; cbn; [split; constructor|].
  destruct D as [Dx Dt]. inversion F as [|? ? Fx Ft]; subst. split.
  - apply Forall_app. split; [exact Dx|constructor; [exact Fx|constructor]].
  - apply IH; assumption.
Qed.
Lemma distinct_nth : forall rs i j x y, distinct rs -> (i < j)%nat ->
  nth_error rs i = Some x -> nth_error rs j = Some y -> region_eqb x y = false.
Proof.
  induction rs as [|r rs IH]; intros i j x y D Hij Hi Hj; [destruct i; discriminate|].
  destruct D as [Dr Dt]. destruct j as [|j]; [lia|]. cbn in Hj. destruct i as [|i].
  - cbn in Hi. inversion Hi; subst. rewrite Forall_forall in Dr. apply Dr. eapply nth_error_In. exact Hj.
  - cbn in Hi. eapply IH; [exact Dt| |exact Hi|exact Hj]. lia.
Qed.

(* what get_or_make_region returns: the regions grow at the end, index i designates the computed region and the same
   settings find it again whatever is appended; indices are not negative; no region value is stored twice *)
Lemma get_or_make_spec rs l rs1 i : get_or_make_region rs l = (rs1, i) ->
  ((exists added, rs1 = rs ++ added) /\
   (exists r, nth_error rs1 (Z.to_nat i) = Some r /\ region_eqb r (compute_region l) = true) /\
   forall ext, get_or_make_region (rs1 ++ ext) l = (rs1 ++ ext, i)) /\
  0 <= i /\ (distinct rs -> distinct rs1).
Proof.
  unfold get_or_make_region.
  destruct (find_region (compute_region l) 0 rs) as [k|] eqn:F; intros E; inversion E; subst; clear E.
  - destruct (find_some_nth _ _ _ _ F) as (Hk & x & Hn & Hx). rewrite Z.sub_0_r in Hn.
    split; [|split; [exact Hk|trivial]]. split; [exists []; rewrite app_nil_r; reflexivity|].
    split; [exists x; split; assumption|]. intros ext. rewrite (find_app_some _ _ _ _ ext F). reflexivity.
  - split; [|split; [lia|intros D; apply distinct_snoc; [exact D|eapply find_none_forall; exact F]]].
    split; [exists [compute_region l]; reflexivity|]. split.
    + exists (compute_region l). rewrite Nat2Z.id. split; [|apply region_eqb_refl].
      rewrite nth_error_app2 by lia. rewrite Nat.sub_diag. reflexivity.
    + intros ext. rewrite <- app_assoc. cbn [app]. rewrite (find_app_none _ _ _ ext F). reflexivity.
Qed.
Theorem region_sharing : forall rs l rs1 i, get_or_make_region rs l = (rs1, i) ->
  (exists added, rs1 = rs ++ added) /\
  (exists r, nth_error rs1 (Z.to_nat i) = Some r /\ region_eqb r (compute_region l) = true) /\
  forall ext, get_or_make_region (rs1 ++ ext) l = (rs1 ++ ext, i).
Proof. intros rs l rs1 i E. apply (get_or_make_spec rs l rs1 i E). Qed.

Lemma assign_spec : forall ls rs rs' ids, distinct rs -> assign rs ls = (rs', ids) ->
  distinct rs' /\ (exists added, rs' = rs ++ added) /\
  forall a la ia, nth_error ls a = Some la -> nth_error ids a = Some ia ->
    0 <= ia /\ exists r, nth_error rs' (Z.to_nat ia) = Some r /\ region_eqb r (compute_region la) = true.
Proof.
  induction ls as [|l ls IH]; intros rs rs' ids D E; cbn [assign] in E.
  - inversion E; subst. split; [exact D|]. split; [exists []; rewrite app_nil_r; reflexivity|].
    intros a la ia H. destruct a; discriminate.
  - destruct (get_or_make_region rs l) as [rs1 i] eqn:G.
    destruct (assign rs1 ls) as [rs2 ids2] eqn:A. inversion E; subst; clear E.
    destruct (get_or_make_spec _ _ _ _ G) as (((ad1 & ->) & (r & Hr & Hrc) & _) & Hi & D1). specialize (D1 D).
    destruct (IH _ _ _ D1 A) as (D2 & (ad2 & ->) & Hall).
    split; [exact D2|]. split; [exists (ad1 ++ ad2); rewrite app_assoc; reflexivity|].
    intros a la ia Hl Hid. destruct a as [|a]; cbn in Hl, Hid.
    + inversion Hl; inversion Hid; subst. split; [exact Hi|]. exists r. split; [|exact Hrc].
      rewrite nth_error_app1; [exact Hr|]. apply nth_error_Some. rewrite Hr. discriminate.
    + exact (Hall _ _ _ Hl Hid).
Qed.

(* two cues of one file get the same region if and only if their settings compute the same region value *)
Theorem region_sharing_iff : forall ls rs ids a b la lb ia ib, assign [] ls = (rs, ids) ->
  nth_error ls a = Some la -> nth_error ls b = Some lb ->
  nth_error ids a = Some ia -> nth_error ids b = Some ib ->
  (ia = ib <-> region_eqb (compute_region la) (compute_region lb) = true).
Proof.
  intros ls rs ids a b la lb ia ib A Hla Hlb Hia Hib.
  destruct (assign_spec ls [] rs ids I A) as (D & _ & Hall).
  destruct (Hall _ _ _ Hla Hia) as (Ha0 & ra & Hra & Ea).
  destruct (Hall _ _ _ Hlb Hib) as (Hb0 & rb & Hrb & Eb).
  split.
  - intros ->. rewrite Hra in Hrb. inversion Hrb; subst.
    eapply region_eqb_trans; [apply region_eqb_sym; exact Ea|exact Eb].
  - intros Hab.
    assert (Hrr : region_eqb ra rb = true).
    { eapply region_eqb_trans; [exact Ea|]. eapply region_eqb_trans; [exact Hab|apply region_eqb_sym; exact Eb]. }
    destruct (Z.lt_trichotomy ia ib) as [Hlt|[Heq|Hgt]]; [|exact Heq|].
    + rewrite (distinct_nth rs (Z.to_nat ia) (Z.to_nat ib) ra rb D) in Hrr; [discriminate|lia|exact Hra|exact Hrb].
    + apply region_eqb_sym in Hrr.
      rewrite (distinct_nth rs (Z.to_nat ib) (Z.to_nat ia) rb ra D) in Hrr; [discriminate|lia|exact Hrb|exact Hra].
Qed.

Local Open Scope Q_scope.
Definition inside_root (r : region) : Prop :=
  0 <= r_ew r /\ 0 <= r_eh r /\ 0 <= r_ox r /\ 0 <= r_oy r /\ r_ox r + r_ew r <= 100 /\ r_oy r + r_eh r <= 100.
Local Open Scope Z_scope.

Lemma take_while_forall p s : Forall (fun c => p c = true) (take_while p s).
Proof. induction s as [|c s IH]; cbn; [constructor|]. destruct (p c) eqn:E; constructor; assumption. Qed.
Lemma dec_fold_nonneg : forall ds a, Forall (fun c => is_digit c = true) ds -> 0 <= a ->
  0 <= fold_left (fun a c => a * 10 + (c - 48)) ds a.
Proof.
  induction ds as [|c ds IH]; intros a H Ha; cbn; [exact Ha|].
  inversion H as [|? ? Hc Hd]; subst. apply IH; [exact Hd|]. unfold is_digit in Hc. lia.
Qed.
Lemma parse_pct_bounds v p : parse_vtt_pct v = Some p -> 0 <= p <= 100.
Proof.
  unfold parse_vtt_pct.
  destruct (is_nil (take_while is_digit v)); [discriminate|].
  set (r2 := match drop_while is_digit v with 46 :: r => r | _ => drop_while is_digit v end).
  destruct (text_eqb (drop_while is_digit r2) [37]); [|discriminate].
  cbv zeta.
  set (pct := round_he _ _).
  assert (Hp : 0 <= pct).
  { apply round_he_nonneg.
    - apply dec_fold_nonneg; [apply Forall_app; split; apply take_while_forall|lia].
    - apply Z.pow_pos_nonneg; lia. }
  destruct (pct <=? 100) eqn:E; [|discriminate]. intros H; inversion H; subst. lia.
Qed.

Local Open Scope Q_scope.
Lemma qz_bounds p : (0 <= p <= 100)%Z -> 0 <= qz p /\ qz p <= 100.
Proof.
  intros [A B]. unfold qz. split; [change 0 with (inject_Z 0)|change 100 with (inject_Z 100)]; rewrite <- Zle_Qle; assumption.
Qed.
Lemma clamp100_bounds x : 0 <= clamp100 x /\ clamp100 x <= 100.
Proof.
  unfold clamp100. split.
  - apply Q.min_glb; [apply Q.le_max_r|unfold Qle; vm_compute; discriminate].
  - apply Q.le_min_r.
Qed.
Lemma offset_bounds wm v0 lo : line_offset_of wm v0 = Some lo -> 0 <= lo /\ lo <= 100.
Proof.
  unfold line_offset_of.
  destruct (parse_vtt_pct v0) as [p|] eqn:P.
  - intros E. inversion E; subst. apply qz_bounds. eapply parse_pct_bounds. exact P.
  - destruct (parse_vtt_int v0) as [n|]; [|discriminate]. cbv zeta. intros E. inversion E; subst. apply clamp100_bounds.
Qed.

Lemma default_bounds :
  0 <= default_ew /\ 0 <= default_eh /\ 0 <= default_ox /\ default_ox <= 100 /\ 0 <= default_oy /\ default_oy <= 100.
Proof. repeat split; unfold Qle; vm_compute; discriminate. Qed.

(* what holds before the final limit: extents non-negative, origin inside the root container *)
Definition pre_box (eh ew ox oy : Q) : Prop := 0 <= eh /\ 0 <= ew /\ 0 <= ox /\ ox <= 100 /\ 0 <= oy /\ oy <= 100.

Lemma stage_size_bounds cs wm eh ew : stage_size cs wm = (eh, ew) -> 0 <= eh /\ 0 <= ew.
Proof.
  destruct default_bounds as (D1 & D2 & _).
  unfold stage_size. destruct (setting s_size cs) as [v|]; [|intros E; inversion E; subst; split; assumption].
  destruct (parse_vtt_pct v) as [p|] eqn:P; [|intros E; inversion E; subst; split; assumption].
  destruct (qz_bounds p (parse_pct_bounds _ _ P)) as [Q0 _].
  destruct (negb (horizontal wm)); intros E; inversion E; subst; split; assumption.
Qed.

Lemma half x : x / 2 == x * (1 # 2).
Proof. reflexivity. Qed.

(* one axis of the box: an extent and an origin computed from the line offset, for each line alignment … *)
Lemma line_axis lo : 0 <= lo -> lo <= 100 ->
  (0 <= Qmin lo (100 - lo) * 2 /\ 0 <= lo - Qmin lo (100 - lo) * 2 / 2 /\ lo - Qmin lo (100 - lo) * 2 / 2 <= 100) /\
  0 <= 100 - lo /\ 0 <= 0 /\ 0 <= 100.
Proof.
  intros L0 L1. pose proof (Q.le_min_l lo (100 - lo)) as M1. pose proof (Q.le_min_r lo (100 - lo)) as M2.
  assert (M0 : 0 <= Qmin lo (100 - lo)) by (apply Q.min_glb; lra).
  set (mn := Qmin lo (100 - lo)) in *. clearbody mn. rewrite half. repeat split; lra.
Qed.
(* … and from the position, for each position alignment: the extent is first limited by the room the position leaves *)
Lemma position_axis pos e0 : 0 <= pos -> pos <= 100 -> 0 <= e0 ->
  (0 <= Qmin e0 (2 * Qmin pos (100 - pos)) /\ 0 <= pos - Qmin e0 (2 * Qmin pos (100 - pos)) / 2 /\
   pos - Qmin e0 (2 * Qmin pos (100 - pos)) / 2 <= 100) /\
  0 <= Qmin e0 (100 - pos) /\
  (0 <= Qmin e0 pos /\ 0 <= pos - Qmin e0 pos /\ pos - Qmin e0 pos <= 100).
Proof.
  intros P0 P1 E0. pose proof (Q.le_min_l pos (100 - pos)) as M1. pose proof (Q.le_min_r pos (100 - pos)) as M2.
  assert (M0 : 0 <= Qmin pos (100 - pos)) by (apply Q.min_glb; lra).
  set (mn := Qmin pos (100 - pos)) in *. clearbody mn.
  pose proof (Q.le_min_r e0 (2 * mn)) as A1. assert (A0 : 0 <= Qmin e0 (2 * mn)) by (apply Q.min_glb; lra).
  set (a := Qmin e0 (2 * mn)) in *. clearbody a.
  pose proof (Q.le_min_r e0 pos) as C1. assert (C0 : 0 <= Qmin e0 pos) by (apply Q.min_glb; lra).
  set (c := Qmin e0 pos) in *. clearbody c.
  rewrite half. repeat split; try lra. apply Q.min_glb; lra.
Qed.

Definition box_ok (t : Q * Q * Q * Q) : Prop := let '(eh, ew, ox, oy) := t in pre_box eh ew ox oy.

Lemma stage_line_bounds cs wm eh0 ew0 : 0 <= eh0 -> 0 <= ew0 -> box_ok (fst (stage_line cs wm eh0 ew0)).
Proof.
  intros H0 W0. destruct default_bounds as (_ & _ & D3 & D4 & D5 & D6).
  unfold stage_line.
  destruct (setting s_line cs) as [v|]; [|repeat split; assumption].
  cbv zeta.
  set (value := split_on 44 v).
  set (la := if (1 <? length value)%nat then nth_text 1 value else s_start).
  destruct (line_offset_of wm (nth_text 0 value)) as [lo|] eqn:L; [|repeat split; assumption].
  destruct (offset_bounds _ _ _ L) as [L0 L100]. destruct (line_axis lo L0 L100) as ((C1 & C2 & C3) & S1 & Z0 & Z1).
  destruct (text_eqb la s_center); [|destruct (text_eqb la s_start); [|destruct (text_eqb la s_end)]];
    destruct (horizontal wm); repeat split; assumption.
Qed.

Lemma stage_position_bounds cs wm ta eh0 ew0 ox0 oy0 : pre_box eh0 ew0 ox0 oy0 ->
  box_ok (stage_position cs wm ta eh0 ew0 ox0 oy0).
Proof.
  intros B. pose proof B as (H0 & W0 & X0 & X1 & Y0 & Y1). unfold stage_position. cbv zeta.
  destruct (setting s_position cs) as [v|]; [|exact B].
  set (value := split_on 44 v).
  match goal with |- context [text_eqb ?x s_center] => set (la := x); clearbody la end.
  destruct (parse_vtt_pct (nth_text 0 value)) as [p|] eqn:P; [|exact B].
  destruct (qz_bounds p (parse_pct_bounds _ _ P)) as [P0 P100].
  destruct (position_axis (qz p) ew0 P0 P100 W0) as ((A1 & A2 & A3) & A4 & A5 & A6 & A7).
  destruct (position_axis (qz p) eh0 P0 P100 H0) as ((B1 & B2 & B3) & B4 & B5 & B6 & B7).
  destruct (text_eqb la s_center); [|destruct (text_eqb la s_line_left)];
    destruct (horizontal wm); repeat split; assumption.
Qed.

(* the region selected by ANY list of setting strings lies inside the root container with non-negative extent *)
Theorem region_inside cs : inside_root (compute_region cs).
Proof.
  unfold compute_region.
  destruct (stage_size cs (stage_vertical cs)) as [eh0 ew0] eqn:E0.
  destruct (stage_size_bounds _ _ _ _ E0) as [A0 A1].
  pose proof (stage_line_bounds cs (stage_vertical cs) eh0 ew0 A0 A1) as B1.
  destruct (stage_line cs (stage_vertical cs) eh0 ew0) as [[[[eh1 ew1] ox1] oy1] da].
  pose proof (stage_position_bounds cs (stage_vertical cs) (stage_align cs (stage_vertical cs)) eh1 ew1 ox1 oy1 B1) as B2.
  destruct (stage_position cs (stage_vertical cs) (stage_align cs (stage_vertical cs)) eh1 ew1 ox1 oy1) as [[[eh ew] ox] oy].
  destruct B2 as (H0 & W0 & X0 & X1 & Y0 & Y1).
  unfold inside_root. cbn [r_ew r_eh r_ox r_oy].
  pose proof (Q.le_min_r ew (100 - ox)) as N1. pose proof (Q.le_min_r eh (100 - oy)) as N2.
  assert (N3 : 0 <= Qmin ew (100 - ox)) by (apply Q.min_glb; lra).
  assert (N4 : 0 <= Qmin eh (100 - oy)) by (apply Q.min_glb; lra).
  repeat split; try assumption; lra.
Qed.

(* executable form, for the case files and examples *)
Definition inside_root_b (r : region) : bool :=
  Qle_bool 0 (r_ew r) && Qle_bool 0 (r_eh r) && Qle_bool 0 (r_ox r) && Qle_bool 0 (r_oy r) &&
  Qle_bool (r_ox r + r_ew r) 100 && Qle_bool (r_oy r + r_eh r) 100.
Lemma inside_root_b_spec r : inside_root r -> inside_root_b r = true.
Proof.
  unfold inside_root, inside_root_b. intros (A & B & C & D & E & F).
  rewrite <- Qle_bool_iff in A, B, C, D, E, F. rewrite A, B, C, D, E, F. reflexivity.
Qed.

(* the same in the words of the specification: S's containment clause (Spec.VttSpec.region_inside, the clause the
   check evaluates on the code's regions as clause 20) accepts the region of every list of setting strings *)
Theorem region_inside_spec cs : VttSpec.region_inside (VttCases.view_region (compute_region cs)) = true.
Proof.
  destruct (region_inside cs) as (A & B & C & D & E & F).
  assert (L : forall a b, (a <= b)%Q -> VttSpec.qle a b = true).
  { intros a b H. unfold VttSpec.qle. apply Qle_bool_iff. unfold VttSpec.eps.
    assert (0 <= 1 # 1000000)%Q by (unfold Qle; cbn; lia). lra. }
  unfold VttSpec.region_inside, VttCases.view_region. cbn [VttSpec.rv_w VttSpec.rv_h VttSpec.rv_x VttSpec.rv_y].
  rewrite !L by assumption. reflexivity.
Qed.
