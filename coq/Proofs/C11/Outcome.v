(* C11: which exceptions the WebVTT reader can raise.  An end tag closes only what it names, so the
   parent never leaves the paragraph, and ruby_rbc / ruby_rtc are set exactly while a Ruby element is open; for EVERY
   cue text the only exceptions of _parse_cue_text are the TypeError / RuntimeError of push_child (recorded finding
   ruby-structure), and for EVERY file text these are the only exceptions of to_model: AttributeError,
   UnboundLocalError and ValueError cannot occur (their constructors are in the type so that the check can
   name what the code raised). *)
From Coq Require Import QArith.
From TT Require Import Base.Prelude Gen.VttTables Model.VttTokenizer Model.VttReader.
Local Open Scope Z_scope.

Definition push_exn (e : exn) : Prop := e = ExType \/ e = ExRuntime.

Fixpoint nruby (st : list frame) : nat :=
  match st with [] => O | FRuby _ _ _ :: st' => S (nruby st') | FNode _ _ _ _ :: st' => nruby st' end.
(* ruby_rbc / ruby_rtc are set iff a Ruby is open, and at most one is *)
Definition inv (s : pstate) : Prop := nruby (p_stack s) = if p_ruby s then 1%nat else 0%nat.

Lemma attach_nruby e r st : nruby (snd (attach e r st)) = nruby st.
Proof. destruct st as [|[tg k a d|tg b t] st]; reflexivity. Qed.
Lemma fill_rt_nruby e : forall st, nruby (fill_rt e st) = nruby st.
Proof. induction st as [|[tg k a d|tg b t] st IH]; cbn [fill_rt nruby]; [reflexivity|exact IH|reflexivity]. Qed.
Lemma attach_closed_nruby f r st : nruby (snd (attach_closed f r st)) = nruby st.
Proof.
  destruct f as [tg [| |] a d|tg b t]; unfold attach_closed; try apply attach_nruby. cbn [snd]. apply fill_rt_nruby.
Qed.
Lemma add_rt_slot_some : forall st, (0 < nruby st)%nat -> exists st', add_rt_slot st = Some st' /\ nruby st' = nruby st.
Proof.
  induction st as [|[tg k a d|tg b t] st IH]; cbn [nruby add_rt_slot]; intros H; [lia| |eexists; split; reflexivity].
  destruct (IH H) as (st' & E & N). rewrite E. eexists; split; [reflexivity|]. cbn [nruby]. exact N.
Qed.

Lemma pop_inv s : inv s -> inv (pop s).
Proof.
  unfold inv, pop. destruct s as [r st rb bg]. cbn [p_stack p_ruby p_root p_begin].
  destruct st as [|f st]; [auto|]. intros H.
  pose proof (attach_closed_nruby f r st) as N. destruct (attach_closed f r st) as [r' st']. cbn [snd] in N.
  cbn [p_stack p_ruby]. rewrite N. destruct f as [tg k a d|tg b t]; cbn [nruby] in H; [exact H|].
  destruct rb; lia.
Qed.
Lemma handle_end_inv tag s : inv s -> inv (handle_end tag s).
Proof.
  intros H. unfold handle_end. destruct (p_stack s) as [|f st]; [exact H|].
  destruct (text_eqb (frame_tag f) (lower tag)); [apply pop_inv; exact H|].
  destruct f as [tg [| |] a d|tg b t]; try exact H.
  destruct st as [|[tg2 k2 a2 d2|tg2 b2 t2] st]; try exact H.
  destruct (text_eqb tg2 (lower tag)); [apply pop_inv, pop_inv; exact H|exact H].
Qed.
Lemma add_leaf_inv e s : inv s -> inv (add_leaf e s).
Proof.
  unfold inv, add_leaf. destruct s as [r st rb bg]. cbn [p_stack p_ruby p_root p_begin]. intros H.
  pose proof (attach_nruby e r st) as N. destruct (attach e r st) as [r' st']. cbn [snd] in N. cbn [p_stack p_ruby]. rewrite N. exact H.
Qed.
Lemma push_check_exn s c e : push_check s c = Some e -> push_exn e.
Proof.
  unfold push_check, push_exn. destruct (p_stack s) as [|[tg [| |] a d|tg b t] st]; destruct c; intros E; inversion E; auto.
Qed.

Definition ok_res (r : pstate + exn) : Prop := match r with inl s => inv s | inr e => push_exn e end.
Lemma ok_res_bind r (f : pstate -> pstate + exn) : ok_res r -> (forall s, inv s -> ok_res (f s)) ->
  ok_res (match r with inl s => f s | inr e => inr e end).
Proof. destruct r as [s|e]; intros H Hf; [apply Hf; exact H|exact H]. Qed.
Lemma push_leaf_ok c x s : inv s -> ok_res (match push_check s c with Some e => inr e | None => inl (add_leaf x s) end).
Proof. intros H. destruct (push_check s c) eqn:Pc; [eapply push_check_exn; exact Pc|apply add_leaf_inv; exact H]. Qed.

Lemma handle_start_ok tag cls an s : inv s -> ok_res (handle_start tag cls an s).
Proof.
  intros H. unfold handle_start.
  destruct (starts_with s_ruby (lower tag)).
  - destruct (p_ruby s) eqn:Rb; [right; reflexivity|].
    destruct (push_check s CRuby) eqn:Pc; [eapply push_check_exn; exact Pc|].
    unfold ok_res, inv in *. cbn [p_stack p_ruby nruby]. rewrite Rb in H. rewrite H. reflexivity.
  - destruct (starts_with s_rt (lower tag) && p_ruby s) eqn:C.
    + apply andb_true_iff in C as [_ Rb]. unfold inv in H. rewrite Rb in H.
      destruct (add_rt_slot_some (p_stack s)) as (st' & E & N); [lia|]. rewrite E.
      unfold ok_res, inv. cbn [p_stack p_ruby nruby]. rewrite N, Rb. exact H.
    + destruct (push_check s CSpan) eqn:Pc; [eapply push_check_exn; exact Pc|]. exact H.
Qed.
Lemma push_text_line_ok l s : inv s -> ok_res (push_text_line l s).
Proof.
  intros H. unfold push_text_line.
  destruct (p_stack s) as [|[tg k a d|tg b t] st] eqn:Es; [apply push_leaf_ok; exact H..|].
  unfold inv in H. rewrite Es in H. cbn [nruby] in H. destruct (p_ruby s) eqn:Rb; [|lia].
  unfold ok_res, inv. cbn [p_stack p_ruby nruby]. exact H.
Qed.
Lemma push_text_lines_ok : forall ls first s, inv s -> ok_res (push_text_lines first ls s).
Proof.
  induction ls as [|l ls IH]; intros first s H; [exact H|]. cbn [push_text_lines].
  apply ok_res_bind; [destruct first; [exact H|apply push_leaf_ok; exact H]|]. intros s1 H1.
  apply ok_res_bind; [apply push_text_line_ok; exact H1|]. intros s2 H2. apply IH. exact H2.
Qed.
Lemma handle_token_ok pb t s : inv s -> ok_res (handle_token pb t s).
Proof.
  intros H. destruct t as [v|tag cls an|tag|ts]; cbn [handle_token].
  - apply push_text_lines_ok. exact H.
  - apply handle_start_ok. exact H.
  - apply handle_end_inv. exact H.
  - unfold handle_ts. destruct (vtt_timestamp_to_secs ts); [|exact H]. destruct (Qle_bool pb q); exact H.
Qed.
Lemma handle_tokens_ok pb : forall ts s, inv s -> ok_res (handle_tokens pb ts s).
Proof.
  induction ts as [|t ts IH]; intros s H; [exact H|]. cbn [handle_tokens].
  apply ok_res_bind; [apply handle_token_ok; exact H|exact (IH)].
Qed.

(* every cue text: _parse_cue_text returns the children of the paragraph or raises TypeError / RuntimeError *)
Theorem cue_text_exceptions pb txt e : parse_cue_text pb txt = inr e -> e = ExType \/ e = ExRuntime.
Proof.
  unfold parse_cue_text. intros E.
  pose proof (handle_tokens_ok pb (tokenize txt) (mkP [] [] false None) eq_refl) as H.
  destruct (handle_tokens pb (tokenize txt) (mkP [] [] false None)) as [s|e']; [discriminate|]. inversion E; subst. exact H.
Qed.

Definition good_r (s : rstate) : Prop :=
  match rs_state s with LText | LTextMore => rs_text s <> None /\ rs_cur s <> None | _ => True end.
Lemma looking_good l s : rs_state s = LLooking -> good_r (looking l s).
Proof.
  intros St. unfold looking.
  assert (G : good_r s) by (unfold good_r; rewrite St; exact I).
  destruct (is_blank l); [exact G|]. destruct (starts_with s_NOTE_ l); [exact I|]. destruct (starts_with s_STYLE l); [exact I|].
  destruct (negb (contains s_arrow l)); [exact G|]. destruct (length (split_ws l) <? 3)%nat; [exact G|].
  destruct (vtt_timestamp_to_secs (nth_text 0 (split_ws l))); [|exact G].
  destruct (vtt_timestamp_to_secs (nth_text 2 (split_ws l))); [|exact G].
  destruct (get_or_make_region (rs_regions s) (skipn 3 (split_ws l))) as [rg ri].
  unfold good_r. cbn [rs_state rs_text rs_cur]. split; discriminate.
Qed.
Theorem run_lines_exceptions : forall items s e, good_r s -> run_lines items s = Raised e -> e = ExType \/ e = ExRuntime.
Proof.
  induction items as [|line rest IH]; intros s e G; [discriminate|]. cbn [run_lines].
  destruct (rs_state s) eqn:St.
  1: destruct line; [|discriminate]; apply IH; exact I.
  1: destruct line as [l|]; [|discriminate]; apply IH; apply looking_good; exact St.
  (* LText, LTextMore: the text and the paragraph are there; an exception can only come from the cue text *)
  1-2: unfold good_r in G; rewrite St in G; destruct G as [Gt Gc];
    destruct (match line with None => true | Some l => is_blank l end);
    [destruct (rs_text s) as [t|]; [|congruence]; destruct (rs_cur s) as [p|]; [|congruence];
     destruct (parse_cue_text (pa_begin p) (replace_raw (strip_crlf t))) as [cs|e'] eqn:Ep;
     [apply IH; exact I|intros E; inversion E; subst; eapply cue_text_exceptions; exact Ep]
    |destruct (rs_cur s) as [p|] eqn:Ec; [|congruence]; apply IH;
     unfold good_r; cbn [rs_state rs_text rs_cur]; split; discriminate].
  (* LNote, LStyle *)
  all: destruct line as [l|]; [|discriminate]; destruct (is_blank l); apply IH; [exact I|exact G].
Qed.
(* every file text: to_model returns a document or raises TypeError / RuntimeError *)
Theorem to_model_exceptions file e : to_model file = Raised e -> e = ExType \/ e = ExRuntime.
Proof. unfold to_model. apply run_lines_exceptions. exact I. Qed.

(* S on M: a cue text with an end tag that has nothing to close, a ruby whose last </rt> is omitted, a stray </ruby>,
   an unclosed b element holding an i element with a misnested </b>: the specification (Spec/VttSpec.v, every clause of
   the judge the check applies to the code) accepts what the model reads.
   </b><ruby>a<rt>b</ruby>c</ruby><b><i>x</b>y</i>z *)
From TT Require Import Spec.VttSpec Model.VttCases.
Definition unmatched_example : vfile :=
  mkFile [] [BCue (mkCue None (mkTs None 0 1 0) (mkTs None 0 9 0) []
                         [CEnd [98]; CRubyOmit [([CText [97]], [CText [98]])]; CText [99]; CEnd [114;117;98;121];
                          COpen TgB [CTag TgI [CText [120]; CEnd [98]; CText [121]]; CText [122]]])].
Lemma unmatched_example_judged :
  cue_text_valid (c_payload (match f_blocks unmatched_example with BCue c :: _ => c | _ => mkCue None (mkTs None 0 0 0) (mkTs None 0 0 0) [] [] end)) = true /\
  judge unmatched_example (print_file unmatched_example) (to_model (print_file unmatched_example)) = [].
Proof. split; vm_compute; reflexivity. Qed.
