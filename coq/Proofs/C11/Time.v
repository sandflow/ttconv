(* C11: timestamps are read exactly.  For every well-formed timestamp (hours optional, any number >= 2 of hour
   digits) the reader's vtt_timestamp_to_secs returns exactly value/1000 as a rational - no rounding. *)
From Coq Require Import QArith.
From TT Require Import Base.Prelude Gen.VttTables Model.VttTokenizer Model.VttReader Spec.VttSpec.
Local Open Scope Z_scope.

Lemma split_aux_acc : forall sep t cur rest, Forall (fun c => c <> sep) t ->
  split_on_aux sep cur (t ++ rest) = split_on_aux sep (cur ++ t) rest.
Proof.
  induction t as [|c t IH]; intros cur rest H.
  - rewrite app_nil_r. reflexivity.
  - inversion H; subst. cbn [app split_on_aux]. replace (c =? sep) with false by lia.
    rewrite IH by assumption. rewrite <- app_assoc. reflexivity.
Qed.
Lemma split_aux_sep sep cur rest : split_on_aux sep cur (sep :: rest) = cur :: split_on_aux sep [] rest.
Proof. cbn. rewrite Z.eqb_refl. reflexivity. Qed.
Lemma split_aux_end : forall sep t cur, Forall (fun c => c <> sep) t -> split_on_aux sep cur t = [cur ++ t].
Proof.
  intros sep t cur H. rewrite <- (app_nil_r t) at 1. rewrite split_aux_acc by assumption. reflexivity.
Qed.

Definition dig (c : Z) : Prop := 48 <= c <= 57.
Lemma dig_is_digit c : dig c -> is_digit c = true. Proof. unfold dig, is_digit. lia. Qed.
Lemma forall_dig_all_digits l : Forall dig l -> all_digits l = true.
Proof. induction 1; cbn; [reflexivity|]. rewrite dig_is_digit by assumption. assumption. Qed.
Lemma forall_dig_ne l x : (x < 48 \/ 57 < x) -> Forall dig l -> Forall (fun c => c <> x) l.
Proof. intros Hx H. induction H; constructor; [unfold dig in *; lia|assumption]. Qed.

Lemma pad2_dig n : 0 <= n < 100 -> Forall dig (pad2 n).
Proof. intros. unfold pad2, dig. repeat constructor; lia. Qed.
Lemma pad3_dig n : 0 <= n < 1000 -> Forall dig (pad3 n).
Proof. intros. unfold pad3, dig. repeat constructor; lia. Qed.
Lemma pad2_value n : 0 <= n < 100 -> dec_value (pad2 n) = n.
Proof. intros. unfold pad2, dec_value. cbn [fold_left]. lia. Qed.
Lemma pad3_value n : 0 <= n < 1000 -> dec_value (pad3 n) = n.
Proof. intros. unfold pad3, dec_value. cbn [fold_left]. lia. Qed.

Lemma two_digits_pad2 n : 0 <= n < 100 -> two_digits (pad2 n) = true.
Proof. intros. unfold two_digits. rewrite (forall_dig_all_digits (pad2 n)) by (apply pad2_dig; lia). reflexivity. Qed.
Lemma hours_fold : forall hd a, fold_left (fun a c => a * 10 + (c - 48)) (map (fun d => 48 + d) hd) a
                               = a * 10 ^ Z.of_nat (length hd) + digits_value hd.
Proof.
  induction hd as [|d hd IH]; intros a.
  - cbn. lia.
  - cbn [map fold_left digits_value length]. rewrite IH.
    rewrite Nat2Z.inj_succ, Z.pow_succ_r by lia. lia.
Qed.
Lemma hours_value hd : dec_value (map (fun d => 48 + d) hd) = digits_value hd.
Proof. unfold dec_value. rewrite hours_fold. lia. Qed.
Lemma hours_dig hd : Forall digit_ok hd -> Forall dig (map (fun d => 48 + d) hd).
Proof.
  intros H. induction hd as [|d hd IH]; cbn [map].
  - apply Forall_nil.
  - inversion H; subst. apply Forall_cons; [unfold digit_ok, dig in *; lia|apply IH; assumption].
Qed.

Lemma sec_ms_print s f : 0 <= s < 60 -> 0 <= f < 1000 ->
  sec_ms (pad2 s ++ 46 :: pad3 f) = Some (s, f).
Proof.
  intros Hs Hf. change (pad2 s ++ 46 :: pad3 f) with (pad2 s ++ [46] ++ pad3 f). unfold sec_ms, split_on.
  rewrite split_aux_acc by (apply forall_dig_ne; [lia|apply pad2_dig; lia]).
  cbn [app]. rewrite split_aux_sep.
  rewrite split_aux_end by (apply forall_dig_ne; [lia|apply pad3_dig; lia]).
  cbn [app]. rewrite two_digits_pad2 by lia.
  rewrite (forall_dig_all_digits (pad3 f)) by (apply pad3_dig; lia).
  replace (length (pad3 f) =? 3)%nat with true by reflexivity. cbn [andb].
  rewrite pad2_value, pad3_value by lia. reflexivity.
Qed.

Lemma timestamp_ms_exact t : wf_ts t -> timestamp_ms (print_ts t) = Some (ts_ms t).
Proof.
  destruct t as [h m s f]. unfold wf_ts, print_ts, ts_ms. cbn [ts_hours ts_min ts_sec ts_frac].
  intros (Hh & Hm & Hs & Hf).
  assert (Hrest : Forall (fun c => c <> 58) (pad2 s ++ [46] ++ pad3 f)).
  { apply Forall_app; split; [apply forall_dig_ne; [lia|apply pad2_dig; lia]|].
    constructor; [lia|]. apply forall_dig_ne; [lia|apply pad3_dig; lia]. }
  destruct h as [hd|].
  - destruct Hh as (Hlen & Hd).
    unfold timestamp_ms, split_on. rewrite <- !app_assoc.
    rewrite split_aux_acc by (apply forall_dig_ne; [lia|apply hours_dig; assumption]).
    cbn [app]. rewrite split_aux_sep.
    rewrite split_aux_acc by (apply forall_dig_ne; [lia|apply pad2_dig; lia]).
    cbn [app]. rewrite split_aux_sep.
    rewrite split_aux_end by exact Hrest.
    cbn [app]. rewrite two_digits_pad2 by lia.
    rewrite (forall_dig_all_digits (map _ hd)) by (apply hours_dig; assumption).
    rewrite map_length.
    replace (2 <=? length hd)%nat with true by (symmetry; apply Nat.leb_le; exact Hlen).
    cbn [andb].
    rewrite sec_ms_print by lia. rewrite hours_value, pad2_value by lia. f_equal. lia.
  - unfold timestamp_ms, split_on. cbn [app].
    change (pad2 m ++ 58 :: pad2 s ++ 46 :: pad3 f) with (pad2 m ++ [58] ++ pad2 s ++ [46] ++ pad3 f).
    rewrite split_aux_acc by (apply forall_dig_ne; [lia|apply pad2_dig; lia]).
    cbn [app]. rewrite split_aux_sep.
    change (pad2 s ++ 46 :: pad3 f) with (pad2 s ++ [46] ++ pad3 f).
    rewrite split_aux_end by exact Hrest.
    cbn [app]. rewrite two_digits_pad2 by lia.
    rewrite sec_ms_print by lia. rewrite pad2_value by lia. f_equal; try lia.
Qed.

Theorem exact_time t : wf_ts t -> vtt_timestamp_to_secs (print_ts t) = Some (Qmake (ts_ms t) 1000).
Proof. intros H. unfold vtt_timestamp_to_secs. rewrite timestamp_ms_exact by exact H. reflexivity. Qed.

(* the value is the conventional one: hours*3600 + minutes*60 + seconds + ms/1000 *)
Lemma ts_ms_seconds t :
  (Qmake (ts_ms t) 1000 ==
   inject_Z (match ts_hours t with Some hd => digits_value hd | None => 0 end) * 3600 +
   inject_Z (ts_min t) * 60 + inject_Z (ts_sec t) + Qmake (ts_frac t) 1000)%Q.
Proof.
  unfold ts_ms, Qeq, Qplus, Qmult, inject_Z. cbn [Qnum Qden]. lia.
Qed.

(* well-formedness is decidable; concrete timestamps are checked by evaluation *)
Definition wf_tsb (t : tstamp) : bool :=
  match ts_hours t with Some hd => (2 <=? length hd)%nat && forallb (fun d => (0 <=? d) && (d <=? 9)) hd | None => true end &&
  (0 <=? ts_min t) && (ts_min t <? 60) && (0 <=? ts_sec t) && (ts_sec t <? 60) && (0 <=? ts_frac t) && (ts_frac t <? 1000).
Lemma wf_tsb_ok t : wf_tsb t = true -> wf_ts t.
Proof.
  unfold wf_tsb, wf_ts. intros H. repeat (apply andb_true_iff in H as [H ?]).
  split; [|repeat split; first [apply Z.leb_le; assumption|apply Z.ltb_lt; assumption]].
  destruct (ts_hours t) as [hd|]; [|exact I]. apply andb_true_iff in H as [Hl Hd]. split; [apply Nat.leb_le; exact Hl|].
  apply Forall_forall. intros d Hin. apply (proj1 (forallb_forall _ _) Hd), andb_true_iff in Hin as [D1 D2].
  split; apply Z.leb_le; assumption.
Qed.

Example exact_time_example :
  vtt_timestamp_to_secs (print_ts (mkTs (Some [1;0;2]) 3 4 280)) = Some (Qmake 367384280 1000).
Proof. reflexivity. Qed.
