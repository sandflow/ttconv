(* C15: the calls that change the tree (push_child, remove, remove_child, remove_children, push_children)
   keep the invariant, and a rejected one leaves the heap as it was. *)
From Coq Require Import List Arith Bool Lia.
From TT Require Import Base.HeapTypes Model.Heap Model.HeapRep Spec.ModelWF
  Proofs.C15.HeapLemmas Proofs.C15.Links Proofs.C15.Frames Proofs.C15.LinkOps Proofs.C15.Content Proofs.C15.Users
  Proofs.C15.Fuel.
Import ListNotations.

Lemma map_kind_same h h' cs : same n_kind h h' -> map (fun c => n_kind (nd h' c)) cs = map (fun c => n_kind (nd h c)) cs.
Proof. intro S. apply map_ext. intro; apply S. Qed.

Lemma walk_None' h fuel : walk h fuel None = Some [].
Proof. destruct fuel; reflexivity. Qed.
Lemma kids_no_first' h s : n_first (nd h s) = None -> kids h s = Some [].
Proof. intro E. unfold kids. rewrite E. apply walk_None'. Qed.

Lemma Children_nil_first h s cs : Children h s cs -> (n_first (nd h s) = None <-> cs = []).
Proof. intros (H1 & _). rewrite H1. destruct cs; simpl; split; intros; congruence. Qed.

(* the kinds of the first and last child, as the Rtc guard reads them *)
Lemma okind_first h s cs : Children h s cs -> okind h (n_first (nd h s)) = hd_error (map (fun c => n_kind (nd h c)) cs).
Proof. intros (H1 & _). rewrite H1. destruct cs; reflexivity. Qed.
Lemma last_map {A B} (f : A -> B) (l : list A) d d' : l <> [] -> last (map f l) d' = f (last l d).
Proof.
  induction l as [|x t IH]; [congruence|]. intros _. destruct t as [|y t']; [reflexivity|].
  change (last (map f (x :: y :: t')) d') with (last (map f (y :: t')) d').
  change (last (x :: y :: t') d) with (last (y :: t') d). apply IH. discriminate.
Qed.
Lemma okind_last h s cs : Children h s cs ->
  okind h (n_last (nd h s)) = match map (fun c => n_kind (nd h c)) cs with [] => None | _ :: _ => Some (last (map (fun c => n_kind (nd h c)) cs) KText) end.
Proof.
  intros (_ & H2 & _). rewrite H2. destruct cs as [|x t]; [reflexivity|].
  unfold last_error, okind, option_map, kind_of.
  rewrite <- (last_map (fun c => n_kind (nd h c)) (x :: t) 0 KText) by discriminate. reflexivity.
Qed.

Lemma push_guard_None h s c cs : Children h s cs -> push_guard h s c = None ->
  simple_guard (kind_of h s) (kind_of h c) = true \/
  (kind_of h s = KRtc /\ rtc_guard (map (fun c => n_kind (nd h c)) cs) (kind_of h c) = true).
Proof.
  intros C G. unfold push_guard in G. destruct (kind_of h s) eqn:K; try discriminate G;
    try (left; cbn [simple_guard]; revert G; destruct (kind_in _ _); [reflexivity|discriminate]).
  right. split; [reflexivity|]. unfold rtc_guard. rewrite <- (okind_first _ _ _ C).
  revert G. destruct (okind_is KRp _ || negb _); [discriminate|reflexivity].
Qed.

Lemma push_guard_no_fuel h s c : push_guard h s c <> Some EFuel.
Proof. unfold push_guard. destruct (kind_of h s); try destruct (kind_in _ _); try destruct (_ || _); discriminate. Qed.

Section OneStep.
  Variables (h : heap) (s : nat).
  Hypothesis HW : WF h.
  Hypothesis Hs : s < nnodes h.

  Lemma WF_WFx : WFx h. Proof. apply WF_split in HW. tauto. Qed.
  Lemma WF_content_at : forall p, p < nnodes h -> ContentAt h p. Proof. apply WF_split in HW. tauto. Qed.
  Lemma WF_ContentExcept : ContentExcept h s. Proof. intros p Hp _. apply WF_content_at. exact Hp. Qed.
  Lemma WF_kids : exists cs, Children h s cs. Proof. destruct WF_WFx as (_ & K & _). apply K. exact Hs. Qed.
End OneStep.

(* the walks of the two link operations end *)
Lemma ce_push_child_rejected h s c h' e : WFx h -> s < nnodes h -> ce_push_child h s c = RErr h' e -> h' = h /\ e <> EFuel.
Proof.
  intros (C & K & _ & A & _) Hs P. split; [exact (ce_push_child_err _ _ _ _ _ P)|]. intros ->. revert P. unfold ce_push_child.
  destruct (is_some _); [discriminate|]. destruct (negb _); [discriminate|].
  destruct (anc_walk (S (nnodes h)) h (Some s) c) as [[|]|] eqn:E; try discriminate.
  exfalso. revert E. apply anc_walk_fuel; auto.
Qed.
Lemma ce_remove_child_rejected h s c h' e : WFx h -> s < nnodes h -> ce_remove_child h s c = RErr h' e -> h' = h /\ e <> EFuel.
Proof.
  intros (C & K & _ & A & _) Hs P. split; [exact (ce_remove_child_err _ _ _ _ _ P)|]. intros ->. revert P. rewrite ce_remove_child_eq.
  destruct (kids h s) eqn:E; [destruct (negb _); discriminate|]. exfalso. revert E. apply kids_fuel; auto.
Qed.

(* link operations under s touch neither regions nor users, kinds or ids *)
Lemma Under_Rep s h h' : Under s h h' -> Rep h -> Rep h'.
Proof. intro U. apply rep_frame; [apply U| | | |]; apply (Under_same _ s); auto. Qed.

Lemma Under_Invn n m s h h' cs : Invn n m h -> Under s h h' -> WFx h' -> Children h' s cs ->
  allowed (n_kind (nd h s)) (map (fun c => n_kind (nd h c)) cs) = true -> Invn n m h'.
Proof.
  intros (HW & HR & N & M) U WX CS A. pose proof U as (HN & HD & _).
  pose proof (Under_same n_kind s h h' ltac:(reflexivity) U) as SK.
  refine (conj _ (conj (Under_Rep s h h' U HR) (conj _ _))); [|congruence|rewrite (ndocs_docs _ _ HD); exact M].
  apply WF_split. split; [exact WX|]. intros p Hp. destruct (Nat.eq_dec p s) as [->|Np].
  - intros cs' C'. rewrite (Children_unique _ _ _ _ C' CS), SK, (map_kind_same _ _ _ SK). exact A.
  - apply (Under_ContentExcept s h h' U); [apply (WF_WFx h HW)|apply WF_ContentExcept; exact HW|exact Hp|exact Np].
Qed.

Theorem push_child_safe n m h s c : Invn n m h -> s < n -> c < n -> Safe (Invn n m) h (push_child h s c).
Proof.
  intros HI Hs Hc. pose proof HI as (HW & _ & <- & _). pose proof (WF_WFx h HW) as WX. unfold push_child.
  destruct (push_guard h s c) as [e|] eqn:G.
  { split; [reflexivity|]. intros ->. exact (push_guard_no_fuel _ _ _ G). }
  destruct (ce_push_child h s c) as [h'|h' e] eqn:P.
  2:{ destruct (ce_push_child_rejected _ _ _ _ _ WX Hs P) as [-> N]. split; [reflexivity|exact N]. }
  destruct (WF_kids h s HW Hs) as [cs C].
  apply (Under_Invn _ m s h h' (cs ++ [c]) HI (push_Under h h' s c cs Hs Hc C P) (push_WFx h h' s c cs WX Hs Hc C P) (push_Children_self' h h' s c cs Hs Hc C P)).
  rewrite map_app. simpl. pose proof (WF_content_at h HW s Hs cs C) as A.
  destruct (push_guard_None _ _ _ _ C G) as [SG|[KR RG]].
  - apply allowed_snoc_simple; assumption.
  - unfold kind_of in KR. rewrite KR in *. apply rtc_push; [exact A|exact RG].
Qed.

Theorem remove_child_safe n m h s c : Invn n m h -> s < n -> Safe (Invn n m) h (remove_child h s c).
Proof.
  intros HI Hs. pose proof HI as (HW & _ & <- & _). pose proof (WF_WFx h HW) as WX.
  assert (G : n_kind (nd h s) <> KRuby -> n_kind (nd h s) <> KRtc -> Safe (Invn (nnodes h) m) h (ce_remove_child h s c)).
  { intros NR NT. destruct (ce_remove_child h s c) as [h'|h' e] eqn:P.
    2:{ destruct (ce_remove_child_rejected _ _ _ _ _ WX Hs P) as [-> N]. split; [reflexivity|exact N]. }
    destruct (remove_WFx_Children h h' s c WX Hs P) as (WX' & U & a & b & C & CS).
    apply (Under_Invn _ m s h h' (a ++ b) HI U WX' CS).
    pose proof (WF_content_at h HW s Hs _ C) as A. rewrite map_app in *. eapply allowed_remove; eauto. }
  unfold remove_child, kind_of. destruct (n_kind (nd h s)) eqn:K; try easy; apply G; congruence.
Qed.

Theorem remove_safe n m h s : Invn n m h -> s < n -> Safe (Invn n m) h (remove h s).
Proof.
  intros HI Hs. unfold remove. destruct (n_parent (nd h s)) as [p|] eqn:E; [|exact HI].
  apply remove_child_safe; [exact HI|]. destruct HI as ((((C1 & _) & _) & _) & _ & <- & _).
  destruct (C1 s Hs) as (R & _). rewrite E in R. exact R.
Qed.

Lemma each_push_ok s : forall l h h' cs0, WFx h -> s < nnodes h -> (forall x, In x l -> x < nnodes h) ->
  Children h s cs0 -> each (fun h c => ce_push_child h s c) l h = ROk h' ->
  WFx h' /\ Under s h h' /\ Children h' s (cs0 ++ l).
Proof.
  induction l as [|c t IH]; intros h h' cs0 WX Hs Hl C E; simpl in E.
  - injection E as <-. rewrite app_nil_r. exact (conj WX (conj (Under_refl s h) C)).
  - apply bind_ok in E. destruct E as (h1 & P & E).
    assert (Hc : c < nnodes h) by (apply Hl; left; reflexivity).
    pose proof (push_WFx h h1 s c cs0 WX Hs Hc C P) as WX1.
    pose proof (push_Children_self' h h1 s c cs0 Hs Hc C P) as CS.
    pose proof (push_Under h h1 s c cs0 Hs Hc C P) as U1. pose proof U1 as (HN & _).
    assert (Hs1 : s < nnodes h1) by (rewrite HN; exact Hs).
    assert (Hl1 : forall x, In x t -> x < nnodes h1) by (intros x Hx; rewrite HN; apply Hl; right; exact Hx).
    destruct (IH h1 h' (cs0 ++ [c]) WX1 Hs1 Hl1 CS E) as (A & U2 & B).
    rewrite <- app_assoc in B. exact (conj A (conj (Under_trans _ _ _ _ U1 U2) B)).
Qed.

Lemma each_remove_ok s : forall l h, WFx h -> s < nnodes h -> Children h s l ->
  exists h', each (fun h c => ce_remove_child h s c) l h = ROk h' /\ WFx h' /\ Under s h h' /\ Children h' s [].
Proof.
  induction l as [|c t IH]; intros h WX Hs C.
  - exists h. exact (conj eq_refl (conj WX (conj (Under_refl s h) C))).
  - assert (P : ce_remove_child h s c = ROk (remove_heap h s c)).
    { rewrite ce_remove_child_eq, (Children_kids _ _ _ C). cbn [existsb]. rewrite Nat.eqb_refl. reflexivity. }
    destruct (remove_WFx_Children h _ s c WX Hs P) as (WX1 & U1 & _). destruct (remove_head h _ s c WX Hs P t C) as [_ CS].
    destruct (IH _ WX1 ltac:(rewrite (proj1 U1); exact Hs) CS) as (h' & E' & A & U2 & B).
    exists h'. cbn [each]. rewrite P. exact (conj E' (conj A (conj (Under_trans _ _ _ _ U1 U2) B))).
Qed.

Theorem remove_children_safe n m h s : Invn n m h -> s < n -> Safe (Invn n m) h (remove_children h s).
Proof.
  intros HI Hs. pose proof HI as (HW & _ & <- & _). unfold remove_children. destruct (WF_kids h s HW Hs) as [cs C].
  rewrite (Children_kids _ _ _ C).
  destruct (each_remove_ok s cs h (WF_WFx h HW) Hs C) as (h' & E & WX & U & CS). rewrite E.
  apply (Under_Invn _ m s h h' [] HI U WX CS). apply allowed_nil.
Qed.

(* the unordered containers: one push_child per element of the list *)
Lemma each_push_child_keeps n m s cs h : Invn n m h -> s < n -> (forall x, In x cs -> x < n) ->
  Keeps (Invn n m) (each (fun h' c => push_child h' s c) cs h).
Proof. intros HI Hs Hcs. apply Keeps_each; [|exact HI]. intros h0 x Hx H0. eapply Safe_Keeps; [apply push_child_safe|]; auto. Qed.

(* a rejected push leaves its heap alone, so a loop of pushes that raises has pushed a prefix and raised
   at the next child *)
Lemma each_push_prefix s : forall l h h' e, each (fun h c => ce_push_child h s c) l h = RErr h' e ->
  exists l1 c l2, l = l1 ++ c :: l2 /\ each (fun h c => ce_push_child h s c) l1 h = ROk h' /\ ce_push_child h' s c = RErr h' e.
Proof.
  induction l as [|c t IH]; intros h h' e E; simpl in E; [discriminate|].
  destruct (ce_push_child h s c) as [h1|h1 e1] eqn:P; simpl in E.
  - destruct (IH h1 h' e E) as (l1 & c' & l2 & -> & E1 & P'). exists (c :: l1), c', l2. split; [reflexivity|]. simpl. rewrite P. auto.
  - injection E as <- <-. pose proof (ce_push_child_err _ _ _ _ _ P) as ->. exists [], c, t. auto.
Qed.

(* Ruby.push_children / Rtc.push_children are all-or-nothing: when a child of the list is rejected
   the children pushed before it are removed again and the model is exactly what it was.  Hence
   push_children keeps the invariant whatever the container. *)
Lemma heap_ext h h' : nnodes h' = nnodes h -> (forall j, nd h' j = nd h j) -> h_docs h' = h_docs h -> h' = h.
Proof.
  destruct h as [ns ds], h' as [ns' ds']. unfold nnodes, nd. simpl. intros L E ->. f_equal.
  apply (nth_ext ns' ns dnode dnode); [exact L|]. intros; apply E.
Qed.

(* two heaps with the same child lists have the same links *)
Lemma lk_determined h h2 : nnodes h2 = nnodes h -> WFx h -> WFx h2 ->
  (forall p l, p < nnodes h -> Children h p l -> Children h2 p l) ->
  forall j, j < nnodes h -> lk (nd h2 j) = lk (nd h j).
Proof.
  intros HN (C & K & R & _) (C2 & K2 & R2 & _) T j Hj.
  destruct (K j Hj) as [cs Cj]. pose proof (T j cs Hj Cj) as Cj2.
  destruct Cj as (F & L & _), Cj2 as (F2 & L2 & _).
  assert (PNP : n_parent (nd h2 j) = n_parent (nd h j) /\ n_next (nd h2 j) = n_next (nd h j) /\ n_prev (nd h2 j) = n_prev (nd h j)).
  { destruct (n_parent (nd h j)) as [p|] eqn:Ep.
    - assert (Hp : p < nnodes h) by (destruct C as [C1 _]; destruct (C1 j Hj) as (Rp & _); rewrite Ep in Rp; exact Rp).
      destruct (K p Hp) as [cp Cp]. pose proof (T p cp Hp Cp) as Cp2.
      assert (Hin : In j cp) by (destruct Cp as (_ & _ & _ & _ & A); apply A; assumption).
      destruct (in_split _ _ Hin) as (a & b & ->).
      destruct (rm_seg h p j a b Cp) as (_ & _ & Q1 & Q2 & Q3 & _).
      destruct (rm_seg h2 p j a b Cp2) as (_ & _ & Q1' & Q2' & Q3' & _). rewrite Q1', Q2', Q3', Q2, Q3. auto.
    - destruct (R j Hj Ep) as [-> ->].
      destruct (n_parent (nd h2 j)) as [p2|] eqn:Ep2.
      + exfalso. assert (Hp2 : p2 < nnodes h).
        { rewrite <- HN. destruct C2 as [C1 _]. destruct (C1 j ltac:(rewrite HN; exact Hj)) as (Rp & _). rewrite Ep2 in Rp. exact Rp. }
        destruct (K p2 Hp2) as [cp Cp]. pose proof (T p2 cp Hp2 Cp) as Cp2.
        assert (Hin : In j cp) by (destruct Cp2 as (_ & _ & _ & _ & A); apply A; [rewrite HN; exact Hj|exact Ep2]).
        destruct (Children_member _ _ _ _ Cp Hin) as [_ Q]. congruence.
      + destruct (R2 j ltac:(rewrite HN; exact Hj) Ep2) as [-> ->]. auto. }
  destruct PNP as (Q1 & Q2 & Q3). unfold lk. rewrite Q1, Q2, Q3, F, F2, L, L2. reflexivity.
Qed.

(* the whole list is pushed under an element without children, or whatever was pushed is removed again:
   the links are then those of the heap before (same child lists), and nothing else was written *)
Lemma push_all_or_undo_safe n m h s cs undo : Invn n m h -> s < n -> (forall x, In x cs -> x < n) ->
  n_first (nd h s) = None -> (forall h', nnodes h' = nnodes h -> undo h' = remove_children h' s) ->
  allowed (n_kind (nd h s)) (map (fun c => n_kind (nd h c)) cs) = true ->
  Safe (Invn n m) h (push_all_or_undo h s cs undo).
Proof.
  intros HI Hs Hcs F U A. pose proof HI as (HW & _ & <- & _). pose proof (WF_WFx h HW) as WX0. unfold push_all_or_undo.
  destruct (WF_kids h s HW Hs) as [cs0 C0]. apply (Children_nil_first _ _ _ C0) in F. subst cs0.
  destruct (each (fun h' c => ce_push_child h' s c) cs h) as [h1|h1 e1] eqn:E.
  - destruct (each_push_ok s cs h h1 [] WX0 Hs Hcs C0 E) as (WX & U1 & CS). exact (Under_Invn _ m s h h1 cs HI U1 WX CS A).
  - destruct (each_push_prefix s cs h h1 e1 E) as (l1 & c & l2 & -> & E1 & P).
    assert (Hl1 : forall x, In x l1 -> x < nnodes h) by (intros x Hx; apply Hcs; apply in_app_iff; left; exact Hx).
    destruct (each_push_ok s l1 h h1 [] WX0 Hs Hl1 C0 E1) as (WX & U1 & CS). simpl in CS.
    pose proof U1 as (HN & _). assert (Hs1 : s < nnodes h1) by (rewrite HN; exact Hs).
    rewrite (U h1 HN). unfold remove_children. rewrite (Children_kids _ _ _ CS).
    destruct (each_remove_ok s l1 h1 WX Hs1 CS) as (h2 & E2 & WX2 & U2 & CS2). rewrite E2.
    split; [|exact (proj2 (ce_push_child_rejected _ _ _ _ _ WX Hs1 P))].
    symmetry. destruct (Under_trans _ _ _ _ U1 U2) as (HN' & HD' & R & O).
    apply heap_ext; [exact HN'| |exact HD'].
    intro j. destruct (lt_dec j (nnodes h)) as [Hj|Hj]; [|rewrite !nd_out by lia; reflexivity].
    apply node_lk_rest; [|apply R].
    apply (lk_determined h h2 HN' WX0 WX2); [|exact Hj].
    intros p l Hp Cp. destruct (Nat.eq_dec p s) as [->|Np]; [rewrite (Children_unique _ _ _ _ Cp C0); exact CS2|apply O; assumption].
Qed.

Theorem push_children_ordered n m h s cs : Invn n m h -> s < n -> (forall x, In x cs -> x < n) ->
  ordered_kind (kind_of h s) = true -> Safe (Invn n m) h (push_children h s cs).
Proof.
  intros HI Hs Hcs OK. unfold push_children. destruct (kind_of h s) eqn:K; try discriminate OK; unfold kind_of in K.
  - destruct (is_some (n_first (nd h s))) eqn:F; [easy|].
    destruct (existsb (kinds_eqb (map (kind_of h) cs)) ruby_patterns) eqn:V; simpl; [|easy].
    apply is_some_false in F. apply push_all_or_undo_safe; auto. rewrite K. apply ruby_pattern_form. exact V.
  - destruct (rtc_list_ok (map (kind_of h) cs)) eqn:V; simpl; [|easy].
    destruct (is_some (n_first (nd h s))) eqn:F; [easy|]. apply is_some_false in F.
    rewrite (kids_no_first' _ _ F). apply push_all_or_undo_safe; auto. rewrite K. apply rtc_list_ok_form. exact V.
Qed.
Theorem push_children_keeps n m h s cs : Invn n m h -> s < n -> (forall x, In x cs -> x < n) ->
  Keeps (Invn n m) (push_children h s cs).
Proof.
  intros HI Hs Hcs. destruct (ordered_kind (kind_of h s)) eqn:OK; [eapply Safe_Keeps; [apply push_children_ordered|]; auto|].
  unfold push_children. destruct (kind_of h s); try discriminate OK; apply each_push_child_keeps; auto.
Qed.
