(* C15: statements exported to Properties/C15.v that are direct consequences of the link and tree layers *)
From Coq Require Import List Arith Bool.
From TT Require Import Base.HeapTypes Model.Heap Spec.ModelWF Proofs.C15.HeapLemmas Proofs.C15.Links Proofs.C15.Frames.
Import ListNotations.

Lemma push_child_dll h s c cs :
  s < nnodes h -> c < nnodes h -> Children h s cs -> n_parent (nd h c) = None ->
  Children (push_heap h s c) s (cs ++ [c]) /\
  forall p l, p <> s -> Children h p l -> Children (push_heap h s c) p l.
Proof.
  intros Hs Hc C R. split; [apply push_Children_self; assumption|].
  intros p l Hp Cl. eapply push_Children_other; eauto.
Qed.
Lemma remove_child_dll h s c a b :
  s < nnodes h -> Children h s (a ++ c :: b) ->
  Children (remove_heap h s c) s (a ++ b) /\
  forall p l, p <> s -> Children h p l -> Children (remove_heap h s c) p l.
Proof.
  intros Hs C. split; [apply remove_Children_self; assumption|].
  intros p l Hp Cl. eapply remove_Children_other; eauto.
Qed.
Lemma WF_no_cycle h i : WF h -> i < nnodes h -> ~ up h i i.
Proof. intros (_ & A & _) Hi. apply Rooted_no_cycle. apply A. exact Hi. Qed.
