(* C15: basic facts about heap access and update, the result monad and loops. *)
From Coq Require Import List Arith Bool Lia.
From TT Require Import Base.HeapTypes Model.Heap.
Import ListNotations.

Lemma upd_length {A} (l : list A) i f : length (upd l i f) = length l.
Proof. revert i; induction l as [|x t IH]; intros [|i]; simpl; auto. Qed.

Lemma nth_upd_same {A} (l : list A) i f d : i < length l -> nth i (upd l i f) d = f (nth i l d).
Proof. revert i; induction l as [|x t IH]; intros [|i] H; simpl in *; try lia; auto. apply IH; lia. Qed.

Lemma nth_upd_other {A} (l : list A) i j f d : i <> j -> nth j (upd l i f) d = nth j l d.
Proof. revert i j; induction l as [|x t IH]; intros [|i] [|j] H; simpl; auto; try congruence. Qed.

Lemma upd_out {A} (l : list A) i f : length l <= i -> upd l i f = l.
Proof. revert i; induction l as [|x t IH]; intros [|i] H; simpl in *; auto; try lia. f_equal; apply IH; lia. Qed.

Lemma nnodes_updn h i f : nnodes (updn h i f) = nnodes h.
Proof. unfold nnodes, updn; simpl. apply upd_length. Qed.
Lemma ndocs_updn h i f : ndocs (updn h i f) = ndocs h.
Proof. reflexivity. Qed.
Lemma nnodes_updd h i f : nnodes (updd h i f) = nnodes h.
Proof. reflexivity. Qed.
Lemma ndocs_updd h i f : ndocs (updd h i f) = ndocs h.
Proof. unfold ndocs, updd; simpl. apply upd_length. Qed.
Lemma docs_updn h i f : h_docs (updn h i f) = h_docs h.
Proof. reflexivity. Qed.
Lemma dc_updn h i f d : dc (updn h i f) d = dc h d.
Proof. reflexivity. Qed.
Lemma nd_updd h i f j : nd (updd h i f) j = nd h j.
Proof. reflexivity. Qed.

Lemma nd_updn_same h i f : i < nnodes h -> nd (updn h i f) i = f (nd h i).
Proof. intro H. unfold nd, updn; simpl. apply nth_upd_same. exact H. Qed.
Lemma nd_updn_other h i j f : i <> j -> nd (updn h i f) j = nd h j.
Proof. intro H. unfold nd, updn; simpl. apply nth_upd_other. exact H. Qed.
Lemma updn_out h i f : nnodes h <= i -> updn h i f = h.
Proof. intro H. unfold updn. rewrite upd_out by exact H. destruct h; reflexivity. Qed.

Lemma nd_out h j : nnodes h <= j -> nd h j = dnode.
Proof. apply nth_overflow. Qed.
Lemma dc_out h d : ndocs h <= d -> dc h d = ddoc.
Proof. apply nth_overflow. Qed.

Lemma updd_out h i f : ndocs h <= i -> updd h i f = h.
Proof. intro H. unfold updd. rewrite upd_out by exact H. destruct h; reflexivity. Qed.
Lemma dc_updd_same h i f : i < ndocs h -> dc (updd h i f) i = f (dc h i).
Proof. intro H. unfold dc, updd; simpl. apply nth_upd_same. exact H. Qed.
Lemma dc_updd_other h i j f : i <> j -> dc (updd h i f) j = dc h j.
Proof. intro H. unfold dc, updd; simpl. apply nth_upd_other. exact H. Qed.

Lemma proj_updn {X} (pi : node -> X) h i f j : (forall n, pi (f n) = pi n) -> pi (nd (updn h i f) j) = pi (nd h j).
Proof.
  intro H. destruct (Nat.eq_dec i j) as [->|N].
  - destruct (lt_dec j (nnodes h)).
    + rewrite nd_updn_same by assumption. apply H.
    + rewrite updn_out by lia. reflexivity.
  - rewrite nd_updn_other by assumption. reflexivity.
Qed.
Lemma proj_updd {X} (pi : docrec -> X) h i f j : (forall n, pi (f n) = pi n) -> pi (dc (updd h i f) j) = pi (dc h j).
Proof.
  intro H. destruct (Nat.eq_dec i j) as [->|N].
  - destruct (lt_dec j (ndocs h)).
    + rewrite dc_updd_same by assumption. apply H.
    + rewrite updd_out by lia. reflexivity.
  - rewrite dc_updd_other by assumption. reflexivity.
Qed.

Lemma nd_updn_cases {X} (pi : node -> X) h i f j :
  i < nnodes h -> pi (nd (updn h i f) j) = if Nat.eq_dec j i then pi (f (nd h i)) else pi (nd h j).
Proof.
  intro H. destruct (Nat.eq_dec j i) as [->|N].
  - rewrite nd_updn_same by assumption. reflexivity.
  - rewrite nd_updn_other by auto. reflexivity.
Qed.

Lemma onat_eqb_true a b : onat_eqb a b = true <-> a = b.
Proof. unfold onat_eqb. destruct (onat_eq_dec a b); split; intros; congruence. Qed.
Lemma onat_eqb_false a b : onat_eqb a b = false <-> a <> b.
Proof. unfold onat_eqb. destruct (onat_eq_dec a b); split; intros; congruence. Qed.
Lemma kind_eqb_true a b : kind_eqb a b = true <-> a = b.
Proof. unfold kind_eqb. destruct (kind_eq_dec a b); split; intros; congruence. Qed.
Lemma kind_eqb_refl a : kind_eqb a a = true.
Proof. apply kind_eqb_true. reflexivity. Qed.
Lemma prop_eqb_true a b : prop_eqb a b = true <-> a = b.
Proof. unfold prop_eqb. destruct (prop_eq_dec a b); split; intros; congruence. Qed.
Lemma is_some_false {A} (o : option A) : is_some o = false <-> o = None.
Proof. destruct o; simpl; split; intros; congruence. Qed.
Lemma is_some_true {A} (o : option A) : is_some o = true <-> o <> None.
Proof. destruct o; simpl; split; intros; congruence. Qed.
Lemma existsb_eqb_In x l : existsb (Nat.eqb x) l = true <-> In x l.
Proof.
  rewrite existsb_exists. split.
  - intros [y [H1 H2]]. apply Nat.eqb_eq in H2. subst. exact H1.
  - intro H. exists x. split; [exact H|apply Nat.eqb_refl].
Qed.

Lemma bind_ok r f h' : r >>= f = ROk h' -> exists h1, r = ROk h1 /\ f h1 = ROk h'.
Proof. destruct r; simpl; intro H; [eauto|discriminate]. Qed.

(* a relation between the heap before and the heap after (whether the operation returned or raised)
   that is reflexive and transitive is preserved by loops *)
Section Loops.
  Variable R : heap -> heap -> Prop.
  Hypothesis R_refl : forall h, R h h.
  Hypothesis R_trans : forall a b c, R a b -> R b c -> R a c.

  Lemma bind_rel r f h : R h (heap_of r) -> (forall h1, r = ROk h1 -> R h1 (heap_of (f h1))) -> R h (heap_of (r >>= f)).
  Proof. destruct r; simpl; intros H1 H2; [eapply R_trans; [exact H1|apply H2; reflexivity]|exact H1]. Qed.

  Lemma each_rel (f : heap -> nat -> res) l :
    (forall h x, In x l -> R h (heap_of (f h x))) -> forall h, R h (heap_of (each f l h)).
  Proof.
    induction l as [|x t IH]; intros Hf h; simpl; [apply R_refl|].
    apply bind_rel; [apply Hf; left; reflexivity|].
    intros h1 _. apply IH. intros; apply Hf; right; assumption.
  Qed.
End Loops.

(* An accepted call leaves a heap in P; a rejected one leaves a heap in E, and was not rejected for want
   of fuel.  `Safe`: rejected calls leave the heap alone.  `Keeps`: the calls that loop over several
   elements may be rejected half-way; the heap at the raise is in P all the same. *)
Definition Res (P E : heap -> Prop) (r : res) : Prop :=
  match r with ROk h' => P h' | RErr h' e => E h' /\ e <> EFuel end.
Definition Safe (P : heap -> Prop) (h : heap) : res -> Prop := Res P (eq h).
Definition Keeps (P : heap -> Prop) : res -> Prop := Res P P.

Lemma Res_no_fuel (P E : heap -> Prop) r h' : Res P E r -> r <> RErr h' EFuel.
Proof. intros H ->. apply H. reflexivity. Qed.
Section Res.
  Variable P : heap -> Prop.
  Lemma Safe_err h r h' e : Safe P h r -> r = RErr h' e -> h' = h.
  Proof. intros H ->. symmetry. apply H. Qed.
  Lemma Keeps_heap_of r : Keeps P r -> P (heap_of r).
  Proof. destruct r; simpl; tauto. Qed.
  Lemma Safe_Keeps h r : Safe P h r -> P h -> Keeps P r.
  Proof. destruct r as [|h' e]; simpl; [tauto|]. intros [<- N] Ph. auto. Qed.
  Lemma Keeps_bind r f : Keeps P r -> (forall h1, P h1 -> Keeps P (f h1)) -> Keeps P (r >>= f).
  Proof. destruct r; simpl; auto. Qed.
  Lemma Keeps_each (f : heap -> nat -> res) l :
    (forall h x, In x l -> P h -> Keeps P (f h x)) -> forall h, P h -> Keeps P (each f l h).
  Proof.
    induction l as [|x t IH]; intros Hf h Ph; [exact Ph|].
    apply Keeps_bind; [apply Hf; [left; reflexivity|exact Ph]|]. intros h1 P1. apply IH; [|exact P1].
    intros; apply Hf; [right|]; assumption.
  Qed.
End Res.
(* splits a goal about a sequence of calls `a >>= f` into one goal per call (the match is syntactic:
   `apply Keeps_bind` on a call that is not a sequence would unfold the call looking for one) *)
Ltac keeps_seq := repeat lazymatch goal with |- Keeps _ (_ >>= _) => apply Keeps_bind; [|intros ? ?; cbv beta] end.
