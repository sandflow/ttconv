(* C15, link layer: ContentElement.push_child and remove_child (as transcribed) keep the intrusive
   doubly linked child lists in agreement with an abstract `children : element -> list element`:
   push appends, remove deletes, every other element's list is untouched. *)
From Coq Require Import List Arith Bool Lia.
From TT Require Import Base.HeapTypes Model.Heap Spec.ModelWF Proofs.C15.HeapLemmas.
Import ListNotations.

(* Seg: Chain with an explicit successor of the last member *)
Definition hd_or (b : list nat) (nx : option nat) : option nat := match b with [] => nx | d :: _ => Some d end.
Definition last_or (a : list nat) (pv : option nat) : option nat := match a with [] => pv | _ => Some (last a 0) end.

Fixpoint Seg (h : heap) (p : nat) (pv : option nat) (cs : list nat) (nx : option nat) : Prop :=
  match cs with
  | [] => True
  | c :: t => c < nnodes h /\ n_parent (nd h c) = Some p /\ n_prev (nd h c) = pv /\
              n_next (nd h c) = hd_or t nx /\ Seg h p (Some c) t nx
  end.

Lemma Chain_Seg h p cs : forall pv, Chain h p pv cs <-> Seg h p pv cs None.
Proof.
  induction cs as [|c t IH]; intro pv; simpl; [tauto|].
  rewrite IH. assert (E : hd_error t = hd_or t None) by (destruct t; reflexivity). rewrite E. tauto.
Qed.

Lemma hd_or_app a b nx : hd_or (a ++ b) nx = hd_or a (hd_or b nx).
Proof. destruct a; reflexivity. Qed.
Lemma last_or_cons x t pv : last_or (x :: t) pv = last_or t (Some x).
Proof. destruct t; reflexivity. Qed.
Lemma last_or_app a b pv : last_or (a ++ b) pv = last_or b (last_or a pv).
Proof.
  revert pv; induction a as [|x t IH]; intro pv; [reflexivity|].
  change ((x :: t) ++ b) with (x :: (t ++ b)). rewrite !last_or_cons. apply IH.
Qed.
Lemma last_error_last_or cs : last_error cs = last_or cs None.
Proof. destruct cs; reflexivity. Qed.
Lemma hd_error_hd_or cs : hd_error cs = hd_or cs None.
Proof. destruct cs; reflexivity. Qed.

Lemma Seg_app h p a : forall pv b nx,
  Seg h p pv (a ++ b) nx <-> Seg h p pv a (hd_or b nx) /\ Seg h p (last_or a pv) b nx.
Proof.
  induction a as [|x t IH]; intros pv b nx.
  - simpl. tauto.
  - change ((x :: t) ++ b) with (x :: (t ++ b)). rewrite last_or_cons. simpl. rewrite IH, hd_or_app. tauto.
Qed.

Lemma Seg_in_range h p cs : forall pv nx, Seg h p pv cs nx -> forall x, In x cs -> x < nnodes h /\ n_parent (nd h x) = Some p.
Proof.
  induction cs as [|c t IH]; intros pv nx H x Hx; [destruct Hx|].
  simpl in H. destruct H as (H1 & H2 & _ & _ & H5). destruct Hx as [<-|Hx]; [auto|eapply IH; eauto].
Qed.

Lemma Seg_ext h h' p cs : forall pv nx, nnodes h' = nnodes h ->
  (forall x, In x cs -> n_parent (nd h' x) = n_parent (nd h x) /\ n_prev (nd h' x) = n_prev (nd h x) /\
                        n_next (nd h' x) = n_next (nd h x)) ->
  Seg h p pv cs nx -> Seg h' p pv cs nx.
Proof.
  induction cs as [|c t IH]; intros pv nx HN HE H; simpl in *; [exact I|].
  destruct H as (H1 & H2 & H3 & H4 & H5). destruct (HE c (or_introl eq_refl)) as (E1 & E2 & E3).
  rewrite HN, E1, E2, E3. repeat split; auto.
Qed.

Lemma walk_Seg h p cs : forall pv fuel, Seg h p pv cs None -> length cs <= fuel -> walk h fuel (hd_or cs None) = Some cs.
Proof.
  induction cs as [|c t IH]; intros pv fuel H L; simpl in *.
  - destruct fuel; reflexivity.
  - destruct fuel as [|k]; [lia|]. destruct H as (_ & _ & _ & H4 & H5). simpl. rewrite H4.
    rewrite (IH (Some c) k H5) by lia. reflexivity.
Qed.

Lemma NoDup_bounded_length (l : list nat) n : NoDup l -> (forall x, In x l -> x < n) -> length l <= n.
Proof.
  intros ND B. rewrite <- (seq_length n 0). apply NoDup_incl_length; [exact ND|].
  intros x Hx. apply in_seq. specialize (B x Hx). lia.
Qed.

Lemma Children_kids h p cs : Children h p cs -> kids h p = Some cs.
Proof.
  intros (H1 & _ & H3 & H4 & _). unfold kids. rewrite H1, hd_error_hd_or.
  apply Chain_Seg in H3. eapply walk_Seg; [exact H3|].
  apply le_S. apply NoDup_bounded_length; [exact H4|].
  intros x Hx. eapply Seg_in_range; eauto.
Qed.

Lemma Seg_unique h p cs : forall cs' pv, Seg h p pv cs None -> Seg h p pv cs' None -> hd_or cs None = hd_or cs' None -> cs = cs'.
Proof.
  induction cs as [|c t IH]; intros [|c' t'] pv H H' E; simpl in *; try congruence.
  injection E as <-. destruct H as (_ & _ & _ & H4 & H5), H' as (_ & _ & _ & H4' & H5').
  f_equal. eapply IH; eauto. congruence.
Qed.
Lemma Children_unique h p cs cs' : Children h p cs -> Children h p cs' -> cs = cs'.
Proof.
  intros (H1 & _ & H3 & _) (H1' & _ & H3' & _). apply Chain_Seg in H3, H3'.
  eapply Seg_unique; eauto. rewrite <- !hd_error_hd_or. congruence.
Qed.

Lemma Children_member h p cs x : Children h p cs -> In x cs -> x < nnodes h /\ n_parent (nd h x) = Some p.
Proof. intros (_ & _ & H3 & _) Hx. apply Chain_Seg in H3. eapply Seg_in_range; eauto. Qed.

Definition push_heap (h : heap) (s c : nat) : heap :=
  let h1 := updn h c (fun n => set_next None (set_prev (n_last (nd h s)) (set_parent (Some s) n))) in
  let h2 := match n_last (nd h1 s) with Some l => updn h1 l (set_next (Some c)) | None => h1 end in
  let h3 := match n_first (nd h2 s) with None => updn h2 s (set_first (Some c)) | Some _ => h2 end in
  updn h3 s (set_last (Some c)).

Lemma ce_push_child_ok h s c h' : ce_push_child h s c = ROk h' ->
  h' = push_heap h s c /\ n_parent (nd h c) = None /\ n_doc (nd h c) = n_doc (nd h s) /\
  anc_walk (S (nnodes h)) h (Some s) c = Some false.
Proof.
  unfold ce_push_child. destruct (is_some (n_parent (nd h c))) eqn:E1; [discriminate|].
  destruct (onat_eqb (n_doc (nd h c)) (n_doc (nd h s))) eqn:E2; cbn [negb]; [|discriminate].
  destruct (anc_walk (S (nnodes h)) h (Some s) c) as [[|]|] eqn:E3; try discriminate.
  intros [= <-]. apply is_some_false in E1. apply onat_eqb_true in E2. auto.
Qed.
Lemma ce_push_child_err h s c h' e : ce_push_child h s c = RErr h' e -> h' = h.
Proof.
  unfold ce_push_child. destruct (is_some (n_parent (nd h c))); [intros [= <- _]; reflexivity|].
  destruct (negb _); [intros [= <- _]; reflexivity|].
  destruct (anc_walk _ _ _ _) as [[|]|]; try discriminate; intros [= <- _]; reflexivity.
Qed.

(* Both operations are a fixed sequence of writes, each to one element or (a link that is None) to no
   element.  After such a sequence the element j is the old one with the writes addressed to j applied in
   order; the operations' heaps are instances (push_heap_eq, remove_heap_eq), read off field by field. *)
Definition write : Type := option nat * (node -> node).
Definition put (h : heap) (w : write) : heap := match fst w with Some i => updn h i (snd w) | None => h end.
Definition hit (j : nat) (n : node) (w : write) : node := if onat_eq_dec (Some j) (fst w) then snd w n else n.

Lemma nnodes_put h w : nnodes (put h w) = nnodes h.
Proof. destruct w as [[i|] f]; [apply nnodes_updn|reflexivity]. Qed.
Lemma nnodes_puts ws : forall h, nnodes (fold_left put ws h) = nnodes h.
Proof. induction ws as [|w t IH]; intro h; [reflexivity|]. cbn [fold_left]. rewrite IH. apply nnodes_put. Qed.
Lemma docs_puts ws : forall h, h_docs (fold_left put ws h) = h_docs h.
Proof. induction ws as [|[[i|] f] t IH]; intro h; [reflexivity| |apply IH]. cbn [fold_left]. rewrite IH. reflexivity. Qed.

Lemma nd_puts j ws : forall h, Forall (fun w => ref_ok h (fst w)) ws -> nd (fold_left put ws h) j = fold_left (hit j) ws (nd h j).
Proof.
  induction ws as [|[o f] t IH]; intros h F; [reflexivity|]. inversion_clear F as [|? ? I F'].
  cbn [fold_left]. rewrite IH.
  - f_equal. unfold put, hit. cbn [fst snd] in *. destruct o as [i|], (onat_eq_dec _ _) as [E|E]; try congruence.
    + injection E as ->. apply nd_updn_same. exact I.
    + apply nd_updn_other. congruence.
  - refine (Forall_impl _ _ F'). intro w. unfold ref_ok. rewrite nnodes_put. auto.
Qed.
Lemma proj_put {X} (pi : node -> X) h w j : (forall n, pi (snd w n) = pi n) -> pi (nd (put h w) j) = pi (nd h j).
Proof. destruct w as [[i|] f]; [apply proj_updn|reflexivity]. Qed.
Lemma proj_puts {X} (pi : node -> X) j ws : Forall (fun w => forall n, pi (snd w n) = pi n) ws ->
  forall h, pi (nd (fold_left put ws h) j) = pi (nd h j).
Proof. induction 1 as [|w t P _ IH]; intro h; [reflexivity|]. cbn [fold_left]. rewrite IH. apply proj_put. exact P. Qed.
Lemma put_if (b : bool) h i f : (if b then updn h i f else h) = put h (if b then Some i else None, f).
Proof. destruct b; reflexivity. Qed.

Lemma proj_hit {X} (pi : node -> X) j n w : (forall n, pi (snd w n) = pi n) -> pi (hit j n w) = pi n.
Proof. intro P. unfold hit. destruct (onat_eq_dec _ _); [apply P|reflexivity]. Qed.
Lemma proj_hit_at {X} (pi : node -> X) j n w :
  pi (hit j n w) = if onat_eq_dec (Some j) (fst w) then pi (snd w n) else pi n.
Proof. unfold hit. destruct (onat_eq_dec _ _); reflexivity. Qed.
Lemma at_Some {X} j i (a b : X) : (if onat_eq_dec (Some j) (Some i) then a else b) = if Nat.eq_dec j i then a else b.
Proof. destruct (onat_eq_dec _ _), (Nat.eq_dec j i); congruence. Qed.
Lemma at_None {X} j (a b : X) : (if onat_eq_dec (Some j) None then a else b) = b.
Proof. destruct (onat_eq_dec _ _); [discriminate|reflexivity]. Qed.

Definition push_writes (s c : nat) (f0 l0 : option nat) : list write :=
  [(Some c, fun n => set_next None (set_prev l0 (set_parent (Some s) n)));
   (l0, set_next (Some c));
   (match f0 with None => Some s | Some _ => None end, set_first (Some c));
   (Some s, set_last (Some c))].

Lemma push_heap_eq h s c : push_heap h s c = fold_left put (push_writes s c (n_first (nd h s)) (n_last (nd h s))) h.
Proof.
  unfold push_heap, push_writes. cbv zeta. rewrite (proj_updn n_last) by reflexivity.
  destruct (n_last (nd h s)); rewrite !(proj_updn n_first) by reflexivity; destruct (n_first (nd h s)); reflexivity.
Qed.

Section PushFields.
  Variables (h : heap) (s c : nat).
  Hypothesis Hs : s < nnodes h.
  Hypothesis Hc : c < nnodes h.
  Hypothesis Hl : ref_ok h (n_last (nd h s)).

  Lemma push_nnodes : nnodes (push_heap h s c) = nnodes h.
  Proof. rewrite push_heap_eq. apply nnodes_puts. Qed.
  Lemma push_docs : h_docs (push_heap h s c) = h_docs h.
  Proof. rewrite push_heap_eq. apply docs_puts. Qed.

  Lemma push_other {X} (pi : node -> X) :
    (forall v n, pi (set_parent v n) = pi n) -> (forall v n, pi (set_prev v n) = pi n) ->
    (forall v n, pi (set_next v n) = pi n) -> (forall v n, pi (set_first v n) = pi n) ->
    (forall v n, pi (set_last v n) = pi n) -> forall j, pi (nd (push_heap h s c) j) = pi (nd h j).
  Proof.
    intros P1 P2 P3 P4 P5 j. rewrite push_heap_eq. apply proj_puts.
    repeat constructor; cbn [snd]; intro n; rewrite ?P3, ?P2, ?P1; auto.
  Qed.

  Lemma push_nd j : nd (push_heap h s c) j =
    fold_left (hit j) (push_writes s c (n_first (nd h s)) (n_last (nd h s))) (nd h j).
  Proof.
    rewrite push_heap_eq. apply nd_puts. repeat constructor; cbn [fst]; try assumption.
    destruct (n_first (nd h s)); [exact I|exact Hs].
  Qed.

  Lemma push_parent j : n_parent (nd (push_heap h s c) j) = if Nat.eq_dec j c then Some s else n_parent (nd h j).
  Proof. rewrite push_nd. cbn [push_writes fold_left]. rewrite 3 proj_hit by reflexivity. rewrite proj_hit_at. apply at_Some. Qed.
  Lemma push_prev j : n_prev (nd (push_heap h s c) j) = if Nat.eq_dec j c then n_last (nd h s) else n_prev (nd h j).
  Proof. rewrite push_nd. cbn [push_writes fold_left]. rewrite 3 proj_hit by reflexivity. rewrite proj_hit_at. apply at_Some. Qed.
  Lemma push_next j : n_next (nd (push_heap h s c) j) =
    if onat_eq_dec (Some j) (n_last (nd h s)) then Some c else if Nat.eq_dec j c then None else n_next (nd h j).
  Proof.
    rewrite push_nd. cbn [push_writes fold_left]. rewrite 2 proj_hit by reflexivity. rewrite proj_hit_at.
    cbn [fst snd set_next n_next]. rewrite proj_hit_at. cbn [fst snd]. rewrite at_Some. reflexivity.
  Qed.
  Lemma push_first j : n_first (nd (push_heap h s c) j) =
    if Nat.eq_dec j s then match n_first (nd h s) with None => Some c | Some x => Some x end else n_first (nd h j).
  Proof.
    rewrite push_nd. cbn [push_writes fold_left]. rewrite proj_hit by reflexivity. rewrite proj_hit_at.
    cbn [fst snd set_first n_first]. rewrite 2 proj_hit by reflexivity.
    destruct (n_first (nd h s)) eqn:Ef; [rewrite at_None|apply at_Some]. destruct (Nat.eq_dec j s) as [->|]; auto.
  Qed.
  Lemma push_last j : n_last (nd (push_heap h s c) j) = if Nat.eq_dec j s then Some c else n_last (nd h j).
  Proof. rewrite push_nd. cbn [push_writes fold_left]. rewrite proj_hit_at. cbn [fst snd set_last n_last]. rewrite 3 proj_hit by reflexivity. apply at_Some. Qed.
End PushFields.

Arguments onat_eq_dec : simpl never.
Arguments Nat.eq_dec : simpl never.
Arguments last_error : simpl never.

Lemma NoDup_snoc (l : list nat) x : NoDup l -> ~ In x l -> NoDup (l ++ [x]).
Proof.
  induction l as [|y t IH]; intros ND NI; simpl.
  - constructor; [intros []|constructor].
  - inversion ND; subst. constructor.
    + rewrite in_app_iff. intros [H|[H|[]]]; [auto|]. subst. apply NI. left; reflexivity.
    + apply IH; [assumption|]. intro H. apply NI. right; exact H.
Qed.
Lemma last_error_snoc l (x : nat) : last_error (l ++ [x]) = Some x.
Proof. unfold last_error. destruct (l ++ [x]) eqn:E; [destruct l; discriminate|]. rewrite <- E, last_last. reflexivity. Qed.
Lemma last_error_cons x y t : last_error (x :: y :: t) = last_error (y :: t).
Proof. reflexivity. Qed.
Lemma last_error_In l x : last_error l = Some x -> In x l.
Proof.
  induction l as [|y t IH]; [discriminate|]. destruct t as [|z t'].
  - intros [= <-]. left; reflexivity.
  - rewrite last_error_cons. intro H. right. apply IH. exact H.
Qed.
Lemma hd_error_In (l : list nat) x : hd_error l = Some x -> In x l.
Proof. destruct l; simpl; [discriminate|intros [= <-]; left; reflexivity]. Qed.

Lemma Seg_retarget h h' p cs : forall pv nx nx', nnodes h' = nnodes h -> NoDup cs ->
  (forall x, In x cs -> n_parent (nd h' x) = n_parent (nd h x) /\ n_prev (nd h' x) = n_prev (nd h x) /\
     n_next (nd h' x) = if onat_eq_dec (Some x) (last_error cs) then nx' else n_next (nd h x)) ->
  Seg h p pv cs nx -> Seg h' p pv cs nx'.
Proof.
  induction cs as [|x t IH]; intros pv nx nx' HN ND HE H; simpl in *; [exact I|].
  destruct H as (H1 & H2 & H3 & H4 & H5). destruct (HE x (or_introl eq_refl)) as (E1 & E2 & E3).
  inversion ND as [|? ? NI ND']; subst.
  rewrite HN, E1, E2, E3. repeat split; auto.
  - destruct t as [|y t'].
    + cbv [last_error last hd_or]. destruct (onat_eq_dec (Some x) (Some x)); congruence.
    + rewrite last_error_cons. destruct (onat_eq_dec (Some x) (last_error (y :: t'))) as [E|E]; [|exact H4].
      exfalso. apply NI. apply last_error_In. symmetry. exact E.
  - destruct t as [|y t']; [exact I|].
    eapply IH; [exact HN|exact ND'| |exact H5]. intros z Hz. destruct (HE z (or_intror Hz)) as (Z1 & Z2 & Z3). rewrite last_error_cons in Z3. auto.
Qed.

Lemma Seg_rehead h h' p cs pv pv' nx : nnodes h' = nnodes h -> NoDup cs ->
  (forall x, In x cs -> n_parent (nd h' x) = n_parent (nd h x) /\ n_next (nd h' x) = n_next (nd h x) /\
     n_prev (nd h' x) = if onat_eq_dec (Some x) (hd_error cs) then pv' else n_prev (nd h x)) ->
  Seg h p pv cs nx -> Seg h' p pv' cs nx.
Proof.
  intros HN ND HE H. destruct cs as [|x t]; [exact I|]. simpl in *.
  destruct H as (H1 & H2 & H3 & H4 & H5). destruct (HE x (or_introl eq_refl)) as (E1 & E2 & E3).
  inversion ND as [|? ? NI ND']; subst.
  rewrite HN, E1, E2, E3. destruct (onat_eq_dec _ _); [|congruence]. repeat split; auto.
  eapply Seg_ext; [exact HN| |exact H5].
  intros z Hz. destruct (HE z (or_intror Hz)) as (Z1 & Z2 & Z3).
  destruct (onat_eq_dec _ _) as [E|E]; [injection E as ->; contradiction|]. auto.
Qed.

Section PushChildren.
  Variables (h : heap) (s c : nat) (cs : list nat).
  Hypothesis Hs : s < nnodes h.
  Hypothesis Hc : c < nnodes h.
  Hypothesis HC : Children h s cs.
  Hypothesis Hroot : n_parent (nd h c) = None.

  Lemma push_c_fresh p l : Children h p l -> ~ In c l.
  Proof. intros H Hin. destruct (Children_member _ _ _ _ H Hin) as [_ E]. congruence. Qed.

  Lemma push_last_ok : ref_ok h (n_last (nd h s)) /\ n_last (nd h s) <> Some c.
  Proof.
    destruct HC as (_ & HL & _). rewrite HL. unfold ref_ok. destruct (last_error cs) as [l|] eqn:E; [|split; [exact I|discriminate]].
    apply last_error_In in E. destruct (Children_member _ _ _ _ HC E) as [R P]. split; [exact R|]. intros [= ->]. congruence.
  Qed.

  Lemma push_Children_self : Children (push_heap h s c) s (cs ++ [c]).
  Proof.
    destruct push_last_ok as [HLok HLc]. pose proof (push_c_fresh s cs HC) as Fresh.
    destruct HC as (HF & HL & HCh & HND & HAll).
    unfold Children. rewrite push_first, push_last by assumption.
    destruct (Nat.eq_dec s s) as [_|]; [|congruence]. repeat split.
    - rewrite HF. destruct cs; reflexivity.
    - symmetry. apply last_error_snoc.
    - apply Chain_Seg. apply Seg_app. apply Chain_Seg in HCh. split.
      + eapply Seg_retarget; [apply push_nnodes| exact HND | |exact HCh].
        intros x Hx. assert (x <> c) by (intros ->; contradiction).
        rewrite push_parent, push_prev, push_next by assumption.
        destruct (Nat.eq_dec x c); [contradiction|]. rewrite HL. auto.
      + simpl. rewrite push_nnodes, push_parent, push_prev, push_next by assumption.
        destruct (Nat.eq_dec c c); [|congruence]. destruct (onat_eq_dec _ _); [congruence|].
        rewrite HL, last_error_last_or. auto.
    - apply NoDup_snoc; assumption.
    - intros x Hx. rewrite push_nnodes in Hx. rewrite push_parent by assumption.
      destruct (Nat.eq_dec x c) as [->|]; intro E; rewrite in_app_iff; [right; left; reflexivity|left; auto].
  Qed.

  (* the last child of s is a child of s: not a member of another element's list, and not a root *)
  Lemma push_not_last x : n_parent (nd h x) <> Some s -> Some x <> n_last (nd h s).
  Proof.
    intros P E. destruct HC as (_ & HL & _). rewrite HL in E. symmetry in E. apply last_error_In in E.
    destruct (Children_member _ _ _ _ HC E) as [_ P1]. contradiction.
  Qed.

  Lemma push_Children_other p l : p <> s -> Children h p l -> Children (push_heap h s c) p l.
  Proof.
    intros Hp HP. destruct push_last_ok as [HLok _]. pose proof (push_c_fresh p l HP) as Fresh.
    pose proof (fun x => Children_member h p l x HP) as Mem.
    destruct HP as (HF & HL & HCh & HND & HAll). unfold Children.
    rewrite push_first, push_last by assumption. destruct (Nat.eq_dec p s); [contradiction|]. repeat split; auto.
    - apply Chain_Seg. apply Chain_Seg in HCh. eapply Seg_ext; [apply push_nnodes| |exact HCh].
      intros x Hx. assert (x <> c) by (intros ->; contradiction).
      rewrite push_parent, push_prev, push_next by assumption.
      destruct (Nat.eq_dec x c); [contradiction|]. repeat split; auto.
      destruct (onat_eq_dec _ _) as [E|]; [|reflexivity].
      exfalso. revert E. apply push_not_last. destruct (Mem x Hx) as [_ ->]. congruence.
    - intros x Hx. rewrite push_nnodes in Hx. rewrite push_parent by assumption.
      destruct (Nat.eq_dec x c); [congruence|]. auto.
  Qed.

  Lemma push_roots :
    (forall x, x < nnodes h -> n_parent (nd h x) = None -> n_next (nd h x) = None /\ n_prev (nd h x) = None) ->
    forall x, x < nnodes (push_heap h s c) -> n_parent (nd (push_heap h s c) x) = None ->
              n_next (nd (push_heap h s c) x) = None /\ n_prev (nd (push_heap h s c) x) = None.
  Proof.
    intros HR x Hx. destruct push_last_ok as [HLok _]. rewrite push_nnodes in Hx.
    rewrite push_parent, push_prev, push_next by assumption.
    destruct (Nat.eq_dec x c); [discriminate|]. intro E. destruct (HR x Hx E) as [R1 R2].
    destruct (onat_eq_dec _ _) as [E'|]; [|auto].
    exfalso. revert E'. apply push_not_last. rewrite E. discriminate.
  Qed.
End PushChildren.

Definition rreset (n : node) : node := set_prev None (set_next None (set_parent None n)).
Definition remove_heap (h : heap) (s c : nat) : heap :=
  let h1 := if onat_eqb (n_first (nd h s)) (Some c) then updn h s (set_first (n_next (nd h c))) else h in
  let h2 := if onat_eqb (n_last (nd h1 s)) (Some c) then updn h1 s (set_last (n_prev (nd h1 c))) else h1 in
  let h3 := match n_prev (nd h2 c) with Some pv => updn h2 pv (set_next (n_next (nd h2 c))) | None => h2 end in
  let h4 := match n_next (nd h3 c) with Some nx => updn h3 nx (set_prev (n_prev (nd h3 c))) | None => h3 end in
  updn h4 c rreset.

Lemma ce_remove_child_eq h s c : ce_remove_child h s c =
  match kids h s with
  | None => RErr h EFuel
  | Some cs => if negb (existsb (Nat.eqb c) cs) then RErr h EValue else ROk (remove_heap h s c)
  end.
Proof. reflexivity. Qed.
Lemma ce_remove_child_ok h s c h' : ce_remove_child h s c = ROk h' ->
  exists cs, kids h s = Some cs /\ In c cs /\ h' = remove_heap h s c.
Proof.
  rewrite ce_remove_child_eq. destruct (kids h s) as [cs|]; [|discriminate].
  destruct (existsb (Nat.eqb c) cs) eqn:E; cbn [negb]; [|discriminate].
  intros [= <-]. exists cs. split; [reflexivity|]. split; [apply existsb_eqb_In; exact E|reflexivity].
Qed.
Lemma ce_remove_child_err h s c h' e : ce_remove_child h s c = RErr h' e -> h' = h.
Proof.
  rewrite ce_remove_child_eq. destruct (kids h s) as [cs|]; [|intros [= <- _]; reflexivity].
  destruct (negb _); [intros [= <- _]; reflexivity|discriminate].
Qed.

Definition remove_writes (s c : nat) (f0 l0 pv0 nx0 : option nat) : list write :=
  [(if onat_eqb f0 (Some c) then Some s else None, set_first nx0);
   (if onat_eqb l0 (Some c) then Some s else None, set_last pv0);
   (pv0, set_next nx0);
   (nx0, set_prev pv0);
   (Some c, rreset)].

Lemma remove_heap_eq h s c : n_prev (nd h c) <> Some c ->
  remove_heap h s c =
  fold_left put (remove_writes s c (n_first (nd h s)) (n_last (nd h s)) (n_prev (nd h c)) (n_next (nd h c))) h.
Proof.
  intro Hne. unfold remove_heap. cbv zeta. rewrite !put_if.
  rewrite (proj_put n_last), !(proj_put n_prev), !(proj_put n_next) by reflexivity.
  destruct (n_prev (nd h c)) as [pv|] eqn:E; [rewrite nd_updn_other by congruence|];
    rewrite !(proj_put n_prev), !(proj_put n_next), E by reflexivity; reflexivity.
Qed.

Section RemoveFields.
  Variables (h : heap) (s c : nat) (f0 l0 pv0 nx0 : option nat).
  Hypothesis Hs : s < nnodes h.
  Hypothesis Hc : c < nnodes h.
  Hypothesis Hpv : ref_ok h pv0.
  Hypothesis Hnx : ref_ok h nx0.
  Notation h5 := (fold_left put (remove_writes s c f0 l0 pv0 nx0) h).

  Lemma remove_other {X} (pi : node -> X) :
    (forall v n, pi (set_parent v n) = pi n) -> (forall v n, pi (set_prev v n) = pi n) ->
    (forall v n, pi (set_next v n) = pi n) -> (forall v n, pi (set_first v n) = pi n) ->
    (forall v n, pi (set_last v n) = pi n) -> forall j, pi (nd h5 j) = pi (nd h j).
  Proof.
    intros P1 P2 P3 P4 P5 j. apply proj_puts.
    repeat constructor; cbn [snd]; intro n; unfold rreset; rewrite ?P2, ?P3, ?P1; auto.
  Qed.

  Lemma remove_nd j : nd h5 j = fold_left (hit j) (remove_writes s c f0 l0 pv0 nx0) (nd h j).
  Proof. apply nd_puts. repeat constructor; cbn [fst]; try assumption; destruct (onat_eqb _ _); try exact I; exact Hs. Qed.

  Lemma remove_parent j : n_parent (nd h5 j) = if Nat.eq_dec j c then None else n_parent (nd h j).
  Proof.
    rewrite remove_nd. cbn [remove_writes fold_left]. rewrite proj_hit_at. cbn [fst snd rreset set_prev set_next set_parent n_parent].
    rewrite 4 proj_hit by reflexivity. apply at_Some.
  Qed.
  Lemma remove_first j : n_first (nd h5 j) =
    if Nat.eq_dec j s then (if onat_eqb f0 (Some c) then nx0 else n_first (nd h s)) else n_first (nd h j).
  Proof.
    rewrite remove_nd. cbn [remove_writes fold_left]. rewrite 4 proj_hit by reflexivity. rewrite proj_hit_at. cbn [fst snd].
    destruct (onat_eqb f0 (Some c)); [apply at_Some|rewrite at_None]. destruct (Nat.eq_dec j s) as [->|]; reflexivity.
  Qed.
  Lemma remove_last j : n_last (nd h5 j) =
    if Nat.eq_dec j s then (if onat_eqb l0 (Some c) then pv0 else n_last (nd h s)) else n_last (nd h j).
  Proof.
    rewrite remove_nd. cbn [remove_writes fold_left]. rewrite 3 proj_hit by reflexivity. rewrite proj_hit_at.
    cbn [fst snd set_last n_last]. rewrite proj_hit by reflexivity.
    destruct (onat_eqb l0 (Some c)); [apply at_Some|rewrite at_None]. destruct (Nat.eq_dec j s) as [->|]; reflexivity.
  Qed.
  Lemma remove_next j : n_next (nd h5 j) =
    if Nat.eq_dec j c then None else if onat_eq_dec (Some j) pv0 then nx0 else n_next (nd h j).
  Proof.
    rewrite remove_nd. cbn [remove_writes fold_left]. rewrite proj_hit_at. cbn [fst snd rreset set_prev set_next n_next].
    rewrite proj_hit by reflexivity. rewrite proj_hit_at. cbn [fst snd set_next n_next]. rewrite 2 proj_hit by reflexivity.
    apply at_Some.
  Qed.
  Lemma remove_prev j : n_prev (nd h5 j) =
    if Nat.eq_dec j c then None else if onat_eq_dec (Some j) nx0 then pv0 else n_prev (nd h j).
  Proof.
    rewrite remove_nd. cbn [remove_writes fold_left]. rewrite proj_hit_at. cbn [fst snd rreset set_prev n_prev]. rewrite proj_hit_at. cbn [fst snd set_prev n_prev].
    rewrite 3 proj_hit by reflexivity. apply at_Some.
  Qed.
End RemoveFields.

Lemma NoDup_app_parts (a b : list nat) : NoDup (a ++ b) -> NoDup a /\ NoDup b.
Proof.
  induction a as [|x t IH]; simpl; intro H; [split; [constructor|exact H]|].
  inversion H; subst. destruct (IH H3) as [A B]. split; [|exact B].
  constructor; [|exact A]. intro Hx. apply H2. rewrite in_app_iff. left; exact Hx.
Qed.
Lemma last_or_In b pv x : last_or b pv = Some x -> b <> [] -> In x b.
Proof.
  intros E Hb. destruct b as [|y t]; [congruence|]. unfold last_or in E. injection E as <-.
  apply last_error_In. reflexivity.
Qed.

Lemma last_or_notin a x : ~ In x a -> Some x <> last_or a None.
Proof. intros N E. apply N. destruct a; [discriminate|]. eapply last_or_In; [symmetry; exact E|discriminate]. Qed.
Lemma hd_or_notin b x : ~ In x b -> Some x <> hd_or b None.
Proof. intros N E. apply N. destruct b; [discriminate|]. injection E as ->. left; reflexivity. Qed.

Section RemoveChildren.
  Variables (h : heap) (s c : nat) (a b : list nat).
  Hypothesis Hs : s < nnodes h.
  Hypothesis HC : Children h s (a ++ c :: b).

  Let cs := a ++ c :: b.
  Lemma rm_nodup : ~ In c a /\ ~ In c b /\ (forall x, In x a -> ~ In x b) /\ NoDup (a ++ b).
  Proof.
    destruct HC as (_ & _ & _ & ND & _).
    pose proof (NoDup_remove_1 _ _ _ ND) as ND1. pose proof (NoDup_remove_2 _ _ _ ND) as ND2.
    rewrite in_app_iff in ND2. repeat split; auto.
    intros x Ha Hb. clear - ND Ha Hb. induction a as [|y t IH]; [destruct Ha|].
    simpl in ND. inversion ND; subst. destruct Ha as [->|Ha]; [|auto].
    apply H1. rewrite in_app_iff. right. right. exact Hb.
  Qed.
  Lemma rm_seg : Seg h s None a (Some c) /\ c < nnodes h /\ n_parent (nd h c) = Some s /\
                 n_prev (nd h c) = last_or a None /\ n_next (nd h c) = hd_or b None /\ Seg h s (Some c) b None.
  Proof.
    destruct HC as (_ & _ & HCh & _). apply Chain_Seg in HCh. apply Seg_app in HCh. destruct HCh as [S1 S2].
    simpl in S2. tauto.
  Qed.
  Lemma rm_pv : ref_ok h (last_or a None).
  Proof.
    destruct (last_or a None) as [pv|] eqn:E; [|exact I].
    apply (Children_member _ _ _ _ HC). rewrite in_app_iff. left.
    destruct a; [discriminate|]. eapply last_or_In; [exact E|discriminate].
  Qed.
  Lemma rm_nx : ref_ok h (hd_or b None).
  Proof.
    destruct b as [|y t]; [exact I|]. apply (Children_member _ _ _ _ HC). rewrite in_app_iff. right; right; left; reflexivity.
  Qed.
  Lemma rm_first_eqb : onat_eqb (hd_error (a ++ c :: b)) (Some c) = match a with [] => true | _ => false end.
  Proof.
    destruct rm_nodup as (Na & _). destruct a as [|x t]; simpl.
    - apply onat_eqb_true. reflexivity.
    - apply onat_eqb_false. intros [= ->]. apply Na. left; reflexivity.
  Qed.
  Lemma rm_last_eqb : onat_eqb (last_error (a ++ c :: b)) (Some c) = match b with [] => true | _ => false end.
  Proof.
    destruct rm_nodup as (_ & Nb & _). rewrite last_error_last_or, last_or_app, last_or_cons.
    destruct b as [|y t].
    - apply onat_eqb_true. reflexivity.
    - apply onat_eqb_false. intro E. apply Nb. eapply last_or_In; [exact E|discriminate].
  Qed.

  Lemma remove_heap_rh5 : remove_heap h s c =
    fold_left put (remove_writes s c (hd_error (a ++ c :: b)) (last_error (a ++ c :: b)) (last_or a None) (hd_or b None)) h.
  Proof.
    destruct rm_seg as (_ & _ & _ & Ep & En & _). destruct HC as (HF & HL & _).
    rewrite remove_heap_eq, HF, HL, Ep, En; [reflexivity|].
    rewrite Ep. intro E. destruct rm_nodup as (Na & _). apply Na.
    destruct a; [discriminate|]. eapply last_or_In; [exact E|discriminate].
  Qed.

  Lemma remove_nnodes : nnodes (remove_heap h s c) = nnodes h.
  Proof. rewrite remove_heap_rh5. apply nnodes_puts. Qed.
  Lemma remove_docs : h_docs (remove_heap h s c) = h_docs h.
  Proof. rewrite remove_heap_rh5. apply docs_puts. Qed.
  Lemma remove_heap_other {X} (pi : node -> X) :
    (forall v n, pi (set_parent v n) = pi n) -> (forall v n, pi (set_prev v n) = pi n) ->
    (forall v n, pi (set_next v n) = pi n) -> (forall v n, pi (set_first v n) = pi n) ->
    (forall v n, pi (set_last v n) = pi n) -> forall j, pi (nd (remove_heap h s c) j) = pi (nd h j).
  Proof. intros. rewrite remove_heap_rh5. apply remove_other; auto. Qed.
  Lemma remove_heap_parent j : n_parent (nd (remove_heap h s c) j) = if Nat.eq_dec j c then None else n_parent (nd h j).
  Proof. destruct rm_seg as (_ & Rc & _). rewrite remove_heap_rh5. apply remove_parent; [exact Hs|exact Rc|exact rm_pv|exact rm_nx]. Qed.

  Lemma remove_Children_self : Children (remove_heap h s c) s (a ++ b).
  Proof.
    destruct rm_seg as (S1 & Rc & Pc & Ep & En & S2). destruct rm_nodup as (Na & Nb & Nab & ND').
    pose proof rm_pv as Hpv. pose proof rm_nx as Hnx.
    pose proof (fun x => Children_member h s _ x HC) as Mem.
    destruct (NoDup_app_parts _ _ ND') as [NDa NDb].
    destruct HC as (HF & HL & HCh & HND & HAll).
    rewrite remove_heap_rh5. unfold Children.
    rewrite remove_first, remove_last by assumption. destruct (Nat.eq_dec s s) as [_|]; [|congruence].
    rewrite rm_first_eqb, rm_last_eqb. repeat split.
    - rewrite HF. destruct a; [simpl; symmetry; apply hd_error_hd_or|reflexivity].
    - rewrite HL. destruct b as [|y t].
      + rewrite app_nil_r. symmetry. apply last_error_last_or.
      + rewrite !last_error_last_or, !last_or_app, last_or_cons. reflexivity.
    - apply Chain_Seg. apply Seg_app. split.
      + eapply Seg_retarget; [apply nnodes_puts|exact NDa| |exact S1].
        intros x Hx. assert (x <> c) by (intros ->; contradiction).
        rewrite remove_parent, remove_prev, remove_next by assumption.
        destruct (Nat.eq_dec x c); [contradiction|]. rewrite last_error_last_or. repeat split; auto.
        destruct (onat_eq_dec (Some x) (hd_or b None)) as [E|]; [|reflexivity].
        destruct (hd_or_notin b x (Nab x Hx) E).
      + eapply Seg_rehead; [apply nnodes_puts|exact NDb| |exact S2].
        intros x Hx. assert (x <> c) by (intros ->; contradiction).
        rewrite remove_parent, remove_prev, remove_next by assumption.
        destruct (Nat.eq_dec x c); [contradiction|]. rewrite hd_error_hd_or. repeat split; auto.
        destruct (onat_eq_dec (Some x) (last_or a None)) as [E|]; [|reflexivity].
        destruct (last_or_notin a x (fun Ha => Nab x Ha Hx) E).
    - exact ND'.
    - intros x Hx. rewrite nnodes_puts in Hx. rewrite remove_parent by assumption.
      destruct (Nat.eq_dec x c); [discriminate|]. intro E. specialize (HAll x Hx E).
      rewrite in_app_iff in *. destruct HAll as [?|[?|?]]; [auto|congruence|auto].
  Qed.

  (* the neighbours of c are children of s *)
  Lemma rm_outside x : n_parent (nd h x) <> Some s -> Some x <> last_or a None /\ Some x <> hd_or b None.
  Proof.
    intro P. assert (O : ~ In x (a ++ c :: b)) by (intro H; apply P, (Children_member _ _ _ _ HC H)).
    rewrite in_app_iff in O. split; [apply last_or_notin|apply hd_or_notin]; intro; apply O; [left|right; right]; assumption.
  Qed.

  Lemma remove_Children_other p l : p <> s -> Children h p l -> Children (remove_heap h s c) p l.
  Proof.
    intros Hp HP. destruct rm_seg as (_ & Rc & Pc & _).
    pose proof rm_pv as Hpv. pose proof rm_nx as Hnx.
    pose proof (fun x => Children_member h p l x HP) as MemP.
    destruct HP as (HF & HL & HCh & HND & HAll).
    rewrite remove_heap_rh5. unfold Children.
    rewrite remove_first, remove_last by assumption. destruct (Nat.eq_dec p s); [contradiction|]. repeat split; auto.
    - apply Chain_Seg. apply Chain_Seg in HCh. eapply Seg_ext; [apply nnodes_puts| |exact HCh].
      intros x Hx. destruct (MemP x Hx) as [_ Px]. destruct (rm_outside x) as [O1 O2]; [congruence|].
      rewrite remove_parent, remove_prev, remove_next by assumption.
      destruct (Nat.eq_dec x c); [congruence|]. repeat split; auto; destruct (onat_eq_dec _ _); congruence.
    - intros x Hx. rewrite nnodes_puts in Hx. rewrite remove_parent by assumption.
      destruct (Nat.eq_dec x c); [discriminate|]. auto.
  Qed.

  Lemma remove_roots :
    (forall x, x < nnodes h -> n_parent (nd h x) = None -> n_next (nd h x) = None /\ n_prev (nd h x) = None) ->
    forall x, x < nnodes (remove_heap h s c) -> n_parent (nd (remove_heap h s c) x) = None ->
              n_next (nd (remove_heap h s c) x) = None /\ n_prev (nd (remove_heap h s c) x) = None.
  Proof.
    intros HR x Hx. destruct rm_seg as (_ & Rc & _).
    pose proof rm_pv as Hpv. pose proof rm_nx as Hnx.
    rewrite remove_heap_rh5 in *. rewrite nnodes_puts in Hx.
    rewrite remove_parent, remove_prev, remove_next by assumption.
    destruct (Nat.eq_dec x c); [auto|]. intro E. destruct (HR x Hx E) as [R1 R2].
    destruct (rm_outside x) as [O1 O2]; [congruence|].
    split; destruct (onat_eq_dec _ _); congruence.
  Qed.
End RemoveChildren.
