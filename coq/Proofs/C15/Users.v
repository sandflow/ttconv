(* C15: the bookkeeping of Region._users by ContentElement.set_region (link_region), field by field, and
   the representation invariant (Model/HeapRep.v) under it and under operations that leave regions alone. *)
From Coq Require Import List Arith Bool Lia.
From TT Require Import Base.HeapTypes Model.Heap Model.HeapRep Spec.ModelWF
  Proofs.C15.HeapLemmas Proofs.C15.Links Proofs.C15.Frames.
Import ListNotations.

Definition memb (x : nat) (l : list nat) : bool := existsb (Nat.eqb x) l.
Lemma memb_app x a b : memb x (a ++ b) = memb x a || memb x b.
Proof. apply existsb_app. Qed.
Lemma memb_In x l : memb x l = true <-> In x l.
Proof. apply existsb_eqb_In. Qed.
Lemma memb_false x l : memb x l = false <-> ~ In x l.
Proof. rewrite <- memb_In. destruct (memb x l); split; intros; congruence. Qed.

Lemma In_uins x l i : In i (uins x l) <-> x = i \/ In i l.
Proof.
  induction l as [|y t IH]; simpl; [tauto|].
  destruct (x <? y); [simpl; tauto|]. destruct (Nat.eqb_spec x y) as [->|N]; simpl; [tauto|].
  rewrite IH. tauto.
Qed.
Lemma In_udel x l i : In i (udel x l) <-> In i l /\ i <> x.
Proof.
  unfold udel. rewrite filter_In. split; intros [H1 H2]; split; auto.
  - intros ->. rewrite Nat.eqb_refl in H2. discriminate.
  - apply negb_true_iff. apply Nat.eqb_neq. exact H2.
Qed.

Lemma users_frame h h' : nnodes h' = nnodes h -> same n_region h h' -> same n_users h h' -> UsersOK h -> UsersOK h'.
Proof. intros HN S1 S2 U r i Hr. rewrite HN in *. rewrite S1, S2. apply U. exact Hr. Qed.
Lemma region_ids_frame h h' : nnodes h' = nnodes h -> same n_kind h h' ->
  (forall r, n_kind (nd h r) = KRegion -> n_id (nd h' r) = n_id (nd h r)) -> RegionIds h -> RegionIds h'.
Proof. intros HN S1 S2 U i Hi. rewrite HN in Hi. rewrite S1. intro K. rewrite (S2 i K). apply U; assumption. Qed.
Lemma rep_frame h h' : nnodes h' = nnodes h -> same n_region h h' -> same n_users h h' -> same n_kind h h' -> same n_id h h' ->
  Rep h -> Rep h'.
Proof.
  intros HN S1 S2 S3 S4 [U R]. split; [eapply users_frame; eauto|]. apply (region_ids_frame h); auto.
Qed.
Lemma rep_updd h d f : Rep h -> Rep (updd h d f).
Proof. apply rep_frame; try reflexivity; apply same_updd. Qed.

Definition drop_user (s : nat) : node -> node := fun n => set_users (udel s (n_users n)) n.
Definition add_user (s : nat) : node -> node := fun n => set_users (uins s (n_users n)) n.
Definition region_writes h s r : list write :=
  [(n_region (nd h s), drop_user s); (r, add_user s); (Some s, set_region r)].
Lemma link_region_eq h s r : link_region h s r = fold_left put (region_writes h s r) h.
Proof. reflexivity. Qed.

Lemma link_region_nnodes h s r : nnodes (link_region h s r) = nnodes h.
Proof. rewrite link_region_eq. apply nnodes_puts. Qed.
Lemma link_region_docs h s r : h_docs (link_region h s r) = h_docs h.
Proof. rewrite link_region_eq. apply docs_puts. Qed.

Lemma link_region_other {X} (pi : node -> X) h s r :
  (forall v n, pi (set_users v n) = pi n) -> (forall v n, pi (set_region v n) = pi n) ->
  forall j, pi (nd (link_region h s r) j) = pi (nd h j).
Proof.
  intros P1 P2 j. rewrite link_region_eq. apply proj_puts. repeat constructor; cbn [snd]; intro; (apply P1 || apply P2).
Qed.
Lemma link_region_same {X} (pi : node -> X) h s r :
  (forall v n, pi (set_users v n) = pi n) -> (forall v n, pi (set_region v n) = pi n) -> same pi h (link_region h s r).
Proof. intros P1 P2 j. apply link_region_other; assumption. Qed.

Lemma link_region_region h s r j : s < nnodes h ->
  n_region (nd (link_region h s r) j) = if Nat.eq_dec j s then r else n_region (nd h j).
Proof.
  intro Hs. rewrite link_region_eq. cbn [region_writes fold_left]. unfold put at 1. cbn [fst snd].
  rewrite (nd_updn_cases n_region) by (rewrite !nnodes_put; exact Hs).
  destruct (Nat.eq_dec j s); [reflexivity|]. rewrite 2 proj_put by reflexivity. reflexivity.
Qed.

Lemma link_region_users_In h s r j i : s < nnodes h ->
  (forall r0, n_region (nd h s) = Some r0 -> r0 < nnodes h) -> (forall rr, r = Some rr -> rr < nnodes h) ->
  (In i (n_users (nd (link_region h s r) j)) <->
   (r = Some j /\ i = s) \/ (In i (n_users (nd h j)) /\ ~ (n_region (nd h s) = Some j /\ i = s))).
Proof.
  intros Hs H0 H1. rewrite link_region_eq, nd_puts.
  - cbn [region_writes fold_left]. rewrite proj_hit by reflexivity. rewrite proj_hit_at. cbn [fst snd add_user set_users n_users].
    rewrite proj_hit_at. cbn [fst snd drop_user set_users n_users].
    destruct (onat_eq_dec (Some j) r) as [<-|], (onat_eq_dec (Some j) (n_region (nd h s))) as [<-|]; rewrite ?In_uins, ?In_udel; intuition congruence.
  - repeat constructor; cbn [fst]; [destruct (n_region (nd h s)); [apply H0; reflexivity|exact I]|destruct r; [apply H1; reflexivity|exact I]|exact Hs].
Qed.

Lemma link_region_UsersOK h s r : s < nnodes h ->
  (forall r0, n_region (nd h s) = Some r0 -> r0 < nnodes h) -> (forall rr, r = Some rr -> rr < nnodes h) ->
  UsersOK h -> UsersOK (link_region h s r).
Proof.
  intros Hs H0 H1 U j i Hj. rewrite link_region_nnodes in *.
  rewrite (link_region_users_In h s r j i Hs H0 H1), (link_region_region h s r i Hs), (U j i Hj).
  destruct (Nat.eq_dec i s) as [->|N]; intuition congruence.
Qed.
Lemma link_region_Rep h s r : s < nnodes h ->
  (forall r0, n_region (nd h s) = Some r0 -> r0 < nnodes h) -> (forall rr, r = Some rr -> rr < nnodes h) ->
  Rep h -> Rep (link_region h s r).
Proof.
  intros Hs H0 H1 [U R]. split; [apply link_region_UsersOK; assumption|].
  apply (region_ids_frame h); [apply link_region_nnodes|apply link_region_same; reflexivity|intros r0 _; apply link_region_other; reflexivity|exact R].
Qed.

(* the invariant of the machine, and the same with the size of the universe (which no call changes),
   so that "the arguments denote objects of the universe" survives a sequence of calls *)
Definition Inv (h : heap) : Prop := WF h /\ Rep h.
Definition Invn (n m : nat) (h : heap) : Prop := WF h /\ Rep h /\ nnodes h = n /\ ndocs h = m.
Lemma Inv_Invn h : Inv h -> Invn (nnodes h) (ndocs h) h.
Proof. intros [W R]. exact (conj W (conj R (conj eq_refl eq_refl))). Qed.
Lemma Invn_Inv n m h : Invn n m h -> Inv h.
Proof. intros (W & R & _). exact (conj W R). Qed.
