(* C15, content model: the per-class guards of push_child / push_children (as transcribed) imply the
   content model of doc/data_model.md for the lengthened child list; removal keeps it. Pure facts
   about lists of kinds. *)
From Coq Require Import List Arith Bool Lia.
From TT Require Import Base.HeapTypes Model.Heap Spec.ModelWF Proofs.C15.HeapLemmas.
Import ListNotations.

Lemma kmem_kind_in k l : kmem k l = kind_in k l.
Proof.
  unfold kmem, kind_in. induction l as [|x t IH]; simpl; [reflexivity|]. rewrite IH. f_equal.
  unfold kind_eqb. destruct (kind_eq_dec x k), (kind_eq_dec k x); congruence.
Qed.

Lemma forallb_snoc {A} (f : A -> bool) l x : forallb f (l ++ [x]) = forallb f l && f x.
Proof. rewrite forallb_app. simpl. rewrite andb_true_r. reflexivity. Qed.

Lemma all_rt_app a b : all_rt (a ++ b) = all_rt a && all_rt b.
Proof. apply forallb_app. Qed.

Lemma rtc_form_hd_rt t : rtc_form (KRt :: t) = true -> all_rt (KRt :: t) = true.
Proof. unfold rtc_form. rewrite orb_false_r. auto. Qed.
Lemma rtc_form_hd_rp t : rtc_form (KRp :: t) = true -> exists m, t = m ++ [KRp] /\ all_rt m = true.
Proof.
  unfold rtc_form. simpl. destruct (rev t) as [|x m] eqn:E; [discriminate|].
  destruct x; try discriminate. intro H. exists (rev m). split.
  - rewrite <- (rev_involutive t), E. reflexivity.
  - unfold all_rt in *. rewrite forallb_forall in *. intros x Hx. apply H. apply in_rev. exact Hx.
Qed.
Lemma rtc_form_all_rt ks : all_rt ks = true -> rtc_form ks = true.
Proof. unfold rtc_form. intros ->. reflexivity. Qed.
Lemma rtc_form_rp_rt_rp m : all_rt m = true -> rtc_form (KRp :: m ++ [KRp]) = true.
Proof.
  intro H. unfold rtc_form. simpl. rewrite rev_unit.
  unfold all_rt in *. rewrite forallb_forall in *. intros x Hx. apply H. apply in_rev. exact Hx.
Qed.
Lemma rtc_form_other k t : rtc_form (k :: t) = true -> k = KRt \/ k = KRp.
Proof. unfold rtc_form. destruct k; simpl; auto; discriminate. Qed.

Lemma last_snoc_kind (l : list kind) x d : last (l ++ [x]) d = x.
Proof. apply last_last. Qed.

(* the Rtc.push_child guard, on the kinds of the present children: no Rp-delimited list is extended and
   only an Rt is added *)
Definition rtc_guard (ks : list kind) (kc : kind) : bool :=
  negb (okind_is KRp (hd_error ks) || negb (kind_in kc [KRt])).

Lemma rtc_push ks kc : rtc_form ks = true -> rtc_guard ks kc = true -> rtc_form (ks ++ [kc]) = true.
Proof.
  intros F G. unfold rtc_guard in G. apply negb_true_iff in G. apply orb_false_iff in G. destruct G as [G1 G2].
  apply negb_false_iff in G2. assert (kc = KRt) as -> by (destruct kc; try discriminate G2; reflexivity).
  destruct ks as [|k t]; [reflexivity|].
  destruct (rtc_form_other _ _ F) as [-> | ->].
  - apply rtc_form_hd_rt in F. apply rtc_form_all_rt. rewrite all_rt_app, F. reflexivity.
  - simpl in G1. rewrite kind_eqb_refl in G1. discriminate.
Qed.

Lemma all_rt_eq l : all_rt l = forallb (kind_eqb KRt) l.
Proof.
  unfold all_rt. induction l as [|x t IH]; [reflexivity|]. cbn [forallb]. rewrite IH. f_equal.
  unfold kmem. simpl. rewrite orb_false_r. unfold kind_eqb. reflexivity.
Qed.

(* Rtc.push_children's validation implies the Rtc pattern for an empty Rtc *)
Lemma rtc_list_ok_form ks : rtc_list_ok ks = true -> rtc_form ks = true.
Proof.
  unfold rtc_list_ok. destruct ks as [|k rest]; [reflexivity|].
  destruct k; try (intro H; apply rtc_form_all_rt; rewrite all_rt_eq; exact H).
  destruct ((2 <? length (KRp :: rest)) && kind_eqb (last (KRp :: rest) KText) KRp) eqn:C.
  - apply andb_true_iff in C. destruct C as [C1 C2]. apply Nat.ltb_lt in C1. apply kind_eqb_true in C2.
    destruct rest as [|y r]; [simpl in C1; lia|].
    assert (E : y :: r = removelast (y :: r) ++ [last (y :: r) KText]) by (apply app_removelast_last; discriminate).
    change (last (KRp :: y :: r) KText) with (last (y :: r) KText) in C2. rewrite C2 in E.
    intro H. rewrite E. apply rtc_form_rp_rt_rp. rewrite all_rt_eq. exact H.
  - simpl. intro H. discriminate H.
Qed.
Lemma rtc_list_ok_no_rp ks : rtc_list_ok ks = true -> existsb (fun k => kind_eqb k KRp) ks = false -> all_rt ks = true.
Proof.
  unfold rtc_list_ok. destruct ks as [|k rest]; [reflexivity|]. intros H N.
  destruct k; try (rewrite all_rt_eq; exact H).
  simpl in N. discriminate N.
Qed.

Lemma ruby_pattern_form ks : existsb (kinds_eqb ks) ruby_patterns = true -> existsb (klist_eqb ks) ruby_forms = true.
Proof.
  intro H. apply existsb_exists in H. destruct H as (p & Hp & E).
  unfold kinds_eqb in E. destruct (list_eq_dec kind_eq_dec ks p) as [->|]; [|discriminate].
  simpl in Hp. destruct Hp as [<-|[<-|[<-|[<-|[]]]]]; vm_compute; reflexivity.
Qed.

(* except for Ruby and Rtc, whose children form a pattern, the content model constrains each child by itself
   (Br, Text and Region allow none) *)
Definition child_ok (k c : kind) : bool :=
  match k with
  | KBody => kmem c [KDiv] | KDiv => kmem c [KP; KDiv] | KP => kmem c [KSpan; KRuby; KBr]
  | KSpan => kmem c [KSpan; KBr; KText] | KRbc => kmem c [KRb] | KRb | KRt | KRp => kmem c [KSpan]
  | _ => false
  end.
Lemma allowed_forallb k ks : k <> KRuby -> k <> KRtc -> allowed k ks = forallb (child_ok k) ks.
Proof. intros; destruct k; try congruence; try reflexivity; destruct ks; reflexivity. Qed.

Lemma allowed_remove k a x b : k <> KRuby -> k <> KRtc -> allowed k (a ++ x :: b) = true -> allowed k (a ++ b) = true.
Proof.
  intros N1 N2. rewrite !allowed_forallb, !forallb_app by assumption. cbn [forallb]. intro H.
  apply andb_true_iff in H. destruct H as [H1 H2]. apply andb_true_iff in H2. rewrite H1. apply H2.
Qed.
Lemma allowed_nil k : allowed k [] = true.
Proof. destruct k; reflexivity. Qed.

Definition simple_guard (k kc : kind) : bool :=
  match k with
  | KBody => kind_in kc [KDiv]
  | KDiv => kind_in kc [KP; KDiv]
  | KP => kind_in kc [KSpan; KBr; KRuby]
  | KSpan => kind_in kc [KSpan; KBr; KText]
  | KRb | KRt | KRp => kind_in kc [KSpan]
  | KRbc => kind_in kc [KRb]
  | _ => false
  end.
Lemma allowed_snoc_simple k ks kc : simple_guard k kc = true -> allowed k ks = true -> allowed k (ks ++ [kc]) = true.
Proof.
  intro G. assert (N : k <> KRuby /\ k <> KRtc) by (split; intros ->; discriminate G). destruct N as [N1 N2].
  rewrite !allowed_forallb, forallb_snoc by assumption. intros ->.
  destruct k; try discriminate G; destruct kc; try discriminate G; reflexivity.
Qed.
