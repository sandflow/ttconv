(* C15: the calls that do not change the tree (styles, animation steps, initial values, attribute
   setters, document parameters, set_region, put_region, remove_region, set_body, copy_to): each keeps
   the invariant, and a rejected one leaves the heap as it was (copy_to excepted, which loops);
   ContentDocument.copy_to is total on well-formed heaps. *)
From Coq Require Import List Arith Bool Lia.
From TT Require Import Base.HeapTypes Model.Heap Model.HeapRep Spec.ModelWF
  Proofs.C15.HeapLemmas Proofs.C15.Links Proofs.C15.Frames Proofs.C15.LinkOps Proofs.C15.Values Proofs.C15.Users.
Import ListNotations.

(* an operation that leaves links and kinds alone: only four clauses remain to be shown *)
Lemma WF_struct h h' : WF h -> nnodes h' = nnodes h -> same lk h h' -> same n_kind h h' ->
  Closed h' -> WF_doc h' -> WF_regions h' -> WF_values h' -> WF h'.
Proof.
  intros ((C & K & R) & A & D & Ct & Rg & V) HN SL SK C' D' Rg' V'.
  refine (conj (conj C' (conj _ _)) (conj _ (conj D' (conj _ (conj Rg' V'))))).
  - apply (Kids_frame h h' HN SL). exact K.
  - apply (Roots_frame h h' HN SL). exact R.
  - apply (acyclic_frame h h' HN SL). exact A.
  - apply (content_frame h h' HN SL SK). exact Ct.
Qed.
Lemma values_of h : WF h -> WF_values h. Proof. intros (_ & _ & _ & _ & _ & V). exact V. Qed.
Lemma regions_of h : WF h -> WF_regions h. Proof. intros (_ & _ & _ & _ & R & _). exact R. Qed.

Section Dict.
  Context {K V : Type} (eqb : K -> K -> bool).
  Hypothesis eqb_eq : forall a b, eqb a b = true <-> a = b.
  Implicit Type d : list (K * V).

  Lemma In_dict_del d k x : In x (dict_del eqb d k) -> In x d.
  Proof. induction d as [|[k' v] t IH]; simpl; [tauto|]. destruct (eqb k k'); simpl; tauto. Qed.
  Lemma In_dict_set d k v x : In x (dict_set eqb d k v) -> In x d \/ x = (k, v).
  Proof.
    induction d as [|[k' w] t IH]; simpl; [intros [<-|[]]; auto|]. destruct (eqb k k') eqn:E; simpl; [|tauto].
    apply eqb_eq in E. subst k'. intros [<-|H]; auto.
  Qed.
  Lemma keys_del d k : NoDup (map fst d) -> NoDup (map fst (dict_del eqb d k)).
  Proof.
    induction d as [|[k' v] t IH]; simpl; intro ND; [constructor|]. inversion ND as [|? ? NI ND']; subst.
    destruct (eqb k k'); simpl; [exact ND'|]. constructor; [|apply IH; exact ND'].
    rewrite in_map_iff. intros (x & <- & H). apply NI. apply in_map. eapply In_dict_del; eauto.
  Qed.
  Lemma keys_set d k v : NoDup (map fst d) -> NoDup (map fst (dict_set eqb d k v)).
  Proof.
    induction d as [|[k' w] t IH]; simpl; intro ND; [constructor; [intros []|constructor]|].
    inversion ND as [|? ? NI ND']; subst. destruct (eqb k k') eqn:E; simpl; [exact ND|]. constructor; [|apply IH; exact ND'].
    rewrite in_map_iff. intros (x & <- & H). destruct (In_dict_set _ _ _ _ H) as [H'| ->]; [apply NI, in_map, H'|].
    simpl in E. rewrite (proj2 (eqb_eq k k) eq_refl) in E. discriminate.
  Qed.
End Dict.

(* the registry of a document, as the specification reads it *)
Lemma dict_get_lookup l k : dict_get Nat.eqb l k = lookup l k.
Proof. induction l as [|[k' v] t IH]; simpl; [reflexivity|]. rewrite IH. reflexivity. Qed.
Lemma dict_has_get {V} (l : list (nat * V)) k : dict_has Nat.eqb l k = true <-> dict_get Nat.eqb l k <> None.
Proof.
  induction l as [|[k' v] t IH]; simpl; [split; [discriminate|congruence]|].
  destruct (Nat.eqb k k'); simpl; [split; [discriminate|reflexivity]|exact IH].
Qed.
Lemma lookup_None_notin l k : lookup l k = None -> ~ In k (map fst l).
Proof.
  induction l as [|[k0 v0] t IH]; simpl; [tauto|]. destruct (Nat.eqb_spec k k0); [discriminate|].
  intros H [E|E]; [congruence|apply IH; assumption].
Qed.
Lemma lookup_notin (l : list (nat * nat)) k : ~ In k (map fst l) -> lookup l k = None.
Proof. intro H. destruct (lookup l k) eqn:E; [|reflexivity]. exfalso. apply H. apply lookup_In in E. apply (in_map fst _ _ E). Qed.
Lemma lookup_set l k v k' : lookup (dict_set Nat.eqb l k v) k' = if Nat.eqb k' k then Some v else lookup l k'.
Proof.
  induction l as [|[k0 v0] t IH]; simpl.
  - destruct (Nat.eqb k' k); reflexivity.
  - destruct (Nat.eqb_spec k k0) as [->|N]; simpl.
    + destruct (Nat.eqb k' k0); reflexivity.
    + rewrite IH. destruct (Nat.eqb_spec k' k0) as [->|N']; [|reflexivity].
      destruct (Nat.eqb_spec k0 k); [congruence|reflexivity].
Qed.
Lemma lookup_del l k : forall k', NoDup (map fst l) -> lookup (dict_del Nat.eqb l k) k' = if Nat.eqb k' k then None else lookup l k'.
Proof.
  induction l as [|[k0 v0] t IH]; simpl; intros k' ND.
  - destruct (Nat.eqb k' k); reflexivity.
  - inversion ND as [|? ? NI ND']; subst. destruct (Nat.eqb_spec k k0) as [E|N]; simpl.
    + subst k0. destruct (Nat.eqb_spec k' k) as [E'|N']; [|reflexivity]. subst k'. apply lookup_notin. exact NI.
    + rewrite IH by assumption. destruct (Nat.eqb_spec k' k0) as [E'|N']; [|reflexivity].
      subst k'. destruct (Nat.eqb_spec k0 k); [congruence|reflexivity].
Qed.
Lemma lookup_in_range h d id x : lookup (d_regions (dc h d)) id = Some x -> d < ndocs h.
Proof. intro E. destruct (lt_dec d (ndocs h)); [assumption|]. rewrite dc_out in E by lia. discriminate. Qed.

Lemma store_value_valid d p v d' : all_valid d -> store_value d p v = inl d' -> all_valid d'.
Proof.
  intros A. unfold store_value. destruct p as [p|]; [|discriminate]. destruct v as [v|].
  - destruct (validate p v) eqn:V; try discriminate. intros [= <-] q w H.
    destruct (In_dict_set _ prop_eqb_true _ _ _ _ H) as [H'|[= -> ->]]; [apply A; exact H'|apply validate_sound; exact V].
  - intros [= <-] q w H. apply A. eapply In_dict_del; eauto.
Qed.
Lemma store_value_nf d p v : store_value d p v <> inr EFuel.
Proof. unfold store_value. destruct p; [|discriminate]. destruct v; [|discriminate]. destruct (validate p s); discriminate. Qed.

(* Updates of one node: `f` leaves alone what the structural clauses read; it may change the id of anything but a Region
   (only Regions are registered or referenced), and the style and animation lists as long as they stay
   valid. *)
Definition fixed (x : node) := (lk x, n_kind x, n_doc x, n_region x).
Lemma fixed_same h h' : same fixed h h' -> same lk h h' /\ same n_kind h h' /\ same n_doc h h' /\ same n_region h h'.
Proof. intro H. repeat split; intro j; specialize (H j); unfold fixed in H; congruence. Qed.

Section NodeUpdate.
  Variables (h : heap) (s : nat) (f : node -> node).
  Hypothesis F : forall x, fixed (f x) = fixed x.
  Hypothesis F_id : n_kind (nd h s) = KRegion -> n_id (f (nd h s)) = n_id (nd h s).

  Lemma updn_region_ids r : n_kind (nd h r) = KRegion -> n_id (nd (updn h s f) r) = n_id (nd h r).
  Proof.
    intro Kr. destruct (lt_dec s (nnodes h)) as [Hs|Hs]; [|rewrite updn_out by lia; reflexivity].
    destruct (Nat.eq_dec s r) as [<-|N]; [rewrite nd_updn_same by exact Hs; auto|rewrite nd_updn_other by exact N; reflexivity].
  Qed.
  Lemma updn_WF : WF h -> (all_valid (n_styles (nd h s)) -> all_valid (n_styles (f (nd h s)))) ->
    (all_valid (n_anims (nd h s)) -> all_valid (n_anims (f (nd h s)))) -> WF (updn h s f).
  Proof.
    intros HW FS FA. destruct (lt_dec s (nnodes h)) as [Hs|Hs]; [|rewrite updn_out by lia; exact HW].
    destruct (fixed_same h _ (same_updn fixed h s f F)) as (SL & SK & SD & SR).
    pose proof HW as ((C & _) & _ & D & _ & Rg & (V1 & V2)).
    apply (WF_struct h); auto using nnodes_updn.
    - apply (closed_frame h); auto using nnodes_updn; [intros i Hi; rewrite SR, SD; apply C; exact Hi|exact (proj2 C)].
    - apply (doc_frame h); auto using nnodes_updn.
    - apply (regions_frame h); auto using nnodes_updn, updn_region_ids. apply dsame_updn.
    - split; [|exact V2]. intros i Hi. rewrite nnodes_updn in Hi.
      destruct (Nat.eq_dec s i) as [<-|N]; [rewrite nd_updn_same by exact Hs; destruct (V1 s Hs); auto|rewrite nd_updn_other by exact N; auto].
  Qed.
  Lemma updn_Invn n m : Invn n m h -> (forall x, n_users (f x) = n_users x) ->
    (all_valid (n_styles (nd h s)) -> all_valid (n_styles (f (nd h s)))) ->
    (all_valid (n_anims (nd h s)) -> all_valid (n_anims (f (nd h s)))) -> Invn n m (updn h s f).
  Proof.
    intros (HW & [U R] & N & M) FU FS FA. destruct (fixed_same h _ (same_updn fixed h s f F)) as (_ & SK & _ & SR).
    refine (conj (updn_WF HW FS FA) (conj (conj _ _) (conj _ M))).
    - apply (users_frame h); auto using nnodes_updn, same_updn.
    - apply (region_ids_frame h); auto using nnodes_updn, updn_region_ids.
    - rewrite nnodes_updn. exact N.
  Qed.
End NodeUpdate.

Lemma list_remove_In x l l' y : list_remove x l = Some l' -> In y l' -> In y l.
Proof.
  revert l'. induction l as [|z t IH]; intros l' E H; simpl in E; [discriminate|].
  destruct (pv_eqb z x); [injection E as <-; right; exact H|].
  destruct (list_remove x t) as [t'|]; [|discriminate]. injection E as <-.
  destruct H as [<-|H]; [left; reflexivity|right; eapply IH; eauto].
Qed.

(* the attribute setters: a class guard, then one such update *)
Section Setters.
  Variables (n m : nat) (h : heap) (s : nat).
  Hypothesis HI : Invn n m h.

  Lemma set_begin_safe v : Safe (Invn n m) h (set_begin_m h s v).
  Proof.
    assert (U : Invn n m (updn h s (set_begin v))) by (apply updn_Invn; auto).
    unfold set_begin_m. destruct (kind_of h s), v; easy.
  Qed.
  Lemma set_end_safe v : Safe (Invn n m) h (set_end_m h s v).
  Proof.
    assert (U : Invn n m (updn h s (set_end v))) by (apply updn_Invn; auto).
    unfold set_end_m. destruct (kind_of h s), v; easy.
  Qed.
  Lemma set_lang_safe v : Safe (Invn n m) h (set_lang_m h s v).
  Proof.
    assert (U : Invn n m (updn h s (set_lang v))) by (apply updn_Invn; auto).
    unfold set_lang_m. destruct (kind_of h s), v; easy.
  Qed.
  Lemma set_space_safe v : Safe (Invn n m) h (set_space_m h s v).
  Proof.
    assert (U : Invn n m (updn h s (set_space v))) by (apply updn_Invn; auto).
    unfold set_space_m. destruct (kind_of h s), v; easy.
  Qed.
  Lemma set_text_safe v : Safe (Invn n m) h (set_text_m h s v).
  Proof.
    assert (U : forall k, Invn n m (updn h s (set_text k))) by (intro; apply updn_Invn; auto).
    unfold set_text_m. destruct (kind_of h s), v; try easy; apply U.
  Qed.
  (* set_id never changes the id of a Region *)
  Lemma set_id_safe v : Safe (Invn n m) h (set_id_m h s v).
  Proof.
    assert (G : n_kind (nd h s) <> KRegion ->
      Safe (Invn n m) h match v with IdNone => ROk (updn h s (set_id None)) | IdOk k => ROk (updn h s (set_id (Some k))) | IdBad => RErr h EType end).
    { intro NK. destruct v; try easy; apply updn_Invn; easy. }
    unfold set_id_m, kind_of. destruct (n_kind (nd h s)) eqn:K; try (apply G; discriminate); destruct v; try destruct (onat_eqb _ _); easy.
  Qed.

  Lemma set_style_safe p v : Safe (Invn n m) h (set_style_m h s p v).
  Proof.
    unfold set_style_m.
    assert (G : Safe (Invn n m) h match store_value (n_styles (nd h s)) p v with inl d => ROk (updn h s (set_styles d)) | inr e => RErr h e end).
    { destruct (store_value _ p v) as [d|e] eqn:E.
      - apply updn_Invn; auto. intro A. exact (store_value_valid _ _ _ _ A E).
      - split; [reflexivity|]. intros ->. exact (store_value_nf _ _ _ E). }
    destruct (kind_of h s); try exact G. destruct (is_some v); easy.
  Qed.
  Lemma add_anim_safe p v : Safe (Invn n m) h (add_anim_m h s p v).
  Proof.
    unfold add_anim_m. destruct p as [p|]; [|easy]. destruct v as [v|]; [|easy]. destruct (validate p v) eqn:V; try easy.
    apply updn_Invn; auto. intros A q w H. apply in_app_iff in H. destruct H as [H|[[= <- <-]|[]]]; [auto|apply validate_sound; exact V].
  Qed.
  Lemma remove_anim_safe p v : Safe (Invn n m) h (remove_anim_m h s p v).
  Proof.
    unfold remove_anim_m. destruct (list_remove (p, v) (n_anims (nd h s))) as [l|] eqn:E; [|easy].
    apply updn_Invn; auto. intros A q w H. apply A. eapply list_remove_In; eauto.
  Qed.
  (* dest.add_animation_step for each step of the source, which is another element *)
  Lemma copy_anims_keeps src : src < n -> Nat.eqb src s = false -> Keeps (Invn n m) (copy_anims src s h).
  Proof.
    intros Hs E. unfold copy_anims. rewrite E. apply updn_Invn; auto. intros A q w H. apply in_app_iff in H. destruct H as [H|H]; [auto|].
    destruct HI as (W & _ & N & _). apply (proj1 (values_of h W) src ltac:(rewrite N; exact Hs)). exact H.
  Qed.
End Setters.

Lemma updd_Invn n m h d f : Invn n m h -> (forall x, d_regions (f x) = d_regions x) ->
  (ref_ok h (d_body (dc h d)) -> ref_ok h (d_body (f (dc h d)))) ->
  (all_valid (d_initials (dc h d)) -> all_valid (d_initials (f (dc h d)))) -> Invn n m (updd h d f).
Proof.
  intros (HW & HR & N & M) F FB FI.
  refine (conj _ (conj (rep_updd h d f HR) (conj N _))); [|rewrite ndocs_updd; exact M].
  destruct (lt_dec d (ndocs h)) as [Hd|Hd]; [|rewrite updd_out by lia; exact HW].
  assert (E : forall d', d' < ndocs h -> ref_ok h (d_body (dc (updd h d f) d')) /\ all_valid (d_initials (dc (updd h d f) d'))).
  { pose proof HW as (((_ & C2) & _) & _ & _ & _ & _ & (_ & V2)). intros d' Hd'.
    destruct (Nat.eq_dec d d') as [<-|N'].
    - rewrite dc_updd_same by exact Hd. split; [apply FB, C2, Hd|apply FI, V2, Hd].
    - rewrite dc_updd_other by exact N'. split; [apply C2, Hd'|apply V2, Hd']. }
  pose proof HW as ((C & _) & _ & D & _ & Rg & (V1 & V2)).
  apply (WF_struct h); auto using same_updd.
  - destruct C as [C1 C2]. split; [intros i Hi; unfold dref_ok; rewrite ndocs_updd; apply (C1 i Hi)|].
    intros d' Hd'. rewrite ndocs_updd in Hd'. rewrite (proj_updd d_regions) by exact F. split; [apply E; exact Hd'|apply C2; exact Hd'].
  - apply (regions_frame h); auto using same_updd, ndocs_updd, dsame_updd.
  - split; [exact V1|]. intros d' Hd'. rewrite ndocs_updd in Hd'. apply E. exact Hd'.
Qed.

Section DocSetters.
  Variables (n m : nat) (h : heap) (d : nat).
  Hypothesis HI : Invn n m h.

  Lemma put_initial_safe p v : Safe (Invn n m) h (put_initial h d p v).
  Proof.
    unfold put_initial. destruct (store_value (d_initials (dc h d)) p v) as [x|e] eqn:E.
    - apply updd_Invn; auto. intro A. exact (store_value_valid _ _ _ _ A E).
    - split; [reflexivity|]. intros ->. exact (store_value_nf _ _ _ E).
  Qed.
  Lemma remove_initial_safe p : Safe (Invn n m) h (remove_initial h d p).
  Proof.
    unfold remove_initial. destruct p as [p|]; [|exact HI]. apply updd_Invn; auto.
    intros A q w H. apply A. exact (In_dict_del _ _ _ _ H).
  Qed.
  Lemma set_body_safe b : onode_ok h b = true -> Safe (Invn n m) h (set_body_m h d b).
  Proof.
    intro Hb. assert (U : Invn n m (updd h d (HeapTypes.set_body b))).
    { apply updd_Invn; auto. intros _. destruct b; [apply Nat.ltb_lt; exact Hb|exact I]. }
    unfold set_body_m. destruct b; [|exact U]. destruct (negb _); [easy|]. destruct (is_some _); [easy|]. destruct (negb _); [easy|exact U].
  Qed.
  Lemma set_active_safe v : Safe (Invn n m) h (set_active_m h d v).
  Proof. destruct v; try easy; apply updd_Invn; auto. Qed.
  Lemma set_dar_safe v : Safe (Invn n m) h (set_dar_m h d v).
  Proof. destruct v; try easy; apply updd_Invn; auto. Qed.
  Lemma set_cell_safe v : Safe (Invn n m) h (set_cell_m h d v).
  Proof. destruct v; try easy; apply updd_Invn; auto. Qed.
  Lemma set_px_safe v : Safe (Invn n m) h (set_px_m h d v).
  Proof. destruct v; try easy; apply updd_Invn; auto. Qed.
  Lemma set_dlang_safe v : Safe (Invn n m) h (set_dlang_m h d v).
  Proof. destruct v; try easy; apply updd_Invn; auto. Qed.
End DocSetters.

Definition same_size (h h' : heap) : Prop := nnodes h' = nnodes h /\ ndocs h' = ndocs h.
Lemma same_size_refl h : same_size h h. Proof. split; reflexivity. Qed.
Lemma same_size_trans a b c : same_size a b -> same_size b c -> same_size a c.
Proof. intros [A1 A2] [B1 B2]. split; congruence. Qed.

(* a node up to its region and its users *)
Definition strip (n : node) : node := set_users [] (set_region None n).
Definition same_strip (h h' : heap) : Prop := same strip h h'.

Lemma dc_docs h h' j : h_docs h' = h_docs h -> dc h' j = dc h j.
Proof. intro E. unfold dc. rewrite E. reflexivity. Qed.

(* a heap that differs from a well-formed one only in region references, users sets and the registry
   of at most one document (d, if it exists) is well formed when its region references are registered *)
Lemma regions_changed_WF h h2 d (regs : list (nat * nat)) :
  WF h -> nnodes h2 = nnodes h -> ndocs h2 = ndocs h -> same_strip h h2 ->
  (forall d', d_body (dc h2 d') = d_body (dc h d') /\ d_initials (dc h2 d') = d_initials (dc h d') /\
              d_regions (dc h2 d') = if Nat.eq_dec d d' then regs else d_regions (dc h d')) ->
  (forall id x, In (id, x) regs -> x < nnodes h) -> NoDup (map fst regs) ->
  (forall id x, lookup regs id = Some x -> n_kind (nd h x) = KRegion /\ n_id (nd h x) = Some id) ->
  (forall i ri, i < nnodes h -> n_region (nd h2 i) = Some ri ->
     ri < nnodes h /\ region_capable (n_kind (nd h i)) = true /\
     exists di id, n_doc (nd h i) = Some di /\ n_id (nd h ri) = Some id /\ lookup (d_regions (dc h2 di)) id = Some ri) ->
  WF h2.
Proof.
  intros HW HN HD SS DOCS RANGE ND REGOK REFS.
  pose proof HW as ((C & _) & _ & D & _ & (W1 & W2 & W3) & V).
  assert (SL : same lk h h2) by (apply (same_through strip); [reflexivity|exact SS]).
  assert (SK : same n_kind h h2) by (apply (same_through strip); [reflexivity|exact SS]).
  assert (SD : same n_doc h h2) by (apply (same_through strip); [reflexivity|exact SS]).
  assert (SI : same n_id h h2) by (apply (same_through strip); [reflexivity|exact SS]).
  apply (WF_struct h); auto.
  - pose proof C as [C1 C2]. apply (closed_frame h); auto.
    + intros i Hi. rewrite SD. split; [|apply C1; exact Hi].
      destruct (n_region (nd h2 i)) as [ri|] eqn:E; [apply (REFS i ri Hi E)|exact I].
    + intros d' Hd'. destruct (DOCS d') as (B1 & _ & B3). rewrite B1, B3.
      split; [apply C2; exact Hd'|]. destruct (Nat.eq_dec d d'); [exact RANGE|apply C2; exact Hd'].
  - apply (doc_frame h); auto.
  - split; [|split].
    + intros i ri Hi E. rewrite HN in Hi. destruct (REFS i ri Hi E) as (_ & Cp & di & id & E1 & E2 & E3).
      rewrite SK, SD. split; [exact Cp|]. exists di, id. rewrite SI. auto.
    + intros d' id x Hd'. rewrite HD in Hd'. destruct (DOCS d') as (_ & _ & B3). rewrite B3, SK, SI.
      destruct (Nat.eq_dec d d'); [apply REGOK|apply W2; exact Hd'].
    + intros d' Hd'. rewrite HD in Hd'. destruct (DOCS d') as (_ & _ & B3). rewrite B3.
      destruct (Nat.eq_dec d d'); [exact ND|apply W3; exact Hd'].
  - destruct V as [V1 V2]. split.
    + intros i Hi. rewrite HN in Hi.
      rewrite (same_through strip n_styles h h2 ltac:(reflexivity) SS), (same_through strip n_anims h h2 ltac:(reflexivity) SS).
      apply V1. exact Hi.
    + intros d' Hd'. rewrite HD in Hd'. destruct (DOCS d') as (_ & B2 & _). rewrite B2. apply V2. exact Hd'.
Qed.

Lemma Rep_changed h h2 : nnodes h2 = nnodes h -> same_strip h h2 -> UsersOK h2 -> Rep h -> Rep h2.
Proof.
  intros HN SS U [_ R]. split; [exact U|].
  apply (region_ids_frame h); auto; [|intros r _]; apply (same_through strip); try reflexivity; exact SS.
Qed.


Lemma region_in_range h s r0 : WF h -> s < nnodes h -> n_region (nd h s) = Some r0 -> r0 < nnodes h.
Proof. intros (((C1 & _) & _) & _) Hs E. destruct (C1 s Hs) as (_ & _ & _ & _ & _ & R & _). rewrite E in R. exact R. Qed.

Lemma link_region_strip h s r : same_strip h (link_region h s r).
Proof. intro j. apply (link_region_other strip); reflexivity. Qed.

Lemma link_region_Invn n m h s r : Invn n m h -> s < n -> onode_ok h r = true ->
  (forall rr, r = Some rr -> region_capable (n_kind (nd h s)) = true /\
     exists d id, n_doc (nd h s) = Some d /\ n_id (nd h rr) = Some id /\ lookup (d_regions (dc h d)) id = Some rr) ->
  Invn n m (link_region h s r).
Proof.
  intros (HW & HR & <- & <-) Hs Hr HC. pose proof (link_region_docs h s r) as HD.
  refine (conj _ (conj _ (conj (link_region_nnodes h s r) (ndocs_docs _ _ HD)))).
  - (* no registry changes: the document named is one that does not exist *)
    apply (regions_changed_WF h _ (ndocs h) []); auto using link_region_nnodes, link_region_strip, ndocs_docs.
    + intro d'. rewrite (dc_docs _ _ d' HD). split; [reflexivity|split; [reflexivity|]].
      destruct (Nat.eq_dec (ndocs h) d') as [<-|]; [rewrite dc_out by lia|]; reflexivity.
    + intros id x [].
    + constructor.
    + discriminate.
    + intros i ri Hi. rewrite link_region_region by exact Hs. destruct (Nat.eq_dec i s) as [->|N].
      * intros ->. split; [apply Nat.ltb_lt; exact Hr|]. destruct (HC ri eq_refl) as [Cp (d & id & E)].
        split; [exact Cp|]. exists d, id. rewrite (dc_docs _ _ _ HD). exact E.
      * intro E. split; [eapply region_in_range; eauto|]. destruct (proj1 (regions_of h HW) i ri Hi E) as [Cp (d & id & E')].
        split; [exact Cp|]. exists d, id. rewrite (dc_docs _ _ _ HD). exact E'.
  - apply link_region_Rep; auto.
    + intros r0 E. eapply region_in_range; eauto.
    + intros rr ->. apply Nat.ltb_lt. exact Hr.
Qed.

Lemma get_region_lookup h d id rr : onat_eqb (get_region h d id) (Some rr) = true ->
  exists k, id = Some k /\ lookup (d_regions (dc h d)) k = Some rr.
Proof.
  intro E. apply onat_eqb_true in E. unfold get_region in E. destruct id as [k|]; [|discriminate].
  exists k. split; [reflexivity|]. rewrite <- dict_get_lookup. exact E.
Qed.


Theorem set_region_safe n m h s r : Invn n m h -> s < n -> onode_ok h r = true -> Safe (Invn n m) h (set_region_m h s r).
Proof.
  intros HI Hs Hr. unfold set_region_m.
  assert (G : region_capable (kind_of h s) = true \/ r = None ->
    Safe (Invn n m) h match r with
                | None => ROk (link_region h s None)
                | Some rr => match n_doc (nd h s) with
                             | None => RErr h EValue
                             | Some d => if onat_eqb (get_region h d (n_id (nd h rr))) (Some rr) then ROk (link_region h s r) else RErr h EValue
                             end
                end).
  { intro Cap. destruct r as [rr|].
    - destruct (n_doc (nd h s)) as [d|] eqn:Ed; [|easy].
      destruct (onat_eqb (get_region h d (n_id (nd h rr))) (Some rr)) eqn:Hh; [|easy].
      apply link_region_Invn; auto. intros r0 [= <-].
      destruct Cap as [Cap|]; [|discriminate]. split; [exact Cap|].
      destruct (get_region_lookup _ _ _ _ Hh) as (k & Ek & El). exists d, k. auto.
    - apply link_region_Invn; auto. intros rr [=]. }
  unfold kind_of in *. destruct (n_kind (nd h s)) eqn:K; try (apply G; left; reflexivity).
  - destruct r; [easy|]. apply G. right; reflexivity.
  - easy.
  - destruct r; easy.
Qed.
Lemma set_region_size h s r : same_size h (heap_of (set_region_m h s r)).
Proof.
  assert (L : forall r', same_size h (link_region h s r')) by (split; [apply link_region_nnodes|apply ndocs_docs, link_region_docs]).
  unfold set_region_m. destruct (kind_of h s); cbv zeta; destruct r; try destruct (n_doc _); try destruct (onat_eqb _ _);
    simpl; auto using same_size_refl.
Qed.

(* Relinked: h' is h with the region reference of the selected elements set to `to`, the users sets following.
   The loops of put_region, remove_region and set_doc(None) compose steps of this kind. *)
Definition RefsOK (h : heap) : Prop := forall j r0, j < nnodes h -> n_region (nd h j) = Some r0 -> r0 < nnodes h.
Definition Relinked (sel : nat -> bool) (to : option nat) (h h' : heap) : Prop :=
  nnodes h' = nnodes h /\ same_strip h h' /\
  (forall j, n_region (nd h' j) = if sel j then to else n_region (nd h j)) /\ UsersOK h'.

Lemma Relinked_refl sel to h : (forall j, sel j = true -> n_region (nd h j) = to) -> UsersOK h -> Relinked sel to h h.
Proof.
  intros S U. refine (conj eq_refl (conj (same_refl _ _) (conj _ U))).
  intro j. destruct (sel j) eqn:E; [apply S; exact E|reflexivity].
Qed.
Lemma Relinked_trans s1 s2 sel to a b c : (forall j, sel j = s1 j || s2 j) ->
  Relinked s1 to a b -> Relinked s2 to b c -> Relinked sel to a c.
Proof.
  intros S (N1 & S1 & R1 & _) (N2 & S2 & R2 & U).
  refine (conj _ (conj (same_trans _ _ _ _ S1 S2) (conj _ U))); [congruence|].
  intro j. rewrite R2, R1, S. destruct (s1 j), (s2 j); reflexivity.
Qed.
Lemma link_region_Relinked sel h e to : (forall j, sel j = Nat.eqb j e) -> e < nnodes h -> RefsOK h -> ref_ok h to -> UsersOK h ->
  Relinked sel to h (link_region h e to).
Proof.
  intros S He HR Hto HU. refine (conj (link_region_nnodes h e to) (conj (link_region_strip h e to) (conj _ _))).
  - intro j. rewrite link_region_region, S by exact He.
    destruct (Nat.eq_dec j e) as [->|N]; [rewrite Nat.eqb_refl|apply Nat.eqb_neq in N; rewrite N]; reflexivity.
  - apply link_region_UsersOK; auto; [intros r0 E; apply (HR e r0 He E)|intros rr ->; exact Hto].
Qed.

Lemma set_region_accepted h e to : region_capable (n_kind (nd h e)) = true ->
  (forall rr, to = Some rr -> exists d, n_doc (nd h e) = Some d /\ onat_eqb (get_region h d (n_id (nd h rr))) (Some rr) = true) ->
  set_region_m h e to = ROk (link_region h e to).
Proof.
  intros Cp Hto. unfold set_region_m, kind_of. destruct to as [rr|].
  - destruct (Hto rr eq_refl) as (d & Ed & Hg). rewrite Ed, Hg. destruct (n_kind (nd h e)); try discriminate Cp; reflexivity.
  - destruct (n_kind (nd h e)); try discriminate Cp; reflexivity.
Qed.

(* `for e in list(region._users): if e.get_doc() is self: e.set_region(to)` *)
Lemma retarget_loop d to (c : nat -> bool) : forall us h,
  (forall j, onat_eqb (n_doc (nd h j)) (Some d) = c j) ->
  (forall e, In e us -> e < nnodes h) ->
  (forall e, In e us -> c e = true -> region_capable (n_kind (nd h e)) = true) ->
  (forall rr, to = Some rr -> rr < nnodes h /\ onat_eqb (get_region h d (n_id (nd h rr))) (Some rr) = true) ->
  RefsOK h -> UsersOK h ->
  exists h', each (retarget d to) us h = ROk h' /\ h_docs h' = h_docs h /\ Relinked (fun j => memb j us && c j) to h h'.
Proof.
  induction us as [|e t IH]; intros h Hc Hus Hcap Hto HR HU.
  - exists h. split; [reflexivity|split; [reflexivity|]]. apply Relinked_refl; [discriminate|exact HU].
  - assert (He : e < nnodes h) by (apply Hus; left; reflexivity).
    assert (STEP : exists h1, retarget d to h e = ROk h1 /\ h_docs h1 = h_docs h /\ Relinked (fun j => Nat.eqb j e && c j) to h h1).
    { unfold retarget. destruct (onat_eqb (n_doc (nd h e)) (Some d)) eqn:Ed.
      - exists (link_region h e to). split; [|split; [apply link_region_docs|]].
        + apply set_region_accepted; [apply Hcap; [left; reflexivity|rewrite <- Hc; exact Ed]|].
          intros rr E. exists d. split; [apply onat_eqb_true; exact Ed|apply (Hto rr E)].
        + apply link_region_Relinked; auto.
          * intro j. destruct (Nat.eqb_spec j e) as [->|]; [rewrite <- Hc, Ed|]; reflexivity.
          * destruct to as [rr|]; [apply (Hto rr eq_refl)|exact I].
      - exists h. split; [reflexivity|split; [reflexivity|]]. apply Relinked_refl; [|exact HU].
        intros j E. apply andb_true_iff in E. destruct E as [E1 E2]. apply Nat.eqb_eq in E1. subst j.
        rewrite <- Hc in E2. congruence. }
    destruct STEP as (h1 & E1 & D1 & RL1). pose proof RL1 as (N1 & S1 & R1 & U1).
    destruct (IH h1) as (h2 & E2 & D2 & RL2).
    + intro j. rewrite <- Hc, (same_through strip n_doc h h1 ltac:(reflexivity) S1). reflexivity.
    + intros x Hx. rewrite N1. apply Hus. right; exact Hx.
    + intros x Hx Cx. rewrite (same_through strip n_kind h h1 ltac:(reflexivity) S1). apply Hcap; [right; exact Hx|exact Cx].
    + intros rr E. destruct (Hto rr E) as [A B]. split; [rewrite N1; exact A|].
      unfold get_region, dc in *. rewrite D1, (same_through strip n_id h h1 ltac:(reflexivity) S1). exact B.
    + intros j r0 Hj. rewrite N1 in *. rewrite R1.
      destruct (_ && _); [intro E; apply (Hto r0 E)|apply HR; exact Hj].
    + exact U1.
    + exists h2. split; [simpl; rewrite E1; exact E2|]. split; [congruence|].
      eapply Relinked_trans; [|exact RL1|exact RL2].
      intro j. unfold memb. cbn [existsb]. destruct (Nat.eqb j e), (existsb _ t), (c j); reflexivity.
Qed.

(* put_region and remove_region: the registry of d binds k to v in place of its former binding,
   and the elements of d that referenced the former binding, when it is not v, reference v *)
Definition rebind (l : list (nat * nat)) (k : nat) (v : option nat) : list (nat * nat) :=
  match v with Some r => dict_set Nat.eqb l k r | None => dict_del Nat.eqb l k end.

Lemma rebind_Invn n m h h2 d k v us :
  Invn n m h -> d < m -> Relinked (fun j => memb j us && onat_eqb (n_doc (nd h j)) (Some d)) v h h2 ->
  h_docs h2 = h_docs (updd h d (fun x => set_regions (rebind (d_regions x) k v) x)) ->
  (forall r, v = Some r -> r < n /\ n_kind (nd h r) = KRegion /\ n_id (nd h r) = Some k) ->
  (forall i, In i us -> exists r0, n_region (nd h i) = Some r0) ->
  (forall i r0, i < n -> n_region (nd h i) = Some r0 -> lookup (d_regions (dc h d)) k = Some r0 -> Some r0 <> v -> In i us) ->
  Invn n m h2.
Proof.
  intros (HW & HR & <- & <-) Hd (N2 & S2 & R2 & U2) HD HV SEL1 SEL2.
  pose proof HW as ((C & _) & _ & _ & _ & (W1 & W2 & W3) & _). destruct (proj2 C d Hd) as [_ C2].
  set (regs := rebind (d_regions (dc h d)) k v).
  assert (M2 : ndocs h2 = ndocs h) by (rewrite (ndocs_docs _ _ HD); apply ndocs_updd).
  assert (DOCS : forall d', d_body (dc h2 d') = d_body (dc h d') /\ d_initials (dc h2 d') = d_initials (dc h d') /\
                 d_regions (dc h2 d') = if Nat.eq_dec d d' then regs else d_regions (dc h d')).
  { intro d'. rewrite (dc_docs _ _ d' HD), (proj_updd d_body), (proj_updd d_initials) by reflexivity.
    split; [reflexivity|split; [reflexivity|]].
    destruct (Nat.eq_dec d d') as [<-|N]; [rewrite dc_updd_same by assumption|rewrite dc_updd_other by assumption]; reflexivity. }
  assert (LK : forall k', lookup regs k' = if Nat.eqb k' k then v else lookup (d_regions (dc h d)) k').
  { intro k'. unfold regs. destruct v; [apply lookup_set|apply lookup_del, W3, Hd]. }
  refine (conj _ (conj (Rep_changed h h2 N2 S2 U2 HR) (conj N2 M2))).
  apply (regions_changed_WF h h2 d regs); auto.
  - intros id x Hin. unfold regs in Hin. destruct v as [r|].
    + destruct (In_dict_set _ Nat.eqb_eq _ _ _ _ Hin) as [H|[= _ ->]]; [apply (C2 id x H)|apply (HV r eq_refl)].
    + apply (C2 id x), (In_dict_del _ _ _ _ Hin).
  - unfold regs. destruct v; [apply (keys_set _ Nat.eqb_eq)|apply keys_del]; apply W3, Hd.
  - intros id x. rewrite LK. destruct (Nat.eqb_spec id k) as [->|]; [intro E; apply (HV x E)|apply W2; exact Hd].
  - intros i ri Hi. rewrite R2. destruct (_ && _) eqn:Si.
    + intros ->. apply andb_true_iff in Si. destruct Si as [M Di]. apply onat_eqb_true in Di.
      destruct (SEL1 i (proj1 (memb_In _ _) M)) as (r0 & E0). destruct (HV ri eq_refl) as (A & _ & B).
      split; [exact A|split; [apply (W1 i r0 Hi E0)|]]. exists d, k. destruct (DOCS d) as (_ & _ & ->).
      destruct (Nat.eq_dec d d); [|congruence]. rewrite LK, Nat.eqb_refl. auto.
    + intro E. destruct (W1 i ri Hi E) as [Cp (di & idi & E1 & E3 & E4)].
      split; [eapply region_in_range; eauto|split; [exact Cp|]]. exists di, idi. repeat split; auto.
      destruct (DOCS di) as (_ & _ & ->). destruct (Nat.eq_dec d di) as [<-|]; [|exact E4].
      rewrite LK. destruct (Nat.eqb_spec idi k) as [->|]; [|exact E4].
      (* i references what d bound k to: that is v, or i was selected *)
      destruct (onat_eq_dec (Some ri) v) as [<-|NE]; [reflexivity|].
      rewrite (proj2 (memb_In _ _) (SEL2 i ri Hi E E4 NE)), (proj2 (onat_eqb_true _ _) E1) in Si. discriminate.
Qed.

Theorem put_region_safe n m h d r : Invn n m h -> d < m -> r < n -> Safe (Invn n m) h (put_region h d r).
Proof.
  intros HI Hd Hr. pose proof HI as (HW & HR & <- & <-). unfold put_region.
  destruct (kind_eqb (kind_of h r) KRegion) eqn:K; [|easy]. simpl.
  destruct (onat_eqb (n_doc (nd h r)) (Some d)) eqn:Dd; [|easy]. simpl.
  apply kind_eqb_true in K. unfold kind_of in K.
  destruct (n_id (nd h r)) as [k|] eqn:Ek; [|exfalso; exact (proj2 HR r Hr K Ek)].
  pose proof HW as ((C & _) & _ & _ & _ & (W1 & _) & _). pose proof HR as [HU _].
  set (h1 := updd h d (fun x => set_regions (dict_set Nat.eqb (d_regions x) k r) x)).
  (* the loop (over no element when nothing is replaced) *)
  set (us := match dict_get Nat.eqb (d_regions (dc h d)) k with
             | Some r0 => if Nat.eqb r0 r then [] else n_users (nd h1 r0) | None => [] end).
  assert (RUN : match dict_get Nat.eqb (d_regions (dc h d)) k with
                | None => ROk h1
                | Some r0 => if Nat.eqb r0 r then ROk h1 else each (retarget d (Some r)) (n_users (nd h1 r0)) h1
                end = each (retarget d (Some r)) us h1).
  { unfold us. destruct (dict_get Nat.eqb (d_regions (dc h d)) k) as [r0|]; [destruct (Nat.eqb r0 r)|]; reflexivity. }
  rewrite RUN.
  assert (USERS : forall e, In e us -> e < nnodes h /\ exists r0, n_region (nd h e) = Some r0).
  { unfold us. rewrite dict_get_lookup. destruct (lookup (d_regions (dc h d)) k) as [r0|] eqn:L; [|intros e []].
    destruct (Nat.eqb r0 r); [intros e []|]. intros e He. change (In e (n_users (nd h r0))) in He.
    assert (Hr0 : r0 < nnodes h) by (destruct C as [_ C2]; apply (proj2 (C2 d Hd) k r0); apply lookup_In; exact L).
    apply (HU r0 e Hr0) in He. destruct He as [A B]. split; [exact A|]. exists r0. exact B. }
  destruct (retarget_loop d (Some r) (fun j => onat_eqb (n_doc (nd h j)) (Some d)) us h1) as (h2 & E2 & D2 & RL).
  - reflexivity.
  - intros e He. apply (USERS e He).
  - intros e He _. destruct (USERS e He) as (A & r0 & B). apply (W1 e r0 A B).
  - intros rr [= <-]. split; [exact Hr|]. apply onat_eqb_true. unfold get_region. change (n_id (nd h1 r)) with (n_id (nd h r)). rewrite Ek.
    unfold h1. rewrite dict_get_lookup, dc_updd_same by exact Hd. cbn [d_regions set_regions]. rewrite lookup_set, Nat.eqb_refl. reflexivity.
  - intros j r0 Hj E. apply (region_in_range h j r0 HW Hj E).
  - apply (users_frame h); auto; apply same_updd.
  - rewrite E2. apply (rebind_Invn _ _ h h2 d k (Some r) us HI Hd RL D2).
    + intros r' [= <-]. auto.
    + intros i M. apply (USERS i M).
    + intros i r0 Hi E L NE. unfold us. rewrite dict_get_lookup, L. destruct (Nat.eqb_spec r0 r); [congruence|].
      change (In i (n_users (nd h r0))). apply (HU r0 i (region_in_range h i r0 HW Hi E)). auto.
Qed.

Theorem remove_region_safe n m h d id : Invn n m h -> d < m -> Safe (Invn n m) h (remove_region h d id).
Proof.
  intros HN Hd. pose proof HN as (HW & HR & <- & <-). unfold remove_region.
  destruct (dict_get Nat.eqb (d_regions (dc h d)) id) as [r0|] eqn:G; [|exact HN].
  rewrite dict_get_lookup in G.
  pose proof HW as ((C & _) & _ & _ & _ & (W1 & _) & _). pose proof HR as [HU _].
  assert (Hr0 : r0 < nnodes h) by (destruct C as [_ C2]; apply (proj2 (C2 d Hd) id r0); apply lookup_In; exact G).
  assert (USERS : forall e, In e (n_users (nd h r0)) -> e < nnodes h /\ n_region (nd h e) = Some r0) by (intros e He; apply (HU r0 e Hr0); exact He).
  destruct (retarget_loop d None (fun j => onat_eqb (n_doc (nd h j)) (Some d)) (n_users (nd h r0)) h) as (h1 & E1 & D1 & RL).
  - reflexivity.
  - intros e He. apply (USERS e He).
  - intros e He _. destruct (USERS e He) as (A & B). apply (W1 e r0 A B).
  - intros rr [=].
  - intros j r1 Hj E. eapply region_in_range; eauto.
  - exact HU.
  - rewrite E1. simpl. apply (rebind_Invn _ _ h (updd h1 d _) d id None _ HN Hd RL).
    + unfold updd. cbn [h_docs]. rewrite D1. reflexivity.
    + discriminate.
    + intros i M. exists r0. apply (USERS i M).
    + intros i r1 Hi E L _. assert (r1 = r0) by congruence. subst r1. apply (HU r0 i Hr0). auto.
Qed.

(* copy_to: a sequence of the calls above *)
Lemma copy_styles_keeps n m s dst h : Invn n m h -> Keeps (Invn n m) (copy_styles s dst h).
Proof.
  unfold copy_styles. generalize (n_styles (nd h s)) as l. intro l. revert h.
  induction l as [|[p v] t IH]; intros h HI; [exact HI|].
  apply Keeps_bind; [|exact IH]. eapply Safe_Keeps; [apply set_style_safe|]; exact HI.
Qed.
Theorem copy_to_keeps n m h s dst : Invn n m h -> s < n -> Keeps (Invn n m) (copy_to h s dst).
Proof.
  intros HI Hs. unfold copy_to.
  destruct (kind_of h s); try (destruct (Nat.eqb s dst) eqn:E; [exact HI|]); keeps_seq;
    eauto using Safe_Keeps, set_text_safe, set_begin_safe, set_end_safe, set_id_safe, set_lang_safe, set_space_safe,
      copy_styles_keeps, copy_anims_keeps.
Qed.
Theorem doc_copy_to_keeps n m h d dst : Invn n m h -> Keeps (Invn n m) (doc_copy_to h d dst).
Proof.
  intro HI. unfold doc_copy_to. apply Keeps_bind.
  - destruct (Nat.eqb d dst); [exact HI|].
    keeps_seq; eauto using Safe_Keeps, set_active_safe, set_cell_safe, set_dar_safe, set_dlang_safe, set_px_safe.
  - intros h1 H1. generalize (d_initials (dc h1 d)) as l. intro l. revert h1 H1.
    induction l as [|[p v] t IH]; intros h1 H1; [exact H1|].
    apply Keeps_bind; [|exact IH]. eapply Safe_Keeps; [apply put_initial_safe|]; exact H1.
Qed.

(* ContentDocument.copy_to never raises: the parameters it copies were accepted by the same setters and the
   initial values it copies are valid (WF), hence accepted by validate (validate_complete) *)
Definition OkI (h : heap) (r : res) : Prop := exists h', r = ROk h' /\ forall j, d_initials (dc h' j) = d_initials (dc h j).
Lemma OkI_bind h r f : OkI h r -> (forall h1, OkI h1 (f h1)) -> OkI h (r >>= f).
Proof. intros (h1 & -> & E1) F. destruct (F h1) as (h2 & E & E2). exists h2. split; [exact E|]. intro j. rewrite E2. apply E1. Qed.
Lemma OkI_updd h i f : (forall x, d_initials (f x) = d_initials x) -> OkI h (ROk (updd h i f)).
Proof. intro F. eexists. split; [reflexivity|]. intro j. apply (proj_updd d_initials). exact F. Qed.

Theorem doc_copy_to_total h d dst : WF h -> d < ndocs h -> exists h', doc_copy_to h d dst = ROk h'.
Proof.
  intros HW Hd. pose proof HW as (_ & _ & _ & _ & _ & (_ & V2)).
  unfold doc_copy_to.
  assert (A : OkI h (if Nat.eqb d dst then ROk h
     else set_active_m h dst (darg_of (d_active (dc h d))) >>= fun h0 => set_cell_m h0 dst (DVal (d_cell (dc h0 d))) >>= fun h2 =>
          set_dar_m h2 dst (darg_of (d_dar (dc h2 d))) >>= fun h3 => set_dlang_m h3 dst (DVal (d_dlang (dc h3 d))) >>= fun h4 =>
          set_px_m h4 dst (DVal (d_px (dc h4 d))))).
  { destruct (Nat.eqb d dst); [exists h; auto|].
    assert (L1 : forall h0 o, OkI h0 (set_active_m h0 dst (darg_of o))) by (intros h0 [k|]; apply OkI_updd; reflexivity).
    assert (L2 : forall h0 o, OkI h0 (set_dar_m h0 dst (darg_of o))) by (intros h0 [k|]; apply OkI_updd; reflexivity).
    assert (L3 : forall h0 k, OkI h0 (set_cell_m h0 dst (DVal k))) by (intros; apply OkI_updd; reflexivity).
    assert (L4 : forall h0 k, OkI h0 (set_dlang_m h0 dst (DVal k))) by (intros; apply OkI_updd; reflexivity).
    assert (L5 : forall h0 k, OkI h0 (set_px_m h0 dst (DVal k))) by (intros; apply OkI_updd; reflexivity).
    apply OkI_bind; [apply L1|intro h1]. apply OkI_bind; [apply L3|intro h2].
    apply OkI_bind; [apply L2|intro h3]. apply OkI_bind; [apply L4|intro h4]. apply L5. }
  destruct A as (h1 & -> & EI). simpl bind. rewrite EI.
  assert (G : forall l, all_valid l -> forall h0, exists h', (fix go (l : list (prop * sval)) (h : heap) : res :=
     match l with [] => ROk h | (p, v) :: t => put_initial h dst (PValid p) (Some v) >>= go t end) l h0 = ROk h').
  { induction l as [|[p v] t IH]; intros AV h0; [eexists; reflexivity|].
    unfold put_initial at 1. unfold store_value. rewrite (validate_complete p v (AV p v (or_introl eq_refl))). simpl.
    apply IH. intros q w Hq. apply AV. right; exact Hq. }
  apply G. apply V2. exact Hd.
Qed.
