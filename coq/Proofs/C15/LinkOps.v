(* C15: ContentElement.push_child / remove_child preserve every clause of WF except the content model
   (which depends on the caller's guards and is handled per operation in Content.v). *)
From Coq Require Import List Arith Bool Lia.
From TT Require Import Base.HeapTypes Model.Heap Spec.ModelWF
  Proofs.C15.HeapLemmas Proofs.C15.Links Proofs.C15.Frames.
Import ListNotations.

Definition WFx (h : heap) : Prop :=
  Closed h /\ Kids h /\ Roots h /\ WF_acyclic h /\ WF_doc h /\ WF_regions h /\ WF_values h.
Definition ContentAt (h : heap) (p : nat) : Prop :=
  forall cs, Children h p cs -> allowed (n_kind (nd h p)) (map (fun c => n_kind (nd h c)) cs) = true.
Definition ContentExcept (h : heap) (s : nat) : Prop := forall p, p < nnodes h -> p <> s -> ContentAt h p.

Lemma WF_split h : WF h <-> WFx h /\ forall p, p < nnodes h -> ContentAt h p.
Proof.
  unfold WF, WFx, WF_links, WF_content, ContentAt, Kids, Roots. split.
  - intros ((A & B & C) & D & E & F & G & H).
    split; [exact (conj A (conj B (conj C (conj D (conj E (conj G H))))))|intros p Hp cs Cs; apply F; assumption].
  - intros ((A & B & C & D & E & G & H) & F).
    refine (conj (conj A (conj B C)) (conj D (conj E (conj _ (conj G H))))). intros p cs Hp Cs. apply F; assumption.
Qed.

Lemma dsame_docs {X} (pi : docrec -> X) h h' : h_docs h' = h_docs h -> dsame pi h h'.
Proof. intros E j. unfold dc. rewrite E. reflexivity. Qed.
Lemma ndocs_docs h h' : h_docs h' = h_docs h -> ndocs h' = ndocs h.
Proof. intros E. unfold ndocs. rewrite E. reflexivity. Qed.

Lemma ref_ok_dec h {A B : Prop} (t : {A} + {B}) x y : ref_ok h x -> ref_ok h y -> ref_ok h (if t then x else y).
Proof. destruct t; auto. Qed.
Lemma ref_ok_if h (t : bool) x y : ref_ok h x -> ref_ok h y -> ref_ok h (if t then x else y).
Proof. destruct t; auto. Qed.

Lemma Avoid_ne h c a : Avoid h c a -> a <> c.
Proof. destruct 1; assumption. Qed.

(* a node up to its links: a projection that does not see the difference is not affected by the link
   operations *)
Definition rest (n : node) : node := set_parent None (set_first None (set_last None (set_next None (set_prev None n)))).
Lemma node_lk_rest a b : lk a = lk b -> rest a = rest b -> a = b.
Proof.
  destruct a, b. unfold lk, rest. simpl. intros E1 E2. injection E1 as -> -> -> -> ->.
  injection E2. intros. subst. reflexivity.
Qed.

(* h' is h after link operations under s: same universe, same nodes up to links, and the child lists of
   the other elements are what they were *)
Definition Under (s : nat) (h h' : heap) : Prop :=
  nnodes h' = nnodes h /\ h_docs h' = h_docs h /\ same rest h h' /\
  forall p l, p <> s -> Children h p l -> Children h' p l.
Lemma Under_refl s h : Under s h h.
Proof. split; [reflexivity|split; [reflexivity|split; [apply same_refl|auto]]]. Qed.
Lemma Under_trans s a b c : Under s a b -> Under s b c -> Under s a c.
Proof. intros (N1 & D1 & R1 & C1) (N2 & D2 & R2 & C2). split; [congruence|split; [congruence|split; [eapply same_trans; eauto|auto]]]. Qed.
Lemma Under_same {X} (pi : node -> X) s h h' : (forall x, pi (rest x) = pi x) -> Under s h h' -> same pi h h'.
Proof. intros P (_ & _ & S & _). exact (same_through rest pi h h' P S). Qed.

Lemma Under_ContentExcept s h h' : Under s h h' -> Kids h -> ContentExcept h s -> ContentExcept h' s.
Proof.
  intros U K CE p Hp Hps cs C. pose proof (Under_same n_kind s h h' ltac:(reflexivity) U) as HK.
  destruct U as (HN & _ & _ & HC). rewrite HN in Hp.
  destruct (K p Hp) as [l0 C0]. pose proof (HC p l0 Hps C0) as C1.
  rewrite (Children_unique _ _ _ _ C C1). rewrite HK.
  rewrite (map_ext (fun c => n_kind (nd h' c)) (fun c => n_kind (nd h c))) by (intro; apply HK).
  apply (CE p Hp Hps l0 C0).
Qed.

(* link operations touch neither region references, documents, registries nor stored values: what is left to show
   afterwards is that the links are in the universe and the clauses about the tree *)
Lemma Under_WFx s h h' : Under s h h' -> WFx h ->
  (forall i, i < nnodes h' ->
     ref_ok h' (n_parent (nd h' i)) /\ ref_ok h' (n_first (nd h' i)) /\ ref_ok h' (n_last (nd h' i)) /\
     ref_ok h' (n_next (nd h' i)) /\ ref_ok h' (n_prev (nd h' i)) /\ ref_ok h' (n_region (nd h' i)) /\
     dref_ok h' (n_doc (nd h' i))) ->
  Kids h' -> Roots h' -> WF_acyclic h' -> WF_doc h' -> WFx h'.
Proof.
  intros U ((_ & C2) & _ & _ & _ & _ & WRg & WV) C1' K' R' A' D'. pose proof U as (HN & HD & _).
  assert (S : forall {X} (pi : node -> X), (forall x, pi (rest x) = pi x) -> same pi h h') by (intros X pi P; exact (Under_same pi s h h' P U)).
  refine (conj (conj C1' _) (conj K' (conj R' (conj A' (conj D' (conj _ _)))))).
  - intros d Hd. rewrite (ndocs_docs _ _ HD) in Hd. unfold ref_ok, dc. rewrite HD, HN. apply C2. exact Hd.
  - apply (regions_frame h h'); [exact HN|apply ndocs_docs; exact HD| | | |apply dsame_docs; exact HD|intros r _|exact WRg]; apply S; reflexivity.
  - apply (values_frame h h'); [exact HN|apply ndocs_docs; exact HD| | |apply dsame_docs; exact HD|exact WV]; apply S; reflexivity.
Qed.

Section Push.
  Variables (h h' : heap) (s c : nat) (cs : list nat).
  Hypothesis HW : WFx h.
  Hypothesis Hs : s < nnodes h.
  Hypothesis Hc : c < nnodes h.
  Hypothesis HC : Children h s cs.
  Hypothesis Hok : ce_push_child h s c = ROk h'.

  Lemma push_facts : h' = push_heap h s c /\ n_parent (nd h c) = None /\ n_doc (nd h c) = n_doc (nd h s) /\ Avoid h c s.
  Proof.
    destruct (ce_push_child_ok _ _ _ _ Hok) as (E1 & E2 & E3 & E4). repeat split; auto.
    eapply anc_walk_avoid. exact E4.
  Qed.
  Lemma push_Under : Under s h h'.
  Proof.
    destruct push_facts as (-> & Hroot & _ & Hav). pose proof (Avoid_ne _ _ _ Hav) as Hsc.
    split; [apply push_nnodes|split; [apply push_docs|split; [intro j; apply push_other; reflexivity|]]].
    intros p l Hp Cl. eapply push_Children_other; eauto.
  Qed.

  Lemma push_WFx : WFx h'.
  Proof.
    destruct HW as (WC & WK & WR & WA & WD & WRg & WV).
    destruct push_facts as (E & Hroot & Hdoc & Hav). pose proof push_Under as U. pose proof U as (HN & HD & _).
    pose proof (Avoid_ne _ _ _ Hav) as Hsc.
    destruct (push_last_ok h s c cs HC Hroot) as [HLok _].
    assert (SR : same n_region h h') by (apply (Under_same _ s); [reflexivity|exact U]).
    assert (SD : same n_doc h h') by (apply (Under_same _ s); [reflexivity|exact U]).
    apply (Under_WFx s h h' U HW).
    - destruct WC as [C1 _]. intros i Hi. rewrite HN in Hi. destruct (C1 i Hi) as (R1 & R2 & R3 & R4 & R5 & R6 & R7).
        destruct (C1 s Hs) as (_ & L2 & L3 & _).
        rewrite SR, SD. subst h'. unfold ref_ok, dref_ok in *.
        rewrite push_parent, push_first, push_last, push_next, push_prev, push_nnodes by assumption.
        rewrite (ndocs_docs _ _ (push_docs h s c)).
        repeat split; repeat (apply ref_ok_dec || apply ref_ok_if); auto; try exact I; try exact Hc; try exact Hs.
        destruct (n_first (nd h s)); [exact L2|exact Hc].
    - intros p Hp. rewrite HN in Hp. subst h'. destruct (Nat.eq_dec p s) as [->|Np].
      + exists (cs ++ [c]). apply push_Children_self; assumption.
      + destruct (WK p Hp) as [l Cl]. exists l. eapply push_Children_other; eauto.
    - subst h'. intros x Hx Ex. eapply push_roots; eauto.
    - intros i Hi. rewrite HN in Hi. subst h'.
      eapply Rooted_set_parent; [intro j; apply push_parent; assumption|exact Hav|apply WA; exact Hi].
    - intros c0 p0 Hc0. rewrite HN in Hc0. rewrite !SD. subst h'. rewrite push_parent by assumption.
      destruct (Nat.eq_dec c0 c) as [->|]; [intros [= <-]; exact Hdoc|apply WD; exact Hc0].
  Qed.

  Lemma push_Children_self' : Children h' s (cs ++ [c]).
  Proof.
    destruct push_facts as (-> & Hroot & _). apply push_Children_self; auto.
  Qed.
End Push.

Section Remove.
  Variables (h h' : heap) (s c : nat).
  Hypothesis HW : WFx h.
  Hypothesis Hs : s < nnodes h.
  Hypothesis Hok : ce_remove_child h s c = ROk h'.

  Lemma remove_facts : exists a b, Children h s (a ++ c :: b) /\ h' = remove_heap h s c.
  Proof.
    destruct (ce_remove_child_ok _ _ _ _ Hok) as (cs & K & Hin & E).
    destruct HW as (_ & WK & _). destruct (WK s Hs) as [cs' C].
    rewrite (Children_kids _ _ _ C) in K. injection K as ->.
    destruct (in_split _ _ Hin) as (a & b & ->). exists a, b. auto.
  Qed.

  Lemma remove_WFx_Children : WFx h' /\ Under s h h' /\
    exists a b, Children h s (a ++ c :: b) /\ Children h' s (a ++ b).
  Proof.
    destruct remove_facts as (a & b & HC & E).
    destruct HW as (WC & WK & WR & WA & WD & WRg & WV).
    assert (U : Under s h h').
    { subst h'. split; [apply (remove_nnodes h s c a b HC)|split; [apply (remove_docs h s c a b HC)|split]].
      - intro j. apply (remove_heap_other h s c a b HC); reflexivity.
      - intros; eapply remove_Children_other; eauto. }
    pose proof U as (HN & HD & _).
    assert (SR : same n_region h h') by (apply (Under_same _ s); [reflexivity|exact U]).
    assert (SD : same n_doc h h') by (apply (Under_same _ s); [reflexivity|exact U]).
    split; [|split; [exact U|exists a, b; subst h'; split; [exact HC|apply remove_Children_self; assumption]]].
    apply (Under_WFx s h h' U HW).
    - destruct WC as [C1 _]. intros i Hi. rewrite HN in Hi. destruct (C1 i Hi) as (R1 & R2 & R3 & R4 & R5 & R6 & R7).
        destruct (rm_seg h s c a b HC) as (_ & Rc & _ & Ep & En & _).
        destruct (C1 c Rc) as (_ & _ & _ & Q4 & Q5 & _). rewrite Ep in Q5. rewrite En in Q4.
        destruct (C1 s Hs) as (_ & S2 & S3 & _).
        rewrite SR, SD. subst h'. unfold ref_ok, dref_ok in *.
        rewrite (remove_heap_rh5 h s c a b HC) in *.
        rewrite remove_parent, remove_first, remove_last, remove_next, remove_prev, nnodes_puts by assumption.
        rewrite (ndocs_docs _ _ HD).
        repeat split; repeat (apply ref_ok_dec || apply ref_ok_if); auto; exact I.
    - intros p Hp. rewrite HN in Hp. subst h'. destruct (Nat.eq_dec p s) as [->|Np].
      + exists (a ++ b). apply remove_Children_self; assumption.
      + destruct (WK p Hp) as [l Cl]. exists l. eapply remove_Children_other; eauto.
    - subst h'. intros x Hx Ex. eapply remove_roots; eauto.
    - intros i Hi. rewrite HN in Hi. subst h'.
      eapply Rooted_clear_parent; [intro j; eapply remove_heap_parent; eauto|apply WA; exact Hi].
    - intros c0 p0 Hc0. rewrite HN in Hc0. rewrite !SD. subst h'. rewrite (remove_heap_parent h s c a b Hs HC).
      destruct (Nat.eq_dec c0 c); [discriminate|apply WD; exact Hc0].
  Qed.

  Lemma remove_head t : Children h s (c :: t) -> h' = remove_heap h s c /\ Children h' s t.
  Proof.
    intro C. destruct remove_WFx_Children as (_ & _ & a & b & C0 & CS). destruct remove_facts as (_ & _ & _ & E).
    split; [exact E|]. pose proof (Children_unique _ _ _ _ C C0) as EQ.
    destruct a as [|x a']; [injection EQ as ->; exact CS|]. exfalso. injection EQ as <- ->.
    destruct C as (_ & _ & _ & ND & _). inversion ND as [|? ? NI _]. apply NI. rewrite in_app_iff. right; left; reflexivity.
  Qed.
End Remove.
