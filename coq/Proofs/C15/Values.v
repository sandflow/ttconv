(* C15, value layer: StyleProperties.<P>.validate (as transcribed) accepts exactly the values of the
   property's documented type, and every operation only stores validated values. *)
From Coq Require Import List Arith Bool.
From TT Require Import Base.HeapTypes Model.Heap Spec.ModelWF.
Import ListNotations.

(* one sweep over property x shape of value: the specification's judgement is whether validate answers True
   (a False and an AttributeError both reject) *)
Lemma spec_valid_validate p v : spec_valid p v = match validate p v with VTrue => true | _ => false end.
Proof.
  unfold spec_valid.
  destruct p; destruct v; cbn; try reflexivity;
    try (destruct e; reflexivity); try (destruct s; reflexivity); try (destruct u; reflexivity).
  - destruct w as [[]|], h as [[]|]; reflexivity.
  - destruct (forallb _ l); reflexivity.
  - destruct x as [[]|], y as [[]|]; reflexivity.
  - destruct h as [[]|], v as [[]|]; reflexivity.
Qed.

Lemma validate_iff p v : validate p v = VTrue <-> spec_valid p v = true.
Proof. rewrite spec_valid_validate. destruct (validate p v); split; congruence. Qed.
Lemma validate_sound p v : validate p v = VTrue -> spec_valid p v = true.
Proof. apply validate_iff. Qed.
Lemma validate_complete p v : spec_valid p v = true -> validate p v = VTrue.
Proof. apply validate_iff. Qed.
