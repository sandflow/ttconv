(* C15: what every call does.  One case analysis over the calls (`exec_res`): an accepted call leaves a
   heap that satisfies WF and the representation invariant of the private state (Model/HeapRep.v), in the
   same universe; a rejected one was not rejected for want of fuel and leaves the heap untouched (a
   single-element call) or in the invariant (the four calls that loop).  Preservation, atomicity and
   fuel adequacy of `step` are read off; hence every reachable state is well formed. *)
From Coq Require Import List Arith Bool Lia.
From TT Require Import Base.HeapTypes Model.Heap Model.HeapRep Spec.ModelWF
  Proofs.C15.HeapLemmas Proofs.C15.Links Proofs.C15.Frames Proofs.C15.LinkOps Proofs.C15.Values
  Proofs.C15.Users Proofs.C15.Fuel Proofs.C15.AttrCalls Proofs.C15.LinkCalls
  Proofs.C15.SetDoc Proofs.C15.Content.
Import ListNotations.

(* the read-only methods: the walks they make end *)
Lemma ask_no_fuel h q : WF h -> query_ok h q = true -> ask h q <> RRaise EFuel.
Proof.
  intros ((C & K & _) & A & _) OK.
  destruct q; cbn [ask query_ok of_list] in *; unfold node_ok in OK; try apply Nat.ltb_lt in OK; try discriminate;
    try (destruct (kids h s) eqn:E; [|exfalso; revert E; apply kids_fuel; auto]; cbn [of_list];
         repeat match goal with |- context [if ?x then _ else _] => destruct x end; discriminate).
  - destruct (dfs (S (nnodes h)) h s) eqn:E; [discriminate|]. exfalso. revert E. apply dfs_total; auto.
  - destruct (root_walk (nnodes h) h s) eqn:E; [discriminate|]. exfalso. revert E. apply root_walk_fuel; auto.
  - destruct (kind_of h s); discriminate.
Qed.

Theorem exec_res n m h c : Invn n m h -> call_ok h c = true ->
  Res (Invn n m) (fun h' => if single_element c then h = h' else Invn n m h') (exec h c).
Proof.
  intros HI OK. pose proof HI as (HW & _ & <- & <-).
  destruct c; cbn [exec call_ok single_element] in *; unfold node_ok, doc_ok in OK;
    repeat match goal with H : _ && _ = true |- _ => apply andb_true_iff in H; destruct H end;
    repeat match goal with H : (_ <? _) = true |- _ => apply Nat.ltb_lt in H end.
  - apply push_child_safe; auto.
  - apply push_children_keeps; auto. intros x Hx. rewrite forallb_forall in H0. apply Nat.ltb_lt. apply (H0 x Hx).
  - apply remove_safe; auto.
  - apply remove_child_safe; auto.
  - eapply Safe_Keeps; [apply remove_children_safe|]; auto.
  - apply set_doc_safe; auto. intros d0 ->. apply Nat.ltb_lt. exact H0.
  - apply set_region_safe; auto.
  - apply put_region_safe; auto.
  - apply remove_region_safe; auto.
  - apply set_body_safe; auto.
  - apply set_style_safe; auto.
  - apply add_anim_safe; auto.
  - easy.
  - apply put_initial_safe; auto.
  - apply copy_to_keeps; auto.
  - apply set_begin_safe; auto.
  - apply set_end_safe; auto.
  - apply set_id_safe; auto.
  - apply set_lang_safe; auto.
  - apply set_space_safe; auto.
  - apply remove_anim_safe; auto.
  - apply remove_initial_safe; auto.
  - apply set_text_safe; auto.
  - apply set_active_safe; auto.
  - apply set_cell_safe; auto.
  - apply set_px_safe; auto.
  - apply set_dar_safe; auto.
  - apply set_dlang_safe; auto.
  - apply doc_copy_to_keeps; auto.
  - pose proof (ask_no_fuel h q HW OK) as N. destruct (ask h q); try exact HI. split; [reflexivity|congruence].
Qed.
Corollary exec_keeps n m h c : Invn n m h -> call_ok h c = true -> Keeps (Invn n m) (exec h c).
Proof.
  intros HI OK. pose proof (exec_res n m h c HI OK) as R. destruct (exec h c); [exact R|].
  destruct (single_element c); [destruct R as [<- N]; split; assumption|exact R].
Qed.

Theorem step_Inv h c : Inv h -> Inv (fst (step h c)).
Proof.
  intro HI. unfold step. destruct (call_ok h c) eqn:OK; [|exact HI].
  exact (Invn_Inv _ _ _ (Keeps_heap_of _ _ (exec_keeps _ _ h c (Inv_Invn h HI) OK))).
Qed.
Theorem step_WF h c : WF h -> Rep h -> WF (fst (step h c)).
Proof. intros HW HR. apply (step_Inv h c (conj HW HR)). Qed.
Theorem step_atomic h c e : Inv h -> single_element c = true -> snd (step h c) = ORaised e -> fst (step h c) = h.
Proof.
  intros HI S. unfold step. destruct (call_ok h c) eqn:OK; [|reflexivity].
  pose proof (exec_res _ _ h c (Inv_Invn h HI) OK) as R. rewrite S in R.
  destruct (exec h c) as [|h1 e1] eqn:E; [discriminate|]. intros _. exact (Safe_err _ _ _ _ _ R eq_refl).
Qed.
(* ... and so does a rejected Ruby/Rtc push_children *)
Theorem push_children_atomic h s cs e : Inv h -> ordered_kind (kind_of h s) = true ->
  snd (step h (CPushChildren s cs)) = ORaised e -> fst (step h (CPushChildren s cs)) = h.
Proof.
  intros HI OK. unfold step. destruct (call_ok h (CPushChildren s cs)) eqn:CO; [|reflexivity]. cbn [fst snd exec].
  cbn [call_ok] in CO. apply andb_true_iff in CO. destruct CO as [Hs Hcs]. apply Nat.ltb_lt in Hs.
  assert (R : Safe (Invn (nnodes h) (ndocs h)) h (push_children h s cs)).
  { apply push_children_ordered; auto using Inv_Invn. intros x Hx. rewrite forallb_forall in Hcs. apply Nat.ltb_lt. apply (Hcs x Hx). }
  destruct (push_children h s cs) as [|h1 e1] eqn:E; [discriminate|]. intros _. exact (Safe_err _ _ _ _ _ R eq_refl).
Qed.
Theorem step_no_fuel h c : Inv h -> snd (step h c) <> ORaised EFuel.
Proof.
  intro HI. unfold step. destruct (call_ok h c) eqn:OK; [|discriminate].
  pose proof (exec_res _ _ h c (Inv_Invn h HI) OK) as R. destruct (exec h c) as [|h1 e1] eqn:E; [discriminate|]. intros [= ->]. exact (Res_no_fuel _ _ _ h1 R eq_refl).
Qed.
Theorem step_query_pure h q : fst (step h (CQuery q)) = h.
Proof. unfold step. destruct (call_ok h (CQuery q)); [|reflexivity]. simpl. destruct (ask h q); reflexivity. Qed.

Theorem run_Inv : forall cs h, Inv h -> Inv (run h cs).
Proof.
  induction cs as [|c t IH]; intros h HI; [exact HI|].
  unfold run. simpl. apply IH. apply step_Inv. exact HI.
Qed.

(* the owner documents exist and every Region was given an id (Region.__init__ refuses None) *)
Definition elems_ok (elems : list (kind * option nat * option nat)) (ndoc : nat) : bool :=
  forallb (fun x => match snd (fst x) with None => true | Some d => d <? ndoc end) elems &&
  forallb (fun x => negb (kind_eqb (fst (fst x)) KRegion) || is_some (snd x)) elems.

Lemma nth_repeat_ddoc n d : nth d (repeat ddoc n) ddoc = ddoc.
Proof. revert d; induction n as [|n IH]; intros [|d]; simpl; auto. Qed.

(* a fresh universe: no element is linked, referenced or styled; the documents are empty *)
Section Init.
  Variables (elems : list (kind * option nat * option nat)) (ndoc : nat).
  Local Notation h := (init elems ndoc).

  Lemma nd_init i : exists k d j, nth i elems (KText, None, None) = (k, d, j) /\
    nd h i = mkNode k d None None None None None None false false j false false [] [] [] 0.
  Proof.
    unfold nd, init. simpl. change dnode with (fresh (KText, None, None)). rewrite map_nth.
    destruct (nth i elems (KText, None, None)) as [[k d] j]. exists k, d, j. split; reflexivity.
  Qed.
  Lemma dc_init d : dc h d = ddoc.
  Proof. apply nth_repeat_ddoc. Qed.
  Lemma nnodes_init : nnodes h = length elems.
  Proof. apply map_length. Qed.

  Theorem init_WF : elems_ok elems ndoc = true -> WF h.
  Proof.
    intro OK. apply andb_true_iff in OK. destruct OK as [OK _]. rewrite forallb_forall in OK.
    assert (CH : forall p, Children h p []).
    { intro p. destruct (nd_init p) as (k & d & j & _ & E). unfold Children. rewrite E. simpl. repeat split; try constructor.
      intros c _. destruct (nd_init c) as (k' & d' & j' & _ & E'). rewrite E'. discriminate. }
    refine (conj (conj _ (conj _ _)) (conj _ (conj _ (conj _ (conj _ _))))).
    - split.
      + intros i Hi. destruct (nd_init i) as (k & d & j & En & E). rewrite E. simpl. repeat split; auto.
        rewrite nnodes_init in Hi. specialize (OK _ (nth_In _ (KText, None, None) Hi)). rewrite En in OK. simpl in OK.
        unfold dref_ok, ndocs, init. simpl. rewrite repeat_length. destruct d; [apply Nat.ltb_lt; exact OK|exact I].
      + intros d Hd. rewrite dc_init. simpl. split; [exact I|intros id r []].
    - intros p _. exists []. apply CH.
    - intros c _ _. destruct (nd_init c) as (k & d & j & _ & E). rewrite E. auto.
    - intros i _. apply Rooted_root. destruct (nd_init i) as (k & d & j & _ & E). rewrite E. reflexivity.
    - intros c p _. destruct (nd_init c) as (k & d & j & _ & E). rewrite E. discriminate.
    - intros p cs _ C. rewrite (Children_unique _ _ _ _ C (CH p)). apply allowed_nil.
    - split; [|split].
      + intros i r _. destruct (nd_init i) as (k & d & j & _ & E). rewrite E. discriminate.
      + intros d id r _. rewrite dc_init. discriminate.
      + intros d _. rewrite dc_init. constructor.
    - split.
      + intros i _. destruct (nd_init i) as (k & d & j & _ & E). rewrite E. split; intros p v [].
      + intros d _. rewrite dc_init. intros p v [].
  Qed.
  Theorem init_Rep : elems_ok elems ndoc = true -> Rep h.
  Proof.
    intro OK. apply andb_true_iff in OK. destruct OK as [_ OK]. rewrite forallb_forall in OK. split.
    - intros r i Hr. destruct (nd_init r) as (k & d & j & _ & E), (nd_init i) as (k' & d' & j' & _ & E'). rewrite E, E'.
      simpl. split; [intros []|intros [_ [=]]].
    - intros i Hi. destruct (nd_init i) as (k & d & j & En & E). rewrite E. simpl. intros ->.
      rewrite nnodes_init in Hi. specialize (OK _ (nth_In _ (KText, None, None) Hi)). rewrite En in OK. simpl in OK.
      destruct j; [discriminate|discriminate OK].
  Qed.
End Init.
Theorem init_Inv elems ndoc : elems_ok elems ndoc = true -> Inv (init elems ndoc).
Proof. intro OK. split; [apply init_WF|apply init_Rep]; exact OK. Qed.

Theorem reachable_Inv elems ndoc cs : elems_ok elems ndoc = true -> Inv (run (init elems ndoc) cs).
Proof. intro OK. apply run_Inv. apply init_Inv. exact OK. Qed.
Theorem reachable_WF elems ndoc cs : elems_ok elems ndoc = true -> WF (run (init elems ndoc) cs).
Proof. intro OK. apply (reachable_Inv elems ndoc cs OK). Qed.
