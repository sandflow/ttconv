(* C15: fuel adequacy.  Every loop of model.py that follows links (the ancestor walk of push_child,
   __iter__/__len__, dfs_iterator, root()) is given fuel in Model/Heap.v; running out of fuel is the
   outcome EFuel.  On a well-formed heap a chain of parents has no repetition (acyclicity), so it is
   shorter than the number of elements: `nnodes h` units of fuel are enough for every walk (that no call
   ever returns EFuel is then part of what Step.v proves of every call). *)
From Coq Require Import List Arith Bool Lia.
From TT Require Import Base.HeapTypes Model.Heap Spec.ModelWF
  Proofs.C15.HeapLemmas Proofs.C15.Links Proofs.C15.Frames.
Import ListNotations.

Definition dfs_list (f : nat -> option (list nat)) : list nat -> option (list nat) :=
  fix go (l : list nat) : option (list nat) :=
    match l with
    | [] => Some []
    | c :: t => match f c, go t with Some a, Some b => Some (a ++ b) | _, _ => None end
    end.
Lemma dfs_S k h i : dfs (S k) h i =
  match kids h i with None => None | Some cs => option_map (cons i) (dfs_list (dfs k h) cs) end.
Proof. reflexivity. Qed.

Lemma dfs_list_range (f : nat -> option (list nat)) (P : nat -> Prop) cs :
  (forall c l, In c cs -> f c = Some l -> forall x, In x l -> P x) ->
  forall l, dfs_list f cs = Some l -> forall x, In x l -> P x.
Proof.
  induction cs as [|c t IH]; intros Hf l E x Hx; simpl in E.
  - injection E as <-. destruct Hx.
  - destruct (f c) as [a|] eqn:Ea; [|discriminate]. destruct (dfs_list f t) as [b|] eqn:Eb; [|discriminate].
    injection E as <-. apply in_app_iff in Hx. destruct Hx as [Hx|Hx].
    + eapply Hf; [left; reflexivity|exact Ea|exact Hx].
    + eapply IH; [|reflexivity|exact Hx]. intros; eapply Hf; [right; eassumption|eassumption|assumption].
Qed.

Lemma dfs_range h : Kids h -> forall fuel i l, i < nnodes h -> dfs fuel h i = Some l -> forall x, In x l -> x < nnodes h.
Proof.
  intros K. induction fuel as [|k IH]; intros i l Hi E x Hx; [discriminate|].
  rewrite dfs_S in E. destruct (K i Hi) as [cs C]. rewrite (Children_kids _ _ _ C) in E.
  destruct (dfs_list (dfs k h) cs) as [l'|] eqn:El; [|discriminate]. injection E as <-.
  destruct Hx as [<-|Hx]; [exact Hi|].
  eapply (dfs_list_range (dfs k h) (fun x => x < nnodes h) cs); [|exact El|exact Hx].
  intros c lc Hc Ec y Hy. eapply IH; [|exact Ec|exact Hy]. apply (Children_member _ _ _ _ C Hc).
Qed.

(* the proper ancestors of an element, nearest first *)
Inductive Path (h : heap) : nat -> list nat -> Prop :=
| Path_root i : n_parent (nd h i) = None -> Path h i []
| Path_step i p l : n_parent (nd h i) = Some p -> Path h p l -> Path h i (p :: l).

Lemma Rooted_Path h i : Rooted h i -> exists l, Path h i l.
Proof.
  induction 1 as [i Hi|i p Hi R [l IH]]; [exists []; constructor; exact Hi|exists (p :: l); econstructor; eauto].
Qed.
Lemma Path_up h i l : Path h i l -> forall a, In a l -> up h i a.
Proof.
  induction 1 as [i Hi|i p l Hi P IH]; intros a Ha; [destruct Ha|].
  destruct Ha as [<-|Ha]; [constructor; exact Hi|eapply up_step; [exact Hi|apply IH; exact Ha]].
Qed.

Section Bound.
  Variable h : heap.
  Hypothesis HC : Closed h.
  Hypothesis HA : WF_acyclic h.

  Lemma Path_NoDup i l : Path h i l -> NoDup (i :: l).
  Proof.
    induction 1 as [i Hi|i p l Hi P IH]; [constructor; [intros []|constructor]|].
    constructor; [|exact IH]. intro Hin.
    apply (no_self_up h HA i). apply (Path_up h i (p :: l)); [econstructor; eauto|exact Hin].
  Qed.
  Lemma Path_range i l : i < nnodes h -> Path h i l -> forall x, In x (i :: l) -> x < nnodes h.
  Proof.
    intros Hi P. revert Hi. induction P as [i E|i p l E P IH]; intros Hi x [<-|Hx]; auto; [destruct Hx|].
    apply IH; [|exact Hx]. pose proof (proj1 HC i Hi) as (R & _). rewrite E in R. exact R.
  Qed.
  (* an element and its ancestors are distinct elements of the universe *)
  Lemma Path_length i l : i < nnodes h -> Path h i l -> S (length l) <= nnodes h.
  Proof.
    intros Hi P. change (S (length l)) with (length (i :: l)).
    apply NoDup_bounded_length; [apply Path_NoDup; exact P|apply Path_range; assumption].
  Qed.
  Lemma has_Path i : i < nnodes h -> exists l, Path h i l /\ S (length l) <= nnodes h.
  Proof. intro Hi. destruct (Rooted_Path h i (HA i Hi)) as [l P]. exists l. split; [exact P|apply (Path_length i l Hi P)]. Qed.
End Bound.

(* each walk ends within the fuel `length of the path` (+1 where the walk tests before moving) *)
Lemma anc_walk_total h c : forall i l, Path h i l -> forall fuel, length l < fuel -> anc_walk fuel h (Some i) c <> None.
Proof.
  induction 1 as [i Hi|i p l Hi P IH]; intros fuel Hf; (destruct fuel as [|k]; [lia|]); simpl;
    destruct (Nat.eqb i c); try discriminate; rewrite Hi.
  - destruct k; discriminate.
  - apply IH. simpl in Hf. lia.
Qed.
Lemma root_walk_total h : forall i l, Path h i l -> forall fuel, length l <= fuel -> root_walk fuel h i <> None.
Proof.
  induction 1 as [i Hi|i p l Hi P IH]; intros fuel Hf.
  - destruct fuel; simpl; rewrite Hi; discriminate.
  - destruct fuel as [|k]; [simpl in Hf; lia|]. simpl. rewrite Hi. apply IH. simpl in Hf. lia.
Qed.
Lemma climb_total h : forall i l, Path h i l -> forall fuel, length l <= fuel -> climb h fuel i = true.
Proof.
  induction 1 as [i Hi|i p l Hi P IH]; intros fuel Hf.
  - destruct fuel; simpl; rewrite Hi; reflexivity.
  - destruct fuel as [|k]; [simpl in Hf; lia|]. simpl. rewrite Hi. apply IH. simpl in Hf. lia.
Qed.

Lemma dfs_list_total (f : nat -> option (list nat)) cs : (forall c, In c cs -> f c <> None) -> dfs_list f cs <> None.
Proof.
  induction cs as [|c t IH]; intro H; simpl; [discriminate|].
  destruct (f c) eqn:E; [|exfalso; apply (H c (or_introl eq_refl)); exact E].
  destruct (dfs_list f t) eqn:E2; [discriminate|]. exfalso. apply IH; [|reflexivity]. intros; apply H; right; assumption.
Qed.

Section DfsTotal.
  Variable h : heap.
  Hypothesis HC : Closed h.
  Hypothesis HK : Kids h.
  Hypothesis HA : WF_acyclic h.

  (* the deeper the element, the less fuel its subtree needs *)
  Lemma dfs_total_at : forall k s l, s < nnodes h -> Path h s l -> nnodes h <= k + length l -> dfs k h s <> None.
  Proof.
    induction k as [|k IH]; intros s l Hs P B.
    - pose proof (Path_length h HC HA s l Hs P). simpl in B. lia.
    - rewrite dfs_S. destruct (HK s Hs) as [cs C]. rewrite (Children_kids _ _ _ C).
      destruct (dfs_list (dfs k h) cs) eqn:E; [discriminate|]. exfalso. revert E. apply dfs_list_total.
      intros c Hc. destruct (Children_member _ _ _ _ C Hc) as [Rc Pc].
      apply (IH c (s :: l) Rc); [econstructor; eauto|simpl; lia].
  Qed.
  Theorem dfs_total k s : s < nnodes h -> nnodes h <= k -> dfs k h s <> None.
  Proof.
    intros Hs B. destruct (has_Path h HC HA s Hs) as (l & P & _). apply (dfs_total_at k s l Hs P). lia.
  Qed.
  Theorem anc_walk_fuel k s c : s < nnodes h -> nnodes h <= k -> anc_walk k h (Some s) c <> None.
  Proof. intros Hs B. destruct (has_Path h HC HA s Hs) as (l & P & L). apply (anc_walk_total h c s l P). lia. Qed.
  Theorem root_walk_fuel k s : s < nnodes h -> nnodes h <= S k -> root_walk k h s <> None.
  Proof. intros Hs B. destruct (has_Path h HC HA s Hs) as (l & P & L). apply (root_walk_total h s l P). lia. Qed.
  Theorem kids_fuel s : s < nnodes h -> kids h s <> None.
  Proof. intro Hs. destruct (HK s Hs) as [cs C]. rewrite (Children_kids _ _ _ C). discriminate. Qed.
End DfsTotal.

Theorem WF_dfs_total h k s : WF h -> s < nnodes h -> nnodes h <= k -> dfs k h s <> None.
Proof. intros ((C & K & _) & A & _). apply dfs_total; assumption. Qed.
Theorem WF_Path_length h i l : WF h -> i < nnodes h -> Path h i l -> S (length l) <= nnodes h.
Proof. intros ((C & _) & A & _). apply Path_length; assumption. Qed.
