(* C15: the executable checker decides well-formedness, wf_b h = true <-> WF h, one equivalence per clause;
   likewise the executable form of the representation invariant. *)
From Coq Require Import List Arith Bool Lia.
From TT Require Import Base.HeapTypes Model.Heap Model.HeapRep Spec.ModelWF
  Proofs.C15.HeapLemmas Proofs.C15.Links Proofs.C15.Frames Proofs.C15.Fuel.
Import ListNotations.

Lemma andb_iff (a b : bool) (A B : Prop) : (a = true <-> A) -> (b = true <-> B) -> (a && b = true <-> A /\ B).
Proof. rewrite andb_true_iff. tauto. Qed.
Lemma implb_iff (a b : bool) (A B : Prop) : (a = true <-> A) -> (b = true <-> B) -> (negb a || b = true <-> (A -> B)).
Proof. destruct a, b; simpl; intuition congruence. Qed.
Lemma forallb_seq_iff (f : nat -> bool) n (P : nat -> Prop) :
  (forall i, i < n -> (f i = true <-> P i)) -> (forallb f (seq 0 n) = true <-> forall i, i < n -> P i).
Proof.
  intro H. rewrite forallb_forall. split; intros A i Hi.
  - apply H; [exact Hi|]. apply A. apply in_seq. lia.
  - apply in_seq in Hi. apply H; [lia|]. apply A. lia.
Qed.

Lemma oeq_iff a b : oeq a b = true <-> a = b.
Proof. exact (onat_eqb_true a b). Qed.
Lemma ref_ok_b_iff h o : ref_ok_b h o = true <-> ref_ok h o.
Proof. destruct o; simpl; [apply Nat.ltb_lt|tauto]. Qed.
Lemma dref_ok_b_iff h o : dref_ok_b h o = true <-> dref_ok h o.
Proof. destruct o; simpl; [apply Nat.ltb_lt|tauto]. Qed.
Lemma mem_In x l : mem x l = true <-> In x l.
Proof. apply existsb_eqb_In. Qed.

Lemma closed_b_iff h : closed_b h = true <-> Closed h.
Proof.
  unfold closed_b, Closed. apply andb_iff; apply forallb_seq_iff.
  - intros i _. cbv zeta. rewrite <- !andb_assoc. repeat (apply andb_iff; [apply ref_ok_b_iff|]). apply dref_ok_b_iff.
  - intros d _. apply andb_iff; [apply ref_ok_b_iff|]. rewrite forallb_forall. split.
    + intros H id r Hin. apply Nat.ltb_lt, (H (id, r) Hin).
    + intros H [id r] Hin. apply Nat.ltb_lt, (H id r Hin).
Qed.

(* the specification's own list walk is the model's *)
Lemma follow_walk h : forall fuel cur, follow h fuel cur = walk h fuel cur.
Proof.
  induction fuel as [|k IH]; intros [c|]; simpl; try reflexivity; try (rewrite IH; destruct (walk h k (n_next (nd h c))); reflexivity).
Qed.
Lemma follow_hd h : forall fuel cur cs, follow h fuel cur = Some cs -> cur = hd_error cs.
Proof.
  intros fuel cur cs. destruct cur as [c|]; [|destruct fuel; simpl; intros [= <-]; reflexivity].
  destruct fuel; simpl; [discriminate|]. destruct (follow h fuel (n_next (nd h c))); [|discriminate]. intros [= <-]. reflexivity.
Qed.
Lemma chain_b_iff h p : forall cs pv, chain_b h p pv cs = true <-> Chain h p pv cs.
Proof.
  induction cs as [|c t IH]; intro pv; simpl; [tauto|].
  rewrite <- !andb_assoc. apply andb_iff; [apply Nat.ltb_lt|]. repeat (apply andb_iff; [apply oeq_iff|]). apply IH.
Qed.
Lemma nodup_b_iff l : nodup_b l = true <-> NoDup l.
Proof.
  induction l as [|x t IH]; simpl; [split; [constructor|reflexivity]|].
  rewrite andb_true_iff, negb_true_iff, <- not_true_iff_false, mem_In, IH.
  split; [intros [A B]; constructor; assumption|intro H; inversion H; auto].
Qed.
Lemma children_b_iff h p cs : children_b h p = Some cs <-> Children h p cs.
Proof.
  assert (A : forall l, forallb (fun c => negb (oeq (n_parent (nd h c)) (Some p)) || mem c l) (nodes_of h) = true <->
                        forall c, c < nnodes h -> n_parent (nd h c) = Some p -> In c l).
  { intro l. apply forallb_seq_iff. intros c _. apply implb_iff; [apply oeq_iff|apply mem_In]. }
  assert (B : forall l, oeq (n_last (nd h p)) (last_error l) && chain_b h p None l && nodup_b l &&
                         forallb (fun c => negb (oeq (n_parent (nd h c)) (Some p)) || mem c l) (nodes_of h) = true <->
                        n_last (nd h p) = last_error l /\ Chain h p None l /\ NoDup l /\
                        forall c, c < nnodes h -> n_parent (nd h c) = Some p -> In c l).
  { intro l. rewrite <- !andb_assoc.
    apply andb_iff; [apply oeq_iff|apply andb_iff; [apply chain_b_iff|apply andb_iff; [apply nodup_b_iff|apply A]]]. }
  unfold children_b, Children. split.
  - destruct (follow h (S (nnodes h)) (n_first (nd h p))) as [l|] eqn:F; [|discriminate].
    destruct (_ && _) eqn:E; [|discriminate]. intros [= <-]. split; [exact (follow_hd _ _ _ _ F)|apply B, E].
  - intros [C1 C2]. pose proof (Children_kids _ _ _ (conj C1 C2)) as K. unfold kids in K. rewrite follow_walk, K.
    rewrite (proj2 (B cs) C2). reflexivity.
Qed.

Lemma links_b_iff h : links_b h = true <-> WF_links h.
Proof.
  unfold links_b, WF_links. rewrite <- andb_assoc. apply andb_iff; [apply closed_b_iff|apply andb_iff]; apply forallb_seq_iff.
  - intros p _. split.
    + destruct (children_b h p) as [cs|] eqn:E; [|discriminate]. exists cs. apply children_b_iff. exact E.
    + intros [cs C]. apply children_b_iff in C. rewrite C. reflexivity.
  - intros c _. destruct (n_parent (nd h c)); [split; [discriminate|reflexivity]|].
    rewrite (andb_iff _ _ _ _ (oeq_iff _ _) (oeq_iff _ _)). tauto.
Qed.

Lemma climb_sound h : forall fuel i, climb h fuel i = true -> Rooted h i.
Proof.
  induction fuel as [|k IH]; intros i H; simpl in H; destruct (n_parent (nd h i)) as [p|] eqn:E.
  - discriminate.
  - apply Rooted_root. exact E.
  - eapply Rooted_step; [exact E|apply IH; exact H].
  - apply Rooted_root. exact E.
Qed.
(* an ancestor chain that ends does so within as many steps as there are elements, when links stay in the universe *)
Lemma acyclic_b_iff h : Closed h -> (acyclic_b h = true <-> WF_acyclic h).
Proof.
  intro C. unfold acyclic_b, nodes_of.
  rewrite (forallb_seq_iff _ _ (fun i => climb h (nnodes h) i = true)) by (intros; reflexivity).
  split; intros H i Hi.
  - apply (climb_sound h (nnodes h)), H, Hi.
  - destruct (has_Path h C H i Hi) as (l & P & B). apply (climb_total h i l P). lia.
Qed.
Lemma doc_b_iff h : doc_b h = true <-> WF_doc h.
Proof.
  unfold doc_b, WF_doc, nodes_of. rewrite (forallb_seq_iff _ _ (fun c => forall p, n_parent (nd h c) = Some p -> n_doc (nd h c) = n_doc (nd h p))).
  - split; intros H c; [intros p Hc|intros Hc p]; apply H; exact Hc.
  - intros c _. destruct (n_parent (nd h c)) as [p|]; [rewrite oeq_iff|]; split; try discriminate; try reflexivity.
    + intros E p' [= <-]. exact E.
    + intro H. apply H. reflexivity.
Qed.
Lemma content_b_iff h : Kids h -> (content_b h = true <-> WF_content h).
Proof.
  intro K. unfold content_b, WF_content, nodes_of.
  rewrite (forallb_seq_iff _ _ (fun p => forall cs, Children h p cs -> allowed (n_kind (nd h p)) (map (fun c => n_kind (nd h c)) cs) = true)).
  - split; intros H p; [intros cs Hp|intros Hp cs]; apply H; exact Hp.
  - intros p Hp. destruct (K p Hp) as [cs C]. rewrite (proj2 (children_b_iff h p cs) C). split.
    + intros H cs' C'. rewrite (Children_unique _ _ _ _ C' C). exact H.
    + intro H. apply H. exact C.
Qed.

Lemma lookup_In_fst (l : list (nat * nat)) k v : In (k, v) l -> NoDup (map fst l) -> lookup l k = Some v.
Proof.
  induction l as [|[a b] t IH]; simpl; [intros []|]. intros [E|Hin] ND; inversion ND as [|? ? NI ND']; subst.
  - injection E as -> ->. rewrite Nat.eqb_refl. reflexivity.
  - destruct (Nat.eqb_spec k a) as [->|N]; [|apply IH; assumption].
    exfalso. apply NI. change a with (fst (a, v)). apply in_map. exact Hin.
Qed.
Lemma regions_b_iff h : regions_b h = true <-> WF_regions h.
Proof.
  unfold regions_b, WF_regions, nodes_of, docs_of. rewrite andb_true_iff.
  rewrite (forallb_seq_iff _ (nnodes h) (fun i => forall r, n_region (nd h i) = Some r -> region_capable (n_kind (nd h i)) = true /\
     exists d id, n_doc (nd h i) = Some d /\ n_id (nd h r) = Some id /\ lookup (d_regions (dc h d)) id = Some r)).
  rewrite (forallb_seq_iff _ (ndocs h) (fun d => (forall id r, lookup (d_regions (dc h d)) id = Some r -> n_kind (nd h r) = KRegion /\ n_id (nd h r) = Some id) /\
     NoDup (map fst (d_regions (dc h d))))).
  - split.
    + intros [H1 H2]. split; [intros i r Hi; apply H1; exact Hi|]. split; [intros d id r Hd; apply (H2 d Hd)|intros d Hd; apply (H2 d Hd)].
    + intros (H1 & H2 & H3). split; [intros i Hi r; apply H1; exact Hi|]. intros d Hd. split; [intros id r; apply H2; exact Hd|apply H3; exact Hd].
  - intros d _. rewrite andb_true_iff, nodup_b_iff, forallb_forall. split; intros [H ND]; (split; [|exact ND]).
    + intros id r E. specialize (H (id, r) (lookup_In _ _ _ E)). cbn [fst] in H. rewrite E, andb_true_iff, oeq_iff in H.
      destruct (kind_eq_dec (n_kind (nd h r)) KRegion); [tauto|destruct H; discriminate].
    + intros [id r0] Hin. cbn [fst]. rewrite (lookup_In_fst _ _ _ Hin ND). destruct (H id r0 (lookup_In_fst _ _ _ Hin ND)) as [Kr Ir].
      rewrite Kr, Ir. apply oeq_iff. reflexivity.
  - intros i _. destruct (n_region (nd h i)) as [r|]; [|split; [discriminate|reflexivity]]. rewrite andb_true_iff. split.
    + intros [Cp Q] r' [= <-]. split; [exact Cp|]. destruct (n_doc (nd h i)) as [d|]; [|discriminate]. destruct (n_id (nd h r)) as [id|]; [|discriminate].
      exists d, id. apply oeq_iff in Q. auto.
    + intro H. destruct (H r eq_refl) as [Cp (d & id & -> & -> & E)]. split; [exact Cp|apply oeq_iff; exact E].
Qed.

Lemma all_valid_b_iff l : all_valid_b l = true <-> all_valid l.
Proof.
  unfold all_valid_b, all_valid. rewrite forallb_forall. split; [intros H p v Hin; apply (H (p, v) Hin)|intros H [p v] Hin; apply (H p v Hin)].
Qed.
Lemma values_b_iff h : values_b h = true <-> WF_values h.
Proof.
  unfold values_b, WF_values. apply andb_iff; apply forallb_seq_iff.
  - intros i _. apply andb_iff; apply all_valid_b_iff.
  - intros d _. apply all_valid_b_iff.
Qed.

Theorem wf_b_iff h : wf_b h = true <-> WF h.
Proof.
  unfold wf_b, WF. rewrite !andb_true_iff, links_b_iff, doc_b_iff, regions_b_iff, values_b_iff. split.
  - intros (((((L & A) & D) & Ct) & R) & V). pose proof L as (C & K & _).
    apply (acyclic_b_iff h C) in A. apply (content_b_iff h K) in Ct. tauto.
  - intros (L & A & D & Ct & R & V). pose proof L as (C & K & _).
    apply (acyclic_b_iff h C) in A. apply (content_b_iff h K) in Ct. tauto.
Qed.
Theorem wf_b_sound h : wf_b h = true -> WF h.
Proof. apply wf_b_iff. Qed.
Theorem wf_b_complete h : WF h -> wf_b h = true.
Proof. apply wf_b_iff. Qed.

Lemma users_b_iff h : users_b h = true <-> UsersOK h.
Proof.
  unfold users_b, UsersOK.
  rewrite (forallb_seq_iff _ _ (fun r => forall i, In i (n_users (nd h r)) <-> i < nnodes h /\ n_region (nd h i) = Some r)).
  - split; intros H r; [intros i Hr|intros Hr i]; apply H; exact Hr.
  - intros r _. rewrite andb_true_iff, forallb_forall.
    rewrite (forallb_seq_iff _ _ (fun i => n_region (nd h i) = Some r -> In i (n_users (nd h r)))).
    + split; [intros [H1 H2] i; split; [intro Hin; specialize (H1 i Hin); rewrite andb_true_iff, Nat.ltb_lt, onat_eqb_true in H1; exact H1|intros [Hi E]; apply (H2 i Hi E)]|].
      intro H. split; [intros i Hin; rewrite andb_true_iff, Nat.ltb_lt, onat_eqb_true; apply H; exact Hin|intros i Hi E; apply H; auto].
    + intros i _. apply implb_iff; [apply onat_eqb_true|apply existsb_eqb_In].
Qed.
Lemma region_ids_b_iff h : region_ids_b h = true <-> RegionIds h.
Proof.
  unfold region_ids_b, RegionIds. apply forallb_seq_iff. intros i _. apply implb_iff; [apply kind_eqb_true|apply is_some_true].
Qed.
Theorem rep_b_iff h : rep_b h = true <-> Rep h.
Proof. unfold rep_b, Rep. rewrite andb_true_iff, users_b_iff, region_ids_b_iff. reflexivity. Qed.
