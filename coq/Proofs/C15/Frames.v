(* C15: frame lemmas.  Each clause of WF reads a few fields only; an operation that leaves those
   fields alone preserves the clause.  Acyclicity (every parent chain ends at a root) reads `_parent` only:
   it survives setting the parent of a root c to s when the chain from s avoids c, which is what the guard of
   push_child (walk from self to the root looking for the child) checks, and clearing a parent. *)
From Coq Require Import List Arith Bool Lia.
From TT Require Import Base.HeapTypes Model.Heap Spec.ModelWF Proofs.C15.HeapLemmas Proofs.C15.Links.
Import ListNotations.

Definition same {X} (pi : node -> X) (h h' : heap) : Prop := forall j, pi (nd h' j) = pi (nd h j).
Definition dsame {X} (pi : docrec -> X) (h h' : heap) : Prop := forall j, pi (dc h' j) = pi (dc h j).
Definition lk (n : node) := (n_parent n, n_first n, n_last n, n_next n, n_prev n).

Lemma same_refl {X} (pi : node -> X) h : same pi h h.
Proof. intro; reflexivity. Qed.
Lemma same_trans {X} (pi : node -> X) a b c : same pi a b -> same pi b c -> same pi a c.
Proof. intros H1 H2 j. rewrite H2. apply H1. Qed.
Lemma dsame_refl {X} (pi : docrec -> X) h : dsame pi h h.
Proof. intro; reflexivity. Qed.
Lemma dsame_trans {X} (pi : docrec -> X) a b c : dsame pi a b -> dsame pi b c -> dsame pi a c.
Proof. intros H1 H2 j. rewrite H2. apply H1. Qed.
Lemma same_comp {X Y} (pi : node -> X) (g : X -> Y) h h' : same pi h h' -> same (fun n => g (pi n)) h h'.
Proof. intros H j. simpl. rewrite H. reflexivity. Qed.
Lemma same_through {X} (g : node -> node) (pi : node -> X) h h' : (forall x, pi (g x) = pi x) -> same g h h' -> same pi h h'.
Proof. intros P S j. rewrite <- (P (nd h' j)), <- (P (nd h j)), (S j). reflexivity. Qed.
Lemma same_updn {X} (pi : node -> X) h i f : (forall n, pi (f n) = pi n) -> same pi h (updn h i f).
Proof. intros H j. apply proj_updn. exact H. Qed.
Lemma same_updd {X} (pi : node -> X) h i f : same pi h (updd h i f).
Proof. intro; reflexivity. Qed.
Lemma dsame_updn {X} (pi : docrec -> X) h i f : dsame pi h (updn h i f).
Proof. intro; reflexivity. Qed.
Lemma dsame_updd {X} (pi : docrec -> X) h i f : (forall n, pi (f n) = pi n) -> dsame pi h (updd h i f).
Proof. intros H j. apply proj_updd. exact H. Qed.

Lemma lk_parent h h' : same lk h h' -> same n_parent h h'.
Proof. intros H j. specialize (H j). unfold lk in H. congruence. Qed.
Lemma lk_first h h' : same lk h h' -> same n_first h h'.
Proof. intros H j. specialize (H j). unfold lk in H. congruence. Qed.
Lemma lk_last h h' : same lk h h' -> same n_last h h'.
Proof. intros H j. specialize (H j). unfold lk in H. congruence. Qed.
Lemma lk_next h h' : same lk h h' -> same n_next h h'.
Proof. intros H j. specialize (H j). unfold lk in H. congruence. Qed.
Lemma lk_prev h h' : same lk h h' -> same n_prev h h'.
Proof. intros H j. specialize (H j). unfold lk in H. congruence. Qed.

(* the parent chain from a ends at a root without meeting c *)
Inductive Avoid (h : heap) (c : nat) : nat -> Prop :=
| Av_root a : a <> c -> n_parent (nd h a) = None -> Avoid h c a
| Av_step a p : a <> c -> n_parent (nd h a) = Some p -> Avoid h c p -> Avoid h c a.

Lemma anc_walk_avoid h c : forall fuel a, anc_walk fuel h (Some a) c = Some false -> Avoid h c a.
Proof.
  induction fuel as [|k IH]; intros a H; simpl in H; destruct (Nat.eqb a c) eqn:Eac; try discriminate.
  apply Nat.eqb_neq in Eac. rename Eac into N.
  destruct (n_parent (nd h a)) as [p|] eqn:E.
  - eapply Av_step; eauto.
  - apply Av_root; assumption.
Qed.

Lemma Rooted_frame h h' : (forall j, n_parent (nd h' j) = n_parent (nd h j)) -> forall x, Rooted h x -> Rooted h' x.
Proof.
  intros E x R. induction R as [i Hi|i p Hi R IH].
  - apply Rooted_root. rewrite E. exact Hi.
  - eapply Rooted_step; [rewrite E; exact Hi|exact IH].
Qed.

Section SetParent.
  Variables (h h' : heap) (c s : nat).
  Hypothesis HP : forall j, n_parent (nd h' j) = if Nat.eq_dec j c then Some s else n_parent (nd h j).

  Lemma Avoid_Rooted a : Avoid h c a -> Rooted h' a.
  Proof.
    induction 1 as [a N E|a p N E A IH].
    - apply Rooted_root. rewrite HP. destruct (Nat.eq_dec a c); [contradiction|exact E].
    - eapply Rooted_step; [|exact IH]. rewrite HP. destruct (Nat.eq_dec a c); [contradiction|exact E].
  Qed.
  Lemma Rooted_set_parent : Avoid h c s -> forall x, Rooted h x -> Rooted h' x.
  Proof.
    intros A. assert (Rc : Rooted h' c).
    { eapply Rooted_step; [rewrite HP; destruct (Nat.eq_dec c c); [reflexivity|congruence]|]. apply Avoid_Rooted. exact A. }
    intros x R. induction R as [i Hi|i p Hi R IH].
    - destruct (Nat.eq_dec i c) as [->|N]; [exact Rc|]. apply Rooted_root. rewrite HP. destruct (Nat.eq_dec i c); [contradiction|exact Hi].
    - destruct (Nat.eq_dec i c) as [->|N]; [exact Rc|]. eapply Rooted_step; [|exact IH]. rewrite HP. destruct (Nat.eq_dec i c); [contradiction|exact Hi].
  Qed.
End SetParent.

Lemma Rooted_clear_parent h h' c :
  (forall j, n_parent (nd h' j) = if Nat.eq_dec j c then None else n_parent (nd h j)) -> forall x, Rooted h x -> Rooted h' x.
Proof.
  intros HP x R. induction R as [i Hi|i p Hi R IH].
  - apply Rooted_root. rewrite HP. destruct (Nat.eq_dec i c); [reflexivity|exact Hi].
  - destruct (Nat.eq_dec i c) as [->|N].
    + apply Rooted_root. rewrite HP. destruct (Nat.eq_dec c c); [reflexivity|congruence].
    + eapply Rooted_step; [|exact IH]. rewrite HP. destruct (Nat.eq_dec i c); [contradiction|exact Hi].
Qed.

Lemma Rooted_no_cycle h x : Rooted h x -> ~ up h x x.
Proof.
  intro R. induction R as [i Hi|i p Hi R IH]; intro U.
  - inversion U; congruence.
  - apply IH. clear IH R.
    assert (G : forall a b, up h a b -> forall q, n_parent (nd h a) = Some q -> q = b \/ up h q b).
    { intros a b U1. induction U1 as [a b E|a b c0 E U1 _]; intros q Eq; rewrite Eq in E; injection E as ->; auto. }
    destruct (G _ _ U p Hi) as [->|U2].
    + constructor. exact Hi.
    + assert (T : forall a b, up h a b -> forall c0, n_parent (nd h b) = Some c0 -> up h a c0).
      { intros a b U1. induction U1 as [a b E|a b c0 E U1 IH]; intros c1 E1.
        - eapply up_step; [exact E|constructor; exact E1].
        - eapply up_step; [exact E|apply IH; exact E1]. }
      eapply T; eauto.
Qed.

Lemma parent_in_range h c p : n_parent (nd h c) = Some p -> c < nnodes h.
Proof.
  intro E. destruct (lt_dec c (nnodes h)); [assumption|]. exfalso.
  unfold nd in E. rewrite nth_overflow in E by (unfold nnodes in *; lia). discriminate.
Qed.
Lemma no_self_up h : WF_acyclic h -> forall x, ~ up h x x.
Proof.
  intros HA x U. assert (Hx : x < nnodes h) by (inversion U; subst; eapply parent_in_range; eauto).
  exact (Rooted_no_cycle h x (HA x Hx) U).
Qed.

Definition Kids (h : heap) : Prop := forall p, p < nnodes h -> exists cs, Children h p cs.
Definition Roots (h : heap) : Prop :=
  forall c, c < nnodes h -> n_parent (nd h c) = None -> n_next (nd h c) = None /\ n_prev (nd h c) = None.

Lemma Chain_frame h h' p cs : nnodes h' = nnodes h -> same lk h h' -> forall pv, Chain h p pv cs -> Chain h' p pv cs.
Proof.
  intros HN HS. induction cs as [|c t IH]; intros pv H; simpl in *; [exact I|].
  rewrite HN, (lk_parent h h' HS), (lk_prev h h' HS), (lk_next h h' HS). destruct H as (?&?&?&?&?). repeat split; auto.
Qed.
Lemma Children_frame h h' p cs : nnodes h' = nnodes h -> same lk h h' -> Children h p cs -> Children h' p cs.
Proof.
  intros HN HS (H1 & H2 & H3 & H4 & H5). unfold Children.
  rewrite (lk_first h h' HS), (lk_last h h' HS), HN. repeat split; auto.
  - apply (Chain_frame h h'); assumption.
  - intros c Hc. rewrite (lk_parent h h' HS). auto.
Qed.
Lemma same_sym {X} (pi : node -> X) h h' : same pi h h' -> same pi h' h.
Proof. intros H j. symmetry. apply H. Qed.

Section StructFrame.
  Variables h h' : heap.
  Hypothesis HN : nnodes h' = nnodes h.
  Hypothesis HL : same lk h h'.

  Lemma Kids_frame : Kids h -> Kids h'.
  Proof. intros K p Hp. rewrite HN in Hp. destruct (K p Hp) as [cs C]. exists cs. apply (Children_frame h h'); assumption. Qed.
  Lemma Roots_frame : Roots h -> Roots h'.
  Proof.
    intros R c Hc. rewrite HN in Hc. rewrite (lk_parent h h' HL), (lk_next h h' HL), (lk_prev h h' HL). auto.
  Qed.
  Lemma acyclic_frame : WF_acyclic h -> WF_acyclic h'.
  Proof. intros A i Hi. rewrite HN in Hi. eapply Rooted_frame; [apply (lk_parent h h' HL)|auto]. Qed.
  Lemma doc_frame : same n_doc h h' -> WF_doc h -> WF_doc h'.
  Proof.
    intros HD W c p Hc. rewrite HN in Hc. rewrite (lk_parent h h' HL), !HD. auto.
  Qed.
  Lemma content_frame : same n_kind h h' -> WF_content h -> WF_content h'.
  Proof.
    intros HK W p cs Hp C. rewrite HN in Hp. rewrite HK.
    assert (E : map (fun c => n_kind (nd h' c)) cs = map (fun c => n_kind (nd h c)) cs).
    { apply map_ext. intro; apply HK. }
    rewrite E. apply W; [exact Hp|].
    apply (Children_frame h' h); [symmetry; exact HN|apply same_sym; exact HL|exact C].
  Qed.
End StructFrame.

Lemma lookup_In l k v : lookup l k = Some v -> In (k, v) l.
Proof.
  induction l as [|[a b] t IH]; simpl; [discriminate|]. destruct (Nat.eqb_spec k a) as [->|N].
  - intros [= ->]. left; reflexivity.
  - intro H. right. apply IH. exact H.
Qed.
(* ids matter on Regions only: nothing else is registered or referenced *)
Lemma regions_frame h h' : nnodes h' = nnodes h -> ndocs h' = ndocs h ->
  same n_region h h' -> same n_kind h h' -> same n_doc h h' -> dsame d_regions h h' ->
  (forall r, n_kind (nd h r) = KRegion -> n_id (nd h' r) = n_id (nd h r)) ->
  WF_regions h -> WF_regions h'.
Proof.
  intros HN HD S1 S2 S3 S5 S4 (W1 & W2 & W3). split; [|split].
  - intros i r Hi. rewrite HN in Hi. rewrite S1, S2, S3. intro E. destruct (W1 i r Hi E) as [C (d & id & E1 & E2 & E3)].
    split; [exact C|]. exists d, id. rewrite S5, (S4 r); auto. apply (W2 d id r); [|exact E3].
    destruct (lt_dec d (ndocs h)); [assumption|]. rewrite dc_out in E3 by lia. discriminate.
  - intros d id r Hd. rewrite HD in Hd. rewrite S5, S2. intro E. destruct (W2 d id r Hd E) as [Kr Ir]. rewrite (S4 r Kr). auto.
  - intros d Hd. rewrite HD in Hd. rewrite S5. apply W3. exact Hd.
Qed.
Lemma values_frame h h' : nnodes h' = nnodes h -> ndocs h' = ndocs h ->
  same n_styles h h' -> same n_anims h h' -> dsame d_initials h h' -> WF_values h -> WF_values h'.
Proof.
  intros HN HD S1 S2 S3 [W1 W2]. split.
  - intros i Hi. rewrite HN in Hi. rewrite S1, S2. auto.
  - intros d Hd. rewrite HD in Hd. rewrite S3. auto.
Qed.
(* with the links untouched, what is left of Closed are the region and document of each element and the
   body and registry of each document *)
Lemma closed_frame h h' : nnodes h' = nnodes h -> ndocs h' = ndocs h -> same lk h h' ->
  (forall i, i < nnodes h -> ref_ok h (n_region (nd h' i)) /\ dref_ok h (n_doc (nd h' i))) ->
  (forall d, d < ndocs h -> ref_ok h (d_body (dc h' d)) /\ forall id r, In (id, r) (d_regions (dc h' d)) -> r < nnodes h) ->
  Closed h -> Closed h'.
Proof.
  intros HN HD SL N D [C1 C2]. split.
  - intros i Hi. rewrite HN in Hi. destruct (C1 i Hi) as (R1 & R2 & R3 & R4 & R5 & _). unfold ref_ok, dref_ok in *.
    rewrite (lk_parent h h' SL), (lk_first h h' SL), (lk_last h h' SL), (lk_next h h' SL), (lk_prev h h' SL), HN, HD.
    destruct (N i Hi). repeat split; assumption.
  - intros d Hd. rewrite HD in Hd. unfold ref_ok. rewrite HN. apply D. exact Hd.
Qed.
