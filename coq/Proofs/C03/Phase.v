(* C03: the style phase of ONE element, key by key.  For every property p the passes before the ordered
   computation (animation, specified, direction, inheritance, initial values) leave in the style map the value
   `pre_value` and schedule p for computation exactly when `pre_todo` says (style_phase_pre); the ordered computation
   is a chain of twelve steps, each of which touches its own key only (tts:position also rewrites tts:origin), so the
   maps just before and after the step of p can be read off the first and the last one (style_phase_at).  An element
   of a chain is resolved in one of two situations (ctx): a region, without parent, or a content element under a
   parent whose style map has every property; there pre_value and pre_todo take a simple form. *)
From TT Require Import Model.Doc Gen.StyleTables Model.Isd Spec.IsdSpec Spec.StyleSpec.
From TT Require Import Proofs.Common.StyleFrame Proofs.C01.Leaves Proofs.C01.Display.

(* the specified value of S is what the first two passes of M leave in the map *)
Lemma last_step_eq t iv p : forall l acc, last_active t iv p l acc = last_step t iv p l acc.
Proof.
  destruct iv as [b e]. induction l as [|s l IH]; intros acc; [reflexivity|]. cbn [last_active last_step fst snd].
  rewrite make_absolute_resolve, active_at_is_active. destruct ((a_prop s =? p) && is_active t _); apply IH.
Qed.

Definition default_pre (d : doc) (p : Z) : option value :=
  match sget (d_initials d) p with Some v => Some v | None => if p =? p_Position then None else sget initial_values p end.

Definition pre_v2 (t : Q) (a : attrs) (iv : interval) (p : Z) : option value :=
  if fired a p then dir_special a else specified t (a, iv) p.
Definition pre_v3 (t : Q) (a : attrs) (par : option (kind * smap)) (iv : interval) (p : Z) : option value :=
  match par with
  | Some (pk, pst) => if kind_eqb (e_kind a) KRegion then pre_v2 t a iv p
                      else if shas pst p then inh_step (e_kind a) pk pst p (pre_v2 t a iv p) else pre_v2 t a iv p
  | None => pre_v2 t a iv p
  end.
Definition pre_value (d : doc) (t : Q) (a : attrs) (par : option (kind * smap)) (iv : interval) (p : Z) : option value :=
  match pre_v3 t a par iv p with Some v => Some v | None => default_pre d p end.
Definition pre_todo (t : Q) (a : attrs) (par : option (kind * smap)) (iv : interval) (p : Z) : bool :=
  is_some (specified t (a, iv) p) || fired a p || negb (is_some (pre_v3 t a par iv p)).

Lemma mem_in q l : mem q l = true <-> In q l.
Proof.
  unfold mem. split; intros H.
  - apply existsb_exists in H as (x & Hx & E). apply Z.eqb_eq in E. subst x. exact Hx.
  - apply existsb_exists. exists q. split; [exact H | apply Z.eqb_refl].
Qed.

Theorem style_phase_pre d t a par iv st :
  is_leaf_kind (e_kind a) = false -> style_phase d t a par iv = Ok st ->
  exists st4 todo4, compute_styles d par todo4 ordered_style_props st4 = Ok st /\
    forall p, In p all_props -> sget st4 p = pre_value d t a par iv p /\ mem p todo4 = pre_todo t a par iv p.
Proof.
  intros Hleaf H. unfold style_phase in H.
  destruct (apply_anims t iv (e_anims a) [] []) as [st0 todo0] eqn:E0.
  destruct (apply_specified (e_styles a) st0 todo0) as [st1 todo1] eqn:E1.
  assert (G1 : forall p, sget st1 p = specified t (a, iv) p /\ mem p todo1 = is_some (specified t (a, iv) p)).
  { intros p.
    pose proof (apply_anims_get t iv p (e_anims a) [] []) as G0. pose proof (apply_anims_todo t iv p (e_anims a) [] []) as T0.
    rewrite E0 in G0, T0. cbn [fst snd] in G0, T0. rewrite last_step_eq in G0, T0.
    pose proof (apply_specified_get p (e_styles a) st0 todo0) as G. pose proof (apply_specified_todo p (e_styles a) st0 todo0) as T.
    rewrite E1 in G, T. cbn [fst snd] in G, T. unfold specified. cbn [fst snd]. rewrite G, T, T0. unfold shas. rewrite G0. cbn [sget mem existsb orb].
    destruct (last_step t iv p (e_anims a) None); [split; reflexivity|]. cbn. split; [reflexivity|]. destruct (sget (e_styles a) p); reflexivity. }
  match type of H with (let '(st, todo) := ?X in _) = _ => change X with (dir_pass a st1 todo1) in H end.
  destruct (dir_pass a st1 todo1) as [st2 todo2] eqn:E2.
  assert (G2 : forall p, sget st2 p = pre_v2 t a iv p /\ mem p todo2 = is_some (specified t (a, iv) p) || fired a p).
  { intros p. pose proof (dir_pass_spec a st1 todo1 p) as [G T]. rewrite E2 in G, T. cbn [fst snd] in G, T.
    destruct (G1 p) as [G1p T1p]. unfold pre_v2. rewrite G, T, G1p, T1p. split; reflexivity. }
  set (st3 := match e_kind a, par with
              | KBr, _ | KText, _ | KRegion, _ => st2
              | _, Some (pk, pst) => apply_inherit (e_kind a) pk pst (skeys pst) st2
              | _, None => st2
              end) in H.
  assert (G3 : forall p, sget st3 p = pre_v3 t a par iv p).
  { intros p. unfold st3, pre_v3. destruct (G2 p) as [G2p _].
    destruct par as [[pk pst]|]; [|destruct (e_kind a); exact G2p].
    destruct (e_kind a) eqn:Ek; cbn [is_leaf_kind] in Hleaf; try discriminate; cbn [kind_eqb]; try exact G2p;
      rewrite apply_inherit_key; change (mem p (skeys pst)) with (existsb (Z.eqb p) (skeys pst)); rewrite existsb_skeys, G2p; reflexivity. }
  rewrite Hleaf in H.
  destruct (apply_initial d all_props st3 todo2) as [st4 todo4] eqn:E4.
  exists st4, todo4. split; [exact H|]. intros p Hin.
  pose proof (apply_initial_get d p all_props st3 todo2 all_props_nodup) as G4.
  pose proof (apply_initial_todo_exact d p all_props st3 todo2 all_props_nodup) as T4.
  rewrite E4 in G4, T4. cbn [fst snd] in G4, T4. fold (mem p all_props) in G4. rewrite (proj2 (mem_in p all_props) Hin) in G4, T4. cbn [andb] in T4.
  destruct (G2 p) as [_ T2p]. unfold pre_value, pre_todo, default_pre. rewrite G4, T4, T2p. unfold shas. rewrite (G3 p).
  split; [reflexivity|]. destruct (pre_v3 t a par iv p); reflexivity.
Qed.

(* the ordered properties before / after a given one (so that the proofs do not depend on the exact list) *)
Fixpoint before (p : Z) (l : list Z) : list Z := match l with [] => [] | x :: l' => if x =? p then [] else x :: before p l' end.
Fixpoint after (p : Z) (l : list Z) : list Z := match l with [] => [] | x :: l' => if x =? p then l' else after p l' end.

Ltac notin := cbn; let H_ := fresh in intros H_; repeat (destruct H_ as [H_|H_]; [discriminate H_|]); exact H_.

Lemma style_phase_at d t a par (iv : interval) st p pre post :
  is_leaf_kind (e_kind a) = false -> style_phase d t a par iv = Ok st -> ordered_style_props = pre ++ p :: post -> In p all_props ->
  exists s s',
    (forall q, In q all_props -> ~ In q pre -> (In p_Position pre -> q <> p_Origin) -> sget s q = pre_value d t a par iv q) /\
    (if pre_todo t a par iv p then compute_prop d par s p = Ok s' else s' = s) /\
    (forall q, q <> p -> (p = p_Position -> q <> p_Origin) -> sget s' q = sget s q) /\
    (forall q, ~ In q post -> (In p_Position post -> q <> p_Origin) -> sget st q = sget s' q).
Proof.
  intros Hleaf H Hord Hin. destruct (style_phase_pre d t a par iv st Hleaf H) as (st4 & todo4 & Hc & Hpre). rewrite Hord in Hc.
  destruct (compute_styles_at _ _ _ _ _ _ _ _ Hc) as (s & s' & Ha & Hb & Hz).
  exists s, s'. repeat split.
  - intros q Hq H1 H2. rewrite (compute_styles_frame _ _ _ _ _ _ _ Ha H1 H2). apply (Hpre q Hq).
  - unfold step in Hb. rewrite (proj2 (Hpre p Hin)) in Hb. destruct (pre_todo t a par iv p); [exact Hb | injection Hb as <-; reflexivity].
  - intros q H1 H2. apply (step_frame _ _ _ _ _ _ _ Hb H1 H2).
  - intros q H1 H2. apply (compute_styles_frame _ _ _ _ _ _ _ Hz H1 H2).
Qed.

(* two consecutive steps, for tts:origin and tts:position: the second rewrites the key of the first *)
Lemma style_phase_at2 d t a par (iv : interval) st p p2 pre post :
  is_leaf_kind (e_kind a) = false -> style_phase d t a par iv = Ok st -> ordered_style_props = pre ++ p :: p2 :: post ->
  In p all_props -> In p2 all_props ->
  exists s s' s'',
    (forall q, In q all_props -> ~ In q pre -> (In p_Position pre -> q <> p_Origin) -> sget s q = pre_value d t a par iv q) /\
    (if pre_todo t a par iv p then compute_prop d par s p = Ok s' else s' = s) /\
    (forall q, q <> p -> (p = p_Position -> q <> p_Origin) -> sget s' q = sget s q) /\
    (if pre_todo t a par iv p2 then compute_prop d par s' p2 = Ok s'' else s'' = s') /\
    (forall q, q <> p2 -> (p2 = p_Position -> q <> p_Origin) -> sget s'' q = sget s' q) /\
    (forall q, ~ In q post -> (In p_Position post -> q <> p_Origin) -> sget st q = sget s'' q).
Proof.
  intros Hleaf H Hord Hin Hin2. destruct (style_phase_pre d t a par iv st Hleaf H) as (st4 & todo4 & Hc & Hpre). rewrite Hord in Hc.
  destruct (compute_styles_at _ _ _ _ _ _ _ _ Hc) as (s & s' & Ha & Hb & Hrest).
  apply compute_styles_cons_inv in Hrest as (s'' & Hb2 & Hz).
  exists s, s', s''. repeat split.
  - intros q Hq H1 H2. rewrite (compute_styles_frame _ _ _ _ _ _ _ Ha H1 H2). apply (Hpre q Hq).
  - unfold step in Hb. rewrite (proj2 (Hpre p Hin)) in Hb. destruct (pre_todo t a par iv p); [exact Hb | injection Hb as <-; reflexivity].
  - intros q H1 H2. apply (step_frame _ _ _ _ _ _ _ Hb H1 H2).
  - unfold step in Hb2. rewrite (proj2 (Hpre p2 Hin2)) in Hb2. destruct (pre_todo t a par iv p2); [exact Hb2 | injection Hb2 as <-; reflexivity].
  - intros q H1 H2. apply (step_frame _ _ _ _ _ _ _ Hb2 H1 H2).
  - intros q H1 H2. apply (compute_styles_frame _ _ _ _ _ _ _ Hz H1 H2).
Qed.

Lemma style_phase_uncomputed d t a par iv st p :
  is_leaf_kind (e_kind a) = false -> style_phase d t a par iv = Ok st -> In p all_props ->
  ~ In p ordered_style_props -> p <> p_Origin -> sget st p = pre_value d t a par iv p.
Proof.
  intros Hleaf H Hin Hno Ho. destruct (style_phase_pre d t a par iv st Hleaf H) as (st4 & todo4 & Hc & Hpre).
  rewrite (compute_styles_frame d par todo4 p _ _ _ Hc Hno (fun _ => Ho)). apply (Hpre p Hin).
Qed.

Definition complete (pst : smap) : Prop := forall q, In q all_props -> shas pst q = true.
Lemma complete_get pst p : complete pst -> In p all_props -> exists v, sget pst p = Some v.
Proof. intros Hc Hin. specialize (Hc p Hin). unfold shas in Hc. destruct (sget pst p) as [v|]; [exists v; reflexivity | discriminate]. Qed.

Lemma fired_other a p : p <> p_Direction -> fired a p = false.
Proof. intros H. unfold fired. destruct (p =? p_Direction) eqn:E; [apply Z.eqb_eq in E; congruence|]. rewrite andb_false_r. reflexivity. Qed.
Lemma fired_content a p : kind_eqb (e_kind a) KRegion = false -> fired a p = false.
Proof. intros H. unfold fired. rewrite H. reflexivity. Qed.
Lemma default_pre_of d p : p <> p_Position -> default_pre d p = default_of d p.
Proof. intros H. unfold default_pre, default_of. destruct (p =? p_Position) eqn:E; [apply Z.eqb_eq in E; congruence|]. reflexivity. Qed.

Lemma pre_region_todo t a iv p : pre_todo t a None iv p = true.
Proof.
  unfold pre_todo, pre_v3, pre_v2. destruct (fired a p); [rewrite orb_true_r; reflexivity|].
  destruct (specified t (a, iv) p); reflexivity.
Qed.
Lemma pre_region_value d t a iv p : p <> p_Direction ->
  pre_value d t a None iv p = match specified t (a, iv) p with Some v => Some v | None => default_pre d p end.
Proof. intros H. unfold pre_value, pre_v3, pre_v2. rewrite (fired_other a p H). reflexivity. Qed.

Lemma pre_content_v3 t a pk pst iv p : kind_eqb (e_kind a) KRegion = false -> shas pst p = true ->
  pre_v3 t a (Some (pk, pst)) iv p = inh_step (e_kind a) pk pst p (specified t (a, iv) p).
Proof. intros Hk Hs. unfold pre_v3, pre_v2. rewrite Hk, Hs, (fired_content a p Hk). reflexivity. Qed.
Lemma pre_content_todo t a pk pst iv p : kind_eqb (e_kind a) KRegion = false -> shas pst p = true ->
  pre_todo t a (Some (pk, pst)) iv p =
  is_some (specified t (a, iv) p) || negb (is_some (inh_step (e_kind a) pk pst p (specified t (a, iv) p))).
Proof. intros Hk Hs. unfold pre_todo. rewrite (pre_content_v3 t a pk pst iv p Hk Hs), (fired_content a p Hk), orb_false_r. reflexivity. Qed.

Definition ctx (a : attrs) (parent : option (kind * smap)) : Prop :=
  match parent with None => e_kind a = KRegion | Some (pk, pst) => kind_eqb (e_kind a) KRegion = false /\ complete pst end.

Lemma pre_own d t a par iv p : ctx a par -> In p all_props -> is_inherited p = false ->
  p <> p_FontSize -> p <> p_TextDecoration -> p <> p_WritingMode -> p <> p_Direction ->
  pre_value d t a par iv p = match specified t (a, iv) p with Some v => Some v | None => default_pre d p end /\
  pre_todo t a par iv p = true.
Proof.
  intros Hc Hin Hni H1 H2 H3 H4. destruct par as [[pk pst]|].
  - destruct Hc as [Hk Hcomp]. unfold pre_value.
    rewrite (pre_content_v3 t a pk pst iv p Hk (Hcomp p Hin)), (pre_content_todo t a pk pst iv p Hk (Hcomp p Hin)).
    rewrite (inh_step_generic _ _ _ _ _ H1 H2 H3), Hni. split; [reflexivity|]. destruct (specified t (a, iv) p); reflexivity.
  - split; [apply pre_region_value; exact H4 | apply pre_region_todo].
Qed.

Lemma own_or_default_pre d t x p : p <> p_Position ->
  match specified t x p with Some v => Some v | None => default_pre d p end = own_or_default d t p x.
Proof. intros H. unfold own_or_default. rewrite (default_pre_of d p H). reflexivity. Qed.

Lemma style_phase_own d t a par (iv : interval) st p pre post :
  is_leaf_kind (e_kind a) = false -> ctx a par -> style_phase d t a par iv = Ok st ->
  ordered_style_props = pre ++ p :: post -> In p all_props -> is_inherited p = false ->
  p <> p_FontSize -> p <> p_TextDecoration -> p <> p_WritingMode -> p <> p_Direction -> p <> p_Position ->
  ~ In p pre -> (In p_Position pre -> p <> p_Origin) ->
  exists s s', sget s p = own_or_default d t p (a, iv) /\ compute_prop d par s p = Ok s' /\
    (forall q, q <> p -> (p = p_Position -> q <> p_Origin) -> sget s' q = sget s q) /\
    (forall q, ~ In q post -> (In p_Position post -> q <> p_Origin) -> sget st q = sget s' q).
Proof.
  intros Hleaf Hctx H Hord Hin Hni F1 F2 F3 F4 F5 N1 N2.
  destruct (style_phase_at d t a par iv st _ _ _ Hleaf H Hord Hin) as (s & s' & Ha & Hb & Hf & Hz).
  destruct (pre_own d t a par iv _ Hctx Hin Hni F1 F2 F3 F4) as [Hv Ht]. rewrite Ht in Hb.
  exists s, s'. repeat split; [|exact Hb | exact Hf | exact Hz].
  rewrite (Ha _ Hin N1 N2), Hv. apply own_or_default_pre. exact F5.
Qed.
