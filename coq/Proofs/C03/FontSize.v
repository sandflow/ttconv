(* C03: the computed font size (the reference of every other relative length). *)
From TT Require Import Model.Doc Gen.StyleTables Model.Isd Spec.IsdSpec Spec.StyleSpec.
From TT Require Import Proofs.Common.StyleFrame Proofs.C03.Values Proofs.C03.Phase Proofs.C03.Cascade Proofs.C03.Chain.

Lemma refs_spec d : c_h d = cell_h d /\ px_h d = pixel_h d /\ c_w d = cell_w d /\ px_w d = pixel_w d.
Proof. repeat split. Qed.

Definition font_size1 (d : doc) (t : Q) (x : link) (parent : option (kind * option len)) : option len :=
  match slen (specified t x p_FontSize) with
  | Some l =>
      let ref := match parent with Some (_, pl) => pl | None => Some (cell_h d) end in
      rel l ref ref (Some (cell_h d)) (Some (pixel_h d))
  | None =>
      match parent with
      | Some (pk, Some pl) => Some (if halve_kind (e_kind (fst x)) pk then mkLen (Qdiv (lv pl) 2) (lu pl) else pl)
      | Some (_, None) => None
      | None => match slen (default_of d p_FontSize) with
                | Some l => rel l (Some (cell_h d)) (Some (cell_h d)) (Some (cell_h d)) (Some (pixel_h d))
                | None => None
                end
      end
  end.
Lemma font_size_cons d t x up :
  font_size d t (x :: up) =
  font_size1 d t x (match up with [] => None | y :: _ => Some (e_kind (fst y), font_size d t up) end).
Proof. destruct up; reflexivity. Qed.

Lemma compute_prop_fontsize d par st :
  compute_prop d par st p_FontSize =
  match sget st p_FontSize with
  | Some (VLen v) =>
      let ref := match par with Some (_, pst) => get_len pst p_FontSize | None => None end in
      match rel v (Some (match ref with Some l => l | None => cell_h d end)) (Some (match ref with Some l => l | None => cell_h d end))
                  (Some (cell_h d)) (Some (pixel_h d)) with
      | Some l => Ok (sset st p_FontSize (VLen l))
      | None => Err errCompute
      end
  | _ => Err errCompute
  end.
Proof.
  rewrite compute_prop_fontsize_eq.
  destruct (sget st p_FontSize) as [[]|]; try reflexivity. cbv zeta. rewrite compute_length_rel.
  destruct (rel _ _ _ _ _); reflexivity.
Qed.

Lemma fs_facts :
  In p_FontSize all_props /\ p_FontSize <> p_Direction /\ p_FontSize <> p_Position /\ p_FontSize <> p_Origin /\
  exists post, ordered_style_props = [] ++ p_FontSize :: post /\ ~ In p_FontSize post.
Proof. repeat split; try discriminate; try (cbn; tauto). eexists. split; [reflexivity | notin]. Qed.

(* Specified or animated on the element: computed against the parent's font size (one cell for a region); otherwise
   inherited, already computed, from the snapshot parent; on a region the initial value, computed against one cell. *)
Theorem style_phase_fontsize d t a par iv st :
  is_leaf_kind (e_kind a) = false -> ctx a par ->
  (forall pk pst, par = Some (pk, pst) -> exists pl, sget pst p_FontSize = Some (VLen pl)) ->
  style_phase d t a par iv = Ok st ->
  exists l, sget st p_FontSize = Some (VLen l) /\
            font_size1 d t (a, iv) (match par with Some (pk, pst) => Some (pk, get_len pst p_FontSize) | None => None end) = Some l.
Proof.
  intros Hleaf Hctx Hpar H. destruct fs_facts as (Fin & Fd & Fp & Fo & post & Hord & Hpost).
  destruct (style_phase_at d t a par iv st _ _ _ Hleaf H Hord Fin) as (s & s' & Ha & Hb & _ & Hz).
  rewrite (Hz _ Hpost (fun _ => Fo)).
  assert (Hs : sget s p_FontSize = pre_value d t a par iv p_FontSize) by (apply (Ha _ Fin); intros []).
  clear Ha Hz H. unfold font_size1, slen. rewrite compute_prop_fontsize in Hb.
  destruct par as [[pk pst]|].
  - destruct Hctx as [Hk Hcomp]. destruct (Hpar pk pst eq_refl) as (pl & Hpl). unfold pre_value in Hs.
    rewrite (pre_content_todo t a pk pst iv _ Hk (Hcomp _ Fin)) in Hb. rewrite (pre_content_v3 t a pk pst iv _ Hk (Hcomp _ Fin)) in Hs.
    unfold inh_step in Hs, Hb. rewrite Z.eqb_refl, Hpl in Hs, Hb. unfold get_len in *. rewrite Hpl in *.
    unfold interval in *. destruct (specified t (a, iv) p_FontSize) as [sv|]; cbn [is_some orb negb] in Hb.
    + rewrite Hs in Hb. destruct sv; try discriminate Hb. cbv zeta in Hb. destruct (rel _ _ _ _ _) as [l'|]; [|discriminate Hb].
      injection Hb as <-. exists l'. split; [apply sget_sset_same | reflexivity].
    + subst s'. eexists. split; [exact Hs | reflexivity].
  - rewrite pre_region_todo in Hb. rewrite (pre_region_value d t a iv _ Fd), (default_pre_of d _ Fp) in Hs. rewrite Hs in Hb.
    unfold interval in *. destruct (specified t (a, iv) p_FontSize) as [sv|].
    + destruct sv; try discriminate Hb. cbv zeta in Hb. destruct (rel _ _ _ _ _) as [l'|]; [|discriminate Hb].
      injection Hb as <-. exists l'. split; [apply sget_sset_same | reflexivity].
    + destruct (default_of d p_FontSize) as [[]|]; try discriminate Hb. cbv zeta in Hb.
      destruct (rel _ _ _ _ _) as [l'|]; [|discriminate Hb].
      injection Hb as <-. exists l'. split; [apply sget_sset_same | reflexivity].
Qed.

Theorem styles_along_fontsize d t : forall chain st, chain_ok chain = true -> styles_along d t chain = Ok st ->
  exists l, sget st p_FontSize = Some (VLen l) /\ font_size d t chain = Some l.
Proof.
  apply (chain_ind d t (fun chain st => exists l, sget st p_FontSize = Some (VLen l) /\ font_size d t chain = Some l)).
  - intros x st Hleaf Hk _ _ H.
    destruct (style_phase_fontsize d t (fst x) None (snd x) st Hleaf Hk) as (l & Hl & Hs); [intros ? ? E; discriminate E | exact H|].
    exists l. split; [exact Hl|]. rewrite font_size_cons, <- Hs, surj_link. reflexivity.
  - intros x y up pst st Hleaf Hk _ _ _ Hcomplete (pl & Hpl & Hfs) _ H.
    destruct (style_phase_fontsize d t (fst x) (Some (e_kind (fst y), pst)) (snd x) st Hleaf (conj Hk Hcomplete)) as (l & Hl & Hs);
      [intros ? ? E; injection E as _ <-; exists pl; exact Hpl | exact H|].
    exists l. split; [exact Hl|]. rewrite font_size_cons, Hfs, <- Hs, surj_link. unfold get_len. rewrite Hpl. reflexivity.
Qed.
