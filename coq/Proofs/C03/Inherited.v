(* C03: the three properties with special inheritance rules and no length computation:
   tts:textDecoration (merged per component along the chain), tts:direction (follows tts:writingMode on a region),
   tts:writingMode (the region's computed value, carried down to content elements). *)
From TT Require Import Model.Doc Gen.StyleTables Model.Isd Spec.IsdSpec Spec.StyleSpec.
From TT Require Import Proofs.Common.StyleFrame Proofs.C03.Phase Proofs.C03.Cascade Proofs.C03.Chain.

Lemma td_facts : In p_TextDecoration all_props /\ ~ In p_TextDecoration ordered_style_props /\ p_TextDecoration <> p_Origin /\
  p_TextDecoration <> p_Direction /\ p_TextDecoration <> p_Position /\ sget initial_values p_TextDecoration = Some (VTextDec 0 0 0).
Proof. repeat split; try discriminate; try (cbn; tauto). notin. Qed.

Lemma text_decoration_cons d t x y up :
  text_decoration d t (x :: y :: up) =
  match text_decoration d t (y :: up), specified t x p_TextDecoration with
  | Some (VTextDec pu pl po), Some (VTextDec u l o) => Some (VTextDec (merge3 u pu) (merge3 l pl) (merge3 o po))
  | Some pv, None => Some pv
  | _, _ => None
  end.
Proof. reflexivity. Qed.

Lemma td_typed_cons d t x up : td_typed d t (x :: up) = true ->
  is_td_o (specified t x p_TextDecoration) = true /\ td_typed d t up = true.
Proof.
  unfold td_typed. cbn [forallb]. intros H. apply andb_true_iff in H as [H1 H2]. apply andb_true_iff in H2 as [H2 H3].
  split; [exact H2 | rewrite H1, H3; reflexivity].
Qed.

Lemma td_shape d t : forall chain, td_typed d t chain = true -> is_td_o (text_decoration d t chain) = true.
Proof.
  destruct td_facts as (_ & _ & _ & _ & _ & Finit).
  induction chain as [|x up IH]; intros H; [reflexivity|].
  pose proof H as H0. apply td_typed_cons in H as [Hx Hup]. destruct up as [|y up'].
  - cbn [text_decoration]. destruct (specified t x p_TextDecoration) as [v|]; [exact Hx|].
    unfold default_of. unfold td_typed in H0. apply andb_true_iff in H0 as [Hi _].
    destruct (sget (d_initials d) p_TextDecoration); [exact Hi | rewrite Finit; reflexivity].
  - rewrite text_decoration_cons. specialize (IH Hup).
    destruct (text_decoration d t (y :: up')) as [[]|]; try reflexivity; try discriminate IH.
    destruct (specified t x p_TextDecoration) as [[]|]; reflexivity.
Qed.

Theorem styles_along_text_decoration d t : forall chain st, chain_ok chain = true -> styles_along d t chain = Ok st ->
  td_typed d t chain = true -> sget st p_TextDecoration = text_decoration d t chain.
Proof.
  destruct td_facts as (Fin & Fno & Fo & Fd & Fp & Finit).
  apply (chain_ind d t (fun chain st => td_typed d t chain = true -> sget st p_TextDecoration = text_decoration d t chain)).
  - intros x st Hleaf Hk _ _ H _.
    rewrite (style_phase_uncomputed d t (fst x) None (snd x) st _ Hleaf H Fin Fno Fo), (pre_region_value d t _ _ _ Fd), surj_link, (default_pre_of d _ Fp).
    reflexivity.
  - intros x y up pst st Hleaf Hk _ _ _ Hcomplete IH _ H Hty. apply td_typed_cons in Hty as [Hx Hup]. specialize (IH Hup).
    pose proof (td_shape d t (y :: up) Hup) as Hshape. rewrite <- IH in Hshape.
    destruct (complete_get pst _ Hcomplete Fin) as (pv & Hpv). rewrite Hpv in Hshape, IH.
    rewrite (style_phase_uncomputed d t (fst x) _ (snd x) st _ Hleaf H Fin Fno Fo). unfold pre_value.
    rewrite (pre_content_v3 t (fst x) _ pst (snd x) _ Hk (Hcomplete _ Fin)), surj_link, text_decoration_cons, <- IH.
    unfold inh_step. change (p_TextDecoration =? p_FontSize) with false. rewrite Z.eqb_refl, Hpv. cbv iota.
    destruct pv; try discriminate Hshape. unfold merge3.
    destruct (specified t x p_TextDecoration) as [[]|]; try discriminate Hx; reflexivity.
Qed.

Lemma dir_facts : In p_Direction all_props /\ ~ In p_Direction ordered_style_props /\ p_Direction <> p_Origin /\
  p_Direction <> p_Position /\ p_Direction <> p_FontSize /\ p_Direction <> p_TextDecoration /\ p_Direction <> p_WritingMode /\
  is_inherited p_Direction = true.
Proof. repeat split; try discriminate; try (cbn; tauto). notin. Qed.

Lemma direction_cons d t x y up :
  direction d t (x :: y :: up) =
  match specified t x p_Direction with
  | Some v => Some v
  | None => if is_region x then default_of d p_Direction else direction d t (y :: up)
  end.
Proof. reflexivity. Qed.

Theorem styles_along_direction d t : forall chain st, chain_ok chain = true -> styles_along d t chain = Ok st ->
  sget st p_Direction = direction d t chain.
Proof.
  destruct dir_facts as (Fin & Fno & Fo & Fp & F1 & F2 & F3 & Finh).
  apply (chain_ind d t (fun chain st => sget st p_Direction = direction d t chain)).
  - intros x st Hleaf Hk _ _ H.
    rewrite (style_phase_uncomputed d t (fst x) None (snd x) st _ Hleaf H Fin Fno Fo).
    unfold pre_value, pre_v3, pre_v2, fired, dir_special. rewrite Hk, Z.eqb_refl. cbn [kind_eqb andb direction].
    rewrite plain_cons, andb_false_r, surj_link, (default_pre_of d _ Fp). unfold shas.
    destruct (sget (e_styles (fst x)) p_Direction); cbn [negb is_some]; [reflexivity|].
    destruct (sget (e_styles (fst x)) p_WritingMode) as [[w| | | | | | | | | | | | | |]|]; cbn [is_some]; try reflexivity.
    destruct (w =? e_WritingModeType_lrtb); cbn [is_some]; [reflexivity|].
    destruct (w =? e_WritingModeType_rltb); cbn [is_some]; reflexivity.
  - intros x y up pst st Hleaf Hk _ _ _ Hcomplete IH _ H.
    destruct (complete_get pst _ Hcomplete Fin) as (pv & Hpv).
    rewrite (style_phase_uncomputed d t (fst x) _ (snd x) st _ Hleaf H Fin Fno Fo). unfold pre_value.
    rewrite (pre_content_v3 t (fst x) _ pst (snd x) _ Hk (Hcomplete _ Fin)), surj_link, direction_cons, <- IH.
    rewrite (inh_step_generic _ _ _ _ _ F1 F2 F3), Finh. unfold is_region. rewrite Hk.
    destruct (specified t x p_Direction); [reflexivity|]. rewrite Hpv. reflexivity.
Qed.

Lemma wm_facts : In p_WritingMode all_props /\ ~ In p_WritingMode ordered_style_props /\ p_WritingMode <> p_Origin /\
  p_WritingMode <> p_Position /\ p_WritingMode <> p_Direction /\ inheritable p_WritingMode = false.
Proof. repeat split; try discriminate; try (cbn; tauto). notin. Qed.

Lemma region_link_cons x y up : region_link (x :: y :: up) = region_link (y :: up).
Proof.
  unfold region_link. cbn [rev]. destruct (rev up ++ [y]) as [|r l] eqn:E; [|reflexivity].
  apply app_eq_nil in E as [_ E]. discriminate E.
Qed.
Lemma writing_mode_cons d t x y up : writing_mode d t (x :: y :: up) = writing_mode d t (y :: up).
Proof. unfold writing_mode. rewrite region_link_cons. reflexivity. Qed.

Theorem styles_along_writing_mode d t : forall chain st, chain_ok chain = true -> styles_along d t chain = Ok st ->
  sget st p_WritingMode = writing_mode d t chain.
Proof.
  destruct wm_facts as (Fin & Fno & Fo & Fp & Fd & Finh).
  apply (chain_ind d t (fun chain st => sget st p_WritingMode = writing_mode d t chain)).
  - intros x st Hleaf Hk _ _ H.
    rewrite (style_phase_uncomputed d t (fst x) None (snd x) st _ Hleaf H Fin Fno Fo), (pre_region_value d t _ _ _ Fd), surj_link, (default_pre_of d _ Fp).
    unfold writing_mode, region_link. cbn [rev app]. rewrite plain_cons, Finh. reflexivity.
  - intros x y up pst st Hleaf Hk _ _ _ Hcomplete IH _ H.
    destruct (complete_get pst _ Hcomplete Fin) as (pv & Hpv).
    rewrite (style_phase_uncomputed d t (fst x) _ (snd x) st _ Hleaf H Fin Fno Fo). unfold pre_value.
    rewrite (pre_content_v3 t (fst x) _ pst (snd x) _ Hk (Hcomplete _ Fin)), writing_mode_cons, <- IH.
    unfold inh_step. change (p_WritingMode =? p_FontSize) with false. change (p_WritingMode =? p_TextDecoration) with false.
    rewrite Z.eqb_refl, Hpv. reflexivity.
Qed.
