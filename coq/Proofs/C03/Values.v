From TT Require Import Model.Doc Gen.StyleTables Model.Isd Spec.IsdSpec Spec.StyleSpec Proofs.Common.StyleFrame.

(* C03: M's _compute_length is the specification's `rel` with its absent result turned into an error. *)
Lemma compute_length_rel l pct em c px :
  compute_length l pct em c px = match rel l pct em c px with Some r => Ok r | None => Err errCompute end.
Proof.
  unfold compute_length, rel. destruct (lu l); try reflexivity;
    match goal with |- match ?o with _ => _ end = _ => destruct o end; reflexivity.
Qed.
