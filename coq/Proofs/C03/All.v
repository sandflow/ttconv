(* C03: region geometry and disparity along the chain, and all 36 properties together. *)
From TT Require Import Model.Doc Gen.StyleTables Model.Isd Spec.IsdSpec Spec.StyleSpec.
From TT Require Import Proofs.Common.StyleFrame.
From TT Require Import Proofs.C03.Phase Proofs.C03.Cascade Proofs.C03.Chain Proofs.C03.FontSize Proofs.C03.Inherited
  Proofs.C03.Geometry Proofs.C03.FontRelative.

Lemma chain_ctx d t : forall chain st, chain_ok chain = true -> styles_along d t chain = Ok st ->
  exists x up par, chain = x :: up /\ is_leaf_kind (e_kind (fst x)) = false /\ ctx (fst x) par /\
                   style_phase d t (fst x) par (snd x) = Ok st.
Proof.
  apply (chain_ind d t (fun chain st => exists x up par, chain = x :: up /\ is_leaf_kind (e_kind (fst x)) = false /\ ctx (fst x) par /\
                                                        style_phase d t (fst x) par (snd x) = Ok st)).
  - intros x st Hleaf Hk _ _ H. exists x, [], None. repeat split; assumption.
  - intros x y up pst st Hleaf Hk _ _ _ Hcomplete _ _ H. exists x, (y :: up), (Some (e_kind (fst y), pst)). repeat split; assumption.
Qed.

Theorem styles_along_extent d t chain st : chain_ok chain = true -> styles_along d t chain = Ok st ->
  exists h w, sget st p_Extent = Some (VExtent h w) /\ extent d t chain = Some (h, w).
Proof.
  intros Hok Hst. destruct (chain_ctx d t chain st Hok Hst) as (x & up & par & -> & Hleaf & Hctx & H).
  destruct (styles_along_fontsize d t _ st Hok Hst) as (fs & Hfs & Hfs').
  destruct (style_phase_extent d t (fst x) par (snd x) st fs Hleaf Hctx H Hfs) as (h & w & He & He').
  exists h, w. split; [exact He|]. rewrite extent_cons, Hfs', <- He', surj_link. reflexivity.
Qed.

Theorem styles_along_origin d t chain st : chain_ok chain = true -> styles_along d t chain = Ok st ->
  exists x y, sget st p_Origin = Some (VCoord x y) /\
              sget st p_Position = Some (VPos x e_PositionType_HEdge_left y e_PositionType_VEdge_top) /\
              origin d t chain = Some (x, y).
Proof.
  intros Hok Hst. destruct (styles_along_extent d t chain st Hok Hst) as (h & w & He & He').
  destruct (chain_ctx d t chain st Hok Hst) as (x & up & par & -> & Hleaf & Hctx & H).
  destruct (style_phase_origin d t (fst x) par (snd x) st h w Hleaf Hctx H He) as (ox & oy & Ho & Hp & Ho').
  exists ox, oy. repeat split; [exact Ho | exact Hp|]. rewrite origin_cons, He', <- Ho', surj_link. reflexivity.
Qed.

Theorem styles_along_padding d t chain st : chain_ok chain = true -> styles_along d t chain = Ok st ->
  sget st p_Padding = padding d t chain.
Proof.
  intros Hok Hst. destruct (styles_along_extent d t chain st Hok Hst) as (h & w & He & He').
  destruct (styles_along_fontsize d t _ st Hok Hst) as (fs & Hfs & Hfs').
  pose proof (styles_along_writing_mode d t chain st Hok Hst) as Hwm.
  destruct (chain_ctx d t chain st Hok Hst) as (x & up & par & -> & Hleaf & Hctx & H).
  rewrite (style_phase_padding d t (fst x) par (snd x) st fs h w Hleaf Hctx H Hfs He), padding_cons, He', Hfs', Hwm, surj_link. reflexivity.
Qed.

Theorem styles_along_disparity d t chain st : chain_ok chain = true -> styles_along d t chain = Ok st ->
  sget st p_Disparity = disparity d t chain.
Proof.
  intros Hok Hst. destruct (styles_along_fontsize d t _ st Hok Hst) as (fs & Hfs & Hfs').
  destruct (chain_ctx d t chain st Hok Hst) as (x & up & par & -> & Hleaf & Hctx & H).
  rewrite (style_phase_disparity d t (fst x) par (snd x) st fs Hleaf Hctx H Hfs), disparity_cons, Hfs', surj_link. reflexivity.
Qed.

Definition special_props : list Z :=
  [p_FontSize; p_Extent; p_Origin; p_Position; p_LineHeight; p_LinePadding; p_RubyReserve; p_TextOutline; p_TextShadow; p_TextEmphasis;
   p_Padding; p_TextDecoration; p_Direction; p_WritingMode; p_Disparity].

Lemma nonplain_cases p : In p all_props -> plain_prop p = false -> In p special_props.
Proof.
  assert (G : forallb (fun q => plain_prop q || mem q special_props) all_props = true) by (vm_compute; reflexivity).
  rewrite forallb_forall in G. intros Hin Ep. specialize (G p Hin). rewrite Ep in G. apply mem_in, G.
Qed.

Theorem styles_along_all d t chain st p : In p all_props -> chain_ok chain = true ->
  (p = p_TextDecoration -> td_typed d t chain = true) ->
  styles_along d t chain = Ok st -> sget st p = computed_spec d t chain p.
Proof.
  intros Hin Hok Hty Hst. destruct (plain_prop p) eqn:Ep.
  - rewrite (plain_is_spec d t chain p Ep). apply (styles_along_plain d t p Ep Hin chain st Hok Hst).
  - pose proof (nonplain_cases p Hin Ep) as Hc. unfold special_props in Hc. cbn [In] in Hc.
    destruct Hc as [<-|[<-|[<-|[<-|[<-|[<-|[<-|[<-|[<-|[<-|[<-|[<-|[<-|[<-|[<-|[]]]]]]]]]]]]]]]].
    + destruct (styles_along_fontsize d t chain st Hok Hst) as (l & Hl & Hl').
      change (computed_spec d t chain p_FontSize) with (match font_size d t chain with Some l => Some (VLen l) | None => None end).
      rewrite Hl', Hl. reflexivity.
    + destruct (styles_along_extent d t chain st Hok Hst) as (h & w & He & He').
      change (computed_spec d t chain p_Extent) with (match extent d t chain with Some (h, w) => Some (VExtent h w) | None => None end).
      rewrite He', He. reflexivity.
    + destruct (styles_along_origin d t chain st Hok Hst) as (x & y & Ho & Hp & Ho').
      change (computed_spec d t chain p_Origin) with (match origin d t chain with Some (x, y) => Some (VCoord x y) | None => None end).
      rewrite Ho', Ho. reflexivity.
    + destruct (styles_along_origin d t chain st Hok Hst) as (x & y & Ho & Hp & Ho').
      change (computed_spec d t chain p_Position) with
        (match origin d t chain with Some (x, y) => Some (VPos x e_PositionType_HEdge_left y e_PositionType_VEdge_top) | None => None end).
      rewrite Ho', Hp. reflexivity.
    + apply (styles_along_font_relative d t p_LineHeight); [cbn; tauto | exact Hok | exact Hst].
    + apply (styles_along_font_relative d t p_LinePadding); [cbn; tauto | exact Hok | exact Hst].
    + apply (styles_along_font_relative d t p_RubyReserve); [cbn; tauto | exact Hok | exact Hst].
    + apply (styles_along_font_relative d t p_TextOutline); [cbn; tauto | exact Hok | exact Hst].
    + apply (styles_along_font_relative d t p_TextShadow); [cbn; tauto | exact Hok | exact Hst].
    + apply (styles_along_font_relative d t p_TextEmphasis); [cbn; tauto | exact Hok | exact Hst].
    + apply (styles_along_padding d t chain st Hok Hst).
    + apply (styles_along_text_decoration d t chain st Hok Hst (Hty eq_refl)).
    + apply (styles_along_direction d t chain st Hok Hst).
    + apply (styles_along_writing_mode d t chain st Hok Hst).
    + apply (styles_along_disparity d t chain st Hok Hst).
Qed.

(* the hypotheses are satisfiable: a body in the default region of an otherwise empty document *)
Definition ex_doc : doc := mkDoc [] None [] 15 32 1080 1920 None None [].
Definition ex_chain : list link :=
  [(mkAttrs KBody None None None None [(p_TextDecoration, VTextDec 1 (-1) (-1)); (p_LineHeight, VLen (mkLen 125 Upct))] [] false [] [], root_interval);
   (eattrs default_region, root_interval)].
Lemma ex_hypotheses : chain_ok ex_chain = true /\ td_typed ex_doc 0 ex_chain = true /\
  exists st, styles_along ex_doc 0 ex_chain = Ok st /\ sget st p_TextDecoration = Some (VTextDec 1 0 0).
Proof. split; [reflexivity|]. split; [reflexivity|]. eexists. split; vm_compute; reflexivity. Qed.
