(* C03: the inheritable properties resolved against the element's own computed font size —
   tts:lineHeight, tts:linePadding, tts:rubyReserve, tts:textOutline, tts:textShadow, tts:textEmphasis.
   Specified (or animated) on the element: %, em of its computed font size, c and px of the cell / pixel height,
   missing colours = its computed colour, emphasis `auto` by the region's writing mode.  Otherwise the parent's
   computed value (on a region: the initial value, computed). *)
From TT Require Import Model.Doc Gen.StyleTables Model.Isd Spec.IsdSpec Spec.StyleSpec.
From TT Require Import Proofs.Common.StyleFrame.
From TT Require Import Proofs.C03.Values Proofs.C03.Phase Proofs.C03.Cascade Proofs.C03.Chain Proofs.C03.FontSize Proofs.C03.Inherited.

Definition fr_props : list Z := [p_LineHeight; p_LinePadding; p_RubyReserve; p_TextOutline; p_TextShadow; p_TextEmphasis].

(* compute_font_relative with its three inputs (font size, colour, writing mode) as parameters (cfr_spec), so that
   M's step, which reads them from the style map, can be stated against it (compute_prop_fr) *)
Definition fs_rel1 (d : doc) (fs : option len) (l : len) : option len := rel l fs fs (Some (cell_h d)) (Some (pixel_h d)).
Definition ocolor1 (c col : option Z) : option Z := match c with Some x => Some x | None => col end.
Definition shadows1 (d : doc) (fs : option len) (col : option Z) :=
  fix f (l : list (len * len * option len * option Z)) : option (list (len * len * option len * option Z)) :=
    match l with
    | [] => Some []
    | (x, y, b, c) :: l' =>
        match fs_rel1 d fs x, fs_rel1 d fs y, f l' with
        | Some x', Some y', Some rest =>
            match b with
            | None => Some ((x', y', None, ocolor1 c col) :: rest)
            | Some bl => match fs_rel1 d fs bl with Some b' => Some ((x', y', Some b', ocolor1 c col) :: rest) | None => None end
            end
        | _, _, _ => None
        end
    end.
Definition cfr1 (d : doc) (fs : option len) (col : option Z) (wm : option value) (v : value) : option value :=
  match v with
  | VSpecial s => Some (VSpecial s)
  | VLen l => match fs_rel1 d fs l with Some l' => Some (VLen l') | None => None end
  | VReserve pos (Some l) => match fs_rel1 d fs l with Some l' => Some (VReserve pos (Some l')) | None => None end
  | VReserve pos None => match fs with Some f => Some (VReserve pos (Some (mkLen (Qdiv (lv f) 2) (lu f)))) | None => None end
  | VOutline c th => match fs_rel1 d fs th with Some l' => Some (VOutline (ocolor1 c col) l') | None => None end
  | VShadow ss => match shadows1 d fs col ss with Some ss' => Some (VShadow ss') | None => None end
  | VEmph style c pos =>
      let style' := if style =? e_TextEmphasisType_Style_auto
                    then (if vertical wm then e_TextEmphasisType_Style_filled_sesame else e_TextEmphasisType_Style_filled_circle)
                    else style in
      Some (VEmph style' (ocolor1 c col) pos)
  | other => Some other
  end.
Definition color_of (v : option value) : option Z := match v with Some (VColor k) => Some k | _ => None end.

Lemma cfr_spec d t p chain v :
  compute_font_relative d t p chain v = cfr1 d (font_size d t chain) (color_of (plain d t p_Color chain)) (writing_mode d t chain) v.
Proof. reflexivity. Qed.

Lemma frp_cons d t p x up :
  font_relative_prop d t p (x :: up) =
  match specified t x p with
  | Some v => compute_font_relative d t p (x :: up) v
  | None =>
      if negb (is_region x) && match up with [] => false | _ => true end then font_relative_prop d t p up
      else match default_of d p with Some v => compute_font_relative d t p (x :: up) v | None => None end
  end.
Proof. reflexivity. Qed.

Lemma font_relative_rel d st l : font_relative d st l = match fs_rel1 d (get_len st p_FontSize) l with Some r => Ok r | None => Err errCompute end.
Proof. unfold font_relative, fs_rel1. rewrite compute_length_rel. reflexivity. Qed.

Lemma compute_shadows_spec d st : forall ss ss', compute_shadows d st ss = Ok ss' ->
  shadows1 d (get_len st p_FontSize) (get_color st p_Color) ss = Some ss'.
Proof.
  induction ss as [|[[[x y] b] c] ss IH]; intros ss' H; cbn [compute_shadows] in H; [injection H as <-; reflexivity|].
  rewrite !font_relative_rel in H. cbn [shadows1]. fold (shadows1 d (get_len st p_FontSize) (get_color st p_Color)).
  destruct (fs_rel1 d (get_len st p_FontSize) x) as [x'|]; [|discriminate H]. cbn [bind] in H.
  destruct (fs_rel1 d (get_len st p_FontSize) y) as [y'|]; [|discriminate H]. cbn [bind] in H.
  destruct b as [bl|].
  - rewrite font_relative_rel in H. destruct (fs_rel1 d (get_len st p_FontSize) bl) as [b'|]; [|discriminate H]. cbn [bind] in H.
    destruct (compute_shadows d st ss) as [rest|]; [|discriminate H]. cbn [bind] in H. injection H as <-.
    rewrite (IH rest eq_refl). reflexivity.
  - cbn [bind] in H. destruct (compute_shadows d st ss) as [rest|]; [|discriminate H]. cbn [bind] in H. injection H as <-.
    rewrite (IH rest eq_refl). reflexivity.
Qed.


Definition wm_read (par : option (kind * smap)) (st : smap) : option value :=
  match par with Some (_, pst) => sget pst p_WritingMode | None => sget st p_WritingMode end.

Lemma compute_prop_fr d par s s' p : In p fr_props -> compute_prop d par s p = Ok s' ->
  exists v, sget s p = Some v /\ sget s' p = cfr1 d (get_len s p_FontSize) (get_color s p_Color) (wm_read par s) v.
Proof.
  intros Hin H. unfold fr_props in Hin. cbn [In] in Hin.
  destruct Hin as [<-|[<-|[<-|[<-|[<-|[<-|[]]]]]]].
  - rewrite compute_prop_lh in H. destruct (sget s p_LineHeight) as [v|] eqn:E; [|discriminate H]. exists v. split; [reflexivity|].
    destruct v; try discriminate H.
    + injection H as <-. exact E.
    + rewrite font_relative_rel in H. cbn [cfr1]. destruct (fs_rel1 d _ l) as [l'|]; [|discriminate H]. cbn [bind] in H. injection H as <-. apply sget_sset_same.
  - rewrite compute_prop_lp in H. destruct (sget s p_LinePadding) as [v|] eqn:E; [|discriminate H]. exists v. split; [reflexivity|].
    destruct v; try discriminate H.
    rewrite font_relative_rel in H. cbn [cfr1]. destruct (fs_rel1 d _ l) as [l'|]; [|discriminate H]. cbn [bind] in H. injection H as <-. apply sget_sset_same.
  - rewrite compute_prop_rr in H. destruct (sget s p_RubyReserve) as [v|] eqn:E; [|discriminate H]. exists v. split; [reflexivity|].
    destruct v; try discriminate H.
    + injection H as <-. exact E.
    + destruct l as [l|].
      * rewrite font_relative_rel in H. cbn [cfr1]. destruct (fs_rel1 d _ l) as [l'|]; [|discriminate H]. cbn [bind] in H. injection H as <-. apply sget_sset_same.
      * cbn [cfr1]. destruct (get_len s p_FontSize) as [fs|]; [|discriminate H]. injection H as <-. apply sget_sset_same.
  - rewrite compute_prop_to in H. destruct (sget s p_TextOutline) as [v|] eqn:E; [|discriminate H]. exists v. split; [reflexivity|].
    destruct v; try discriminate H.
    + injection H as <-. exact E.
    + rewrite font_relative_rel in H. cbn [cfr1]. destruct (fs_rel1 d _ t) as [l'|]; [|discriminate H]. cbn [bind] in H. injection H as <-. apply sget_sset_same.
  - rewrite compute_prop_ts in H. destruct (sget s p_TextShadow) as [v|] eqn:E; [|discriminate H]. exists v. split; [reflexivity|].
    destruct v; try discriminate H.
    + injection H as <-. exact E.
    + destruct (compute_shadows d s ss) as [ss'|] eqn:Es; [|discriminate H]. cbn [bind] in H. injection H as <-.
      cbn [cfr1]. rewrite (compute_shadows_spec d s ss ss' Es). apply sget_sset_same.
  - rewrite compute_prop_te in H. destruct (sget s p_TextEmphasis) as [v|] eqn:E; [|discriminate H]. exists v. split; [reflexivity|].
    destruct v; try discriminate H.
    + injection H as <-. exact E.
    + cbv zeta in H. injection H as <-. apply sget_sset_same.
Qed.

Ltac fr_case q :=
  repeat split; try discriminate; try (cbn; tauto);
  exists (before q ordered_style_props), (after q ordered_style_props); split; [reflexivity|]; repeat split; notin.
Lemma fr_facts p : In p fr_props ->
  In p all_props /\ is_inherited p = true /\ p <> p_FontSize /\ p <> p_TextDecoration /\ p <> p_WritingMode /\ p <> p_Direction /\
  p <> p_Position /\ p <> p_Origin /\ p <> p_Color /\
  exists pre post, ordered_style_props = pre ++ p :: post /\ ~ In p pre /\ ~ In p post /\
                   ~ In p_FontSize post /\ ~ In p_Color post /\ ~ In p_WritingMode post.
Proof.
  intros Hin. unfold fr_props in Hin. cbn [In] in Hin.
  destruct Hin as [<-|[<-|[<-|[<-|[<-|[<-|[]]]]]]];
    [fr_case p_LineHeight | fr_case p_LinePadding | fr_case p_RubyReserve | fr_case p_TextOutline | fr_case p_TextShadow | fr_case p_TextEmphasis].
Qed.

Theorem style_phase_fr d t a par (iv : interval) st p :
  is_leaf_kind (e_kind a) = false -> style_phase d t a par iv = Ok st -> In p fr_props ->
  if pre_todo t a par iv p
  then exists v, pre_value d t a par iv p = Some v /\
                 sget st p = cfr1 d (get_len st p_FontSize) (get_color st p_Color) (wm_read par st) v
  else sget st p = pre_value d t a par iv p.
Proof.
  intros Hleaf H Hin.
  destruct (fr_facts p Hin) as (Fin & Finh & F1 & F2 & F3 & F4 & F5 & F6 & F7 & pre & post & Hord & N1 & N2 & N3 & N4 & N5).
  destruct (style_phase_at d t a par iv st _ _ _ Hleaf H Hord Fin) as (s & s' & Ha & Hb & Hf & Hz).
  assert (Hs : sget s p = pre_value d t a par iv p) by (apply (Ha p Fin N1); intros _; exact F6).
  assert (Hfin : sget st p = sget s' p) by (apply (Hz p N2); intros _; exact F6).
  destruct (pre_todo t a par iv p).
  - destruct (compute_prop_fr d par s s' p Hin Hb) as (v & Hv & Hv').
    exists v. split; [rewrite <- Hs; exact Hv|]. rewrite Hfin, Hv'.
    assert (Hdep : forall q, q <> p -> q <> p_Origin -> ~ In q post -> sget s q = sget st q).
    { intros q H1 H2 H3. rewrite (Hz q H3 (fun _ => H2)). apply eq_sym, Hf; [exact H1 | intros _; exact H2]. }
    unfold get_len, get_color, wm_read.
    rewrite (Hdep p_FontSize) by (first [congruence | discriminate | exact N3]).
    rewrite (Hdep p_Color) by (first [congruence | discriminate | exact N4]).
    destruct par as [[pk pst]|]; [reflexivity|].
    rewrite (Hdep p_WritingMode) by (first [congruence | discriminate | exact N5]). reflexivity.
  - subst s'. rewrite Hfin. exact Hs.
Qed.

Lemma color_plain : plain_prop p_Color = true /\ In p_Color all_props.
Proof. split; [reflexivity | cbn; tauto]. Qed.

Theorem styles_along_font_relative d t p : In p fr_props ->
  forall chain st, chain_ok chain = true -> styles_along d t chain = Ok st -> sget st p = font_relative_prop d t p chain.
Proof.
  intros Hin. destruct (fr_facts p Hin) as (Fin & Finh & F1 & F2 & F3 & F4 & F5 & F6 & F7 & _).
  destruct color_plain as [Cp Cin].
  assert (Own : forall chain st, chain_ok chain = true -> styles_along d t chain = Ok st ->
            get_len st p_FontSize = font_size d t chain /\ get_color st p_Color = color_of (plain d t p_Color chain) /\
            sget st p_WritingMode = writing_mode d t chain).
  { intros chain st Hok Hst. destruct (styles_along_fontsize d t chain st Hok Hst) as (fs & Hfs & Hfs').
    repeat split.
    - unfold get_len. rewrite Hfs, Hfs'. reflexivity.
    - unfold get_color, color_of. rewrite (styles_along_plain d t p_Color Cp Cin chain st Hok Hst). reflexivity.
    - apply (styles_along_writing_mode d t chain st Hok Hst). }
  apply (chain_ind d t (fun chain st => sget st p = font_relative_prop d t p chain)).
  - intros x st Hleaf Hk Hok Hst H. destruct (Own [x] st Hok Hst) as (O1 & O2 & O3).
    pose proof (style_phase_fr d t (fst x) None (snd x) st p Hleaf H Hin) as G.
    rewrite pre_region_todo, (pre_region_value d t _ _ _ F4), surj_link, (default_pre_of d _ F5) in G.
    destruct G as (v & Hv & G). rewrite G. unfold wm_read. rewrite O1, O2, O3, <- (cfr_spec d t p), frp_cons, andb_false_r.
    destruct (specified t x p); [injection Hv as ->; reflexivity|]. rewrite Hv. reflexivity.
  - intros x y up pst st Hleaf Hk Hupok Hok Hpst Hcomplete IH Hst H. destruct (Own _ st Hok Hst) as (O1 & O2 & O3).
    destruct (complete_get pst _ Hcomplete Fin) as (pv & Hpv).
    pose proof (style_phase_fr d t (fst x) _ (snd x) st p Hleaf H Hin) as G. unfold pre_value in G.
    rewrite (pre_content_todo t (fst x) _ pst (snd x) p Hk (Hcomplete p Fin)) in G.
    rewrite (pre_content_v3 t (fst x) _ pst (snd x) p Hk (Hcomplete p Fin)) in G.
    rewrite (inh_step_generic _ _ _ _ _ F1 F2 F3), Finh, surj_link in G.
    rewrite frp_cons. unfold is_region. rewrite Hk. cbn [negb andb].
    destruct (specified t x p) as [v0|]; cbn [is_some orb negb] in G.
    + destruct G as (v & Hv & G). injection Hv as <-. rewrite G. unfold wm_read.
      rewrite O1, O2, (styles_along_writing_mode d t _ pst Hupok Hpst), <- (writing_mode_cons d t x y up), <- (cfr_spec d t p). reflexivity.
    + rewrite Hpv in G. cbn [is_some negb] in G. rewrite G, <- IH. exact (eq_sym Hpv).
Qed.
