(* C03: region geometry — tts:extent, tts:disparity, tts:origin / tts:position, tts:padding.  None of them is inherited, so
   each is resolved on the element itself: against the root container, the cell and pixel resolutions, the element's
   own computed font size (em), its computed extent (position, padding percentages) and the writing mode. *)
From TT Require Import Model.Doc Gen.StyleTables Model.Isd Spec.IsdSpec Spec.StyleSpec.
From TT Require Import Proofs.Common.StyleFrame Proofs.C03.Values Proofs.C03.Phase.

Definition extent1 (d : doc) (t : Q) (x : link) (fs : option len) : option (len * len) :=
  match own_or_default d t p_Extent x with
  | Some (VExtent h w) =>
      match rel h (Some (mkLen 100 Urh)) fs (Some (cell_h d)) (Some (pixel_h d)),
            rel w (Some (mkLen 100 Urw)) fs (Some (cell_w d)) (Some (pixel_w d)) with
      | Some h', Some w' => Some (h', w')
      | _, _ => None
      end
  | _ => None
  end.
Lemma extent_cons d t x up : extent d t (x :: up) = extent1 d t x (font_size d t (x :: up)).
Proof. reflexivity. Qed.


Lemma ext_facts : In p_Extent all_props /\ is_inherited p_Extent = false /\ p_Extent <> p_FontSize /\ p_Extent <> p_TextDecoration /\
  p_Extent <> p_WritingMode /\ p_Extent <> p_Direction /\ p_Extent <> p_Position /\
  exists pre post, ordered_style_props = pre ++ p_Extent :: post /\ ~ In p_Extent pre /\ ~ In p_Position pre /\ ~ In p_Extent post /\ ~ In p_FontSize post /\
               (In p_Position post -> p_Extent <> p_Origin) /\ (In p_Position post -> p_FontSize <> p_Origin).
Proof.
  repeat split; try discriminate; try (cbn; tauto). exists (before p_Extent ordered_style_props), (after p_Extent ordered_style_props).
  split; [reflexivity|]. repeat split; try notin; intros _; discriminate.
Qed.

Theorem style_phase_extent d t a par (iv : interval) st fs :
  is_leaf_kind (e_kind a) = false -> ctx a par -> style_phase d t a par iv = Ok st -> sget st p_FontSize = Some (VLen fs) ->
  exists h w, sget st p_Extent = Some (VExtent h w) /\ extent1 d t (a, iv) (Some fs) = Some (h, w).
Proof.
  intros Hleaf Hctx H Hfs.
  destruct ext_facts as (Fin & Fni & F1 & F2 & F3 & F4 & F5 & pre & post & Hord & Fq1 & Fq2 & Fp1 & Fp2 & Fp3 & Fp4).
  destruct (style_phase_own d t a par iv st _ _ _ Hleaf Hctx H Hord Fin Fni F1 F2 F3 F4 F5 Fq1 (fun X => False_ind _ (Fq2 X)))
    as (s & s' & Hs & Hb & Hf & Hz).
  assert (Hsfs : get_len s p_FontSize = Some fs).
  { unfold get_len. rewrite <- (Hf p_FontSize) by (first [congruence | intros X; discriminate X]).
    rewrite <- (Hz p_FontSize Fp2 Fp4), Hfs. reflexivity. }
  rewrite compute_prop_extent, Hs, Hsfs in Hb. unfold extent1.
  destruct (own_or_default d t p_Extent (a, iv)) as [[| | | | |h w| | | | | | | | |]|]; try discriminate Hb.
  rewrite !compute_length_rel in Hb.
  change (rh (qz 100)) with (mkLen 100 Urh) in Hb. change (rw (qz 100)) with (mkLen 100 Urw) in Hb.
  change (c_h d) with (cell_h d) in Hb. change (px_h d) with (pixel_h d) in Hb. change (c_w d) with (cell_w d) in Hb. change (px_w d) with (pixel_w d) in Hb.
  destruct (rel h _ _ _ _) as [h'|]; [|discriminate Hb]. cbn [bind] in Hb.
  destruct (rel w _ _ _ _) as [w'|]; [|discriminate Hb]. cbn [bind] in Hb. injection Hb as <-.
  exists h', w'. split; [|reflexivity]. rewrite (Hz p_Extent Fp1 Fp3). apply sget_sset_same.
Qed.

(* tts:disparity is computed right after tts:fontSize: % of the root container width, c / px of the cell / pixel width, em of the own font size *)
Definition disparity1 (d : doc) (t : Q) (x : link) (fs : option len) : option value :=
  match own_or_default d t p_Disparity x with
  | Some (VLen l) =>
      match rel l (Some (mkLen 100 Urw)) fs (Some (cell_w d)) (Some (pixel_w d)) with
      | Some l' => Some (VLen l')
      | None => None
      end
  | _ => None
  end.
Lemma disparity_cons d t x up : disparity d t (x :: up) = disparity1 d t x (font_size d t (x :: up)).
Proof. reflexivity. Qed.


Lemma disp_facts : In p_Disparity all_props /\ is_inherited p_Disparity = false /\ p_Disparity <> p_FontSize /\ p_Disparity <> p_TextDecoration /\
  p_Disparity <> p_WritingMode /\ p_Disparity <> p_Direction /\ p_Disparity <> p_Position /\
  exists pre post, ordered_style_props = pre ++ p_Disparity :: post /\ ~ In p_Disparity pre /\ ~ In p_Position pre /\ ~ In p_Disparity post /\
               ~ In p_FontSize post /\ (In p_Position post -> p_Disparity <> p_Origin) /\ (In p_Position post -> p_FontSize <> p_Origin).
Proof.
  repeat split; try discriminate; try (cbn; tauto). exists (before p_Disparity ordered_style_props), (after p_Disparity ordered_style_props).
  split; [reflexivity|]. repeat split; try notin; intros _; discriminate.
Qed.

Theorem style_phase_disparity d t a par (iv : interval) st fs :
  is_leaf_kind (e_kind a) = false -> ctx a par -> style_phase d t a par iv = Ok st -> sget st p_FontSize = Some (VLen fs) ->
  sget st p_Disparity = disparity1 d t (a, iv) (Some fs).
Proof.
  intros Hleaf Hctx H Hfs.
  destruct disp_facts as (Fin & Fni & F1 & F2 & F3 & F4 & F5 & pre & post & Hord & Fq1 & Fq2 & Fp1 & Fp2 & Fp3 & Fp4).
  destruct (style_phase_own d t a par iv st _ _ _ Hleaf Hctx H Hord Fin Fni F1 F2 F3 F4 F5 Fq1 (fun X => False_ind _ (Fq2 X)))
    as (s & s' & Hs & Hb & Hf & Hz).
  assert (Hsfs : get_len s p_FontSize = Some fs).
  { unfold get_len. rewrite <- (Hf p_FontSize) by (first [congruence | intros X; discriminate X]).
    rewrite <- (Hz p_FontSize Fp2 Fp4), Hfs. reflexivity. }
  rewrite compute_prop_disparity, Hs, Hsfs in Hb. unfold disparity1.
  destruct (own_or_default d t p_Disparity (a, iv)) as [[| | | |l| | | | | | | | | |]|]; try discriminate Hb.
  rewrite compute_length_rel in Hb.
  change (rw (qz 100)) with (mkLen 100 Urw) in Hb. change (c_w d) with (cell_w d) in Hb. change (px_w d) with (pixel_w d) in Hb.
  destruct (rel l _ _ _ _) as [l'|]; [|discriminate Hb]. cbn [bind] in Hb. injection Hb as <-.
  rewrite (Hz p_Disparity Fp1 Fp3). apply sget_sset_same.
Qed.

Definition origin1 (d : doc) (t : Q) (x : link) (ext : option (len * len)) : option (len * len) :=
  match (match specified t x p_Position with Some v => Some v | None => sget (d_initials d) p_Position end) with
  | Some (VPos ho he vo ve) =>
      match ext with
      | Some (eh, ew) =>
          match rel vo (Some (mkLen (Qminus 100 (lv eh)) Urh)) None (Some (cell_h d)) (Some (pixel_h d)),
                rel ho (Some (mkLen (Qminus 100 (lv ew)) Urw)) None (Some (cell_w d)) (Some (pixel_w d)) with
          | Some v1, Some h1 =>
              let v2 := if ve =? e_PositionType_VEdge_bottom then mkLen (Qminus (Qminus 100 (lv eh)) (lv v1)) (lu v1) else v1 in
              let h2 := if he =? e_PositionType_HEdge_right then mkLen (Qminus (Qminus 100 (lv ew)) (lv h1)) (lu h1) else h1 in
              Some (h2, v2)
          | _, _ => None
          end
      | None => None
      end
  | _ =>
      match own_or_default d t p_Origin x with
      | Some (VCoord ox oy) =>
          match rel ox (Some (mkLen 100 Urw)) None (Some (cell_w d)) (Some (pixel_w d)),
                rel oy (Some (mkLen 100 Urh)) None (Some (cell_h d)) (Some (pixel_h d)) with
          | Some x', Some y' => Some (x', y')
          | _, _ => None
          end
      | _ => None
      end
  end.
Lemma origin_cons d t x up : origin d t (x :: up) = origin1 d t x (extent d t (x :: up)).
Proof. reflexivity. Qed.

Lemma org_facts : In p_Origin all_props /\ In p_Position all_props /\
  is_inherited p_Origin = false /\ p_Origin <> p_FontSize /\ p_Origin <> p_TextDecoration /\ p_Origin <> p_WritingMode /\ p_Origin <> p_Direction /\
  is_inherited p_Position = false /\ p_Position <> p_FontSize /\ p_Position <> p_TextDecoration /\ p_Position <> p_WritingMode /\ p_Position <> p_Direction /\
  p_Origin <> p_Position /\ In p_Extent all_props /\ p_Extent <> p_Origin /\ p_Extent <> p_Position /\
  exists pre post, ordered_style_props = pre ++ p_Origin :: p_Position :: post /\
    ~ In p_Origin pre /\ ~ In p_Position pre /\ ~ In p_Origin post /\ ~ In p_Position post /\ ~ In p_Extent post.
Proof.
  repeat split; try discriminate; try (cbn; tauto). exists (before p_Origin ordered_style_props), (after p_Position ordered_style_props).
  split; [reflexivity|]. repeat split; notin.
Qed.

Theorem style_phase_origin d t a par (iv : interval) st eh ew :
  is_leaf_kind (e_kind a) = false -> ctx a par -> style_phase d t a par iv = Ok st -> sget st p_Extent = Some (VExtent eh ew) ->
  exists x y, sget st p_Origin = Some (VCoord x y) /\
              sget st p_Position = Some (VPos x e_PositionType_HEdge_left y e_PositionType_VEdge_top) /\
              origin1 d t (a, iv) (Some (eh, ew)) = Some (x, y).
Proof.
  intros Hleaf Hctx H Hext.
  destruct org_facts as (FinO & FinP & Fo0 & Fo1 & Fo2 & Fo3 & Fo4 & Fp0 & Fp1 & Fp2 & Fp3 & Fp4 & Fop & FinE & Feo & Fep &
                         pre & post & Hord & N1 & N2 & N3 & N4 & N5).
  destruct (style_phase_at2 d t a par iv st _ _ _ _ Hleaf H Hord FinO FinP) as (s & s' & s'' & Ha & Hb & Hf & Hb2 & Hf2 & Hz).
  destruct (pre_own d t a par iv _ Hctx FinO Fo0 Fo1 Fo2 Fo3 Fo4) as [HvO HtO]. rewrite HtO in Hb.
  destruct (pre_own d t a par iv _ Hctx FinP Fp0 Fp1 Fp2 Fp3 Fp4) as [HvP HtP]. rewrite HtP in Hb2.
  assert (HsO : sget s p_Origin = own_or_default d t p_Origin (a, iv)).
  { rewrite (Ha _ FinO N1) by (intros X; contradiction (N2 X)). rewrite HvO. apply own_or_default_pre. exact Fop. }
  assert (HsP : sget s' p_Position = match specified t (a, iv) p_Position with Some v => Some v | None => sget (d_initials d) p_Position end).
  { rewrite (Hf p_Position) by (first [congruence | intros X; discriminate X]).
    rewrite (Ha _ FinP N2) by (intros X; contradiction (N2 X)). rewrite HvP. unfold default_pre. rewrite Z.eqb_refl.
    destruct (specified t (a, iv) p_Position); [reflexivity|]. destruct (sget (d_initials d) p_Position); reflexivity. }
  assert (HsE : sget s' p_Extent = Some (VExtent eh ew)).
  { rewrite <- (Hf2 p_Extent Fep (fun _ => Feo)). rewrite <- (Hz p_Extent N5 (fun X => False_ind _ (N4 X))). exact Hext. }
  rewrite compute_prop_origin, HsO in Hb.
  destruct (own_or_default d t p_Origin (a, iv)) as [[| | | | | |ox oy| | | | | | | |]|] eqn:Eown; try discriminate Hb.
  rewrite !compute_length_rel in Hb.
  change (rh (qz 100)) with (mkLen 100 Urh) in Hb. change (rw (qz 100)) with (mkLen 100 Urw) in Hb.
  change (c_h d) with (cell_h d) in Hb. change (px_h d) with (pixel_h d) in Hb. change (c_w d) with (cell_w d) in Hb. change (px_w d) with (pixel_w d) in Hb.
  destruct (rel oy _ None _ _) as [y'|] eqn:Ey; [|discriminate Hb]. cbn [bind] in Hb.
  destruct (rel ox _ None _ _) as [x'|] eqn:Ex; [|discriminate Hb]. cbn [bind] in Hb. injection Hb as <-.
  rewrite compute_prop_position_eq, HsP in Hb2. unfold origin1.
  assert (Hfin : forall q, q = p_Origin \/ q = p_Position -> sget st q = sget s'' q).
  { intros q [-> | ->]; apply Hz; first [exact N3 | exact N4 | intros X; contradiction (N4 X)]. }
  destruct (match specified t (a, iv) p_Position with Some v => Some v | None => sget (d_initials d) p_Position end) as [pv|].
  - destruct pv as [| | | | | | |ho he vo ve| | | | | | |]; try discriminate Hb2.
    rewrite HsE in Hb2.
    destruct (negb (unit_eqb (lu eh) Urh && unit_eqb (lu ew) Urw)); [discriminate Hb2|].
    rewrite !compute_length_rel in Hb2.
    change (rh (Qminus (qz 100) (lv eh))) with (mkLen (Qminus 100 (lv eh)) Urh) in Hb2.
    change (rw (Qminus (qz 100) (lv ew))) with (mkLen (Qminus 100 (lv ew)) Urw) in Hb2.
    change (c_h d) with (cell_h d) in Hb2. change (px_h d) with (pixel_h d) in Hb2. change (c_w d) with (cell_w d) in Hb2. change (px_w d) with (pixel_w d) in Hb2.
    destruct (rel vo _ None _ _) as [v1|]; [|discriminate Hb2]. cbn [bind] in Hb2. cbv zeta in Hb2.
    destruct (rel ho _ None _ _) as [h1|]; [|discriminate Hb2]. cbn [bind] in Hb2. injection Hb2 as <-.
    eexists. eexists. split; [|split].
    + rewrite (Hfin p_Origin (or_introl eq_refl)), sget_sset_other by exact Fop. apply sget_sset_same.
    + rewrite (Hfin p_Position (or_intror eq_refl)). apply sget_sset_same.
    + reflexivity.
  - rewrite sget_sset_same in Hb2. injection Hb2 as <-.
    exists x', y'. split; [|split].
    + rewrite (Hfin p_Origin (or_introl eq_refl)), sget_sset_other by exact Fop. apply sget_sset_same.
    + rewrite (Hfin p_Position (or_intror eq_refl)). apply sget_sset_same.
    + rewrite Eown, Ex, Ey. reflexivity.
Qed.

Definition padding1 (d : doc) (t : Q) (x : link) (ext : option (len * len)) (wm : option value) (fs : option len) : option value :=
  match own_or_default d t p_Padding x, ext with
  | Some (VPad b e a s), Some (eh, ew) =>
      let vert := vertical wm in
      let block := if vert then (ew, cell_w d, pixel_w d) else (eh, cell_h d, pixel_h d) in
      let inline := if vert then (eh, cell_h d, pixel_h d) else (ew, cell_w d, pixel_w d) in
      let r (l : len) (ax : len * len * len) := rel l (Some (fst (fst ax))) fs (Some (snd (fst ax))) (Some (snd ax)) in
      match r b block, r e inline, r a block, r s inline with
      | Some b', Some e', Some a', Some s' => Some (VPad b' e' a' s')
      | _, _, _, _ => None
      end
  | _, _ => None
  end.
Lemma padding_cons d t x up :
  padding d t (x :: up) = padding1 d t x (extent d t (x :: up)) (writing_mode d t (x :: up)) (font_size d t (x :: up)).
Proof. reflexivity. Qed.


Lemma pad_facts : In p_Padding all_props /\ is_inherited p_Padding = false /\ p_Padding <> p_FontSize /\ p_Padding <> p_TextDecoration /\
  p_Padding <> p_WritingMode /\ p_Padding <> p_Direction /\ p_Padding <> p_Position /\ p_Padding <> p_Extent /\ p_Padding <> p_Origin /\
  exists pre, ordered_style_props = pre ++ p_Padding :: [] /\ ~ In p_Padding pre.
Proof. repeat split; try discriminate; try (cbn; tauto). exists (removelast ordered_style_props). split; [reflexivity | notin]. Qed.

Lemma is_vertical_vertical v : is_vertical v = vertical v.
Proof. reflexivity. Qed.

Theorem style_phase_padding d t a par (iv : interval) st fs eh ew :
  is_leaf_kind (e_kind a) = false -> ctx a par -> style_phase d t a par iv = Ok st ->
  sget st p_FontSize = Some (VLen fs) -> sget st p_Extent = Some (VExtent eh ew) ->
  sget st p_Padding = padding1 d t (a, iv) (Some (eh, ew)) (sget st p_WritingMode) (Some fs).
Proof.
  intros Hleaf Hctx H Hfs Hext.
  destruct pad_facts as (Fin & Fni & F1 & F2 & F3 & F4 & F5 & F6 & F7 & pre & Hord & N1).
  destruct (style_phase_own d t a par iv st _ _ _ Hleaf Hctx H Hord Fin Fni F1 F2 F3 F4 F5 N1 (fun _ => F7)) as (s & s' & Hs & Hb & Hf & Hz).
  assert (Hfin : forall q, q <> p_Padding -> q <> p_Origin -> sget s q = sget st q).
  { intros q H1 H2. rewrite (Hz q) by (first [intros [] | intros []]). apply eq_sym, Hf; [exact H1 | intros X; discriminate X]. }
  rewrite compute_prop_padding, Hs in Hb. unfold get_len in Hb.
  rewrite (Hfin p_Extent) in Hb by (first [congruence | discriminate]). rewrite (Hfin p_WritingMode) in Hb by (first [congruence | discriminate]).
  rewrite (Hfin p_FontSize) in Hb by (first [congruence | discriminate]). rewrite Hext, Hfs in Hb.
  unfold padding1. rewrite <- is_vertical_vertical.
  destruct (own_or_default d t p_Padding (a, iv)) as [[| | | | | | | |pb pe pa ps| | | | | |]|]; try discriminate Hb.
  cbv zeta in Hb. rewrite !compute_length_rel in Hb.
  change (c_h d) with (cell_h d) in Hb. change (px_h d) with (pixel_h d) in Hb. change (c_w d) with (cell_w d) in Hb. change (px_w d) with (pixel_w d) in Hb.
  rewrite (Hz p_Padding) by (first [intros [] | intros []]).
  destruct (is_vertical (sget st p_WritingMode)); cbn [fst snd];
    (destruct (rel pb _ _ _ _) as [b'|]; [|discriminate Hb]; cbn [bind] in Hb;
     destruct (rel pa _ _ _ _) as [a'|]; [|discriminate Hb]; cbn [bind] in Hb;
     destruct (rel ps _ _ _ _) as [s1|]; [|destruct (rel pe _ _ _ _); discriminate Hb]; cbn [bind] in Hb;
     destruct (rel pe _ _ _ _) as [e'|]; [|discriminate Hb]; cbn [bind] in Hb;
     injection Hb as <-; apply sget_sset_same).
Qed.
