(* C03: along the chain of ancestors (element first, region last) the style maps M computes agree with the
   by-property specification: the induction principle (chain_ind), and the 21 plain properties (plain_prop). *)
From TT Require Import Model.Doc Gen.StyleTables Model.Isd Spec.IsdSpec Spec.StyleSpec.
From TT Require Import Proofs.Common.ElemInd Proofs.Common.StyleFrame Proofs.Common.Walk Proofs.C13.Styles Proofs.C03.Phase Proofs.C03.Cascade.

(* the style maps _process_element builds going down from the region: each element is resolved against the
   complete style map of its snapshot parent *)
Fixpoint styles_along (d : doc) (t : Q) (chain : list link) : res smap :=
  match chain with
  | [] => Err 0
  | x :: up =>
      match up with
      | [] => style_phase d t (fst x) None (snd x)
      | y :: _ => bind (styles_along d t up) (fun pst => style_phase d t (fst x) (Some (e_kind (fst y), pst)) (snd x))
      end
  end.

(* a chain of non-leaf elements whose last link, and only the last, is a region *)
Fixpoint chain_ok (chain : list link) : bool :=
  match chain with
  | [] => false
  | x :: up =>
      negb (is_leaf_kind (e_kind (fst x))) &&
      match up with
      | [] => kind_eqb (e_kind (fst x)) KRegion
      | _ => negb (kind_eqb (e_kind (fst x)) KRegion) && chain_ok up
      end
  end.

Lemma styles_along_cons d t x y up :
  styles_along d t (x :: y :: up) = bind (styles_along d t (y :: up)) (fun pst => style_phase d t (fst x) (Some (e_kind (fst y), pst)) (snd x)).
Proof. reflexivity. Qed.

Lemma plain_cons d t p x up :
  plain d t p (x :: up) =
  match specified t x p with
  | Some v => Some v
  | None => if inheritable p && negb (is_region x) && match up with [] => false | _ => true end then plain d t p up else default_of d p
  end.
Proof. reflexivity. Qed.

Lemma surj_link (x : link) : (fst x, snd x) = x.
Proof. destruct x; reflexivity. Qed.

(* induction along a chain: the region, then each content element against its parent's complete style map *)
Lemma chain_ind d t (P : list link -> smap -> Prop) :
  (forall x st, is_leaf_kind (e_kind (fst x)) = false -> e_kind (fst x) = KRegion -> chain_ok [x] = true ->
     styles_along d t [x] = Ok st -> style_phase d t (fst x) None (snd x) = Ok st -> P [x] st) ->
  (forall x y up pst st, is_leaf_kind (e_kind (fst x)) = false -> kind_eqb (e_kind (fst x)) KRegion = false ->
     chain_ok (y :: up) = true -> chain_ok (x :: y :: up) = true ->
     styles_along d t (y :: up) = Ok pst -> complete pst -> P (y :: up) pst ->
     styles_along d t (x :: y :: up) = Ok st ->
     style_phase d t (fst x) (Some (e_kind (fst y), pst)) (snd x) = Ok st -> P (x :: y :: up) st) ->
  forall chain st, chain_ok chain = true -> styles_along d t chain = Ok st -> P chain st.
Proof.
  intros HR HC. induction chain as [|x up IH]; intros st Hok H; [discriminate|].
  pose proof Hok as Hok0. cbn [chain_ok] in Hok. apply andb_true_iff in Hok as [Hleaf Hrest]. apply negb_true_iff in Hleaf.
  destruct up as [|y up'].
  - apply (HR x st Hleaf (kind_eqb_eq _ _ Hrest) Hok0 H). exact H.
  - apply andb_true_iff in Hrest as [Hnr Hup]. apply negb_true_iff in Hnr. pose proof H as H0. rewrite styles_along_cons in H.
    destruct (styles_along d t (y :: up')) as [pst|] eqn:Ep; cbn [bind] in H; [|discriminate H].
    assert (Hyleaf : is_leaf_kind (e_kind (fst y)) = false).
    { cbn [chain_ok] in Hup. apply andb_true_iff in Hup as [Hy _]. apply negb_true_iff in Hy. exact Hy. }
    assert (Hcomplete : complete pst).
    { intros q Hq. destruct up' as [|z up''].
      - cbn [styles_along] in Ep. apply (style_phase_complete d t (fst y) None (snd y) pst Hyleaf Ep q Hq).
      - rewrite styles_along_cons in Ep. destruct (styles_along d t (z :: up'')) as [ppst|]; cbn [bind] in Ep; [|discriminate Ep].
        apply (style_phase_complete d t (fst y) _ (snd y) pst Hyleaf Ep q Hq). }
    apply (HC x y up' pst st Hleaf Hnr Hup Hok0 Ep Hcomplete (IH pst Hup eq_refl) H0 H).
Qed.

Theorem styles_along_plain d t p : plain_prop p = true -> In p all_props ->
  forall chain st, chain_ok chain = true -> styles_along d t chain = Ok st -> sget st p = plain d t p chain.
Proof.
  intros Hplain Hin. apply (chain_ind d t (fun chain st => sget st p = plain d t p chain)).
  - intros x st Hleaf _ _ _ H.
    rewrite (style_phase_plain d t (fst x) None (snd x) st p Hleaf Hplain Hin) by (first [exact H | intros ? ? E; discriminate E]).
    rewrite plain_cons, surj_link, andb_false_r. reflexivity.
  - intros x y up pst st Hleaf Hk _ _ _ Hcomplete IH _ H.
    rewrite (style_phase_plain d t (fst x) (Some (e_kind (fst y), pst)) (snd x) st p Hleaf Hplain Hin) by (first [exact H | intros ? ? E; injection E as _ <-; exact (Hcomplete p Hin)]).
    rewrite plain_cons, surj_link, IH. unfold is_region. rewrite Hk, !andb_true_r. reflexivity.
Qed.

Theorem proc_styles d t sel inh par pb pe a cs a' cs' :
  proc d t sel inh par pb pe (Elem a cs) = Ok (Some (Elem a' cs')) ->
  exists st, style_phase d t a par (make_absolute (e_begin a) (e_end a) pb pe) = Ok st /\
             e_styles a' = strip_inapplicable (e_kind a) st.
Proof.
  intros H. apply proc_kept in H as (st & children & Est & _ & _ & Hf). exists st. split; [exact Est|].
  apply finish_element_inv in Hf as (_ & E & _). injection E as -> _. reflexivity.
Qed.

(* for a plain property the specification's computed value is the cascade: none of the properties computed_spec
   singles out is plain *)
Lemma plain_neq p q : plain_prop p = true -> plain_prop q = false -> (p =? q) = false.
Proof. intros Hp Hq. destruct (p =? q) eqn:E; [apply Z.eqb_eq in E; congruence | reflexivity]. Qed.
Lemma plain_is_spec d t chain p : plain_prop p = true -> computed_spec d t chain p = plain d t p chain.
Proof.
  intros H. unfold computed_spec.
  repeat match goal with |- context [p =? ?q] => rewrite (plain_neq p q H eq_refl) end. reflexivity.
Qed.
