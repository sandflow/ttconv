(* C03: M's pass-by-pass style resolution equals the by-property specification.
   The cascade for the properties whose computed value is the cascaded value (21 of the 36). *)
From TT Require Import Model.Doc Gen.StyleTables Model.Isd Spec.IsdSpec Spec.StyleSpec.
From TT Require Import Proofs.Common.StyleFrame Proofs.C03.Phase.

(* plain properties: not computed (not in _ORDERED_STYLE_PROPS), and none of Origin (overridden by Position),
   TextDecoration (merged), Direction (follows writing mode on regions) and WritingMode (the region's value is
   carried down to content elements) *)
Definition plain_prop (p : Z) : bool :=
  negb (existsb (Z.eqb p) ordered_style_props) && negb (p =? p_Origin) && negb (p =? p_TextDecoration) && negb (p =? p_Direction) &&
  negb (p =? p_WritingMode).

Lemma plain_facts p : plain_prop p = true ->
  ~ In p ordered_style_props /\ p <> p_Origin /\ p <> p_TextDecoration /\ p <> p_Direction /\ p <> p_FontSize /\ p <> p_Position /\
  p <> p_WritingMode.
Proof.
  unfold plain_prop. intros H. repeat (apply andb_true_iff in H as [H ?]).
  apply negb_true_iff in H.
  assert (Hn : ~ In p ordered_style_props).
  { intros Hin. assert (existsb (Z.eqb p) ordered_style_props = true) by (apply existsb_exists; exists p; split; [exact Hin | apply Z.eqb_refl]). congruence. }
  repeat split; try exact Hn; try (intros ->; discriminate).
Qed.

Theorem style_phase_plain d t a par iv st p :
  is_leaf_kind (e_kind a) = false -> plain_prop p = true -> In p all_props ->
  (forall pk pst, par = Some (pk, pst) -> shas pst p = true) ->
  style_phase d t a par iv = Ok st ->
  sget st p =
  match specified t (a, iv) p with
  | Some v => Some v
  | None =>
      match par with
      | Some (pk, pst) => if inheritable p && negb (kind_eqb (e_kind a) KRegion) then sget pst p else default_of d p
      | None => default_of d p
      end
  end.
Proof.
  intros Hleaf Hplain Hin Hpar H.
  destruct (plain_facts p Hplain) as (F1 & F2 & F3 & F4 & F5 & F6 & F7).
  rewrite (style_phase_uncomputed d t a par iv st p Hleaf H Hin F1 F2).
  unfold pre_value, pre_v3, pre_v2. rewrite (fired_other a p F4), (default_pre_of d p F6).
  destruct par as [[pk pst]|]; [|reflexivity].
  rewrite (Hpar pk pst eq_refl), (inh_step_generic _ _ _ _ _ F5 F3 F7). change (is_inherited p) with (inheritable p).
  destruct (kind_eqb (e_kind a) KRegion); [rewrite andb_false_r; reflexivity|]. rewrite andb_true_r.
  unfold interval. destruct (inheritable p), (specified t (a, iv) p); try reflexivity.
  pose proof (Hpar pk pst eq_refl) as Hs. unfold shas in Hs. destruct (sget pst p); [reflexivity | discriminate].
Qed.
