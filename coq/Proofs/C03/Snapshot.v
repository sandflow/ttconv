(* C03: whole snapshots.  Every element M puts into a snapshot (other than br and text nodes) carries, for every
   property applicable to its kind, the computed value the specification gives for the source element of its kind and
   xml:id along its ancestor chain in the document. *)
From TT Require Import Model.Doc Gen.StyleTables Model.Isd Spec.IsdSpec Spec.IsdShape Spec.StyleSpec.
From TT Require Import Proofs.Common.ElemInd Proofs.Common.StyleFrame Proofs.Common.Walk Proofs.C01.Leaves Proofs.C13.Shape Proofs.C13.Styles.
From TT Require Import Proofs.C03.Chain Proofs.C03.All.

Lemma chains_of_node piv acc a cs :
  chains_of piv acc (Elem a cs) =
  ((a, resolve piv (e_begin a) (e_end a)) :: acc) ::
  flat_map (chains_of (resolve piv (e_begin a) (e_end a)) ((a, resolve piv (e_begin a) (e_end a)) :: acc)) cs.
Proof.
  reflexivity.
Qed.

Lemma content_wf_node a cs : content_wf (Elem a cs) = true ->
  kind_eqb (e_kind a) KRegion = false /\ (is_leaf_kind (e_kind a) = true -> cs = []) /\ Forall (fun c => content_wf c = true) cs.
Proof.
  cbn [content_wf]. intros H. apply andb_true_iff in H as [H H3]. apply andb_true_iff in H as [H1 H2]. apply negb_true_iff in H1.
  repeat split; [exact H1| |].
  - intros Hl. destruct (e_kind a); cbn [is_leaf_kind] in Hl; try discriminate; destruct cs; try discriminate; reflexivity.
  - clear H1 H2. induction cs as [|c cs IH]; [constructor|]. apply andb_true_iff in H3 as [Hc Hr]. constructor; [exact Hc | apply IH; exact Hr].
Qed.

Lemma applicable_props_spec k p : In p (applicable_props k) <-> applicable k p = true.
Proof. apply applicable_to_spec. Qed.
Lemma applicable_props_all k p : In p (applicable_props k) -> In p all_props.
Proof. apply applicable_in_all. Qed.

Section Snapshot.
  Variables (d : doc) (t : Q).
  Hypothesis Htyped : doc_td_typed d t.

  Lemma elem_resolved_text a txt : elem_resolved d t a ->
    elem_resolved d t (mkAttrs (e_kind a) (e_id a) (e_begin a) (e_end a) (e_region a) (e_styles a) (e_anims a) (e_preserve a) (e_lang a) txt).
  Proof. intros H. exact H. Qed.

  Lemma resolved_out r x up st :
    In r (source_regions d) -> In (x :: up) (doc_chains d r) -> chain_ok (x :: up) = true -> styles_along d t (x :: up) = Ok st ->
    elem_resolved d t (isd_attrs (fst x) (strip_inapplicable (e_kind (fst x)) st)).
  Proof.
    intros Hr Hin Hok Hst. unfold elem_resolved. cbn [isd_attrs e_kind e_id e_styles].
    assert (G : exists r0 x0 up0, In r0 (source_regions d) /\ In (x0 :: up0) (doc_chains d r0) /\ e_kind (fst x0) = e_kind (fst x) /\
                  e_id (fst x0) = e_id (fst x) /\
                  forall p, In p (applicable_props (e_kind (fst x))) ->
                            sget (strip_inapplicable (e_kind (fst x)) st) p = computed_spec d t (x0 :: up0) p).
    { exists r, x, up. repeat split; try assumption. intros p Hp. rewrite sget_strip.
      pose proof Hp as Hp'. apply applicable_props_spec in Hp'. rewrite Hp'.
      apply (styles_along_all d t (x :: up) st p (applicable_props_all _ p Hp) Hok (fun _ => Htyped r _ Hr Hin) Hst). }
    destruct (e_kind (fst x)); try exact I; exact G.
  Qed.

  (* content elements: processed below the head y of a chain of the document whose style map is pst *)
  Lemma proc_resolved sel r : In r (source_regions d) ->
    forall e inh y up pst pb pe piv res,
      content_wf e = true ->
      (forall b e', make_absolute b e' pb pe = resolve piv b e') ->
      chain_ok (y :: up) = true -> styles_along d t (y :: up) = Ok pst ->
      (forall c, In c (chains_of piv (y :: up) e) -> In c (doc_chains d r)) ->
      proc d t sel inh (Some (e_kind (fst y), pst)) pb pe e = Ok (Some res) -> allq (elem_resolved d t) res.
  Proof.
    intros Hr. induction e as [a cs IH] using elem_ind2. intros inh y up pst pb pe piv res Hwf Hiv Hok Hst Hsub H.
    apply content_wf_node in Hwf as (Hnr & Hleafcs & Hwfcs).
    apply proc_kept in H as (st & children & Est & _ & Hl & Hf). rewrite Hiv in *.
    set (iv := resolve piv (e_begin a) (e_end a)) in *. rewrite chains_of_node in Hsub. fold iv in Hsub.
    assert (Hnl : is_leaf_kind (e_kind a) = false ->
                  chain_ok ((a, iv) :: y :: up) = true /\ styles_along d t ((a, iv) :: y :: up) = Ok st).
    { intros Eleaf. split; [|rewrite styles_along_cons, Hst; exact Est].
      change (chain_ok ((a, iv) :: y :: up)) with (negb (is_leaf_kind (e_kind a)) && (negb (kind_eqb (e_kind a) KRegion) && chain_ok (y :: up))).
      rewrite Eleaf, Hnr, Hok. reflexivity. }
    apply (finish_element_allq (elem_resolved d t) elem_resolved_text a st children res); [| | exact Hf].
    - destruct (is_leaf_kind (e_kind a)) eqn:Eleaf.
      + unfold elem_resolved. cbn [isd_attrs e_kind]. destruct (e_kind a); cbn [is_leaf_kind] in Eleaf; try discriminate; exact I.
      + destruct (Hnl eq_refl) as [Hok' Hst']. apply (resolved_out r (a, iv) (y :: up) st Hr (Hsub _ (or_introl eq_refl)) Hok' Hst').
    - apply Forall_forall. intros x Hx. destruct (collect_map_in _ _ _ _ Hl Hx) as (c & Hc & Hp).
      destruct (is_leaf_kind (e_kind a)) eqn:Eleaf; [rewrite (Hleafcs eq_refl) in Hc; destruct Hc|].
      destruct (Hnl eq_refl) as [Hok' Hst']. rewrite Forall_forall in IH, Hwfcs.
      refine (IH c Hc _ (a, iv) (y :: up) st (Some (fst iv)) (snd iv) iv x (Hwfcs c Hc) _ Hok' Hst' _ Hp).
      + intros b e'. rewrite make_absolute_resolve. destruct iv; reflexivity.
      + intros c0 Hc0. apply Hsub. right. apply in_flat_map. exists c. split; assumption.
  Qed.

  Lemma proc_region_resolved sel r res : styles_wf d = true -> In r (source_regions d) -> e_kind (eattrs r) = KRegion ->
    proc_region d t sel r = Ok (Some res) -> allq (elem_resolved d t) res.
  Proof.
    intros Hwf Hr Hk H. apply proc_region_kept in H as (st & children & Est & _ & Hch & Hf). rewrite make_absolute_root in Est.
    assert (Hok : chain_ok [region_link_of r] = true) by (cbn [chain_ok region_link_of fst]; rewrite Hk; reflexivity).
    apply (finish_element_allq (elem_resolved d t) elem_resolved_text (eattrs r) st children res); [| | exact Hf].
    - apply (resolved_out r (region_link_of r) [] st Hr (or_introl eq_refl) Hok Est).
    - destruct Hch as [->|(b & x & Eb & Hp & ->)]; [constructor|]. constructor; [|constructor].
      assert (Hwb : content_wf b = true).
      { unfold styles_wf in Hwf. apply andb_true_iff in Hwf as [_ Hwf]. rewrite Eb in Hwf. exact Hwf. }
      rewrite <- Hk in Hp.
      apply (proc_resolved sel r Hr b None (region_link_of r) [] st None None root_interval x Hwb); try assumption.
      + intros b0 e'. apply make_absolute_root.
      + intros c Hc. unfold doc_chains. rewrite Eb. right. exact Hc.
  Qed.

  Theorem isd_resolved rs : styles_wf d = true -> isd d t = Ok rs -> Forall (allq (elem_resolved d t)) rs.
  Proof.
    intros Hwf H. apply Forall_forall. intros o Ho. destruct (isd_in d t rs o H Ho) as (sel & r & Hr & Hp).
    pose proof Hwf as Hreg. unfold styles_wf in Hreg. apply andb_true_iff in Hreg as [Hreg _]. rewrite forallb_forall in Hreg.
    apply (proc_region_resolved sel r o Hwf); [| |exact Hp]; unfold source_regions.
    - destruct Hr as [Hr|[E ->]]; [destruct (d_regions d); [destruct Hr | exact Hr] | rewrite E; left; reflexivity].
    - destruct Hr as [Hr|[_ ->]]; [apply kind_eqb_eq, Hreg, Hr | reflexivity].
  Qed.
End Snapshot.

Theorem snapshot_values : forall d t rs, doc_td_typed d t -> styles_wf d = true -> isd d t = Ok rs ->
  Forall (fun r' => Forall (fun x => elem_resolved d t (eattrs x)) (all_elems r')) rs.
Proof. intros d t rs Hty Hwf H. exact (isd_resolved d t Hty rs Hwf H). Qed.

(* the hypotheses are satisfiable: a document with one vertical region and an emphasised span *)
Definition ex_snap_doc : doc :=
  mkDoc [Elem (mkAttrs KRegion (Some [114; 49]) None None None [(p_WritingMode, VEnum e_WritingModeType_tbrl)] [] false [] []) []]
        (Some (Elem (mkAttrs KBody (Some [98]) None None None [] [] false [] [])
           [Elem (mkAttrs KDiv (Some [100]) None None (Some [114; 49]) [] [] false [] [])
              [Elem (mkAttrs KP (Some [112]) None None None [] [] false [] [])
                 [Elem (mkAttrs KSpan (Some [115]) None None None
                          [(p_TextEmphasis, VEmph e_TextEmphasisType_Style_auto None e_TextEmphasisType_Position_outside)] [] false [] [])
                    [Elem (mkAttrs KText None None None None [] [] false [] [120]) []]]]]))
        [] 15 32 1080 1920 None None [].
Lemma ex_snap_typed : doc_td_typed ex_snap_doc 0.
Proof.
  intros r chain Hr Hc. cbn in Hr. destruct Hr as [<-|[]]. cbn in Hc.
  repeat (destruct Hc as [<-|Hc]; [reflexivity|]). destruct Hc.
Qed.
Lemma ex_snap_ok : styles_wf ex_snap_doc = true /\ exists rs, isd ex_snap_doc 0 = Ok rs /\ rs <> [].
Proof. split; [reflexivity|]. eexists. split; [vm_compute; reflexivity | discriminate]. Qed.
Lemma ex_snap_hypotheses : doc_td_typed ex_snap_doc 0 /\ styles_wf ex_snap_doc = true /\ exists rs, isd ex_snap_doc 0 = Ok rs /\ rs <> [].
Proof. exact (conj ex_snap_typed ex_snap_ok). Qed.
