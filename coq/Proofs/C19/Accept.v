(* C19: configuration acceptance, all keys but the colours and the font stack (AcceptColor.v, AcceptFont.v).
   For every key, the decoder of Model/Cli.v accepts a JSON value of the table (non-null; null too for the colours)
   exactly when README documents it (Spec/CliSpec.v documented), and then decodes it to its documented meaning
   (Spec/CliSpec.v meaning) — outside the executable triggers of the recorded findings. *)
From Coq Require Import String.
From TT Require Import Base.Prelude Base.CliTypes Gen.CliUnicode Model.Cli Spec.CliSpec.

Lemma one_of_In s l : one_of s l = true <-> In s (List.map T l).
Proof.
  unfold one_of. rewrite existsb_exists. split.
  - intros (x & I & E). apply text_eqb_eq in E. subst. apply in_map. exact I.
  - intro I. apply in_map_iff in I as (x & <- & I). exists x. split; [exact I|]. apply text_eqb_eq. reflexivity.
Qed.
Lemma one_of_false s l : one_of s l = false <-> ~ In s (List.map T l).
Proof. rewrite <- one_of_In. destruct (one_of s l); split; congruence. Qed.
Lemma assocT_In {A} s (l : list (text * A)) : (exists v, assocT s l = Some v) <-> In s (List.map fst l).
Proof.
  induction l as [|[k v] l IH]; cbn [assocT List.map In fst].
  - split; [intros (v & H); discriminate|intros []].
  - destruct (text_eqb s k) eqn:E.
    + apply text_eqb_eq in E. subst. split; eauto.
    + rewrite IH. split; [auto|]. intros [->|I]; [|exact I].
      assert (text_eqb s s = true) by (apply text_eqb_eq; reflexivity). congruence.
Qed.

Lemma forallb_impl {A} (f g : A -> bool) l : (forall x, g x = true -> f x = true) -> forallb g l = true -> forallb f l = true.
Proof. rewrite !forallb_forall. auto. Qed.

Lemma py_lower_fix s : forallb (fun c => (c <? 128) && negb ((65 <=? c) && (c <=? 90))) s = true -> py_lower s = s.
Proof.
  induction s as [|c s IH]; [reflexivity|]. cbn [forallb]. intro H. apply andb_true_iff in H as [L R].
  change (py_lower (c :: s)) with ((if c <? 128 then [ascii_lower c] else match assocZ c lower_ascii with Some i => i | None => [c] end) ++ py_lower s).
  apply andb_true_iff in L as [-> U]. apply negb_true_iff in U. unfold ascii_lower. rewrite U, (IH R). reflexivity.
Qed.
Lemma py_lower_id s : forallb lower_letter s = true -> py_lower s = s.
Proof. intro H. apply py_lower_fix. revert H. apply forallb_impl. unfold lower_letter. lia. Qed.
(* every non-ASCII character whose upper-case image is ASCII yields an image starting with S, I or F (regenerated
   table): the three letters upper_plain excludes *)
Lemma upper_table c i : assocZ c upper_ascii = Some i -> exists h t, i = h :: t /\ (h = 83 \/ h = 73 \/ h = 70).
Proof.
  unfold upper_ascii. cbn [assocZ].
  repeat match goal with |- context [c =? ?k] => destruct (c =? k) end;
    intro H; inversion H; subst; eauto 6.
Qed.
Definition upper_plain (lit : text) : Prop := Forall (fun x => 0 <= x < 128 /\ x <> 83 /\ x <> 73 /\ x <> 70) lit.
Lemma lc_upper c : lc (ascii_upper c) = lc c.
Proof.
  unfold lc, ascii_upper.
  destruct ((97 <=? c) && (c <=? 122)) eqn:A; destruct ((65 <=? c) && (c <=? 90)) eqn:B;
    try destruct ((65 <=? c - 32) && (c - 32 <=? 90)) eqn:C; lia.
Qed.
Lemma py_upper_lit s lit : upper_plain lit -> py_upper s = lit -> List.map lc s = List.map lc lit.
Proof.
  revert lit; induction s as [|c s IH]; intros lit P H.
  - cbn in H. subst. reflexivity.
  - change (py_upper (c :: s)) with ((if c <? 128 then [ascii_upper c] else match assocZ c upper_ascii with Some i => i | None => [c] end) ++ py_upper s) in H.
    destruct (c <? 128) eqn:A.
    + cbn [app] in H. destruct lit as [|h lit]; [discriminate|]. inversion H; subst. inversion P; subst.
      cbn [List.map]. rewrite lc_upper. f_equal. apply IH; [assumption|reflexivity].
    + destruct (assocZ c upper_ascii) as [i|] eqn:U.
      * destruct (upper_table _ _ U) as (h & t & -> & Hh). cbn [app] in H. destruct lit as [|h' lit]; [discriminate|].
        inversion H; subst. inversion P; subst. lia.
      * cbn [app] in H. destruct lit as [|h' lit]; [discriminate|]. inversion H; subst. inversion P; subst. lia.
Qed.
Lemma py_upper_ci s lit : upper_plain lit -> text_eqb (py_upper s) lit = true -> ci_eq s lit = true.
Proof. intros P H. apply text_eqb_eq in H. unfold ci_eq. apply text_eqb_eq. apply py_upper_lit; assumption. Qed.

Lemma trigger_false k v : trigger k v = false -> trigger_lenient k v = false /\ trigger_rejected k v = false.
Proof. unfold trigger. intro H. apply orb_false_iff in H. exact H. Qed.

Definition agrees (k : key) (v : json) : Prop := accepts k v = true <-> documented k v = true.
Definition exact (k : key) (v : json) : Prop :=
  agrees k v /\ (documented k v = true -> decode k v = Ok (meaning k v)).
Lemma exact_of_decode k v : (documented k v = true -> decode k v = Ok (meaning k v)) -> (documented k v = false -> accepts k v = false) -> exact k v.
Proof.
  intros D N. split; [|exact D]. unfold agrees. destruct (documented k v) eqn:E.
  - unfold accepts. rewrite (D eq_refl). split; reflexivity.
  - rewrite (N eq_refl). split; intro H; discriminate H.
Qed.

Lemma acc_bool k v : bool_key k = true -> in_table k v = true -> exact k v.
Proof.
  intros K I. apply exact_of_decode; destruct k; try discriminate K; destruct v; try discriminate I; cbn; intro H;
    try reflexivity; try discriminate H.
Qed.

Lemma acc_log_level v : v <> JNull -> trigger KLogLevel v = false -> exact KLogLevel v.
Proof.
  intros NN Tr. apply trigger_false in Tr as (L & _).
  assert (A : agrees KLogLevel v).
  { unfold agrees. destruct v; try contradiction; try discriminate L; try (split; intro H; discriminate H).
    cbn [trigger_lenient] in L. apply one_of_false in L.
    change (documented KLogLevel (JStr s)) with (one_of s ["INFO"; "WARN"; "ERROR"]%string). rewrite one_of_In.
    assert (A : accepts KLogLevel (JStr s) = true <-> In s (List.map fst log_levels)).
    { rewrite <- assocT_In. unfold accepts, decode, check_level. cbn [dec_str_or_null is_null bind].
      destruct (assocT s log_levels); cbn; split; eauto; try discriminate. intros (? & ?); discriminate. }
    rewrite A. clear A. revert L.
    set (L8 := List.map fst log_levels). vm_compute in L8. subst L8.
    set (L5 := List.map T _). vm_compute in L5. subst L5.
    set (L3 := List.map T _). vm_compute in L3. subst L3.
    cbn [In]. tauto. }
  split; [exact A|]. intro D. destruct v; try discriminate D. cbn [documented] in D. apply one_of_In in D.
  cbn [List.map In] in D. destruct D as [<-|[<-|[<-|[]]]]; vm_compute; reflexivity.
Qed.

Lemma acc_document_lang v : v <> JNull -> trigger KDocumentLang v = false -> exact KDocumentLang v.
Proof.
  intros NN Tr. apply trigger_false in Tr as (L & _). split.
  - unfold agrees. destruct v; try contradiction; try (split; intro H; discriminate H).
    cbn [trigger_lenient] in L. apply negb_false_iff in L. cbn [documented]. rewrite L. split; reflexivity.
  - intro D. destruct v; try discriminate D. reflexivity.
Qed.

Lemma acc_time_format v : v <> JNull -> exact KTimeFormat v.
Proof.
  intros NN. apply exact_of_decode; destruct v; try contradiction; cbn [documented]; intro H; try discriminate H; try reflexivity;
    unfold accepts, decode, dec_time_format, meaning, mean_tfmt, one_of in *; cbn [existsb] in H;
    destruct (text_eqb s (T "frames")); try reflexivity; destruct (text_eqb s (T "clock_time")); try reflexivity;
    destruct (text_eqb s (T "clock_time_with_frames")); try reflexivity; discriminate H.
Qed.

Lemma acc_scc_text_align v : v <> JNull -> trigger KSccTextAlign v = false -> exact KSccTextAlign v.
Proof.
  intros NN Tr. apply trigger_false in Tr as (L & _). split.
  - unfold agrees. destruct v; try contradiction; try (split; intro H; discriminate H).
    cbn [trigger_lenient] in L. apply negb_false_iff in L.
    unfold accepts, decode, dec_scc_text_align, documented, one_of. rewrite (py_lower_id _ L). cbn [existsb].
    destruct (text_eqb s (T "auto")) eqn:A; destruct (text_eqb s (T "left")) eqn:B; destruct (text_eqb s (T "center")) eqn:C;
      destruct (text_eqb s (T "right")) eqn:D; split; intro H; try reflexivity; try discriminate H.
  - intro D. destruct v; try discriminate D. cbn [documented] in D. apply one_of_In in D.
    cbn [List.map In] in D. destruct D as [<-|[<-|[<-|[<-|[]]]]]; vm_compute; reflexivity.
Qed.

Lemma mnr_plain : upper_plain (T "MNR").
Proof. vm_compute. repeat constructor; try lia; discriminate. Qed.
Lemma acc_max_row_count v : v <> JNull -> trigger KMaxRowCount v = false -> exact KMaxRowCount v.
Proof.
  intros NN Tr. apply trigger_false in Tr as (L & _). split.
  - unfold agrees. destruct v; try contradiction; try discriminate L; try (split; intro H; discriminate H); [split; reflexivity|].
    cbn [trigger_lenient] in L. unfold accepts, decode, dec_max_row_count, documented.
    destruct (text_eqb s (T "MNR")) eqn:E.
    + apply text_eqb_eq in E. subst. split; reflexivity.
    + cbn [negb andb] in L. destruct (text_eqb (py_upper s) (T "MNR")) eqn:U.
      * rewrite (py_upper_ci _ _ mnr_plain U) in L. discriminate.
      * split; intro H; discriminate H.
  - intro D. destruct v; try discriminate D; [reflexivity|]. cbn [documented] in D. apply text_eqb_eq in D. subst. reflexivity.
Qed.

Lemma acc_safe_area v : v <> JNull -> exact KSafeArea v.
Proof.
  intros NN. apply exact_of_decode; destruct v; try contradiction; cbn [documented]; intro H; try discriminate H; try reflexivity;
    unfold accepts, decode, dec_safe_area, meaning, mean_int in *; cbn [bind];
    destruct ((z <? 0) || (30 <? z)) eqn:E; try reflexivity; lia.
Qed.

Lemma is_d_digit c : is_d c = digit c.
Proof. reflexivity. Qed.
Lemma all_d_digits s : all_d s = all_digits s.
Proof. reflexivity. Qed.
Lemma number_dval s : number s = dval s.
Proof.
  unfold number, dval. generalize 0. induction s as [|c s IH]; intro a; [reflexivity|]. cbn [fold_left]. rewrite IH.
  unfold dstep. f_equal. lia.
Qed.
Lemma int_of_digits_ok s : (Z.of_nat (length s) <=? 4300) = true -> int_of_digits s = Ok (dval s).
Proof. intro L. unfold int_of_digits. assert ((int_max_str_digits <? Z.of_nat (length s)) = false) as -> by (unfold int_max_str_digits; lia). reflexivity. Qed.
Lemma fold_dstep_zero s acc : forallb digit s = true -> 0 <= acc ->
  0 <= fold_left dstep s acc /\ (fold_left dstep s acc = 0 <-> acc = 0 /\ forallb (fun c => c =? 48) s = true).
Proof.
  revert acc; induction s as [|c s IH]; intros acc D A.
  - cbn. split; [exact A|]. tauto.
  - cbn [forallb] in D. apply andb_true_iff in D as [Dc Ds]. cbn [fold_left forallb].
    assert (0 <= dstep acc c) by (unfold dstep, digit in *; lia).
    destruct (IH _ Ds H) as [P Q]. split; [exact P|]. rewrite Q. rewrite andb_true_iff. unfold dstep, digit in *.
    split.
    + intros [X Y]. split; [lia|]. split; [lia|exact Y].
    + intros [X [Y1 Y2]]. split; [lia|exact Y2].
Qed.
Lemma dval_nonneg s : forallb digit s = true -> 0 <= dval s.
Proof. intro D. exact (proj1 (fold_dstep_zero s 0 D (Z.le_refl 0))). Qed.
Lemma dval_nonzero s : forallb digit s = true -> (dval s =? 0) = negb (existsb (fun c => negb (c =? 48)) s).
Proof.
  intro D. destruct (fold_dstep_zero s 0 D (Z.le_refl 0)) as [_ Q]. unfold dval.
  assert (E : existsb (fun c => negb (c =? 48)) s = negb (forallb (fun c => c =? 48) s)).
  { clear. induction s as [|c s IH]; [reflexivity|]. cbn [existsb forallb]. rewrite IH. destruct (c =? 48); reflexivity. }
  rewrite E, negb_involutive. destruct (forallb (fun c => c =? 48) s) eqn:F.
  - apply Z.eqb_eq. apply Q. auto.
  - apply Z.eqb_neq. intro X. apply Q in X as [_ X]. discriminate.
Qed.

Lemma split_fields : split_on = fields.
Proof. reflexivity. Qed.
Lemma fields_nonempty c s : fields c s <> [].
Proof. destruct s as [|x s]; cbn [fields]; [discriminate|]. destruct (x =? c); [discriminate|]. destruct (fields c s); discriminate. Qed.
Lemma fields_len c s : Forall (fun part => (length part <= length s)%nat) (fields c s).
Proof.
  induction s as [|x s IH]; [cbn; repeat constructor|]. cbn [fields length].
  destruct (x =? c).
  - constructor; [cbn; lia|]. eapply Forall_impl; [|exact IH]. cbn. intros; lia.
  - destruct (fields c s) as [|h t] eqn:F; [exfalso; exact (fields_nonempty _ _ F)|].
    inversion IH; subst. constructor; [cbn [length]; lia|]. eapply Forall_impl; [|eassumption]. cbn. intros; lia.
Qed.
Lemma all_digits_forall a : all_digits a = true -> forallb digit a = true.
Proof. destruct a; [discriminate|]. intro H; exact H. Qed.
(* the left side is what dec_fps does with the two fields after splitting at '/' *)
Lemma dec_fps_digits a b :
  all_digits a = true -> all_digits b = true -> (Z.of_nat (length a) <=? 4300) = true -> (Z.of_nat (length b) <=? 4300) = true ->
  (do n <- int_of_digits a;
   if n =? 0 then Raise EValue else do d <- int_of_digits b; if d =? 0 then Raise EValue else do f <- fraction n d; Ok (Some f)) =
  if positive_number a && positive_number b
  then Ok (Some (number a / Z.gcd (number a) (number b), number b / Z.gcd (number a) (number b))) else Raise EValue.
Proof.
  intros Da Db La Lb. rewrite (int_of_digits_ok _ La), (int_of_digits_ok _ Lb). cbn [bind].
  pose proof (all_digits_forall _ Da) as Fa. pose proof (all_digits_forall _ Db) as Fb.
  unfold positive_number. rewrite Da, Db. cbn [andb].
  rewrite (dval_nonzero _ Fa). destruct (existsb (fun c => negb (c =? 48)) a); cbn [negb andb]; [|reflexivity].
  pose proof (dval_nonzero _ Fb) as Zb. rewrite Zb. destruct (existsb (fun c => negb (c =? 48)) b); cbn [negb andb]; [|reflexivity].
  pose proof (dval_nonneg _ Fb) as Pb. cbn [negb] in Zb.
  unfold fraction. rewrite Zb. assert ((dval b <? 0) = false) as -> by lia. cbn [bind]. rewrite !number_dval. reflexivity.
Qed.
(* the trigger of fps is only CPython's 4300-digit limit of int(); fields_len brings both fields under it *)
Lemma acc_fps v : v <> JNull -> trigger KFps v = false -> exact KFps v.
Proof.
  intros NN Tr. apply trigger_false in Tr as (_ & R).
  destruct v; try contradiction; try (apply exact_of_decode; intro H; try discriminate H; reflexivity).
  cbn [trigger_rejected] in R.
  assert (X : dec_fps (JStr s) = if fps_ok s then Ok (mean_fps (JStr s)) else Raise EValue).
  { unfold dec_fps, fps_ok, mean_fps. rewrite split_fields. pose proof (fields_len 47 s) as Len.
    destruct (fields 47 s) as [|a [|b [|c r]]]; try reflexivity.
    inversion Len as [|? ? La Len']; subst. inversion Len' as [|? ? Lb _]; subst.
    change (all_d a) with (all_digits a). change (all_d b) with (all_digits b).
    destruct (all_digits a) eqn:Da; [|unfold positive_number; rewrite Da; reflexivity].
    destruct (all_digits b) eqn:Db; [|unfold positive_number; rewrite Db; cbn [andb]; rewrite andb_false_r; reflexivity].
    cbn [andb]. rewrite (dec_fps_digits a b Da Db) by lia. destruct (positive_number a && positive_number b); reflexivity. }
  apply exact_of_decode; cbn [documented]; intro H; unfold accepts, decode; rewrite X, H; [|reflexivity].
  cbn [bind meaning]. unfold fps_ok in H. unfold mean_fps. destruct (fields 47 s) as [|a [|b [|c r]]]; try discriminate H. reflexivity.
Qed.

Fixpoint join (c : Z) (l : list text) : text :=
  match l with [] => [] | x :: r => match r with [] => x | _ => x ++ c :: join c r end end.
Lemma fields_join c s : join c (fields c s) = s.
Proof.
  induction s as [|x s IH]; [reflexivity|]. cbn [fields].
  pose proof (fields_nonempty c s) as NE. destruct (fields c s) as [|h t]; [contradiction|].
  destruct (x =? c) eqn:E.
  - apply Z.eqb_eq in E. subst x. cbn [join app]. cbn [join] in IH. rewrite IH. reflexivity.
  - cbn [join]. cbn [join] in IH. destruct t as [|t0 t']; [rewrite IH; reflexivity|]. cbn [app]. rewrite IH. reflexivity.
Qed.
Lemma two_digits x : all_digits x && (Z.of_nat (length x) =? 2) = true -> exists a b, x = [a; b] /\ digit a = true /\ digit b = true.
Proof.
  destruct x as [|a [|b [|c x]]]; cbn [all_digits forallb length]; intro H.
  - discriminate H.
  - apply andb_true_iff in H as [_ H]. lia.
  - destruct (digit a) eqn:A; destruct (digit b) eqn:B; try discriminate H; eauto.
  - apply andb_true_iff in H as [_ H]. lia.
Qed.
Lemma tc_ok_shape s : tc_ok s = true ->
  exists h1 h2 m1 m2 s1 s2 f1 f2, s = [h1; h2; 58; m1; m2; 58; s1; s2; 58; f1; f2] /\
    forallb digit [h1; h2; m1; m2; s1; s2; f1; f2] = true.
Proof.
  unfold tc_ok. intro H. pose proof (fields_join 58 s) as J.
  destruct (fields 58 s) as [|h [|m [|sec [|f [|]]]]]; try discriminate H.
  cbn [forallb] in H. apply andb_true_iff in H as [Hh H]. apply andb_true_iff in H as [Hm H].
  apply andb_true_iff in H as [Hs H]. apply andb_true_iff in H as [Hf _].
  destruct (two_digits _ Hh) as (h1 & h2 & -> & A1 & A2). destruct (two_digits _ Hm) as (m1 & m2 & -> & B1 & B2).
  destruct (two_digits _ Hs) as (s1 & s2 & -> & C1 & C2). destruct (two_digits _ Hf) as (f1 & f2 & -> & D1 & D2).
  exists h1, h2, m1, m2, s1, s2, f1, f2. split; [symmetry; exact J|].
  cbn [forallb]. rewrite A1, A2, B1, B2, C1, C2, D1, D2. reflexivity.
Qed.
Lemma fields_app c a r : forallb (fun x => negb (x =? c)) a = true -> fields c (a ++ c :: r) = a :: fields c r.
Proof.
  induction a as [|x a IH]; cbn [app fields forallb]; [rewrite Z.eqb_refl; reflexivity|]. intro H. apply andb_true_iff in H as [X A].
  apply negb_true_iff in X. rewrite X, (IH A). reflexivity.
Qed.
Lemma fields_last c a : forallb (fun x => negb (x =? c)) a = true -> fields c a = [a].
Proof.
  induction a as [|x a IH]; cbn [fields forallb]; [reflexivity|]. intro H. apply andb_true_iff in H as [X A].
  apply negb_true_iff in X. rewrite X, (IH A). reflexivity.
Qed.
Lemma digits_lack c a : digit c = false -> forallb digit a = true -> forallb (fun x => negb (x =? c)) a = true.
Proof. intro C. apply forallb_impl. intros x D. destruct (x =? c) eqn:E; [apply Z.eqb_eq in E; congruence|reflexivity]. Qed.
Lemma tc_ok_of_shape a b c d e f g h :
  forallb digit [a; b; c; d; e; f; g; h] = true -> tc_ok [a; b; 58; c; d; 58; e; f; 58; g; h] = true.
Proof.
  cbn [forallb]. rewrite !andb_true_iff. intros (A & B & C & D & E & F & G & H & _).
  unfold tc_ok. change [a; b; 58; c; d; 58; e; f; 58; g; h] with ([a; b] ++ 58 :: [c; d] ++ 58 :: [e; f] ++ 58 :: [g; h]).
  rewrite !fields_app, fields_last
    by (apply (digits_lack 58); [reflexivity|cbn [forallb]; rewrite ?A, ?B, ?C, ?D, ?E, ?F, ?G, ?H; reflexivity]).
  cbn [forallb all_digits length]. rewrite A, B, C, D, E, F, G, H. reflexivity.
Qed.
Lemma ndf_df s : ndf_match s = true -> df_match s = true.
Proof.
  destruct s as [|a [|b [|x [|c [|d [|y [|e [|f [|z [|g [|h [|]]]]]]]]]]]]; try discriminate.
  unfold ndf_match. intro M. rewrite !andb_true_iff in M. destruct M as ((((((((((A & B) & X) & C) & D) & Y) & E) & F) & Z) & G) & H).
  unfold df_match, df_sep. rewrite A, B, C, D, E, F, G, H, X, Y, Z. reflexivity.
Qed.
Lemma tcp_plain : upper_plain (T "TCP").
Proof. vm_compute. repeat constructor; try lia; discriminate. Qed.
Lemma acc_start_tc v : v <> JNull -> trigger KStartTc v = false -> exact KStartTc v.
Proof.
  intros NN Tr. apply trigger_false in Tr as (L & _).
  destruct v; try contradiction; try (apply exact_of_decode; intro H; try discriminate H; reflexivity).
  cbn [trigger_lenient] in L.
  destruct (text_eqb s (T "TCP")) eqn:E.
  { apply text_eqb_eq in E. subst. apply exact_of_decode; intro H; [reflexivity|discriminate H]. }
  cbn [negb andb] in L. apply orb_false_iff in L as [Ci Sh].
  assert (U : text_eqb (py_upper s) (T "TCP") = false).
  { destruct (text_eqb (py_upper s) (T "TCP")) eqn:U; [rewrite (py_upper_ci _ _ tcp_plain U) in Ci; discriminate|reflexivity]. }
  apply exact_of_decode; cbn [documented]; rewrite E; cbn [orb]; intro M; unfold accepts, decode, dec_start_tc; rewrite U.
  - destruct (tc_ok_shape _ M) as (h1 & h2 & m1 & m2 & s1 & s2 & f1 & f2 & -> & Dg).
    cbn [forallb] in Dg. rewrite !andb_true_iff in Dg. destruct Dg as (A & B & C & D & E' & F & G & H & _).
    unfold df_match. change is_d with digit. rewrite A, B, C, D, E', F, G, H. reflexivity.
  - destruct (df_match s || ndf_match s) eqn:X; [exfalso|reflexivity].
    assert (D : df_match s = true).
    { destruct (df_match s) eqn:D'; [reflexivity|]. cbn [orb] in X. rewrite (ndf_df _ X) in D'. discriminate D'. }
    clear X. destruct s as [|a [|b [|x [|c [|d [|y [|e [|f [|z [|g [|h [|]]]]]]]]]]]]; try discriminate D.
    apply negb_false_iff in Sh. rewrite !andb_true_iff in Sh. destruct Sh as ((X & Y) & Z).
    apply Z.eqb_eq in X, Y, Z. subst x y z.
    unfold df_match in D. rewrite !andb_true_iff in D. destruct D as ((((((((((A & B) & _) & C) & D) & _) & E') & F) & _) & G) & H).
    rewrite tc_ok_of_shape in M; [discriminate M|]. cbn [forallb]. change digit with is_d. rewrite A, B, C, D, E', F, G, H. reflexivity.
Qed.

Definition table_key (k : key) : bool :=
  match k with KColor | KBgColor | KFontStack => false | _ => true end.
Lemma in_table_nonnull k v : table_key k = true -> in_table k v = true -> v <> JNull.
Proof. intros K I ->. destruct k; try discriminate K; discriminate I. Qed.
Theorem config_exact_plain k v :
  table_key k = true -> in_table k v = true -> trigger k v = false -> exact k v.
Proof.
  intros K I Tr. destruct (bool_key k) eqn:B; [exact (acc_bool k v B I)|].
  pose proof (in_table_nonnull k v K I) as NN. destruct k; try discriminate K; try discriminate B.
  - exact (acc_log_level v NN Tr).
  - exact (acc_document_lang v NN Tr).
  - exact (acc_time_format v NN).
  - exact (acc_fps v NN Tr).
  - exact (acc_scc_text_align v NN Tr).
  - exact (acc_start_tc v NN Tr).
  - exact (acc_max_row_count v NN Tr).
  - exact (acc_safe_area v NN).
Qed.
