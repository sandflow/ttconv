(* C19: the plan is the one README prescribes.  For every command line and every configuration whose consulted values
   lie inside the documented table and outside the triggers of the recorded findings (Spec/CliSpec.v clean), Model/Cli.v
   convert returns exactly Spec/CliSpec.v spec_plan — reader by --itype / extension with its section, document_lang,
   the known filters in command-line order each configured from "lcd", writer by --otype / extension with its section,
   every key carrying the documented meaning of its value or its README default — and fails when spec_plan has no plan
   (an undocumented value, a section that is not an object, an unresolvable or unwritable type). *)
From Coq Require Import String.
From TT Require Import Base.Prelude Base.CliTypes Gen.CliUnicode Model.Cli Spec.CliSpec Proofs.C19.Plan Proofs.C19.Types
  Proofs.C19.Accept Proofs.C19.AcceptAll.

Definition decides {A} (k : key) (dec : json -> res A) (mean : json -> A) : Prop :=
  forall v, in_table k v = true -> trigger k v = false ->
            (documented k v = true -> dec v = Ok (mean v)) /\ (documented k v = false -> exists e, dec v = Raise e).
Lemma decides_of_exact {A} k (dec : json -> res A) (wrap : A -> cval) (mean : json -> A) :
  (forall v, decode k v = do x <- dec v; Ok (wrap x)) -> (forall v, meaning k v = wrap (mean v)) ->
  (forall a b, wrap a = wrap b -> a = b) -> decides k dec mean.
Proof.
  intros D M Inj v I Tr. split; intro Doc.
  - pose proof (config_meaning k v I Tr Doc) as H. rewrite D, M in H. destruct (dec v) as [x|e]; [|discriminate H].
    cbn [bind] in H. inversion H as [W]. apply Inj in W. subst. reflexivity.
  - destruct (config_rejects k v I Tr Doc) as (e & H). rewrite D in H. destruct (dec v) as [x|e']; [discriminate H|eauto].
Qed.
Lemma cbool_inj a b : CBool a = CBool b -> a = b.
Proof. intro H; inversion H; reflexivity. Qed.
Lemma copt_inj {A} (f : A -> cval) : (forall a b, f a = f b -> a = b) -> (forall a, f a <> CNone) -> forall x y, copt f x = copt f y -> x = y.
Proof.
  intros Inj NN [a|] [b|]; cbn [copt]; intro H; try reflexivity.
  - f_equal. apply Inj. exact H.
  - exfalso. exact (NN _ H).
  - exfalso. symmetry in H. exact (NN _ H).
Qed.
Lemma dec_bool_decides k : bool_key k = true -> decides k dec_bool mean_bool.
Proof. intro K. apply (decides_of_exact k dec_bool CBool mean_bool); [destruct k; try discriminate K; reflexivity ..|exact cbool_inj]. Qed.
Lemma dec_time_format_decides : decides KTimeFormat dec_time_format mean_tfmt.
Proof.
  apply (decides_of_exact _ _ (copt CTfmt)); try reflexivity. apply copt_inj; [intros a b H; inversion H; reflexivity|discriminate].
Qed.
Lemma dec_fps_decides : decides KFps dec_fps mean_fps.
Proof.
  apply (decides_of_exact _ _ (copt (fun f : Z * Z => CFrac (fst f) (snd f)))); try reflexivity.
  apply copt_inj; [intros [a b] [c d] H; inversion H; reflexivity|discriminate].
Qed.
Lemma dec_scc_decides : decides KSccTextAlign dec_scc_text_align mean_align.
Proof. apply (decides_of_exact _ _ CAlign); try reflexivity. intros a b H; inversion H; reflexivity. Qed.
Lemma ctext_inj : forall x y, copt CText x = copt CText y -> x = y.
Proof. apply copt_inj; [intros a b H; inversion H; reflexivity|discriminate]. Qed.
Lemma dec_start_tc_decides : decides KStartTc dec_start_tc mean_text.
Proof. apply (decides_of_exact _ _ (copt CText)); try reflexivity. exact ctext_inj. Qed.
Lemma dec_font_stack_decides : decides KFontStack dec_font_stack mean_text.
Proof. apply (decides_of_exact _ _ (copt CText)); try reflexivity. exact ctext_inj. Qed.
Lemma dec_max_row_decides : decides KMaxRowCount dec_max_row_count mean_mrc.
Proof.
  apply (decides_of_exact _ _ (copt CMrc)); try reflexivity. apply copt_inj; [intros a b H; inversion H; reflexivity|discriminate].
Qed.
Lemma dec_safe_area_decides : decides KSafeArea dec_safe_area mean_int.
Proof. apply (decides_of_exact _ _ CInt); try reflexivity. intros a b H; inversion H; reflexivity. Qed.
Lemma dec_color_decides k : color_key k = true -> decides k dec_color mean_color.
Proof.
  intro K. apply (decides_of_exact k _ (copt (fun c : rgba => match c with (r, g, b, a) => CColor r g b a end)));
    [destruct k; try discriminate K; reflexivity ..|].
  apply copt_inj; [intros [[[a b] c] d] [[[a' b'] c'] d'] H; inversion H; reflexivity|intros [[[a b] c] d]; discriminate].
Qed.

Definition agrees_module {A} (spec : option A) (parsed : res A) : Prop :=
  match spec with Some c => parsed = Ok c | None => exists e, parsed = Raise e end.
Definition value_clean (k : key) (o : option json) : bool :=
  match o with None => true | Some v => in_table k v && negb (trigger k v) end.
Lemma field_sval {A} d name k (dec : json -> res A) (mean : json -> A) dflt :
  decides k dec mean -> value_clean k (obj_get (T name) d) = true ->
  agrees_module (sval (JObj d) name k mean dflt) (field d name dec dflt).
Proof.
  intros D C. unfold agrees_module, sval, field. change (jget name (JObj d)) with (obj_get (T name) d).
  destruct (obj_get (T name) d) as [v|]; [|reflexivity]. cbn [value_clean] in C. apply andb_true_iff in C as [I Tr].
  apply negb_true_iff in Tr. destruct (D v I Tr) as [Y N]. destruct (documented k v); [exact (Y eq_refl)|exact (N eq_refl)].
Qed.
Definition keys_clean (sec : string) (d : list (text * json)) : bool :=
  forallb (fun nk => value_clean (snd nk) (obj_get (T (fst nk)) d)) (keys_of sec).
Lemma keys_clean_in sec d name k : keys_clean sec d = true -> In (name, k) (keys_of sec) -> value_clean k (obj_get (T name) d) = true.
Proof. unfold keys_clean. rewrite forallb_forall. intros C I. exact (C _ I). Qed.

(* README's section (spec_scc, ...) is a match over the svals of its keys, the parser (parse_scc, ...) a chain of binds
   over the same fields in the same order; they agree field by field *)
Lemma agrees_step {A B} (s : option A) (r : res A) (ks : A -> option B) (kr : A -> res B) :
  agrees_module s r -> (forall a, agrees_module (ks a) (kr a)) ->
  agrees_module (match s with Some a => ks a | None => None end) (bind r kr).
Proof. unfold agrees_module. destruct s as [a|]; [intros -> K; exact (K a)|intros (e & ->) _; cbn; eauto]. Qed.
Create HintDb decides discriminated.
#[local] Hint Resolve dec_time_format_decides dec_fps_decides dec_scc_decides dec_start_tc_decides dec_font_stack_decides dec_max_row_decides
  dec_safe_area_decides : decides.
#[local] Hint Extern 1 (decides _ dec_bool _) => apply dec_bool_decides; reflexivity : decides.
#[local] Hint Extern 1 (decides _ dec_color _) => apply dec_color_decides; reflexivity : decides.
(* agrees_step down the chain, field_sval for each field; C : keys_clean sec d = true gives the field its value_clean *)
Ltac module C :=
  repeat (apply agrees_step; [|intro]); try reflexivity; (apply field_sval; [auto with decides|apply (keys_clean_in _ _ _ _ C); cbn; tauto]).
Lemma module_scc d : keys_clean "scc_reader" d = true -> agrees_module (spec_scc (JObj d)) (parse_scc d).
Proof. intro C. unfold spec_scc, parse_scc. module C. Qed.
Lemma module_srt d : keys_clean "srt_writer" d = true -> agrees_module (spec_srt (JObj d)) (parse_srt d).
Proof. intro C. unfold spec_srt, parse_srt. module C. Qed.
Lemma module_imsc d : keys_clean "imsc_writer" d = true -> agrees_module (spec_imsc (JObj d)) (parse_imsc d).
Proof. intro C. unfold spec_imsc, parse_imsc. module C. Qed.
Lemma module_vtt d : keys_clean "vtt_writer" d = true -> agrees_module (spec_vtt (JObj d)) (parse_vtt d).
Proof. intro C. unfold spec_vtt, parse_vtt. module C. Qed.
Lemma module_stl d : keys_clean "stl_reader" d = true -> agrees_module (spec_stl (JObj d)) (parse_stl d).
Proof. intro C. unfold spec_stl, parse_stl. module C. Qed.
Lemma module_lcd d : keys_clean "lcd" d = true -> agrees_module (spec_lcd (JObj d)) (parse_lcd d).
Proof. intro C. unfold spec_lcd, parse_lcd. module C. Qed.

(* the general section: log_level and document_lang are kept as given by GeneralConfiguration.parse and interpreted
   by convert *)
Definition level_dec (v : json) : res (option Z) := if is_null v then Ok None else do z <- check_level v; Ok (Some z).
Definition lang_dec (v : json) : res (option text) := if is_null v then Ok None else do s <- check_lang v; Ok (Some s).
(* the two steps together: GeneralConfiguration.parse lets None and any str through, convert interprets it *)
Definition via_str {A} (dec : json -> res A) (v : json) : res A := do x <- dec_str_or_null v; dec x.
Lemma level_decides : decides KLogLevel (via_str level_dec) mean_level.
Proof.
  apply (decides_of_exact _ _ (copt CInt)); [| reflexivity |apply copt_inj; [intros a b H; inversion H; reflexivity|discriminate]].
  intro v. unfold decode, via_str, level_dec. destruct (dec_str_or_null v) as [x|]; [|reflexivity]. cbn [bind].
  destruct (is_null x); [reflexivity|]. destruct (check_level x); reflexivity.
Qed.
Lemma lang_decides : decides KDocumentLang (via_str lang_dec) mean_text.
Proof.
  apply (decides_of_exact _ _ (copt CText)); [| reflexivity |exact ctext_inj].
  intro v. unfold decode, via_str, lang_dec. destruct (dec_str_or_null v) as [x|]; [|reflexivity]. cbn [bind].
  destruct (is_null x); [reflexivity|]. destruct (check_lang x); reflexivity.
Qed.
Lemma field_via {A} d name dflt (dec : json -> res A) (a : A) :
  dec_str_or_null dflt = Ok dflt -> dec dflt = Ok a ->
  field d name (via_str dec) a = do x <- field d name dec_str_or_null dflt; dec x.
Proof. intros H1 H2. unfold field, via_str. destruct (obj_get (T name) d); [reflexivity|]. cbn [bind]. symmetry. exact H2. Qed.
Lemma module_general d : keys_clean "general" d = true ->
  match spec_general (JObj d) with
  | Some (lv, pb, lang) => exists ll dl, parse_general d = Ok (ll, pb, dl) /\ level_dec ll = Ok lv /\ lang_dec dl = Ok lang
  | None => (exists e, parse_general d = Raise e) \/
            exists ll pb dl, parse_general d = Ok (ll, pb, dl) /\ ((exists e, level_dec ll = Raise e) \/ (exists e, lang_dec dl = Raise e))
  end.
Proof.
  unfold keys_clean. cbn [keys_of String.eqb Ascii.eqb Bool.eqb forallb fst snd]. rewrite andb_true_r. intro C.
  apply andb_true_iff in C as [C1 C]. apply andb_true_iff in C as [C2 C3].
  unfold parse_general, default_general. cbn [fst snd]. unfold spec_general.
  pose proof (field_sval d "log_level" KLogLevel _ _ (Some 20) level_decides C1) as L.
  pose proof (field_sval d "progress_bar" KProgressBar _ _ true (dec_bool_decides KProgressBar eq_refl) C2) as P.
  pose proof (field_sval d "document_lang" KDocumentLang _ _ None lang_decides C3) as G.
  rewrite (field_via d "log_level" (JStr (T "INFO")) level_dec (Some 20) eq_refl eq_refl) in L.
  rewrite (field_via d "document_lang" JNull lang_dec None eq_refl eq_refl) in G.
  revert L P G.
  destruct (sval (JObj d) "log_level" KLogLevel mean_level (Some 20)) as [lv|];
    destruct (sval (JObj d) "progress_bar" KProgressBar mean_bool true) as [pb|];
    destruct (sval (JObj d) "document_lang" KDocumentLang mean_text None) as [lang|];
    destruct (field d "log_level" dec_str_or_null (JStr (T "INFO"))) as [ll|e1];
    destruct (field d "progress_bar" dec_bool true) as [pb'|e2];
    destruct (field d "document_lang" dec_str_or_null JNull) as [dl|e3]; cbn [bind]; intros L P G;
    try discriminate L; try discriminate P; try discriminate G;
    try (destruct L as (? & L); discriminate L); try (destruct P as (? & P); discriminate P); try (destruct G as (? & G); discriminate G);
    try (left; eexists; reflexivity).
  all: try (inversion P; subst; exists ll, dl; repeat split; assumption).
  all: right; exists ll, pb', dl; (split; [reflexivity|]); first [left; exact L|right; exact G].
Qed.

Definition top_ok (cfg : option json) : bool := match cfg with None | Some JNull | Some (JObj _) => true | Some _ => false end.
Lemma section_clean_keys name l d : obj_get (T name) l = Some (JObj d) -> section_clean name (Some (JObj l)) = keys_clean name d.
Proof.
  intro H. unfold section_clean, section. change (jget name (JObj l)) with (obj_get (T name) l). rewrite H. reflexivity.
Qed.
Lemma read_config_smodule {A} name (parse : list (text * json) -> res A) (spec : json -> option A) cfg :
  top_ok cfg = true -> (forall d, keys_clean name d = true -> agrees_module (spec (JObj d)) (parse d)) ->
  section_clean name cfg = true -> agrees_module (smodule name spec cfg) (read_config name parse cfg).
Proof.
  intros Top M C. unfold smodule, ssection, read_config. destruct cfg as [[]|]; try discriminate Top; try reflexivity.
  change (jget name (JObj l)) with (obj_get (T name) l).
  destruct (obj_get (T name) l) as [[]|] eqn:E; try reflexivity; try (cbn; eauto).
  rewrite (section_clean_keys _ _ _ E) in C. specialize (M _ C). unfold agrees_module in *.
  destruct (spec (JObj l0)); [rewrite M; reflexivity|destruct M as (e & ->); cbn; eauto].
Qed.
Lemma general_section cfg : top_ok cfg = true -> section_clean "general" cfg = true ->
  match smodule "general" spec_general cfg with
  | Some sg => exists g, read_config "general" parse_general cfg = Ok g /\
                         level_of g = Ok (match sg with Some (l, _, _) => l | None => None end) /\
                         lang_of g = Ok (match sg with Some (_, _, l) => l | None => None end) /\
                         progress_of g = match sg with Some (_, b, _) => Some b | None => None end
  | None => (exists e, read_config "general" parse_general cfg = Raise e) \/
            exists g, read_config "general" parse_general cfg = Ok g /\ ((exists e, level_of g = Raise e) \/ (exists e, lang_of g = Raise e))
  end.
Proof.
  intros Top C. unfold smodule, ssection, read_config. destruct cfg as [[]|]; try discriminate Top; try (exists None; repeat split; reflexivity).
  change (jget "general" (JObj l)) with (obj_get (T "general") l).
  destruct (obj_get (T "general") l) as [[]|] eqn:E; try (exists None; repeat split; reflexivity); try (left; cbn; eauto).
  rewrite (section_clean_keys _ _ _ E) in C. pose proof (module_general _ C) as M.
  destruct (spec_general (JObj l0)) as [[[lv pb] lang]|].
  - destruct M as (ll & dl & -> & L & G). cbn [bind]. exists (Some (ll, pb, dl)). repeat split; assumption.
  - destruct M as [(e & ->)|(ll & pb & dl & -> & M)]; [left; cbn; eauto|]. right. exists (Some (ll, pb, dl)). split; [reflexivity|exact M].
Qed.

Lemma apply_filters_none names data : existsb spec_known_filter names = false -> apply_filters names data = Ok [].
Proof.
  induction names as [|n r IH]; [reflexivity|]. cbn [existsb apply_filters]. intro H. apply orb_false_iff in H as [A B].
  rewrite <- known_filter_spec in A. unfold known_filter in A. destruct (get_filter_by_name n); [discriminate A|]. exact (IH B).
Qed.
Lemma apply_filters_some names data c :
  read_config "lcd" parse_lcd data = Ok c ->
  apply_filters names data = Ok (List.map (fun _ => FLcd (match c with Some c => c | None => default_lcd end)) (List.filter spec_known_filter names)).
Proof.
  intro R. induction names as [|n r IH]; [reflexivity|]. cbn [apply_filters List.filter]. rewrite <- known_filter_spec. unfold known_filter.
  destruct (get_filter_by_name n) as [[]|]; [|exact IH]. rewrite R, IH. reflexivity.
Qed.
Lemma apply_filters_fail names data e :
  read_config "lcd" parse_lcd data = Raise e -> existsb spec_known_filter names = true -> exists e', apply_filters names data = Raise e'.
Proof.
  intros R. induction names as [|n r IH]; [discriminate|]. cbn [apply_filters existsb]. rewrite <- known_filter_spec. unfold known_filter.
  destruct (get_filter_by_name n) as [[]|]; [intros _; rewrite R; cbn; eauto|]. cbn [orb]. exact IH.
Qed.

Lemma load_ok i f : sources_ok i f = true -> load_config i f = Ok (effective i f).
Proof. destruct i, f; try discriminate; reflexivity. Qed.
Ltac fail_step :=
  match goal with
  | |- exists e, bind ?r _ = Raise e => let E := fresh "E" in destruct r eqn:E; [cbn [bind]|cbn [bind]; eauto]
  end.
Definition spec_reader (rt : ftype) (cfg : option json) : option reader :=
  match rt with
  | TTML => Some RdTtml | SRT => Some RdSrt | VTT => Some RdVtt
  | SCC => option_map RdScc (smodule "scc_reader" spec_scc cfg)
  | STL => option_map RdStl (smodule "stl_reader" spec_stl cfg)
  end.
Definition spec_filters (names : list text) (cfg : option json) : option (list filter_app) :=
  if existsb spec_known_filter names
  then match smodule "lcd" spec_lcd cfg with
       | Some c => let c := match c with Some c => c | None => Build_lcd_cfg 10 false None None end in
                   Some (List.map (fun _ => FLcd c) (List.filter spec_known_filter names))
       | None => None
       end
  else Some [].
Definition spec_writer (wt : ftype) (cfg : option json) : option writer :=
  match wt with
  | TTML => option_map WrTtml (smodule "imsc_writer" spec_imsc cfg)
  | SRT => option_map WrSrt (smodule "srt_writer" spec_srt cfg)
  | VTT => option_map WrVtt (smodule "vtt_writer" spec_vtt cfg)
  | SCC | STL => None
  end.
Lemma spec_plan_unfold o cfg : top_ok cfg = true ->
  spec_plan o cfg =
  match smodule "general" spec_general cfg, find_type (o_itype o) (o_input o), find_type (o_otype o) (o_output o) with
  | Some g, Some rt, Some wt =>
      match spec_reader rt cfg, spec_filters (o_filters o) cfg, spec_writer wt cfg with
      | Some rd, Some fs, Some wr =>
          Some (Build_plan_t rd (match g with Some (_, _, l) => l | None => None end) fs wr
                             (match g with Some (l, _, _) => l | None => None end)
                             (match g with Some (_, b, _) => Some b | None => None end))
      | _, _, _ => None
      end
  | _, _, _ => None
  end.
Proof. intro Top. unfold spec_plan. destruct cfg as [[]|]; try discriminate Top; reflexivity. Qed.
Lemma option_map_agrees {A B} (f : A -> B) (s : option A) (r : res A) :
  agrees_module s r -> agrees_module (option_map f s) (do c <- r; Ok (f c)).
Proof. unfold agrees_module. destruct s; [intros ->; reflexivity|intros (e & ->); cbn; eauto]. Qed.
Lemma reader_agrees rt cfg wt names :
  top_ok cfg = true -> (forall s, In s (sections_in_use rt wt names) -> section_clean s cfg = true) ->
  agrees_module (spec_reader rt cfg) (m_reader rt cfg).
Proof.
  intros Top C. destruct rt; try reflexivity; unfold spec_reader, m_reader; apply option_map_agrees.
  - apply (read_config_smodule "scc_reader" parse_scc spec_scc cfg Top module_scc). apply C. unfold sections_in_use. cbn. tauto.
  - apply (read_config_smodule "stl_reader" parse_stl spec_stl cfg Top module_stl). apply C. unfold sections_in_use. cbn. tauto.
Qed.
Lemma writer_agrees rt cfg wt names :
  top_ok cfg = true -> (forall s, In s (sections_in_use rt wt names) -> section_clean s cfg = true) ->
  agrees_module (spec_writer wt cfg) (m_writer wt cfg).
Proof.
  intros Top C. destruct wt; try (cbn; eauto; fail); unfold spec_writer, m_writer; apply option_map_agrees.
  - apply (read_config_smodule "imsc_writer" parse_imsc spec_imsc cfg Top module_imsc). apply C. unfold sections_in_use. rewrite !in_app_iff. cbn. tauto.
  - apply (read_config_smodule "srt_writer" parse_srt spec_srt cfg Top module_srt). apply C. unfold sections_in_use. rewrite !in_app_iff. cbn. tauto.
  - apply (read_config_smodule "vtt_writer" parse_vtt spec_vtt cfg Top module_vtt). apply C. unfold sections_in_use. rewrite !in_app_iff. cbn. tauto.
Qed.
Lemma filters_agree rt cfg wt names :
  top_ok cfg = true -> (forall s, In s (sections_in_use rt wt names) -> section_clean s cfg = true) ->
  agrees_module (spec_filters names cfg) (apply_filters names cfg).
Proof.
  intros Top C. unfold spec_filters. destruct (existsb spec_known_filter names) eqn:K; [|cbn; apply apply_filters_none; exact K].
  assert (Cs : section_clean "lcd" cfg = true).
  { apply C. unfold sections_in_use. rewrite K, !in_app_iff. cbn. tauto. }
  pose proof (read_config_smodule "lcd" parse_lcd spec_lcd cfg Top module_lcd Cs) as M. unfold agrees_module in *.
  destruct (smodule "lcd" spec_lcd cfg) as [c|]; [exact (apply_filters_some _ _ _ M)|].
  destruct M as (e & M). exact (apply_filters_fail _ _ _ M K).
Qed.

Theorem plan_is_spec o i f :
  sources_ok i f = true -> clean o (effective i f) = true -> agrees_module (spec_plan o (effective i f)) (convert o i f).
Proof.
  intros S C. rewrite convert_load_steps, (load_ok _ _ S). cbn [bind]. unfold convert_steps. set (cfg := effective i f) in *.
  destruct (top_ok cfg) eqn:Top.
  2:{ (* the configuration is not an object: no plan, and the first section read fails *)
      assert (N : spec_plan o cfg = None) by (unfold spec_plan; destruct cfg as [[]|]; try discriminate Top; reflexivity).
      rewrite N. assert (R : read_config "general" parse_general cfg = Raise EValue) by (destruct cfg as [[]|]; try discriminate Top; reflexivity).
      rewrite R. cbn. eauto. }
  rewrite (spec_plan_unfold o cfg Top).
  assert (Cg : section_clean "general" cfg = true).
  { unfold clean in C. rewrite forallb_forall in C. apply C. unfold sections_consulted.
    destruct (find_type (o_itype o) (o_input o)); [destruct (find_type (o_otype o) (o_output o))|]; left; reflexivity. }
  pose proof (general_section cfg Top Cg) as G.
  pose proof (type_find (o_itype o) (o_input o)) as Ti. pose proof (type_find (o_otype o) (o_output o)) as To.
  destruct (smodule "general" spec_general cfg) as [sg|].
  2:{ cbn [agrees_module]. destruct G as [(e & ->)|(g & -> & [(e & L)|(e & L)])]; [cbn; eauto| |]; cbn [bind]; rewrite L.
      - cbn. eauto.
      - repeat fail_step. eauto. }
  destruct G as (g & -> & L & Lg & Pg). cbn [bind]. rewrite L, Lg, Pg. cbn [bind].
  destruct (find_type (o_itype o) (o_input o)) as [rt|] eqn:Fi; [|destruct Ti as (e & ->); cbn; eauto]. rewrite Ti. cbn [bind].
  destruct (find_type (o_otype o) (o_output o)) as [wt|] eqn:Fo; [|destruct To as (e & ->); cbn; eauto]. rewrite To. cbn [bind].
  assert (C' : forall s, In s (sections_in_use rt wt (o_filters o)) -> section_clean s cfg = true).
  { unfold clean, sections_consulted in C. rewrite Fi, Fo in C. rewrite forallb_forall in C. exact C. }
  pose proof (reader_agrees rt cfg wt _ Top C') as R. pose proof (filters_agree rt cfg wt _ Top C') as F.
  pose proof (writer_agrees rt cfg wt _ Top C') as W. unfold agrees_module in R, F, W.
  destruct (spec_reader rt cfg) as [rd|]; [rewrite R; cbn [bind]|destruct R as (e & ->); cbn; eauto].
  destruct (spec_filters (o_filters o) cfg) as [fs|]; [rewrite F; cbn [bind]|destruct F as (e & ->); cbn; eauto].
  destruct (spec_writer wt cfg) as [wr|]; [rewrite W; cbn [bind agrees_module]; reflexivity|destruct W as (e & ->); cbn; eauto].
Qed.
Theorem bad_sources_fail o i f : sources_ok i f = false -> exists e, convert o i f = Raise e.
Proof. intro S. unfold convert. destruct i, f; try discriminate S; cbn; eauto. Qed.
