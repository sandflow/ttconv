(* C19: laws of Model/Cli.v `plan` that do not depend on the character-level decoders: configuration precedence,
   filter order, document_lang, and what an error / the usage text / an unknown sub-command leave behind. *)
From Coq Require Import String.
From TT Require Import Base.Prelude Base.CliTypes Gen.CliUnicode Model.Cli Spec.CliSpec.

Ltac inv_bind H :=
  repeat match type of H with
         | bind ?r _ = Ok _ => let E := fresh "E" in destruct r eqn:E; [cbn [bind] in H | discriminate H]
         end.

Lemma precedence a j1 j2 : plan a (IGiven j1) (FGiven j2) = plan a IAbsent (FGiven j2).
Proof. destruct a; reflexivity. Qed.
Lemma inline_alone a j : plan a (IGiven j) FAbsent = plan a IAbsent (FGiven j).
Proof. destruct a; reflexivity. Qed.
(* tt.py parses --config before it looks at --config_file: malformed inline JSON ends the run even when a
   well-formed file would override it *)
Lemma malformed_inline o f : plan (Subcommand (T "convert") o) IMalformed f = OError EJsonDecode.
Proof. reflexivity. Qed.
Lemma is_subcommand n : existsb (text_eqb n) subcommands = text_eqb n (T "convert").
Proof. unfold subcommands. cbn [existsb]. apply orb_false_r. Qed.
Lemma load_config_effective i f d : load_config i f = Ok d -> d = effective i f.
Proof. destruct i, f; cbn; intro H; inversion H; reflexivity. Qed.
Lemma load_config_sources i f : is_ok (load_config i f) = sources_ok i f.
Proof. destruct i, f; reflexivity. Qed.

Definition known_filter (n : text) : bool := match get_filter_by_name n with Some _ => true | None => false end.
Definition filter_name (f : filter_app) : text := match f with FLcd _ => T "lcd" end.
Definition lcd_of (data : option json) : lcd_cfg :=
  match read_config "lcd" parse_lcd data with Ok (Some c) => c | _ => default_lcd end.

Lemma known_filter_spec n : known_filter n = spec_known_filter n.
Proof.
  unfold known_filter, spec_known_filter, get_filter_by_name, filter_registry. cbn [assocT].
  destruct (text_eqb n (T "lcd")); reflexivity.
Qed.
Lemma known_filter_name n : known_filter n = true -> n = T "lcd".
Proof. rewrite known_filter_spec. unfold spec_known_filter. apply text_eqb_eq. Qed.

Lemma apply_filters_spec names data fs :
  apply_filters names data = Ok fs ->
  fs = List.map (fun _ => FLcd (lcd_of data)) (List.filter known_filter names).
Proof.
  revert fs; induction names as [|n r IH]; intros fs H; cbn [apply_filters] in H.
  - inversion H; reflexivity.
  - cbn [List.filter]. unfold known_filter at 1. destruct (get_filter_by_name n) as [[]|].
    + inv_bind H. inversion H; subst. cbn [List.map]. f_equal.
      * unfold lcd_of. rewrite E. destruct a; reflexivity.
      * apply IH; reflexivity.
    + apply IH; exact H.
Qed.
Lemma names_of_map c names :
  List.map filter_name (List.map (fun _ : text => FLcd c) (List.filter known_filter names)) = List.filter known_filter names.
Proof.
  induction names as [|n r IH]; [reflexivity|].
  cbn [List.filter]. destruct (known_filter n) eqn:K; [|exact IH].
  cbn [List.map]. rewrite IH. f_equal. cbn [filter_name]. symmetry. apply known_filter_name. exact K.
Qed.
Lemma apply_filters_names names data fs :
  apply_filters names data = Ok fs -> List.map filter_name fs = List.filter known_filter names.
Proof. intro H. rewrite (apply_filters_spec _ _ _ H). apply names_of_map. Qed.

(* convert_steps is the body of Cli.convert after load_config with each step given a name (convert_load_steps holds
   by reflexivity), so that Pipeline.v, Order.v and SpecPlan.v can speak of one step at a time *)
Definition level_of (g : option (json * bool * json)) : res (option Z) :=
  match g with Some (ll, _, _) => if is_null ll then Ok None else do z <- check_level ll; Ok (Some z) | None => Ok None end.
Definition lang_of (g : option (json * bool * json)) : res (option text) :=
  match g with Some (_, _, dl) => if is_null dl then Ok None else do s <- check_lang dl; Ok (Some s) | None => Ok None end.
Definition progress_of (g : option (json * bool * json)) : option bool := match g with Some (_, pb, _) => Some pb | None => None end.
Definition m_reader (rt : ftype) (cfg : option json) : res reader :=
  match rt with
  | TTML => Ok RdTtml
  | SCC => do c <- read_config "scc_reader" parse_scc cfg; Ok (RdScc c)
  | STL => do c <- read_config "stl_reader" parse_stl cfg; Ok (RdStl c)
  | SRT => Ok RdSrt
  | VTT => Ok RdVtt
  end.
Definition m_writer (wt : ftype) (cfg : option json) : res writer :=
  match wt with
  | TTML => do c <- read_config "imsc_writer" parse_imsc cfg; Ok (WrTtml c)
  | SRT => do c <- read_config "srt_writer" parse_srt cfg; Ok (WrSrt c)
  | VTT => do c <- read_config "vtt_writer" parse_vtt cfg; Ok (WrVtt c)
  | SCC | STL => Raise EExitUnsupported
  end.
Definition convert_steps (o : options) (cfg : option json) : res plan_t :=
  do g <- read_config "general" parse_general cfg;
  do level <- level_of g;
  do rt <- get_file_type (o_itype o) (splitext (o_input o));
  do wt <- get_file_type (o_otype o) (splitext (o_output o));
  do rd <- m_reader rt cfg;
  do lang <- lang_of g;
  do fs <- apply_filters (o_filters o) cfg;
  do wr <- m_writer wt cfg;
  Ok (Build_plan_t rd lang fs wr level (progress_of g)).
Lemma convert_load_steps o i f : convert o i f = do cfg <- load_config i f; convert_steps o cfg.
Proof. reflexivity. Qed.

Definition general_of (data : option json) : option (json * bool * json) :=
  match read_config "general" parse_general data with Ok g => g | Raise _ => None end.
Lemma convert_ok o i f p :
  convert o i f = Ok p ->
  exists rt wt,
    get_file_type (o_itype o) (splitext (o_input o)) = Ok rt /\
    get_file_type (o_otype o) (splitext (o_output o)) = Ok wt /\
    reader_type (p_reader p) = rt /\ writer_type (p_writer p) = wt /\ writable wt = true /\
    is_ok (load_config i f) = true /\
    apply_filters (o_filters o) (effective i f) = Ok (p_filters p) /\
    p_lang p = match general_of (effective i f) with
               | Some (_, _, JStr s) => Some s
               | _ => None end.
Proof.
  unfold convert. intro H. inv_bind H.
  pose proof (load_config_effective _ _ _ E) as Ea. subst a.
  exists a2, a3. inversion H; subst; clear H. cbn [p_reader p_writer p_filters p_lang is_ok].
  split; [reflexivity|]. split; [reflexivity|].
  split; [destruct a2; inv_bind E4; inversion E4; reflexivity|].
  split; [destruct a3; try discriminate E7; inv_bind E7; inversion E7; reflexivity|].
  split; [destruct a3; try discriminate E7; reflexivity|].
  split; [reflexivity|]. split; [exact E6|].
  unfold general_of. rewrite E0. destruct a0 as [[[ll pb] dl]|]; [|inversion E5; reflexivity].
  destruct dl; cbn in E5; inversion E5; reflexivity.
Qed.

Lemma plan_convert n o i f p : plan (Subcommand n o) i f = OPlan p -> n = T "convert" /\ convert o i f = Ok p.
Proof.
  unfold plan. rewrite is_subcommand. destruct (text_eqb n (T "convert")) eqn:N; [|discriminate]. apply text_eqb_eq in N.
  destruct (convert o i f); [|discriminate]. intro H; inversion H; auto.
Qed.

Lemma filters_order n o i f p :
  plan (Subcommand n o) i f = OPlan p ->
  List.map filter_name (p_filters p) = List.filter spec_known_filter (o_filters o).
Proof.
  intro H. destruct (plan_convert _ _ _ _ _ H) as [_ C]. destruct (convert_ok _ _ _ _ C) as (rt & wt & _ & _ & _ & _ & _ & _ & F & _).
  rewrite (apply_filters_names _ _ _ F). apply filter_ext. intro x. apply known_filter_spec.
Qed.

(* document_lang of the effective configuration (the file's, if a file is given) overrides the document language;
   absent or null leaves it alone; anything but a string is an error before any output *)
Lemma lang_override n o i f p :
  plan (Subcommand n o) i f = OPlan p ->
  p_lang p = match general_of (effective i f) with Some (_, _, JStr s) => Some s | _ => None end.
Proof.
  intro H. destruct (plan_convert _ _ _ _ _ H) as [_ C]. destruct (convert_ok _ _ _ _ C) as (rt & wt & _ & _ & _ & _ & _ & _ & _ & L). exact L.
Qed.

Lemma error_no_output a i f e : plan a i f = OError e -> output_action a (plan a i f) = None.
Proof. intros ->. destruct a; reflexivity. Qed.
Lemma help_no_output i f : plan NoSubcommand i f = OHelp /\ output_action NoSubcommand (plan NoSubcommand i f) = None.
Proof. split; reflexivity. Qed.
Lemma unknown_subcommand n o i f : n <> T "convert" -> plan (Subcommand n o) i f = OError EExitUsage.
Proof.
  intro H. unfold plan. rewrite is_subcommand. destruct (text_eqb n (T "convert")) eqn:E; [|reflexivity].
  apply text_eqb_eq in E. contradiction.
Qed.
Lemma output_only_if_valid a i f path w :
  output_action a (plan a i f) = Some (path, w) ->
  exists n o p, a = Subcommand n o /\ n = T "convert" /\ plan a i f = OPlan p /\ path = o_output o /\ w = p_writer p /\
    get_file_type (o_itype o) (splitext (o_input o)) = Ok (reader_type (p_reader p)) /\
    get_file_type (o_otype o) (splitext (o_output o)) = Ok (writer_type w) /\ writable (writer_type w) = true /\
    sources_ok i f = true.
Proof.
  destruct a as [|n o]; [discriminate|]. destruct (plan (Subcommand n o) i f) as [| |p] eqn:P; try discriminate.
  intro H; inversion H; subst. destruct (plan_convert _ _ _ _ _ P) as [N C].
  destruct (convert_ok _ _ _ _ C) as (rt & wt & R & W & <- & <- & Wr & S & _).
  exists n, o, p. rewrite <- load_config_sources. repeat split; assumption.
Qed.
