(* C19: what the plan does NOT depend on.  Model/Cli.v convert reads the configuration only through look-ups of the
   sections it consults and, inside a section, of the keys README documents for it.  Hence: two configurations that give
   the same value to every documented key of every consulted section give the same plan (same error included) —
   whatever the order of their keys, whatever other sections and other keys they carry. *)
From Coq Require Import String Permutation.
From TT Require Import Base.Prelude Base.CliTypes Gen.CliUnicode Model.Cli Spec.CliSpec Proofs.C19.Plan Proofs.C19.Types.

Definition keys_agree (sec : string) (d d' : list (text * json)) : Prop :=
  forall nk, In nk (keys_of sec) -> obj_get (T (fst nk)) d = obj_get (T (fst nk)) d'.
Definition sec_agree (sec : string) (o o' : option json) : Prop :=
  match o, o' with
  | Some (JObj d), Some (JObj d') => keys_agree sec d d'
  | _, _ => o = o'
  end.
Definition consulted (o : options) (name : string) : bool := existsb (String.eqb name) (sections_consulted o).
Definition cfg_agree (o : options) (c c' : option json) : Prop :=
  match c, c' with
  | Some (JObj l), Some (JObj l') => forall name, consulted o name = true -> sec_agree name (obj_get (T name) l) (obj_get (T name) l')
  | _, _ => c = c'
  end.

(* a module parser sees its section through its documented keys only *)
Lemma field_agree {A} sec d d' name (dec : json -> res A) dflt :
  keys_agree sec d d' -> In name (List.map fst (keys_of sec)) -> field d name dec dflt = field d' name dec dflt.
Proof. intros K I. unfold field. apply in_map_iff in I as (nk & <- & I). rewrite (K nk I). reflexivity. Qed.
Ltac fields K := repeat (rewrite (field_agree _ _ _ _ _ _ K) by (cbn; tauto)); reflexivity.
Lemma parse_general_agree d d' : keys_agree "general" d d' -> parse_general d = parse_general d'.
Proof. intro K. unfold parse_general. fields K. Qed.
Lemma parse_imsc_agree d d' : keys_agree "imsc_writer" d d' -> parse_imsc d = parse_imsc d'.
Proof. intro K. unfold parse_imsc. fields K. Qed.
Lemma parse_scc_agree d d' : keys_agree "scc_reader" d d' -> parse_scc d = parse_scc d'.
Proof. intro K. unfold parse_scc. fields K. Qed.
Lemma parse_stl_agree d d' : keys_agree "stl_reader" d d' -> parse_stl d = parse_stl d'.
Proof. intro K. unfold parse_stl. fields K. Qed.
Lemma parse_srt_agree d d' : keys_agree "srt_writer" d d' -> parse_srt d = parse_srt d'.
Proof. intro K. unfold parse_srt. fields K. Qed.
Lemma parse_vtt_agree d d' : keys_agree "vtt_writer" d d' -> parse_vtt d = parse_vtt d'.
Proof. intro K. unfold parse_vtt. fields K. Qed.
Lemma parse_lcd_agree d d' : keys_agree "lcd" d d' -> parse_lcd d = parse_lcd d'.
Proof. intro K. unfold parse_lcd. fields K. Qed.

Lemma read_config_agree {A} o name (parse : list (text * json) -> res A) c c' :
  (forall d d', keys_agree name d d' -> parse d = parse d') -> cfg_agree o c c' -> consulted o name = true ->
  read_config name parse c = read_config name parse c'.
Proof.
  intros P Ag Co. unfold read_config. destruct c as [[]|]; destruct c' as [[]|]; try (inversion Ag; subst; reflexivity); try discriminate Ag.
  specialize (Ag name Co). unfold sec_agree in Ag.
  destruct (obj_get (T name) l) as [[]|]; destruct (obj_get (T name) l0) as [[]|]; try (inversion Ag; subst; reflexivity); try discriminate Ag.
  rewrite (P _ _ Ag). reflexivity.
Qed.
Lemma apply_filters_ext names c c' :
  (existsb spec_known_filter names = true -> read_config "lcd" parse_lcd c = read_config "lcd" parse_lcd c') ->
  apply_filters names c = apply_filters names c'.
Proof.
  induction names as [|n r IH]; intro H; [reflexivity|]. cbn [apply_filters existsb] in *. rewrite <- known_filter_spec in H. unfold known_filter in H.
  destruct (get_filter_by_name n) as [[]|]; cbn [orb] in H.
  - rewrite (H eq_refl), (IH (fun _ => H eq_refl)). reflexivity.
  - exact (IH H).
Qed.

(* convert_with o is Plan.convert_steps o with its steps written out in place; the two are convertible (the `change`
   in plan_depends_on_consulted_keys_only).  Properties/C19.v states its theorems on convert_with. *)
Definition convert_with (o : options) (data : option json) : res plan_t :=
  do g <- read_config "general" parse_general data;
  let progress := match g with Some (_, pb, _) => Some pb | None => None end in
  do level <- match g with
              | Some (ll, _, _) => if is_null ll then Ok None else do z <- check_level ll; Ok (Some z)
              | None => Ok None end;
  do rt <- get_file_type (o_itype o) (splitext (o_input o));
  do wt <- get_file_type (o_otype o) (splitext (o_output o));
  do rd <- match rt with
           | TTML => Ok RdTtml
           | SCC => do c <- read_config "scc_reader" parse_scc data; Ok (RdScc c)
           | STL => do c <- read_config "stl_reader" parse_stl data; Ok (RdStl c)
           | SRT => Ok RdSrt
           | VTT => Ok RdVtt
           end;
  do lang <- match g with
             | Some (_, _, dl) => if is_null dl then Ok None else do s <- check_lang dl; Ok (Some s)
             | None => Ok None end;
  do fs <- apply_filters (o_filters o) data;
  do wr <- match wt with
           | TTML => do c <- read_config "imsc_writer" parse_imsc data; Ok (WrTtml c)
           | SRT => do c <- read_config "srt_writer" parse_srt data; Ok (WrSrt c)
           | VTT => do c <- read_config "vtt_writer" parse_vtt data; Ok (WrVtt c)
           | SCC | STL => Raise EExitUnsupported
           end;
  Ok (Build_plan_t rd lang fs wr level progress).
Lemma convert_load o i f : convert o i f = do data <- load_config i f; convert_with o data.
Proof. reflexivity. Qed.

Lemma find_type_of g p t : get_file_type g (splitext p) = Ok t -> find_type g p = Some t.
Proof. intro G. pose proof (type_find g p) as F. destruct (find_type g p); [congruence|destruct F as (e & F); congruence]. Qed.
Lemma consulted_general o : consulted o "general" = true.
Proof. unfold consulted, sections_consulted. destruct (find_type _ _); [destruct (find_type _ _)|]; reflexivity. Qed.

Lemma bind_ext {A B} (r r' : res A) (f f' : A -> res B) : r = r' -> (forall a, r' = Ok a -> f a = f' a) -> bind r f = bind r' f'.
Proof. intros <- H. destruct r as [a|]; [exact (H a eq_refl)|reflexivity]. Qed.
Theorem plan_depends_on_consulted_keys_only o c c' : cfg_agree o c c' -> convert_with o c = convert_with o c'.
Proof.
  intro Ag. change (convert_steps o c = convert_steps o c'). unfold convert_steps.
  apply bind_ext; [exact (read_config_agree o "general" parse_general c c' parse_general_agree Ag (consulted_general o))|intros g _].
  apply bind_ext; [reflexivity|intros level _]. apply bind_ext; [reflexivity|intros rt Ti]. apply bind_ext; [reflexivity|intros wt To].
  (* from here on the sections in use are known, and each is read the same way from c and c' *)
  assert (RC : forall A name (parse : list (text * json) -> res A), (forall d d', keys_agree name d d' -> parse d = parse d') ->
               In name (sections_in_use rt wt (o_filters o)) -> read_config name parse c = read_config name parse c').
  { intros A name parse PA I. apply (read_config_agree o name parse c c' PA Ag). unfold consulted, sections_consulted.
    rewrite (find_type_of _ _ _ Ti), (find_type_of _ _ _ To). apply existsb_exists. exists name. split; [exact I|apply String.eqb_refl]. }
  apply bind_ext; [|intros rd _].
  { destruct rt; try reflexivity; unfold m_reader; [rewrite (RC _ _ _ parse_scc_agree)|rewrite (RC _ _ _ parse_stl_agree)]; try reflexivity;
      unfold sections_in_use; cbn; tauto. }
  apply bind_ext; [reflexivity|intros lang _]. apply bind_ext; [|intros fs _].
  { apply apply_filters_ext. intro K. apply (RC _ _ _ parse_lcd_agree). unfold sections_in_use. rewrite K, !in_app_iff. cbn. tauto. }
  apply bind_ext; [|reflexivity].
  destruct wt; try reflexivity; unfold m_writer;
    [rewrite (RC _ _ _ parse_imsc_agree)|rewrite (RC _ _ _ parse_srt_agree)|rewrite (RC _ _ _ parse_vtt_agree)];
    try reflexivity; unfold sections_in_use; rewrite !in_app_iff; cbn; tauto.
Qed.

(* obj_get is a fold_left in which the last binding of a key wins: hence the lemmas by app at the end and rev_ind *)
Lemma obj_get_app k l x : obj_get k (l ++ [x]) = if text_eqb k (fst x) then Some (snd x) else obj_get k l.
Proof. unfold obj_get. rewrite fold_left_app. reflexivity. Qed.
Lemma obj_get_cat k a b : obj_get k (a ++ b) = match obj_get k b with Some v => Some v | None => obj_get k a end.
Proof.
  induction b as [|x b IH] using rev_ind; [rewrite app_nil_r; reflexivity|]. rewrite app_assoc, !obj_get_app.
  destruct (text_eqb k (fst x)); [reflexivity|exact IH].
Qed.
Lemma obj_get_mid k l1 n x l2 :
  obj_get k (l1 ++ (n, x) :: l2) = match obj_get k l2 with Some v => Some v | None => if text_eqb k n then Some x else obj_get k l1 end.
Proof.
  rewrite obj_get_cat. change ((n, x) :: l2) with ([(n, x)] ++ l2). rewrite obj_get_cat. destruct (obj_get k l2); [reflexivity|].
  unfold obj_get. cbn [fold_left fst snd]. destruct (text_eqb k n); reflexivity.
Qed.
Lemma obj_get_in k l : NoDup (List.map fst l) -> forall v, obj_get k l = Some v <-> In (k, v) l.
Proof.
  induction l as [|[k' v'] l IH] using rev_ind; intros ND v.
  - split; [discriminate|intros []].
  - rewrite map_app in ND. cbn [List.map fst] in ND. apply NoDup_remove in ND as [ND NI]. rewrite app_nil_r in ND, NI.
    rewrite obj_get_app. cbn [fst snd]. rewrite in_app_iff. cbn [In]. destruct (text_eqb k k') eqn:E.
    + apply text_eqb_eq in E. subst k'. split.
      * intro H; inversion H; subst. right. left. reflexivity.
      * intros [I|[I|[]]]; [exfalso; apply NI; apply in_map_iff; exists (k, v); split; [reflexivity|exact I]|inversion I; reflexivity].
    + rewrite (IH ND v). split; [tauto|]. intros [I|[I|[]]]; [exact I|]. inversion I; subst.
      assert (text_eqb k k = true) by (apply text_eqb_eq; reflexivity). congruence.
Qed.
Lemma obj_get_perm l l' : Permutation l l' -> NoDup (List.map fst l) -> forall k, obj_get k l = obj_get k l'.
Proof.
  intros P ND k. assert (ND' : NoDup (List.map fst l')) by (eapply Permutation_NoDup; [apply Permutation_map; exact P|exact ND]).
  destruct (obj_get k l) as [v|] eqn:E.
  - apply (obj_get_in k l ND) in E. symmetry. apply (obj_get_in k l' ND'). eapply Permutation_in; eassumption.
  - destruct (obj_get k l') as [v|] eqn:E'; [|reflexivity]. apply (obj_get_in k l' ND') in E'.
    apply Permutation_sym in P. pose proof (Permutation_in _ P E') as I. apply (obj_get_in k l ND) in I. congruence.
Qed.
Lemma sec_agree_refl sec o : sec_agree sec o o.
Proof. unfold sec_agree. destruct o as [[]|]; try reflexivity. intros nk _. reflexivity. Qed.
Theorem section_order_irrelevant o l l' :
  Permutation l l' -> NoDup (List.map fst l) -> convert_with o (Some (JObj l)) = convert_with o (Some (JObj l')).
Proof.
  intros P ND. apply plan_depends_on_consulted_keys_only. intros name _. rewrite (obj_get_perm l l' P ND). apply sec_agree_refl.
Qed.
Theorem key_order_irrelevant o l1 l2 name d d' :
  Permutation d d' -> NoDup (List.map fst d) -> ~ In name (List.map fst l2) ->
  convert_with o (Some (JObj (l1 ++ (name, JObj d) :: l2))) = convert_with o (Some (JObj (l1 ++ (name, JObj d') :: l2))).
Proof.
  intros P ND _. apply plan_depends_on_consulted_keys_only. intros sec _. rewrite !obj_get_mid.
  destruct (obj_get (T sec) l2); [apply sec_agree_refl|]. destruct (text_eqb (T sec) name); [|apply sec_agree_refl].
  intros nk _. apply obj_get_perm; assumption.
Qed.
Theorem unrelated_sections_irrelevant o l l' :
  (forall name, consulted o name = true -> obj_get (T name) l = obj_get (T name) l') ->
  convert_with o (Some (JObj l)) = convert_with o (Some (JObj l')).
Proof. intro H. apply plan_depends_on_consulted_keys_only. intros name C. rewrite (H name C). apply sec_agree_refl. Qed.
(* keys README does not document for a section are ignored (README is silent about them; so is the code) *)
Lemma T_inj a b : T a = T b -> a = b.
Proof.
  unfold T. intro E. apply (f_equal (List.map (fun z => Ascii.ascii_of_N (Z.to_N z)))) in E. rewrite !map_map in E.
  assert (Id : forall s, List.map (fun a => Ascii.ascii_of_N (Z.to_N (Z.of_N (Ascii.N_of_ascii a)))) (list_ascii_of_string s) = list_ascii_of_string s).
  { intro s. induction (list_ascii_of_string s) as [|c r IH]; [reflexivity|]. cbn [List.map]. rewrite N2Z.id, Ascii.ascii_N_embedding, IH. reflexivity. }
  rewrite !Id in E. rewrite <- (string_of_list_ascii_of_string a), <- (string_of_list_ascii_of_string b), E. reflexivity.
Qed.
Definition known_key (sec : string) (k : text) : bool := existsb (fun nk => text_eqb (T (fst nk)) k) (keys_of sec).
Theorem unknown_key_ignored o l1 l2 name d1 d2 k v :
  known_key name k = false ->
  convert_with o (Some (JObj (l1 ++ (T name, JObj (d1 ++ (k, v) :: d2)) :: l2))) =
  convert_with o (Some (JObj (l1 ++ (T name, JObj (d1 ++ d2)) :: l2))).
Proof.
  intro U. apply plan_depends_on_consulted_keys_only. intros sec _. rewrite !obj_get_mid.
  destruct (obj_get (T sec) l2); [apply sec_agree_refl|]. destruct (text_eqb (T sec) (T name)) eqn:E; [|apply sec_agree_refl].
  apply text_eqb_eq, T_inj in E. subst sec. cbn [sec_agree]. intros nk I.
  assert (N : text_eqb (T (fst nk)) k = false).
  { destruct (text_eqb (T (fst nk)) k) eqn:X; [|reflexivity]. exfalso.
    assert (K : known_key name k = true) by (unfold known_key; apply existsb_exists; exists nk; split; assumption). congruence. }
  rewrite obj_get_mid, obj_get_cat, N. reflexivity.
Qed.
