(* C19: lcd.color / lcd.bg_color.  For every string free of upper-case letters, ASCII white space and non-ASCII characters
   (the colour trigger of finding undocumented-values-accepted) and no longer than CPython's int() digit limit
   (finding documented-values-rejected),
   ttconv.utils.parse_color (Model/Cli.v) accepts it exactly when it is a TTML2 <color> (Spec/CliSpec.v color_ok) and then
   returns the RGBA value TTML2 gives it (mean_color_text).  null is documented and means "not specified"; any other
   non-string is rejected. *)
From Coq Require Import String.
From TT Require Import Base.Prelude Base.CliTypes Gen.CliUnicode Model.Cli Spec.CliSpec Proofs.C19.Accept.

Definition cplain (c : Z) : bool := negb (upper_letter c || ascii_space c || (128 <=? c)).
Lemma trigger_plain s : existsb (fun c => upper_letter c || ascii_space c || (128 <=? c)) s = false -> forallb cplain s = true.
Proof.
  induction s as [|c s IH]; [reflexivity|]. cbn [existsb forallb]. intro H. apply orb_false_iff in H as [A B].
  unfold cplain at 1. rewrite A, (IH B). reflexivity.
Qed.
Lemma cplain_app a b : forallb cplain (a ++ b) = true -> forallb cplain a = true /\ forallb cplain b = true.
Proof. rewrite forallb_app. apply andb_true_iff. Qed.
Lemma py_lower_plain s : forallb cplain s = true -> py_lower s = s.
Proof. intro H. apply py_lower_fix. revert H. apply forallb_impl. unfold cplain, upper_letter. lia. Qed.
Lemma space_is_ascii c : is_ascii_space c = ascii_space c.
Proof. unfold is_ascii_space, ascii_space, mem, re_ascii_spaces. cbn [existsb]. lia. Qed.
Lemma skip_plain s : forallb cplain s = true -> skip is_ascii_space s = s.
Proof.
  destruct s as [|c s]; [reflexivity|]. cbn [forallb skip]. intro H. apply andb_true_iff in H as [L _].
  rewrite space_is_ascii. unfold cplain in L. destruct (ascii_space c); [|reflexivity].
  rewrite orb_true_r in L. discriminate L.
Qed.

(* M's named_colors and S's ttml_named_colors are both projections of ttml_named_rgba; `named` is the common lookup *)
Lemma named_tables : named_colors = List.map (fun nc => (T (fst nc), snd nc)) ttml_named_rgba /\
                     ttml_named_colors = List.map fst ttml_named_rgba.
Proof. vm_compute. split; reflexivity. Qed.
Lemma assoc_find {A} s (l : list (string * A)) :
  assocT s (List.map (fun nc => (T (fst nc), snd nc)) l) = option_map snd (find (fun nc => text_eqb s (T (fst nc))) l).
Proof. induction l as [|[n v] l IH]; [reflexivity|]. cbn [List.map assocT find fst snd]. destruct (text_eqb s (T n)); [reflexivity|exact IH]. Qed.
Lemma one_of_find {A} s (l : list (string * A)) :
  one_of s (List.map fst l) = match find (fun nc => text_eqb s (T (fst nc))) l with Some _ => true | None => false end.
Proof.
  unfold one_of. induction l as [|[n v] l IH]; [reflexivity|]. cbn [List.map existsb find fst].
  destruct (text_eqb s (T n)); [reflexivity|exact IH].
Qed.
Definition named (s : text) : option rgba := option_map snd (find (fun nc => text_eqb s (T (fst nc))) ttml_named_rgba).
Lemma named_model s : assocT s named_colors = named s.
Proof. rewrite (proj1 named_tables). apply assoc_find. Qed.
Lemma named_spec s : one_of s ttml_named_colors = match named s with Some _ => true | None => false end.
Proof. rewrite (proj2 named_tables), one_of_find. unfold named. destruct (find _ _); reflexivity. Qed.
Lemma named_not_hex h : named (35 :: h) = None.
Proof. reflexivity. Qed.
Lemma named_not_rgb x : named (114 :: 103 :: 98 :: 40 :: x) = None.
Proof. reflexivity. Qed.
Lemma named_not_rgba x : named (114 :: 103 :: 98 :: 97 :: 40 :: x) = None.
Proof. reflexivity. Qed.

Lemma hexval_hexdigit c : hexval c = if hexdigit c then Some (hexv c) else None.
Proof.
  unfold hexval, hexdigit, hexv. change (is_d c) with (digit c).
  destruct (digit c); [reflexivity|]. cbn [orb]. destruct ((65 <=? c) && (c <=? 70)); [reflexivity|]. cbn [orb].
  destruct ((97 <=? c) && (c <=? 102)); reflexivity.
Qed.
Lemma hex2_pair a b : hex2 a b = if hexdigit a && hexdigit b then Some (hexpair a b) else None.
Proof. unfold hex2, hexpair. rewrite !hexval_hexdigit. destruct (hexdigit a); destruct (hexdigit b); reflexivity. Qed.
Definition hex_form (s : text) : bool :=
  match s with
  | c0 :: h => (c0 =? 35) && forallb hexdigit h && ((Z.of_nat (length h) =? 6) || (Z.of_nat (length h) =? 8))
  | [] => false
  end.
Definition hex_mean (s : text) : option rgba :=
  match s with
  | c0 :: h => if c0 =? 35 then
                 match h with
                 | [r1; r2; g1; g2; b1; b2] => Some (hexpair r1 r2, hexpair g1 g2, hexpair b1 b2, 255)
                 | [r1; r2; g1; g2; b1; b2; a1; a2] => Some (hexpair r1 r2, hexpair g1 g2, hexpair b1 b2, hexpair a1 a2)
                 | _ => None
                 end
               else None
  | [] => None
  end.
Lemma match_hex_spec s : match_hex s = if hex_form s then hex_mean s else None.
Proof.
  unfold match_hex, hex_form, hex_mean. destruct s as [|c0 h]; [reflexivity|]. destruct (c0 =? 35); [|reflexivity]. cbn [andb].
  destruct h as [|r1 [|r2 [|g1 [|g2 [|b1 [|b2 [|a1 [|a2 [|x h]]]]]]]]];
    try (destruct (forallb hexdigit _); reflexivity).
  - rewrite !hex2_pair. cbn [forallb]. destruct (hexdigit r1); [|reflexivity]. destruct (hexdigit r2); [|reflexivity]. destruct (hexdigit g1); [|reflexivity].
    destruct (hexdigit g2); [|reflexivity]. destruct (hexdigit b1); [|reflexivity]. destruct (hexdigit b2); reflexivity.
  - rewrite !hex2_pair. cbn [forallb]. destruct (hexdigit r1); [|reflexivity]. destruct (hexdigit r2); [|reflexivity]. destruct (hexdigit g1); [|reflexivity].
    destruct (hexdigit g2); [|reflexivity]. destruct (hexdigit b1); [|reflexivity]. destruct (hexdigit b2); [|reflexivity].
    destruct (hexdigit a1); [|reflexivity]. destruct (hexdigit a2); reflexivity.
  - assert (E : (Z.of_nat (length (r1 :: r2 :: g1 :: g2 :: b1 :: b2 :: a1 :: a2 :: x :: h)) =? 6) || (Z.of_nat (length (r1 :: r2 :: g1 :: g2 :: b1 :: b2 :: a1 :: a2 :: x :: h)) =? 8) = false)
      by (cbn [length]; lia).
    rewrite E, andb_false_r. reflexivity.
Qed.
Lemma hex_form_shape s : hex_form s = true -> exists h, s = 35 :: h.
Proof. destruct s as [|c0 h]; [discriminate|]. cbn [hex_form]. intro H. destruct (c0 =? 35) eqn:E; [|discriminate H]. apply Z.eqb_eq in E. subst. eauto. Qed.
Lemma hex_form_mean s : hex_form s = true -> exists c, hex_mean s = Some c.
Proof.
  destruct s as [|c0 h]; [discriminate|]. cbn [hex_form hex_mean]. destruct (c0 =? 35); [|discriminate]. cbn [andb]. intro H.
  apply andb_true_iff in H as [_ L].
  destruct h as [|r1 [|r2 [|g1 [|g2 [|b1 [|b2 [|a1 [|a2 [|x h]]]]]]]]]; cbn [length] in L; try lia; eauto.
Qed.

Lemma dstep_mono s acc : forallb digit s = true -> 0 <= acc -> acc <= fold_left dstep s acc.
Proof.
  revert acc; induction s as [|c s IH]; intros acc D A; [cbn; lia|]. cbn [forallb] in D. apply andb_true_iff in D as [Dc Ds].
  cbn [fold_left]. assert (acc <= dstep acc c) by (unfold dstep, digit in *; lia). specialize (IH (dstep acc c) Ds). lia.
Qed.
Lemma dval_drop_zeros s : dval (drop_zeros s) = dval s.
Proof.
  induction s as [|c s IH]; [reflexivity|]. cbn [drop_zeros]. destruct (Z.eq_dec c 48) as [->|N].
  - cbn [drop_zeros]. rewrite IH. reflexivity.
  - destruct c as [|p|p]; try reflexivity. repeat (destruct p as [p|p|]; try reflexivity). contradiction.
Qed.
Lemma drop_zeros_digits s : forallb digit s = true -> forallb digit (drop_zeros s) = true /\ match drop_zeros s with c :: _ => c <> 48 | [] => True end.
Proof.
  induction s as [|c s IH]; [split; [reflexivity|exact I]|]. cbn [forallb]. intro H. apply andb_true_iff in H as [Dc Ds].
  destruct (Z.eq_dec c 48) as [->|N].
  - cbn [drop_zeros]. exact (IH Ds).
  - assert (E : drop_zeros (c :: s) = c :: s).
    { destruct c as [|p|p]; try reflexivity. repeat (destruct p as [p|p|]; try reflexivity). contradiction. }
    rewrite E. split; [cbn [forallb]; rewrite Dc, Ds; reflexivity|exact N].
Qed.
Lemma component_range s : all_digits s = true -> component_ok s = (dval s <=? 255).
Proof.
  intro A. unfold component_ok. rewrite A. cbn [andb]. pose proof (all_digits_forall _ A) as F.
  destruct (drop_zeros_digits s F) as [Fd Nz]. rewrite <- (dval_drop_zeros s).
  destruct (drop_zeros s) as [|a [|b [|c [|d r]]]]; unfold dval; cbn [fold_left forallb] in *; unfold dstep, digit in *.
  - reflexivity.
  - lia.
  - lia.
  - destruct ((a <? 50) || ((a =? 50) && ((b <? 53) || ((b =? 53) && (c <=? 53))))) eqn:E; lia.
  - apply andb_true_iff in Fd as [Da Fd]. apply andb_true_iff in Fd as [Db Fd]. apply andb_true_iff in Fd as [Dc Fd]. apply andb_true_iff in Fd as [Dd Fr].
    set (acc := (((0 * 10 + (a - 48)) * 10 + (b - 48)) * 10 + (c - 48)) * 10 + (d - 48)).
    assert (1000 <= acc) by (unfold acc; lia).
    pose proof (dstep_mono r acc Fr ltac:(lia)) as M. unfold dstep in M. fold acc. symmetry. apply Z.leb_gt. lia.
Qed.
Lemma color_component_spec s : all_digits s = true -> (Z.of_nat (length s) <=? 4300) = true ->
  color_component s = if component_ok s then Ok (number s) else Raise EValue.
Proof.
  intros A L. unfold color_component. rewrite (int_of_digits_ok _ L). cbn [bind]. rewrite (component_range _ A), number_dval.
  destruct (dval s <=? 255) eqn:E; [assert ((255 <? dval s) = false) as -> by lia|assert ((255 <? dval s) = true) as -> by lia]; reflexivity.
Qed.

Lemma span_digits d c rest : forallb digit d = true -> is_d c = false -> span is_d (d ++ c :: rest) = (d, c :: rest).
Proof.
  intros D N. induction d as [|x d IH]; cbn [app span].
  - rewrite N. reflexivity.
  - cbn [forallb] in D. apply andb_true_iff in D as [Dx Dd]. change (is_d x) with (digit x). rewrite Dx, (IH Dd). reflexivity.
Qed.
Lemma span_inv s d r : span is_d s = (d, r) -> s = d ++ r /\ forallb digit d = true.
Proof.
  revert d r; induction s as [|c s IH]; intros d r H; cbn [span] in H.
  - inversion H; subst. split; reflexivity.
  - destruct (is_d c) eqn:E.
    + destruct (span is_d s) as [a b]. inversion H; subst. destruct (IH _ _ eq_refl) as [-> F]. split; [reflexivity|].
      cbn [forallb]. change (digit c) with (is_d c). rewrite E, F. reflexivity.
    + inversion H; subst. split; reflexivity.
Qed.
Definition sep_char (c : Z) : Prop := c = 44 \/ c = 41.
Lemma sep_not_digit c : sep_char c -> is_d c = false.
Proof. intros [-> | ->]; reflexivity. Qed.
Lemma digits1_ok d c rest : all_digits d = true -> sep_char c -> digits1 (d ++ c :: rest) = Some (d, c :: rest).
Proof.
  intros D S. pose proof (all_digits_forall _ D) as F. unfold digits1. rewrite (span_digits _ _ _ F (sep_not_digit _ S)).
  destruct d; [discriminate D|reflexivity].
Qed.
Lemma digits1_inv s d r : digits1 s = Some (d, r) -> s = d ++ r /\ all_digits d = true.
Proof.
  unfold digits1. destruct (span is_d s) as [a b] eqn:E. destruct (span_inv _ _ _ E) as [-> F].
  destruct a as [|x a]; [discriminate|]. intro H; inversion H; subst. split; [reflexivity|exact F].
Qed.
Lemma digit_plain c : digit c = true -> cplain c = true.
Proof. unfold digit, cplain, upper_letter, ascii_space. intro H. apply negb_true_iff. lia. Qed.
Lemma digits_plain d : forallb digit d = true -> forallb cplain d = true.
Proof. apply forallb_impl. exact digit_plain. Qed.
Lemma skip_at_digits d rest : all_digits d = true -> skip is_ascii_space (d ++ rest) = d ++ rest.
Proof.
  intro D. destruct d as [|x d]; [discriminate D|]. cbn [app skip]. rewrite space_is_ascii.
  cbn [all_digits forallb] in D. apply andb_true_iff in D as [Dx _]. unfold digit, ascii_space in *.
  destruct (((9 <=? x) && (x <=? 13)) || (x =? 32)) eqn:E; [lia|reflexivity].
Qed.
Lemma sp_digits_sp_ok d c rest : all_digits d = true -> sep_char c -> sp_digits_sp (d ++ c :: rest) = Some (d, c :: rest).
Proof.
  intros D S. unfold sp_digits_sp.
  rewrite (skip_at_digits _ _ D), (digits1_ok _ _ _ D S). cbn [obind fst snd skip]. rewrite space_is_ascii.
  destruct S as [-> | ->]; reflexivity.
Qed.
Lemma sp_digits_sp_inv s : forallb cplain s = true -> forall d r, sp_digits_sp s = Some (d, r) -> s = d ++ r /\ all_digits d = true.
Proof.
  intros P d r. unfold sp_digits_sp. rewrite (skip_plain _ P). destruct (digits1 s) as [[a b]|] eqn:E; [|discriminate].
  cbn [obind fst snd]. destruct (digits1_inv _ _ _ E) as [-> A]. destruct (cplain_app _ _ P) as [_ Pb].
  rewrite (skip_plain _ Pb). intro H; inversion H; subst. split; [reflexivity|exact A].
Qed.
(* Model/Cli.v strip_prefix and Spec/CliSpec.v strip_pre are the same function *)
Lemma strip_pre_app p s r : strip_pre p s = Some r -> s = p ++ r.
Proof.
  revert s; induction p as [|a p IH]; intros s H; cbn [strip_pre] in H.
  - inversion H; reflexivity.
  - destruct s as [|b s]; [discriminate|]. destruct (a =? b) eqn:E; [|discriminate].
    apply Z.eqb_eq in E. subst b. cbn [app]. f_equal. apply IH. exact H.
Qed.
Lemma at_end_inv {A} (a b : A) rest : at_end a rest = Some b -> rest = [] /\ a = b.
Proof. destruct rest; [|discriminate]. intro H; inversion H; split; reflexivity. Qed.

(* S reads rgb()/rgba() by stripping both ends and splitting at commas (rgb_form); M scans left to right
   (match_rgb).  Both are characterised as "is rgb_text a b c for digit strings a b c", which is where they meet. *)
Lemma strip_pre_ok p r : strip_pre p (p ++ r) = Some r.
Proof. induction p as [|a p IH]; [reflexivity|]. cbn [app strip_pre]. rewrite Z.eqb_refl. exact IH. Qed.
Lemma strip_last_app c s m : strip_last c s = Some m -> s = m ++ [c].
Proof.
  unfold strip_last. destruct (rev s) as [|l t] eqn:R; [discriminate|]. destruct (l =? c) eqn:E; [|discriminate].
  intro H. inversion H; subst. apply Z.eqb_eq in E. subst l.
  rewrite <- (rev_involutive s), R. reflexivity.
Qed.
Lemma strip_last_ok c m : strip_last c (m ++ [c]) = Some m.
Proof. unfold strip_last. rewrite rev_app_distr. cbn [rev app]. rewrite Z.eqb_refl, rev_involutive. reflexivity. Qed.
Lemma no_comma d : all_digits d = true -> forallb (fun x => negb (x =? 44)) d = true.
Proof. intro D. exact (digits_lack 44 d eq_refl (all_digits_forall d D)). Qed.
Definition rgb_text (a b c : text) : text := [114; 103; 98; 40] ++ (a ++ 44 :: b ++ 44 :: c) ++ [41].
Definition rgba_text (a b c d : text) : text := [114; 103; 98; 97; 40] ++ (a ++ 44 :: b ++ 44 :: c ++ 44 :: d) ++ [41].
Definition rgb_form (comp : text -> bool) (s : text) : bool :=
  match strip_both (T "rgb(") 41 s with
  | Some body => match fields 44 body with [r; g; b] => forallb comp [r; g; b] | _ => false end
  | None => false
  end.
Definition rgba_form (comp : text -> bool) (s : text) : bool :=
  match strip_both (T "rgba(") 41 s with
  | Some body => match fields 44 body with [r; g; b; a] => forallb comp [r; g; b; a] | _ => false end
  | None => false
  end.
Lemma color_form_split comp s : color_form comp s = one_of s ttml_named_colors || hex_form s || rgb_form comp s || rgba_form comp s.
Proof. reflexivity. Qed.
Lemma component_digits x : component_ok x = true -> all_digits x = true.
Proof. unfold component_ok. intro H. apply andb_true_iff in H as [H _]. exact H. Qed.
Lemma rgb_form_inv s : rgb_form component_ok s = true ->
  exists a b c, s = rgb_text a b c /\ component_ok a = true /\ component_ok b = true /\ component_ok c = true.
Proof.
  unfold rgb_form, strip_both. destruct (strip_pre (T "rgb(") s) as [r|] eqn:P; [|discriminate].
  destruct (strip_last 41 r) as [body|] eqn:Q; [|discriminate]. pose proof (fields_join 44 body) as J.
  destruct (fields 44 body) as [|a [|b [|c [|]]]]; try discriminate. cbn [forallb]. intro H.
  apply andb_true_iff in H as [Ha H]. apply andb_true_iff in H as [Hb H]. apply andb_true_iff in H as [Hc _].
  exists a, b, c. apply strip_pre_app in P. apply strip_last_app in Q. cbn [join] in J. subst. repeat split; assumption.
Qed.
Lemma rgb_text_fields a b c : all_digits a = true -> all_digits b = true -> all_digits c = true ->
  strip_both (T "rgb(") 41 (rgb_text a b c) = Some (a ++ 44 :: b ++ 44 :: c) /\ fields 44 (a ++ 44 :: b ++ 44 :: c) = [a; b; c].
Proof.
  intros A B C. split.
  - unfold strip_both, rgb_text. change (T "rgb(") with [114; 103; 98; 40]. rewrite strip_pre_ok. apply strip_last_ok.
  - rewrite (fields_app 44 a _ (no_comma a A)), (fields_app 44 b _ (no_comma b B)), (fields_last 44 c (no_comma c C)). reflexivity.
Qed.
Lemma rgba_form_inv s : rgba_form component_ok s = true ->
  exists a b c d, s = rgba_text a b c d /\ component_ok a = true /\ component_ok b = true /\ component_ok c = true /\ component_ok d = true.
Proof.
  unfold rgba_form, strip_both. destruct (strip_pre (T "rgba(") s) as [r|] eqn:P; [|discriminate].
  destruct (strip_last 41 r) as [body|] eqn:Q; [|discriminate]. pose proof (fields_join 44 body) as J.
  destruct (fields 44 body) as [|a [|b [|c [|d [|]]]]]; try discriminate. cbn [forallb]. intro H.
  apply andb_true_iff in H as [Ha H]. apply andb_true_iff in H as [Hb H]. apply andb_true_iff in H as [Hc H]. apply andb_true_iff in H as [Hd _].
  exists a, b, c, d. apply strip_pre_app in P. apply strip_last_app in Q. cbn [join] in J. subst. repeat split; assumption.
Qed.
Lemma rgba_text_fields a b c d : all_digits a = true -> all_digits b = true -> all_digits c = true -> all_digits d = true ->
  strip_both (T "rgba(") 41 (rgba_text a b c d) = Some (a ++ 44 :: b ++ 44 :: c ++ 44 :: d) /\
  fields 44 (a ++ 44 :: b ++ 44 :: c ++ 44 :: d) = [a; b; c; d].
Proof.
  intros A B C D. split.
  - unfold strip_both, rgba_text. change (T "rgba(") with [114; 103; 98; 97; 40]. rewrite strip_pre_ok. apply strip_last_ok.
  - rewrite (fields_app 44 a _ (no_comma a A)), (fields_app 44 b _ (no_comma b B)), (fields_app 44 c _ (no_comma c C)),
            (fields_last 44 d (no_comma d D)). reflexivity.
Qed.

Lemma match_rgb_ok a b c : all_digits a = true -> all_digits b = true -> all_digits c = true ->
  match_rgb (rgb_text a b c) = Some (a, b, c).
Proof.
  intros A B C. unfold match_rgb, rgb_text. change (T "rgb(") with [114; 103; 98; 40]. cbn [app strip_prefix Z.eqb Pos.eqb obind].
  rewrite <- !app_assoc. cbn [app].
  rewrite (sp_digits_sp_ok a 44 _ A (or_introl eq_refl)). cbn [obind fst snd strip_prefix Z.eqb Pos.eqb].
  rewrite <- !app_assoc. cbn [app].
  rewrite (sp_digits_sp_ok b 44 _ B (or_introl eq_refl)). cbn [obind fst snd strip_prefix Z.eqb Pos.eqb].
  rewrite (sp_digits_sp_ok c 41 _ C (or_intror eq_refl)). cbn [obind fst snd strip_prefix Z.eqb Pos.eqb at_end]. reflexivity.
Qed.
Ltac norm_app := cbn [app]; rewrite <- ?app_assoc; cbn [app]; rewrite <- ?app_assoc; cbn [app]; rewrite <- ?app_assoc; cbn [app];
                 rewrite <- ?app_assoc; cbn [app].
(* one step of the two scanners on a plain string: digits (found by p), then the separator c *)
Lemma comp_inv {X} (p : text -> option (text * text)) c s (k : text * text -> text -> option X) x :
  (forall d r, p s = Some (d, r) -> s = d ++ r /\ all_digits d = true) -> forallb cplain s = true ->
  obind (p s) (fun dr => obind (strip_prefix [c] (snd dr)) (k dr)) = Some x ->
  exists d r s', s = d ++ c :: s' /\ all_digits d = true /\ forallb cplain s' = true /\ k (d, r) s' = Some x.
Proof.
  intros Sc P. destruct (p s) as [[d r]|]; [|discriminate]. destruct (Sc d r eq_refl) as [-> A]. cbn [obind snd].
  destruct (strip_prefix [c] r) as [s'|] eqn:E; [|discriminate]. apply strip_pre_app in E. subst r.
  destruct (cplain_app _ _ P) as [_ Pr]. destruct (cplain_app [c] _ Pr) as [_ P']. cbn [obind app]. eauto 8.
Qed.
Lemma match_rgb_inv s a b c : forallb cplain s = true -> match_rgb s = Some (a, b, c) ->
  s = rgb_text a b c /\ all_digits a = true /\ all_digits b = true /\ all_digits c = true.
Proof.
  intros P. unfold match_rgb.
  destruct (strip_prefix (T "rgb(") s) as [s1|] eqn:E1; [|discriminate]. cbn [obind].
  apply strip_pre_app in E1. subst s. destruct (cplain_app _ _ P) as [_ P1]. intro H.
  apply comp_inv in H as (d1 & r1 & s2 & -> & A & P2 & H); [|exact (sp_digits_sp_inv _ P1)|exact P1].
  apply comp_inv in H as (d2 & r2 & s3 & -> & B & P3 & H); [|exact (sp_digits_sp_inv _ P2)|exact P2].
  apply comp_inv in H as (d3 & r3 & rest & -> & C & _ & H); [|exact (sp_digits_sp_inv _ P3)|exact P3].
  apply at_end_inv in H as [-> H]. inversion H; subst.
  split; [|auto]. unfold rgb_text. change (T "rgb(") with [114; 103; 98; 40]. norm_app. reflexivity.
Qed.
Lemma match_rgba_ok a b c d : all_digits a = true -> all_digits b = true -> all_digits c = true -> all_digits d = true ->
  match_rgba (rgba_text a b c d) = Some (a, b, c, d).
Proof.
  intros A B C D. unfold match_rgba, rgba_text. change (T "rgba(") with [114; 103; 98; 97; 40]. cbn [app strip_prefix Z.eqb Pos.eqb obind].
  rewrite <- !app_assoc. cbn [app].
  rewrite (skip_at_digits _ _ A), (digits1_ok a 44 _ A (or_introl eq_refl)). cbn [obind fst snd strip_prefix Z.eqb Pos.eqb].
  rewrite <- !app_assoc. cbn [app].
  rewrite (sp_digits_sp_ok b 44 _ B (or_introl eq_refl)). cbn [obind fst snd strip_prefix Z.eqb Pos.eqb].
  rewrite <- !app_assoc. cbn [app].
  rewrite (sp_digits_sp_ok c 44 _ C (or_introl eq_refl)). cbn [obind fst snd strip_prefix Z.eqb Pos.eqb].
  rewrite (sp_digits_sp_ok d 41 _ D (or_intror eq_refl)). cbn [obind fst snd strip_prefix Z.eqb Pos.eqb at_end]. reflexivity.
Qed.
Lemma match_rgba_inv s a b c d : forallb cplain s = true -> match_rgba s = Some (a, b, c, d) ->
  s = rgba_text a b c d /\ all_digits a = true /\ all_digits b = true /\ all_digits c = true /\ all_digits d = true.
Proof.
  intros P. unfold match_rgba.
  destruct (strip_prefix (T "rgba(") s) as [s1|] eqn:E1; [|discriminate]. cbn [obind].
  apply strip_pre_app in E1. subst s. destruct (cplain_app _ _ P) as [_ P1]. rewrite (skip_plain _ P1). intro H.
  apply comp_inv in H as (d1 & r1 & s2 & -> & A & P2 & H); [|exact (digits1_inv _)|exact P1].
  apply comp_inv in H as (d2 & r2 & s3 & -> & B & P3 & H); [|exact (sp_digits_sp_inv _ P2)|exact P2].
  apply comp_inv in H as (d3 & r3 & s4 & -> & C & P4 & H); [|exact (sp_digits_sp_inv _ P3)|exact P3].
  apply comp_inv in H as (d4 & r4 & rest & -> & D & _ & H); [|exact (sp_digits_sp_inv _ P4)|exact P4].
  apply at_end_inv in H as [-> H]. inversion H; subst.
  split; [|auto]. unfold rgba_text. change (T "rgba(") with [114; 103; 98; 97; 40]. norm_app. reflexivity.
Qed.

Lemma rgba_text_other a b c d :
  named (rgba_text a b c d) = None /\ hex_form (rgba_text a b c d) = false /\ match_hex (rgba_text a b c d) = None /\
  rgb_form component_ok (rgba_text a b c d) = false /\ match_rgb (rgba_text a b c d) = None.
Proof. repeat split; reflexivity. Qed.

Lemma length_rgb a b c : (length a <= length (rgb_text a b c) /\ length b <= length (rgb_text a b c) /\ length c <= length (rgb_text a b c))%nat.
Proof. unfold rgb_text. repeat (rewrite app_length; cbn [length]). lia. Qed.
Lemma length_rgba a b c d : (length a <= length (rgba_text a b c d) /\ length b <= length (rgba_text a b c d) /\
                              length c <= length (rgba_text a b c d) /\ length d <= length (rgba_text a b c d))%nat.
Proof. unfold rgba_text. repeat (rewrite app_length; cbn [length]). lia. Qed.

Definition color_value (s : text) : option rgba := if color_ok s then mean_color_text s else None.
Lemma mean_unfold s : mean_color_text s =
  match named s with
  | Some c => Some c
  | None => match hex_mean s with
            | Some c => Some c
            | None => match strip_both (T "rgb(") 41 s with
                      | Some body => match fields 44 body with [r; g; b] => Some (number r, number g, number b, 255) | _ => None end
                      | None => match strip_both (T "rgba(") 41 s with
                                | Some body => match fields 44 body with [r; g; b; a] => Some (number r, number g, number b, number a) | _ => None end
                                | None => None
                                end
                      end
            end
  end.
Proof.
  unfold mean_color_text, named. destruct (find _ ttml_named_rgba) as [nc|]; [reflexivity|]. cbn [option_map].
  unfold hex_mean. reflexivity.
Qed.
(* a string that begins with '#' needs no cplain hypothesis: hexdigit takes both cases, and no lower-casing or
   white-space skipping can turn it into one of the other notations *)
Theorem parse_color_hash h :
  parse_color (35 :: h) = match color_value (35 :: h) with Some c => Ok c | None => Raise EValue end /\
  (color_ok (35 :: h) = true -> color_value (35 :: h) <> None).
Proof.
  unfold parse_color, color_value, color_ok. rewrite color_form_split, named_spec, mean_unfold.
  change (py_lower (35 :: h)) with (35 :: py_lower h). rewrite named_model, !named_not_hex. cbn [orb].
  rewrite match_hex_spec.
  assert (R3 : rgb_form component_ok (35 :: h) = false) by reflexivity. assert (R4 : rgba_form component_ok (35 :: h) = false) by reflexivity.
  assert (M3 : match_rgb (35 :: h) = None) by reflexivity. assert (M4 : match_rgba (35 :: h) = None) by reflexivity.
  rewrite R3, R4, M3, M4, !orb_false_r. destruct (hex_form (35 :: h)) eqn:H.
  - destruct (hex_form_mean _ H) as (c & ->). split; [reflexivity|discriminate].
  - split; [reflexivity|discriminate].
Qed.

Theorem parse_color_spec s :
  forallb cplain s = true -> (Z.of_nat (length s) <=? 4300) = true ->
  parse_color s = match color_value s with Some c => Ok c | None => Raise EValue end /\
  (color_ok s = true -> color_value s <> None).
Proof.
  intros P Len. destruct (match s with c0 :: _ => c0 =? 35 | [] => false end) eqn:E35.
  { destruct s as [|c0 h]; [discriminate E35|]. apply Z.eqb_eq in E35. subst c0. apply parse_color_hash. }
  assert (Hx : match_hex s = None /\ hex_form s = false /\ hex_mean s = None).
  { destruct s as [|c0 h]; [|cbn [match_hex hex_form hex_mean]; rewrite E35]; repeat split; reflexivity. }
  destruct Hx as (Hx & Hf & Hm).
  unfold parse_color, color_value, color_ok. rewrite color_form_split, named_spec, (py_lower_plain _ P), named_model, mean_unfold, Hx, Hf, Hm.
  destruct (named s) as [cn|] eqn:N; [split; [reflexivity|discriminate]|]. cbn [orb].
  destruct (match_rgb s) as [[[a b] c]|] eqn:M.
  - destruct (match_rgb_inv _ _ _ _ P M) as (-> & A & B & C).
    assert (R4 : rgba_form component_ok (rgb_text a b c) = false) by reflexivity. rewrite R4, orb_false_r.
    destruct (rgb_text_fields a b c A B C) as [SB F]. unfold rgb_form. rewrite SB, F. cbn [forallb]. rewrite andb_true_r.
    destruct (length_rgb a b c) as (La & Lb & Lc).
    rewrite (color_component_spec a A) by lia. rewrite (color_component_spec b B) by lia. rewrite (color_component_spec c C) by lia.
    destruct (component_ok a); cbn [bind andb]; [|split; [reflexivity|discriminate]].
    destruct (component_ok b); cbn [bind andb]; [|split; [reflexivity|discriminate]].
    destruct (component_ok c); cbn [bind andb]; split; try reflexivity; discriminate.
  - assert (R3 : rgb_form component_ok s = false).
    { destruct (rgb_form component_ok s) eqn:R; [|reflexivity]. destruct (rgb_form_inv _ R) as (a & b & c & -> & Ha & Hb & Hc).
      rewrite (match_rgb_ok a b c (component_digits _ Ha) (component_digits _ Hb) (component_digits _ Hc)) in M. discriminate M. }
    rewrite R3. cbn [orb].
    destruct (match_rgba s) as [[[[a b] c] d]|] eqn:M4.
    + destruct (match_rgba_inv _ _ _ _ _ P M4) as (-> & A & B & C & D).
      destruct (rgba_text_fields a b c d A B C D) as [SB F]. unfold rgba_form. rewrite SB, F. cbn [forallb]. rewrite andb_true_r.
      assert (S3 : strip_both (T "rgb(") 41 (rgba_text a b c d) = None) by reflexivity. rewrite S3.
      destruct (length_rgba a b c d) as (La & Lb & Lc & Ld).
      rewrite (color_component_spec a A) by lia. rewrite (color_component_spec b B) by lia. rewrite (color_component_spec c C) by lia.
      rewrite (color_component_spec d D) by lia.
      destruct (component_ok a); cbn [bind andb]; [|split; [reflexivity|discriminate]].
      destruct (component_ok b); cbn [bind andb]; [|split; [reflexivity|discriminate]].
      destruct (component_ok c); cbn [bind andb]; [|split; [reflexivity|discriminate]].
      destruct (component_ok d); cbn [bind andb]; split; try reflexivity; discriminate.
    + assert (R4 : rgba_form component_ok s = false).
      { destruct (rgba_form component_ok s) eqn:R; [|reflexivity]. destruct (rgba_form_inv _ R) as (a & b & c & d & -> & Ha & Hb & Hc & Hd).
        rewrite (match_rgba_ok a b c d (component_digits _ Ha) (component_digits _ Hb) (component_digits _ Hc) (component_digits _ Hd)) in M4.
        discriminate M4. }
      rewrite R4. split; [reflexivity|discriminate].
Qed.

Theorem acc_color k v : color_key k = true -> trigger k v = false -> exact k v.
Proof.
  intros K Tr. apply trigger_false in Tr as (L & R).
  assert (X : exact KColor v -> exact k v) by (destruct k; try discriminate K; exact (fun x => x)).
  apply X. clear X.
  assert (L' : trigger_lenient KColor v = false) by (destruct k; try discriminate K; exact L).
  assert (R' : trigger_rejected KColor v = false) by (destruct k; try discriminate K; exact R).
  clear L R K k.
  destruct v; try (apply exact_of_decode; intro H; try discriminate H; reflexivity).
  cbn [trigger_lenient trigger_rejected] in L', R'.
  assert (Sp : parse_color s = match color_value s with Some c => Ok c | None => Raise EValue end /\ (color_ok s = true -> color_value s <> None)).
  { destruct s as [|c0 r]; [apply parse_color_spec; reflexivity|]. destruct (c0 =? 35) eqn:E35.
    - apply Z.eqb_eq in E35. subst c0. apply parse_color_hash.
    - apply parse_color_spec; [apply trigger_plain; exact L'|lia]. }
  destruct Sp as [E NZ].
  apply exact_of_decode; cbn [documented]; intro H; unfold accepts, decode, dec_color; rewrite E; unfold color_value in *; rewrite H in *.
  - destruct (mean_color_text s) as [[[[r g] b] a]|] eqn:Mn; [|exfalso; apply (NZ eq_refl); reflexivity].
    cbn [bind meaning mean_color copt ocval]. rewrite Mn. reflexivity.
  - reflexivity.
Qed.
Lemma color_ok_named_plain s : named s <> None -> forallb cplain s = true.
Proof.
  unfold named. intro H. destruct (find (fun nc => text_eqb s (T (fst nc))) ttml_named_rgba) as [nc|] eqn:F; [|contradiction].
  apply find_some in F as [I E]. apply text_eqb_eq in E. subst s. clear H.
  unfold ttml_named_rgba in I. cbn [In] in I.
  repeat (destruct I as [<-|I]; [vm_compute; reflexivity|]). contradiction.
Qed.
