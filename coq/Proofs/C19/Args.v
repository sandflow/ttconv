(* C19: the command line.  On every token list of the grammar of Spec/CliSpec.v (tokens_of: options in any order, each
   written `flag value` or `flag=value`, repeated at will) the transcription of argparse in Model/Cli.v (parse_opts /
   parse_convert) builds exactly the options the specification reads off it (spec_options: the last value of a repeated
   option counts, filters accumulate in order, -i and -o are required). *)
From Coq Require Import String.
From TT Require Import Base.Prelude Base.CliTypes Gen.CliUnicode Model.Cli Spec.CliSpec.

Definition flag_table : list (text * dest) := List.map (fun fd => (T (fst fd), snd fd)) spec_flags.
Lemma flag_dest_in f d : flag_dest f = Some d -> In (f, d) flag_table.
Proof.
  unfold flag_dest, flag_table. induction spec_flags as [|[n x] l IH]; [discriminate|]. cbn [find List.map In fst snd].
  destruct (text_eqb f (T n)) eqn:E.
  - intro H; inversion H; subst. apply text_eqb_eq in E. subst. left. reflexivity.
  - intro H. right. exact (IH H).
Qed.
Lemma in_flag_dest f d : In (f, d) flag_table -> flag_dest f = Some d.
Proof.
  intro I. vm_compute in I. repeat (destruct I as [I|I]; [inversion I; subst; reflexivity|]). contradiction.
Qed.
(* everything parse_opts and spec_items ask of a flag, gathered so that the flag table is enumerated once, in flags_ok *)
Record flag_ok (f : text) (d : dest) : Prop := {
  fo_lookup : lookup_flag f = Some d;
  fo_store : d <> DHelp;
  fo_dash : starts_dash f = true;
  fo_eq_dash : forall v, starts_dash (f ++ 61 :: v) = true;
  fo_eq_lookup : forall v, lookup_flag (f ++ 61 :: v) = None;
  fo_eq_split : forall v, split_eq (f ++ 61 :: v) = Some (f, v);
  fo_eq_spec : forall v, flag_dest (f ++ 61 :: v) = None /\ cut_eq (f ++ 61 :: v) = Some (f, v) }.
Lemma flags_ok f d : flag_dest f = Some d -> flag_ok f d.
Proof.
  intro H. apply flag_dest_in in H. vm_compute in H.
  repeat (destruct H as [H|H]; [inversion H; subst; constructor; try discriminate; try reflexivity; intro v; try split; reflexivity|]).
  contradiction.
Qed.
Lemma dash_agree v : starts_dash v = dash_first v.
Proof. destruct v; reflexivity. Qed.

Lemma step_pair f d v toks n ex :
  flag_ok f d -> dash_first v = false -> parse_opts (f :: v :: toks) n ex = parse_opts toks (ns_set d v n) ex.
Proof.
  intros F V. cbn [parse_opts]. rewrite (fo_dash _ _ F), (fo_lookup _ _ F), dash_agree, V. cbn [negb].
  pose proof (fo_store _ _ F). destruct d; try reflexivity. contradiction.
Qed.
Lemma step_eq f d v toks n ex :
  flag_ok f d -> parse_opts ((f ++ 61 :: v) :: toks) n ex = parse_opts toks (ns_set d v n) ex.
Proof.
  intros F. cbn [parse_opts]. rewrite (fo_eq_dash _ _ F), (fo_eq_lookup _ _ F), (fo_eq_split _ _ F), (fo_lookup _ _ F). cbn [negb].
  pose proof (fo_store _ _ F). destruct d; try reflexivity. contradiction.
Qed.
Definition apply_items (items : list (dest * text)) (n : namespace) : namespace :=
  fold_left (fun n it => ns_set (fst it) (snd it) n) items n.
Theorem parse_opts_grammar items toks : tokens_of items toks -> forall n ex, parse_opts toks n ex = PrOk (apply_items items n) ex.
Proof.
  induction 1 as [|f d v items toks F V _ IH|f d v items toks F _ IH]; intros n ex.
  - reflexivity.
  - rewrite (step_pair f d v toks n ex (flags_ok _ _ F) V). apply IH.
  - rewrite (step_eq f d v toks n ex (flags_ok _ _ F)). apply IH.
Qed.

Definition pick (a b : option text) : option text := match a with Some v => Some v | None => b end.
Lemma last_of_fold d items acc :
  fold_left (fun acc it => if dest_code (fst it) =? dest_code d then Some (snd it) else acc) items acc = pick (last_of d items) acc.
Proof.
  unfold last_of. revert acc. induction items as [|[d' v] items IH]; intro acc; [reflexivity|]. cbn [fold_left fst snd].
  rewrite IH, (IH (if dest_code d' =? dest_code d then Some v else None)).
  destruct (fold_left _ items None) eqn:E; [unfold last_of in *; rewrite ?E|];
    destruct (last_of d items) eqn:L; unfold last_of in L; rewrite L in *; cbn [pick]; try reflexivity; try discriminate;
    destruct (dest_code d' =? dest_code d); reflexivity.
Qed.
Lemma apply_items_fields items : forall n,
  n_input (apply_items items n) = pick (last_of DInput items) (n_input n) /\
  n_output (apply_items items n) = pick (last_of DOutput items) (n_output n) /\
  n_itype (apply_items items n) = pick (last_of DItype items) (n_itype n) /\
  n_otype (apply_items items n) = pick (last_of DOtype items) (n_otype n) /\
  n_filters (apply_items items n) = n_filters n ++ all_of DFilter items /\
  n_config (apply_items items n) = pick (last_of DConfig items) (n_config n) /\
  n_config_file (apply_items items n) = pick (last_of DConfigFile items) (n_config_file n).
Proof.
  induction items as [|[d v] items IH]; intro n.
  - cbn. rewrite app_nil_r. repeat split; reflexivity.
  - change (apply_items ((d, v) :: items) n) with (apply_items items (ns_set d v n)).
    destruct (IH (ns_set d v n)) as (A & B & C & D & E & F & G). rewrite A, B, C, D, E, F, G.
    unfold last_of, all_of. cbn [fold_left List.filter fst snd]. rewrite !last_of_fold.
    destruct d; cbn [ns_set dest_code Z.eqb Pos.eqb n_input n_output n_itype n_otype n_filters n_config n_config_file List.map snd pick];
      rewrite <- ?app_assoc; cbn [app];
      repeat split; try reflexivity;
      match goal with |- context [pick (last_of ?d items) _] => destruct (last_of d items); reflexivity end.
Qed.
Theorem parse_convert_grammar items toks :
  tokens_of items toks ->
  parse_convert toks = match spec_options items with Some (o, c, cf) => CConvert o c cf | None => CUsage end.
Proof.
  intro G. unfold parse_convert. rewrite (parse_opts_grammar items toks G empty_ns false).
  destruct (apply_items_fields items empty_ns) as (A & B & C & D & E & F & H). rewrite A, B, C, D, E, F, H.
  cbn [empty_ns n_input n_output n_itype n_otype n_filters n_config n_config_file app]. unfold spec_options.
  destruct (last_of DInput items); cbn [pick]; [|reflexivity]. destruct (last_of DOutput items); cbn [pick]; [|reflexivity].
  destruct (last_of DItype items); destruct (last_of DOtype items); destruct (last_of DConfig items); destruct (last_of DConfigFile items); reflexivity.
Qed.

Lemma grammar_recognised items toks : tokens_of items toks -> spec_items toks = Some items.
Proof.
  induction 1 as [|f d v items toks F V _ IH|f d v items toks F _ IH].
  - reflexivity.
  - cbn [spec_items]. rewrite F, V, IH. reflexivity.
  - destruct (fo_eq_spec _ _ (flags_ok _ _ F) v) as [N C]. cbn [spec_items]. rewrite N, C, F, IH. reflexivity.
Qed.
Lemma cut_eq_app t f v : cut_eq t = Some (f, v) -> t = f ++ 61 :: v.
Proof.
  revert f v; induction t as [|c r IH]; intros f v H; [discriminate|]. cbn [cut_eq] in H. destruct (c =? 61) eqn:E.
  - inversion H; subst. apply Z.eqb_eq in E. subst. reflexivity.
  - destruct (cut_eq r) as [[a b]|]; [|discriminate]. inversion H; subst. cbn [app]. f_equal. apply IH. reflexivity.
Qed.
Lemma recognised_grammar : forall n toks, (length toks <= n)%nat -> forall items, spec_items toks = Some items -> tokens_of items toks.
Proof.
  induction n as [|n IH]; intros toks L items H.
  - destruct toks; [|cbn in L; lia]. inversion H; subst. constructor.
  - destruct toks as [|t r]; [inversion H; subst; constructor|]. cbn [spec_items] in H. cbn [length] in L.
    destruct (flag_dest t) as [d|] eqn:F.
    + destruct r as [|v r']; [discriminate|]. destruct (dash_first v) eqn:V; [discriminate|].
      destruct (spec_items r') as [its|] eqn:R; [|discriminate]. inversion H; subst.
      apply TPair; [exact F|exact V|]. apply IH; [cbn [length] in L; lia|exact R].
    + destruct (cut_eq t) as [[f v]|] eqn:C; [|discriminate]. destruct (flag_dest f) as [d|] eqn:F'; [|discriminate].
      destruct (spec_items r) as [its|] eqn:R; [|discriminate]. inversion H; subst.
      rewrite (cut_eq_app _ _ _ C). apply TEq; [exact F'|]. apply IH; [lia|exact R].
Qed.
Theorem grammar_iff items toks : tokens_of items toks <-> spec_items toks = Some items.
Proof. split; [apply grammar_recognised|apply (recognised_grammar (length toks)); lia]. Qed.

Lemma parse_main_convert toks : parse_main (T "convert" :: toks) = parse_convert toks.
Proof. reflexivity. Qed.
Lemma parse_main_unknown sub toks : sub <> T "convert" -> parse_main (sub :: toks) = CUsage.
Proof.
  intro N. unfold parse_main, subcommands. cbn [existsb]. destruct (text_eqb sub (T "convert")) eqn:E; [|reflexivity].
  apply text_eqb_eq in E. contradiction.
Qed.
