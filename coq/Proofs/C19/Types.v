(* C19: type inference.  FileTypes.get_file_type composed with posixpath.splitext (Model/Cli.v) resolves to type t
   exactly when the specification's type_ok holds (Spec/CliSpec.v): the --itype/--otype argument if given, else the
   file extension, compared case-insensitively; otherwise the run ends with an error. *)
From Coq Require Import String.
From TT Require Import Base.Prelude Base.CliTypes Gen.CliUnicode Model.Cli Spec.CliSpec Proofs.C19.Plan.

Lemma rsplit_some c s a b : rsplit c s = Some (a, b) -> s = a ++ c :: b /\ ~ In c b.
Proof.
  revert a b; induction s as [|x t IH]; intros a b H; cbn [rsplit] in H; [discriminate|].
  destruct (rsplit c t) as [[a' b']|] eqn:R.
  - inversion H; subst. destruct (IH _ _ eq_refl) as [-> N]. split; [reflexivity|exact N].
  - destruct (x =? c) eqn:E; [|discriminate]. inversion H; subst. apply Z.eqb_eq in E; subst. split; [reflexivity|].
    clear -R. induction b as [|y b IH]; [intros []|]. cbn [rsplit] in R.
    destruct (rsplit c b) as [[? ?]|]; [discriminate|]. destruct (y =? c) eqn:E; [discriminate|].
    intros [->|I]; [rewrite Z.eqb_refl in E; discriminate|]. exact (IH eq_refl I).
Qed.
Lemma rsplit_none c s : rsplit c s = None -> ~ In c s.
Proof.
  induction s as [|y b IH]; [intros _ []|]. cbn [rsplit].
  destruct (rsplit c b) as [[? ?]|]; [discriminate|]. destruct (y =? c) eqn:E; [discriminate|].
  intros _ [->|I]; [rewrite Z.eqb_refl in E; discriminate|]. exact (IH eq_refl I).
Qed.
Lemma rsplit_notin c s : ~ In c s -> rsplit c s = None.
Proof.
  intro N. destruct (rsplit c s) as [[a b]|] eqn:R; [|reflexivity].
  destruct (rsplit_some _ _ _ _ R) as [-> _]. exfalso. apply N. apply in_or_app. right. left. reflexivity.
Qed.
Lemma rsplit_app c a b : ~ In c b -> rsplit c (a ++ c :: b) = Some (a, b).
Proof.
  intro N. induction a as [|x a IH]; cbn [app rsplit].
  - rewrite (rsplit_notin _ _ N). rewrite Z.eqb_refl. reflexivity.
  - rewrite IH. reflexivity.
Qed.
Lemma mem_In c l : mem c l = true <-> In c l.
Proof.
  unfold mem. rewrite existsb_exists. split.
  - intros (x & I & E). apply Z.eqb_eq in E. subst. exact I.
  - intro I. exists c. split; [exact I|apply Z.eqb_refl].
Qed.

(* the file name proper: M cuts at the last '/' with rsplit, S with last_component *)
Definition m_name (stem : text) : text := match rsplit 47 stem with Some (_, b) => b | None => stem end.
Lemma until_slash_app a b : ~ In 47 a -> until_slash (a ++ 47 :: b) = a.
Proof.
  induction a as [|x a IH]; intro N; cbn [app until_slash]; [reflexivity|].
  destruct (x =? 47) eqn:E; [apply Z.eqb_eq in E; subst; exfalso; apply N; left; reflexivity|].
  rewrite IH; [reflexivity|]. intro I. apply N. right. exact I.
Qed.
Lemma until_slash_notin a : ~ In 47 a -> until_slash a = a.
Proof.
  induction a as [|x a IH]; intro N; cbn [until_slash]; [reflexivity|].
  destruct (x =? 47) eqn:E; [apply Z.eqb_eq in E; subst; exfalso; apply N; left; reflexivity|].
  rewrite IH; [reflexivity|]. intro I. apply N. right. exact I.
Qed.
Lemma name_agree stem : m_name stem = last_component stem.
Proof.
  unfold m_name, last_component. destruct (rsplit 47 stem) as [[a b]|] eqn:R.
  - destruct (rsplit_some _ _ _ _ R) as [-> N]. rewrite rev_app_distr. cbn [rev]. rewrite <- app_assoc. cbn [app].
    rewrite until_slash_app; [rewrite rev_involutive; reflexivity|]. intro I. apply N. apply in_rev. exact I.
  - rewrite until_slash_notin; [rewrite rev_involutive; reflexivity|].
    intro I. apply (rsplit_none _ _ R). apply in_rev. exact I.
Qed.

Lemma lc_ascii_lower c : lc c = ascii_lower c.
Proof. reflexivity. Qed.
(* str.lower sends exactly one non-ASCII character into ASCII: U+212A KELVIN SIGN to k (Gen/CliUnicode.v,
   regenerated).  Hence plain_lit excludes 107: against a literal without k, str.lower and the ASCII-only lc agree. *)
Lemma lower_table c i : assocZ c lower_ascii = Some i -> i = [107].
Proof.
  unfold lower_ascii. cbn [assocZ]. destruct (c =? 8490); intro H; inversion H; reflexivity.
Qed.
Definition plain_lit (lit : text) : Prop := Forall (fun x => 0 <= x < 128 /\ x <> 107) lit.
Lemma py_lower_lit s lit : plain_lit lit -> (py_lower s = lit <-> List.map lc s = lit).
Proof.
  revert lit; induction s as [|c s IH]; intros lit P.
  - cbn. tauto.
  - change (py_lower (c :: s)) with ((if c <? 128 then [ascii_lower c] else match assocZ c lower_ascii with Some i => i | None => [c] end) ++ py_lower s).
    cbn [List.map]. destruct (c <? 128) eqn:A.
    + cbn [app]. change (lc c) with (ascii_lower c). destruct lit as [|h lit]; [split; discriminate|].
      inversion P; subst. specialize (IH lit H2). split; intro H; inversion H; subst; f_equal; apply IH; reflexivity.
    + assert (NA : lc c = c) by (unfold lc; destruct ((65 <=? c) && (c <=? 90)) eqn:E; [lia|reflexivity]).
      rewrite NA. destruct (assocZ c lower_ascii) as [i|] eqn:L.
      * rewrite (lower_table _ _ L). cbn [app]. split; intro H.
        -- destruct lit as [|h lit]; [discriminate|]. inversion H; subst. inversion P; subst. lia.
        -- destruct lit as [|h lit]; [discriminate|]. inversion H; subst. inversion P; subst. lia.
      * cbn [app]. split; intro H; destruct lit as [|h lit]; try discriminate; inversion H; subst; inversion P; subst; lia.
Qed.

Lemma tname_plain t : plain_lit (tname t).
Proof. destruct t; vm_compute; repeat constructor; try lia; discriminate. Qed.
Lemma tname_lc t : List.map lc (tname t) = tname t.
Proof. destruct t; reflexivity. Qed.
Lemma ci_eq_tname s t : ci_eq s (tname t) = true <-> List.map lc s = tname t.
Proof. unfold ci_eq. rewrite tname_lc. apply text_eqb_eq. Qed.

Lemma file_type_of_value_iff v t : file_type_of_value v = Ok t <-> v = tname t.
Proof.
  unfold file_type_of_value, file_types. cbn [assocT]. split.
  - repeat match goal with |- context [text_eqb v ?l] => let E := fresh "E" in destruct (text_eqb v l) eqn:E end;
      intro H; inversion H; subst;
      repeat match goal with E : text_eqb _ _ = true |- _ => apply text_eqb_eq in E end; subst; try reflexivity; assumption.
  - intros ->. destruct t; reflexivity.
Qed.
Lemma lookup_lower s t : file_type_of_value (py_lower s) = Ok t <-> ci_eq s (tname t) = true.
Proof. rewrite file_type_of_value_iff, ci_eq_tname. apply py_lower_lit. apply tname_plain. Qed.

Definition nondot (c : Z) : bool := negb (c =? 46).
Lemma splitext_cases p :
  (splitext p = [] /\ forall stem e, p = stem ++ 46 :: e -> ~ In 46 e -> ~ In 47 e -> existsb nondot (last_component stem) = false) \/
  (exists stem e, p = stem ++ 46 :: e /\ ~ In 46 e /\ ~ In 47 e /\ existsb nondot (last_component stem) = true /\ splitext p = 46 :: e).
Proof.
  unfold splitext. destruct (rsplit 46 p) as [[stem e]|] eqn:R.
  - destruct (rsplit_some _ _ _ _ R) as [-> N46].
    assert (U : forall stem' e', stem ++ 46 :: e = stem' ++ 46 :: e' -> ~ In 46 e' -> stem' = stem /\ e' = e).
    { intros stem' e' Eq N'. pose proof (rsplit_app 46 stem' e' N') as R'. rewrite <- Eq in R'. rewrite R in R'. inversion R'; auto. }
    destruct (mem 47 e) eqn:M.
    + left. split; [reflexivity|]. intros stem' e' Eq N1 N2. destruct (U _ _ Eq N1) as [-> ->].
      exfalso. apply N2. apply mem_In. exact M.
    + fold (m_name stem). rewrite name_agree. fold nondot. destruct (existsb nondot (last_component stem)) eqn:X.
      * right. exists stem, e. repeat split; try assumption. intro I. apply mem_In in I. congruence.
      * left. split; [reflexivity|]. intros stem' e' Eq N1 N2. destruct (U _ _ Eq N1) as [-> ->]. exact X.
  - left. split; [reflexivity|]. intros stem e -> _ _. exfalso. apply (rsplit_none _ _ R). apply in_or_app. right. left. reflexivity.
Qed.

(* characters of a type name are letters: an extension equal to one (up to case) has neither dot nor slash *)
Lemma lc_letter_inv c x : lc c = x -> 97 <= x <= 122 -> c <> 46 /\ c <> 47.
Proof. unfold lc. destruct ((65 <=? c) && (c <=? 90)) eqn:E; intros; lia. Qed.
Lemma tname_letters t : Forall (fun x => 97 <= x <= 122) (tname t).
Proof. destruct t; vm_compute; repeat constructor; discriminate. Qed.
Lemma ext_no_sep e t : List.map lc e = tname t -> ~ In 46 e /\ ~ In 47 e.
Proof.
  intro H. pose proof (tname_letters t) as L. rewrite <- H in L. clear H.
  induction e as [|c e IH]; [split; intros []|]. cbn [List.map] in L. inversion L; subst.
  destruct (IH H2) as [A B]. destruct (lc_letter_inv c _ eq_refl H1) as [C D].
  split; intros [->|I]; auto.
Qed.

Lemma nth_split_dot (p : text) k : nth_error p k = Some 46 -> p = firstn k p ++ 46 :: skipn (S k) p.
Proof.
  revert k; induction p as [|x p IH]; intros [|k] H; try discriminate; cbn in *.
  - inversion H; reflexivity.
  - f_equal. apply IH. exact H.
Qed.
Lemma skipn_after (stem e : text) x : skipn (S (length stem)) (stem ++ x :: e) = e.
Proof. induction stem as [|y stem IH]; [reflexivity|exact IH]. Qed.
Lemma firstn_before (stem e : text) : firstn (length stem) (stem ++ e) = stem.
Proof. induction stem as [|y stem IH]; [destruct e; reflexivity|cbn; f_equal; exact IH]. Qed.
Lemma nth_at (stem e : text) x : nth_error (stem ++ x :: e) (length stem) = Some x.
Proof. induction stem as [|y stem IH]; [reflexivity|exact IH]. Qed.
Lemma ext_at_split stem e t :
  ext_at (stem ++ 46 :: e) t (length stem) = ci_eq e (tname t) && names_a_file stem.
Proof. unfold ext_at. rewrite nth_at, skipn_after, firstn_before. reflexivity. Qed.

Lemma ext_at_inv p t k : ext_at p t k = true ->
  exists e, p = firstn k p ++ 46 :: e /\ ci_eq e (tname t) = true /\ names_a_file (firstn k p) = true.
Proof.
  unfold ext_at. destruct (nth_error p k) as [c|] eqn:Nth; [|discriminate].
  destruct (c =? 46) eqn:C; [apply Z.eqb_eq in C; subst c|
    destruct c as [|c|c]; try discriminate; repeat (destruct c as [c|c|]; try discriminate)].
  intro X. apply andb_true_iff in X as [X1 X2]. exists (skipn (S k) p). split; [exact (nth_split_dot _ _ Nth)|auto].
Qed.

Theorem types_iff g p t : get_file_type g (splitext p) = Ok t <-> type_ok g p t = true.
Proof.
  destruct g as [g|]; cbn [get_file_type type_ok]; [apply lookup_lower|].
  set (ext := splitext p). set (e' := match ext with 46 :: r => r | _ => ext end).
  rewrite lookup_lower, existsb_exists. subst e' ext.
  destruct (splitext_cases p) as [[E None_]|(stem & e & P & N46 & N47 & Nm & E)]; rewrite E.
  - split; [intro H; vm_compute in H; destruct t; discriminate|].
    intros (k & _ & X). exfalso. destruct (ext_at_inv _ _ _ X) as (e & Sp & X1 & X2).
    apply ci_eq_tname in X1. destruct (ext_no_sep _ _ X1) as [A B].
    pose proof (None_ _ _ Sp A B) as F. unfold names_a_file in X2. fold nondot in X2. congruence.
  - split.
    + intro H. exists (length stem). split.
      * apply in_seq. subst p. rewrite app_length. cbn. lia.
      * subst p. rewrite ext_at_split. rewrite H. unfold names_a_file. fold nondot. rewrite Nm. reflexivity.
    + intros (k & _ & X). destruct (ext_at_inv _ _ _ X) as (e' & Sp & X1 & _).
      pose proof X1 as X1'. apply ci_eq_tname in X1'. destruct (ext_no_sep _ _ X1') as [A B]. rewrite P in Sp at 1.
      pose proof (rsplit_app 46 stem e N46) as R1. rewrite Sp in R1. rewrite (rsplit_app 46 _ _ A) in R1.
      injection R1 as H0 H1. rewrite <- H1. exact X1.
Qed.

Theorem types_unique g p t t' : type_ok g p t = true -> type_ok g p t' = true -> t = t'.
Proof. rewrite <- !types_iff. intros A B. rewrite A in B. inversion B. reflexivity. Qed.

Lemma type_find g p : match find_type g p with
                      | Some t => get_file_type g (splitext p) = Ok t
                      | None => exists e, get_file_type g (splitext p) = Raise e
                      end.
Proof.
  unfold find_type. destruct (find (type_ok g p) all_types) as [t|] eqn:F.
  - apply find_some in F as [_ F]. apply types_iff. exact F.
  - destruct (get_file_type g (splitext p)) as [t|e] eqn:G; [|eauto]. apply types_iff in G.
    pose proof (find_none _ _ F t) as N. rewrite N in G; [discriminate G|]. destruct t; cbn; tauto.
Qed.

Theorem plan_types n o i f p :
  plan (Subcommand n o) i f = OPlan p ->
  type_ok (o_itype o) (o_input o) (reader_type (p_reader p)) = true /\
  type_ok (o_otype o) (o_output o) (writer_type (p_writer p)) = true /\ writable (writer_type (p_writer p)) = true.
Proof.
  intro H. destruct (plan_convert _ _ _ _ _ H) as [_ C]. destruct (convert_ok _ _ _ _ C) as (rt & wt & R & W & <- & <- & Wr & _).
  rewrite <- !types_iff. auto.
Qed.
Theorem unsupported_types o i f :
  (forall t, type_ok (o_itype o) (o_input o) t = false) \/
  (forall t, writable t = true -> type_ok (o_otype o) (o_output o) t = false) ->
  exists e, plan (Subcommand (T "convert") o) i f = OError e.
Proof.
  intro H. change (plan (Subcommand (T "convert") o) i f) with (match convert o i f with Ok p => OPlan p | Raise e => OError e end).
  destruct (convert o i f) eqn:C; [exfalso|eauto].
  destruct (convert_ok _ _ _ _ C) as (rt & wt & R & W & _ & _ & Wr & _).
  apply types_iff in R. apply types_iff in W. destruct H as [H|H]; [rewrite H in R|rewrite (H _ Wr) in W]; discriminate.
Qed.
