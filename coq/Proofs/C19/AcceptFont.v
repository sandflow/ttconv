(* C19: stl_reader.font_stack.  Every documented font stack (TTML2 <font-families>, Spec/CliSpec.v fonts_ok) is accepted
   by the decoder of Model/Cli.v (a family name of a single character included: font_single_name) and
   the accepted string is what the reader is given.  The converse is recorded finding undocumented-values-accepted: the
   decoder validates nothing beyond "some family-like token occurs". *)
From Coq Require Import String.
From TT Require Import Base.Prelude Base.CliTypes Gen.CliUnicode Model.Cli Spec.CliSpec Proofs.C19.Accept.

Definition in4 (c : Z) : bool := mem c [39; 34; 44; 32].
Lemma in4_cases c : in4 c = true -> c = 39 \/ c = 34 \/ c = 44 \/ c = 32.
Proof. unfold in4, mem. cbn [existsb]. lia. Qed.
Lemma in4_dot c : in4 c = true -> re_dot c = true /\ (c =? 92) = false.
Proof. intro H. destruct (in4_cases c H) as [->|[->|[->| ->]]]; split; reflexivity. Qed.

(* a character other than apostrophe, quotation mark, comma and space starts an unquoted family *)
Lemma font_any_plain s : existsb (fun c => negb (in4 c)) s = true -> font_any s = true.
Proof.
  induction s as [|c r IH]; [discriminate|]. cbn [existsb]. intro H.
  change (font_any (c :: r)) with (font_match_at (c :: r) || font_any r).
  destruct (in4 c) eqn:I; cbn [negb orb] in H.
  - rewrite (IH H). apply orb_true_r.
  - assert (M : noquote_match (c :: r) = true).
    { unfold noquote_match, unit1_plain. fold (in4 c). rewrite I. apply orb_true_r. }
    unfold font_match_at. rewrite M. rewrite orb_true_r. reflexivity.
Qed.

(* strings made of those four characters only: a documented one holds a quoted family, which the quoted alternatives match *)
Lemma close_in4 q post mid prev :
  forallb in4 mid = true -> (prev =? 92) = false -> quoted_close q prev (mid ++ q :: post) = true.
Proof.
  revert prev; induction mid as [|c mid IH]; intros prev F P; cbn [app quoted_close].
  - rewrite Z.eqb_refl, P. reflexivity.
  - cbn [forallb] in F. apply andb_true_iff in F as [Fc Fm]. destruct (in4_dot c Fc) as [D N].
    destruct ((c =? q) && negb (prev =? 92)); [reflexivity|]. rewrite D. apply IH; assumption.
Qed.
Lemma quoted_in4 r : forall q ne,
  forallb in4 r = true -> fonts_scan (FsQuoted q ne) false r = true ->
  exists mid post, r = mid ++ q :: post /\ forallb in4 mid = true /\ (ne = false -> mid <> []).
Proof.
  induction r as [|c r IH]; intros q ne F S; [discriminate S|].
  cbn [forallb] in F. apply andb_true_iff in F as [Fc Fr]. destruct (in4_dot c Fc) as [_ N].
  cbn [fonts_scan] in S. destruct (c =? q) eqn:E.
  - apply Z.eqb_eq in E. subst c. destruct ne; [|discriminate S].
    exists [], r. repeat split; try reflexivity. discriminate.
  - rewrite N in S. destruct (IH q true Fr S) as (mid & post & -> & Fm & _).
    exists (c :: mid), post. repeat split; [cbn [forallb]; rewrite Fc, Fm; reflexivity|discriminate].
Qed.
Lemma font_any_in4 s : forallb in4 s = true -> fonts_scan FsStart false s = true -> font_any s = true.
Proof.
  induction s as [|c r IH]; intros F S; [discriminate S|].
  cbn [forallb] in F. apply andb_true_iff in F as [Fc Fr].
  change (font_any (c :: r)) with (font_match_at (c :: r) || font_any r).
  destruct (in4_cases c Fc) as [->|[->|[->| ->]]]; cbn in S.
  - destruct (quoted_in4 r 39 false Fr S) as (mid & post & -> & Fm & NE).
    destruct mid as [|c0 mid]; [exfalso; apply NE; reflexivity|]. cbn [forallb] in Fm. apply andb_true_iff in Fm as [F0 Fm].
    destruct (in4_dot c0 F0) as [D N]. unfold font_match_at. cbn [app quoted_ok]. rewrite D, (close_in4 39 post mid c0 Fm N). reflexivity.
  - destruct (quoted_in4 r 34 false Fr S) as (mid & post & -> & Fm & NE).
    destruct mid as [|c0 mid]; [exfalso; apply NE; reflexivity|]. cbn [forallb] in Fm. apply andb_true_iff in Fm as [F0 Fm].
    destruct (in4_dot c0 F0) as [D N]. unfold font_match_at. cbn [app quoted_ok]. rewrite D, (close_in4 34 post mid c0 Fm N).
    rewrite orb_true_r. reflexivity.
  - discriminate S.
  - rewrite (IH Fr S). apply orb_true_r.
Qed.

Theorem fonts_documented_accepted s : fonts_ok s = true -> font_any s = true.
Proof.
  intro H. destruct (existsb (fun c => negb (in4 c)) s) eqn:E; [exact (font_any_plain s E)|].
  apply font_any_in4; [|exact H].
  clear H. induction s as [|c r IH]; [reflexivity|]. cbn [existsb] in E. apply orb_false_iff in E as [Ec Er].
  cbn [forallb]. rewrite (IH Er). apply negb_false_iff in Ec. rewrite Ec. reflexivity.
Qed.

Theorem acc_font_stack v : v <> JNull -> trigger KFontStack v = false -> exact KFontStack v.
Proof.
  intros NN Tr. apply trigger_false in Tr as (L & _).
  destruct v; try contradiction; try (apply exact_of_decode; intro H; try discriminate H; reflexivity).
  cbn [trigger_lenient] in L. apply negb_false_iff in L.
  apply exact_of_decode; cbn [documented]; intro H; [|rewrite L in H; discriminate H].
  unfold decode, dec_font_stack. rewrite (fonts_documented_accepted s L). reflexivity.
Qed.
Lemma letter_not_in4 c : letter c = true -> in4 c = false /\ (c =? 92) = false /\ (c =? 32) = false /\ (c =? 39) || (c =? 34) = false /\ (c =? 44) = false.
Proof. unfold letter, in4, mem. cbn [existsb]. intro H. repeat split; lia. Qed.
Lemma fonts_unq_letters r : forallb letter r = true -> fonts_scan FsUnq false r = true.
Proof.
  induction r as [|c r IH]; [reflexivity|]. cbn [forallb]. intro H. apply andb_true_iff in H as [L R].
  destruct (letter_not_in4 _ L) as (_ & A & _ & B & C). cbn [fonts_scan]. rewrite C, B, A. exact (IH R).
Qed.
Theorem font_single_name s :
  forallb letter s = true -> s <> [] -> accepts KFontStack (JStr s) = true /\ documented KFontStack (JStr s) = true.
Proof.
  intros H NE. assert (D : fonts_ok s = true).
  { destruct s as [|a r]; [contradiction|]. cbn [forallb] in H. apply andb_true_iff in H as [La Lr].
    destruct (letter_not_in4 _ La) as (_ & A1 & A2 & A3 & A4). unfold fonts_ok. cbn [fonts_scan]. rewrite A2, A3, A4, A1.
    exact (fonts_unq_letters r Lr). }
  split; [|exact D]. unfold accepts, decode, dec_font_stack. rewrite (fonts_documented_accepted s D). reflexivity.
Qed.
Theorem font_documented_accepts s : fonts_ok s = true -> accepts KFontStack (JStr s) = true.
Proof. intro H. unfold accepts, decode, dec_font_stack. rewrite (fonts_documented_accepted s H). reflexivity. Qed.
