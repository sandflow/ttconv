(* C19: HOW a configuration value is rejected, and the complete outcome of stl_reader.program_start_tc.
   Every decoder of Model/Cli.v that raises raises ValueError (its own "Invalid ... value. Expect: ..." error) — for ALL
   JSON values of all 19 keys, inside or outside README's table; every module section fails by ValueError or not at all,
   whatever it holds; and so does read_config_from_json on any JSON value at all (a configuration or a section that is
   not an object included); in particular a value of the wrong JSON type never escapes as AttributeError / TypeError. *)
From Coq Require Import String.
From TT Require Import Base.Prelude Base.CliTypes Gen.CliUnicode Model.Cli Spec.CliSpec Proofs.C19.Accept Proofs.C19.AcceptAll.

Definition only_value {A} (r : res A) : Prop := forall e, r = Raise e -> e = EValue.
Lemma ov_ok {A} (a : A) : only_value (Ok a).
Proof. intros e H. discriminate H. Qed.
Lemma ov_value {A} : only_value (@Raise A EValue).
Proof. intros e H. inversion H. reflexivity. Qed.
Lemma ov_bind {A B} (r : res A) (f : A -> res B) : only_value r -> (forall a, only_value (f a)) -> only_value (bind r f).
Proof. intros R F e H. destruct r as [a|e']; cbn [bind] in H; [exact (F a e H)|]. inversion H; subst. apply R. reflexivity. Qed.
Lemma ov_if {A} (b : bool) (x y : res A) : only_value x -> only_value y -> only_value (if b then x else y).
Proof. destruct b; auto. Qed.

Create HintDb ov discriminated.
#[local] Hint Resolve ov_ok ov_value ov_bind ov_if : ov.

(* every decoder is built from Ok, Raise EValue, bind and if, so the closure lemmas above decide it; the one primitive that
   can raise something else, Fraction's ZeroDivisionError, is called behind a test of its denominator *)
Lemma ov_int_of_digits s : only_value (int_of_digits s).
Proof. unfold int_of_digits. auto with ov. Qed.
Lemma fraction_ok n d : (d =? 0) = false -> exists f, fraction n d = Ok f.
Proof. intro D. unfold fraction. rewrite D. eauto. Qed.
Lemma ov_dec_bool v : only_value (dec_bool v).
Proof. destruct v; cbn [dec_bool]; auto with ov. Qed.
Lemma ov_dec_time_format v : only_value (dec_time_format v).
Proof. destruct v; cbn [dec_time_format]; auto with ov. Qed.
#[local] Hint Resolve ov_int_of_digits : ov.
Lemma ov_dec_fps v : only_value (dec_fps v).
Proof.
  destruct v; cbn [dec_fps]; auto with ov.
  destruct (split_on 47 s) as [|a [|b [|c r]]]; auto with ov.
  apply ov_if; [|apply ov_value]. apply ov_bind; [apply ov_int_of_digits|]. intro n.
  apply ov_if; [apply ov_value|]. apply ov_bind; [apply ov_int_of_digits|]. intro d.
  destruct (d =? 0) eqn:D; [apply ov_value|]. destruct (fraction_ok n d D) as (f & ->). apply ov_ok.
Qed.
Lemma ov_dec_start_tc v : only_value (dec_start_tc v).
Proof. destruct v; cbn [dec_start_tc]; auto with ov. Qed.
Lemma ov_dec_font_stack v : only_value (dec_font_stack v).
Proof. destruct v; cbn [dec_font_stack]; auto with ov. Qed.
Lemma ov_dec_max_row_count v : only_value (dec_max_row_count v).
Proof. destruct v; cbn [dec_max_row_count]; auto with ov. Qed.
Lemma ov_dec_safe_area v : only_value (dec_safe_area v).
Proof. destruct v; cbn [dec_safe_area]; auto with ov. Qed.
Lemma ov_color_component s : only_value (color_component s).
Proof. unfold color_component. auto with ov. Qed.
#[local] Hint Resolve ov_color_component : ov.
Lemma ov_parse_color s : only_value (parse_color s).
Proof.
  unfold parse_color. destruct (assocT (py_lower s) named_colors); [apply ov_ok|]. destruct (match_hex s); [apply ov_ok|].
  destruct (match_rgb s) as [[[a b] c]|]; [auto 8 with ov|]. destruct (match_rgba s) as [[[[a b] c] d]|]; auto 10 with ov.
Qed.
#[local] Hint Resolve ov_parse_color : ov.
Lemma ov_dec_color v : only_value (dec_color v).
Proof. destruct v; cbn [dec_color]; auto with ov. Qed.
Lemma ov_dec_scc_text_align v : only_value (dec_scc_text_align v).
Proof. destruct v; cbn [dec_scc_text_align]; auto 6 with ov. Qed.
Lemma ov_dec_str_or_null v : only_value (dec_str_or_null v).
Proof. destruct v; cbn [dec_str_or_null]; auto with ov. Qed.
#[local] Hint Resolve ov_dec_bool ov_dec_time_format ov_dec_fps ov_dec_start_tc ov_dec_font_stack ov_dec_max_row_count ov_dec_safe_area
  ov_dec_color ov_dec_scc_text_align ov_dec_str_or_null : ov.

Theorem decode_raises_value_error k v e : decode k v = Raise e -> e = EValue.
Proof.
  revert e. change (only_value (decode k v)). destruct k; unfold decode; auto with ov.
  - (* log_level: a str that is not the name of a level is rejected by logging, with a ValueError too *)
    destruct v; cbn [dec_str_or_null bind is_null check_level]; auto with ov.
    destruct (assocT s log_levels); cbn [bind]; auto with ov.
  - destruct v; cbn [dec_str_or_null bind is_null check_lang]; auto with ov.
Qed.
Theorem config_rejects_value_error k v :
  in_table k v = true -> trigger k v = false -> documented k v = false -> decode k v = Raise EValue.
Proof.
  intros I Tr D. destruct (config_rejects k v I Tr D) as (e & E). rewrite E, (decode_raises_value_error k v e E). reflexivity.
Qed.

Lemma ov_field {A} d name (dec : json -> res A) dflt : (forall v, only_value (dec v)) -> only_value (field d name dec dflt).
Proof. intro H. unfold field. destruct (obj_get (T name) d); [apply H|apply ov_ok]. Qed.
#[local] Hint Resolve ov_field : ov.
Theorem sections_raise_value_error d :
  only_value (parse_general d) /\ only_value (parse_imsc d) /\ only_value (parse_scc d) /\ only_value (parse_stl d) /\
  only_value (parse_srt d) /\ only_value (parse_vtt d) /\ only_value (parse_lcd d).
Proof. unfold parse_general, parse_imsc, parse_scc, parse_stl, parse_srt, parse_vtt, parse_lcd. repeat split; auto 12 with ov. Qed.
(* tt.py read_config_from_json, on ANY configuration value: a configuration or a section that is not a JSON object included *)
Theorem read_config_raises_value_error {A} name (parse : list (text * json) -> res A) data :
  (forall d, only_value (parse d)) -> only_value (read_config name parse data).
Proof.
  intro P. unfold read_config. destruct data as [[]|]; auto with ov. destruct (obj_get (T name) l) as [[]|]; auto with ov.
Qed.

Theorem read_configs_raise_value_error data :
  only_value (read_config "general" parse_general data) /\ only_value (read_config "imsc_writer" parse_imsc data) /\
  only_value (read_config "scc_reader" parse_scc data) /\ only_value (read_config "stl_reader" parse_stl data) /\
  only_value (read_config "srt_writer" parse_srt data) /\ only_value (read_config "vtt_writer" parse_vtt data) /\
  only_value (read_config "lcd" parse_lcd data).
Proof. repeat split; apply read_config_raises_value_error; intro d; apply (sections_raise_value_error d). Qed.

Lemma ci_tcp_upper s : ci_eq s (T "TCP") = true -> py_upper s = T "TCP".
Proof.
  unfold ci_eq. intro H. apply text_eqb_eq in H. change (List.map lc (T "TCP")) with [116; 99; 112] in H.
  destruct s as [|a [|b [|c [|x s]]]]; try discriminate H. cbn [List.map] in H. inversion H as [[A B C]]. clear H.
  assert (a = 84 \/ a = 116) as [-> | ->] by (unfold lc in A; destruct ((65 <=? a) && (a <=? 90)) eqn:?; lia).
  all: assert (b = 67 \/ b = 99) as [-> | ->] by (unfold lc in B; destruct ((65 <=? b) && (b <=? 90)) eqn:?; lia).
  all: assert (c = 80 \/ c = 112) as [-> | ->] by (unfold lc in C; destruct ((65 <=? c) && (c <=? 90)) eqn:?; lia).
  all: reflexivity.
Qed.
Lemma upper_tcp_iff s : text_eqb (py_upper s) (T "TCP") = ci_eq s (T "TCP").
Proof.
  destruct (ci_eq s (T "TCP")) eqn:C.
  - rewrite (ci_tcp_upper s C). reflexivity.
  - destruct (text_eqb (py_upper s) (T "TCP")) eqn:U; [|reflexivity]. rewrite (py_upper_ci _ _ tcp_plain U) in C. discriminate C.
Qed.
Lemma re_dot_lf c : re_dot c = negb (c =? 10).
Proof. unfold re_dot, re_dot_excluded, mem. cbn [existsb]. rewrite orb_false_r. reflexivity. Qed.
Lemma df_sep_lf c : df_sep c = negb (c =? 10).
Proof. unfold df_sep. rewrite re_dot_lf. lia. Qed.
Lemma digit_sep c : digit c = true -> df_sep c = true.
Proof. rewrite df_sep_lf. unfold digit. lia. Qed.
(* the unescaped dot makes the drop-frame pattern subsume the other one: the same eleven tests as tc_any_sep *)
Lemma df_any_sep s : df_match s || ndf_match s = tc_any_sep s.
Proof.
  assert (df_match s = tc_any_sep s) as <-.
  { destruct s as [|a [|b [|x [|c [|d [|y [|e [|f [|z [|g [|h [|]]]]]]]]]]]]; try reflexivity.
    unfold df_match, tc_any_sep. change is_d with digit. rewrite !df_sep_lf. cbn [forallb].
    apply eq_true_iff_eq. rewrite !andb_true_iff. tauto. }
  destruct (ndf_match s) eqn:N; [rewrite (ndf_df s N); reflexivity|apply orb_false_r].
Qed.
(* null: not specified; "TCP" in any letter case: TCP; a complete time code (any three separators but a line feed): kept
   as written; every other string and every value that is not a string: ValueError *)
Theorem start_tc_outcome v :
  decode KStartTc v =
  match v with
  | JNull => Ok CNone
  | JStr s => if ci_eq s (T "TCP") then Ok (CText (T "TCP")) else if tc_any_sep s then Ok (CText s) else Raise EValue
  | _ => Raise EValue
  end.
Proof.
  destruct v; try reflexivity. unfold decode, dec_start_tc. rewrite upper_tcp_iff, df_any_sep.
  destruct (ci_eq s (T "TCP")); [reflexivity|]. destruct (tc_any_sep s); reflexivity.
Qed.
(* the documented time codes are among them, and nothing but the recorded leniency is added *)
Theorem start_tc_documented_or_lenient s :
  accepts KStartTc (JStr s) = (documented KStartTc (JStr s) || trigger_lenient KStartTc (JStr s)) && (ci_eq s (T "TCP") || tc_any_sep s).
Proof.
  unfold accepts. rewrite start_tc_outcome.
  assert (A : is_ok (if ci_eq s (T "TCP") then Ok (CText (T "TCP")) else if tc_any_sep s then Ok (CText s) else Raise EValue) = ci_eq s (T "TCP") || tc_any_sep s).
  { destruct (ci_eq s (T "TCP")); [reflexivity|]. destruct (tc_any_sep s); reflexivity. }
  rewrite A. clear A. destruct (ci_eq s (T "TCP") || tc_any_sep s) eqn:X; [|rewrite andb_false_r; reflexivity].
  rewrite andb_true_r. symmetry. cbn [documented trigger_lenient].
  destruct (text_eqb s (T "TCP")) eqn:E; [reflexivity|]. cbn [negb andb orb].
  destruct (ci_eq s (T "TCP")) eqn:C; [apply orb_true_r|]. cbn [orb] in *.
  destruct s as [|a [|b [|x [|c [|d [|y [|e [|f [|z [|g [|h [|]]]]]]]]]]]]; try discriminate X.
  unfold tc_any_sep in X. cbn [forallb] in X. rewrite !andb_true_iff in X.
  destruct X as ((A & B & C' & D & E' & F & G & H & _) & _).
  destruct ((x =? 58) && (y =? 58) && (z =? 58)) eqn:S; cbn [negb]; [|apply orb_true_r].
  rewrite !andb_true_iff in S. destruct S as ((Sx & Sy) & Sz). apply Z.eqb_eq in Sx, Sy, Sz. subst x y z.
  rewrite tc_ok_of_shape; [reflexivity|]. cbn [forallb]. rewrite A, B, C', D, E', F, G, H. reflexivity.
Qed.
