(* C19: from the raw command line to the bytes written.  Args.v (argparse on the grammar), SpecPlan.v (the plan is the one
   README prescribes) and Pipeline.v (the run follows the plan) put together. *)
From Coq Require Import String.
From TT Require Import Base.Prelude Base.CliTypes Gen.CliUnicode Model.Cli Spec.CliSpec Proofs.C19.Plan Proofs.C19.Types
  Proofs.C19.Args Proofs.C19.Pipeline Proofs.C19.SpecPlan.

Section Main.
  Variables doc bytes : Type.
  Variable read_doc : reader -> text -> res doc.
  Variable set_lang : text -> doc -> doc.
  Variable run_filter : filter_app -> doc -> res doc.
  Variable write_doc : writer -> doc -> res bytes.
  Variable json_of : text -> option json.
  Variable files : text -> file_src.

  Notation run_tokens := (run_tokens doc bytes read_doc set_lang run_filter write_doc json_of files).
  Notation run_convert := (run_convert doc bytes read_doc set_lang run_filter write_doc).
  Notation lib_pipeline := (lib_pipeline doc bytes read_doc set_lang run_filter write_doc).

  Definition pipeline_end (p : plan_t) (o : options) : final bytes :=
    match lib_pipeline p (o_input o) with Ok b => FDone (o_output o) b | Raise e => FError e end.

  Theorem plan_is_pipeline items toks o c cf :
    tokens_of items toks -> spec_options items = Some (o, c, cf) ->
    let i := inline_of json_of c in let f := file_of files cf in
    sources_ok i f = true -> clean o (effective i f) = true ->
    match spec_plan o (effective i f) with
    | Some p => plan_tokens json_of files (T "convert" :: toks) = OPlan p /\
                snd (run_tokens (T "convert" :: toks)) = pipeline_end p o /\
                (forall b, lib_pipeline p (o_input o) = Ok b -> fst (run_tokens (T "convert" :: toks)) = plan_events p (o_input o) (o_output o))
    | None => (exists e, plan_tokens json_of files (T "convert" :: toks) = OError e) /\
              (exists e, snd (run_tokens (T "convert" :: toks)) = FError e)
    end.
  Proof.
    intros G SO i f S C. pose proof (plan_is_spec o i f S C) as P. unfold agrees_module in P.
    unfold plan_tokens, Cli.run_tokens. rewrite parse_main_convert, (parse_convert_grammar items toks G), SO. fold i f.
    destruct (spec_plan o (effective i f)) as [p|].
    - rewrite P. split; [reflexivity|]. rewrite (run_follows_plan _ _ _ _ _ _ _ _ _ _ P []).
      pose proof (exec_plan_result doc bytes read_doc set_lang run_filter write_doc p (o_input o) (o_output o) []) as R.
      destruct (exec_plan doc bytes read_doc set_lang run_filter write_doc p (o_input o) (o_output o) []) as [l [[pth b]|e]] eqn:X; cbn [snd] in R.
      + unfold pipeline_end. split.
        * cbn [snd]. destruct (lib_pipeline p (o_input o)); inversion R; subst. reflexivity.
        * intros b' L. cbn [fst]. pose proof (exec_plan_log doc bytes read_doc set_lang run_filter write_doc p (o_input o) (o_output o) b' L) as Lg.
          rewrite X in Lg. exact Lg.
      + unfold pipeline_end. split.
        * cbn [snd]. destruct (lib_pipeline p (o_input o)); inversion R; subst. reflexivity.
        * intros b' L. rewrite L in R. discriminate R.
    - destruct P as (e & P). rewrite P. split; [eauto|].
      destruct (run_without_plan_fails doc bytes read_doc set_lang run_filter write_doc o i f e P []) as (e' & R).
      destruct (run_convert o i f []) as [l [[pth b]|e'']]; cbn [snd] in *; [discriminate R|eauto].
  Qed.

  (* the run follows the plan, whatever the configuration is *)
  Theorem run_is_pipeline o i f :
    match convert o i f with
    | Ok p => snd (run_convert o i f []) = match lib_pipeline p (o_input o) with Ok b => Ok (o_output o, b) | Raise e => Raise e end /\
              (forall b, lib_pipeline p (o_input o) = Ok b -> fst (run_convert o i f []) = plan_events p (o_input o) (o_output o))
    | Raise _ => exists e, snd (run_convert o i f []) = Raise e
    end.
  Proof.
    destruct (convert o i f) as [p|e] eqn:P.
    - rewrite (run_follows_plan _ _ _ _ _ _ _ _ _ _ P []). split.
      + apply exec_plan_result.
      + intros b L. exact (exec_plan_log doc bytes read_doc set_lang run_filter write_doc p (o_input o) (o_output o) b L).
    - exact (run_without_plan_fails doc bytes read_doc set_lang run_filter write_doc o i f e P []).
  Qed.

  (* for ANY token list: a run that ends in an error, or in the usage text, has opened no output file *)
  Theorem no_output_on_error toks :
    (forall path b, snd (run_tokens toks) <> FDone path b) -> no_output_event (fst (run_tokens toks)) = true.
  Proof.
    unfold Cli.run_tokens. destruct (parse_main toks) as [| |o c cf]; try reflexivity. intro H.
    pose proof (run_no_output_on_error doc bytes read_doc set_lang run_filter write_doc o (inline_of json_of c) (file_of files cf) []) as N.
    destruct (run_convert o (inline_of json_of c) (file_of files cf) []) as [l [[pth b]|e]]; cbn [fst snd] in *.
    - exfalso. exact (H pth b eq_refl).
    - exact (N e eq_refl eq_refl).
  Qed.
  (* ... and one that ends well has opened exactly the -o path, once, as its last effect, after writing what the library
     pipeline gives on the plan *)
  Theorem output_only_when_done toks path b :
    snd (run_tokens toks) = FDone path b ->
    exists o c cf p, parse_main toks = CConvert o c cf /\ convert o (inline_of json_of c) (file_of files cf) = Ok p /\
                     path = o_output o /\ lib_pipeline p (o_input o) = Ok b /\
                     fst (run_tokens toks) = plan_events p (o_input o) (o_output o).
  Proof.
    unfold Cli.run_tokens. destruct (parse_main toks) as [| |o c cf]; try discriminate. intro H.
    destruct (run_convert o (inline_of json_of c) (file_of files cf) []) as [l [[pth b']|e]] eqn:X; cbn [fst snd] in *; [|discriminate H].
    injection H as E1 E2. subst pth b'. destruct (run_ok_has_plan doc bytes read_doc set_lang run_filter write_doc o _ _ [] (path, b) ltac:(rewrite X; reflexivity)) as (p & P).
    exists o, c, cf, p. split; [reflexivity|]. split; [exact P|].
    rewrite (run_follows_plan _ _ _ _ _ _ _ _ _ _ P []) in X.
    pose proof (exec_plan_result doc bytes read_doc set_lang run_filter write_doc p (o_input o) (o_output o) []) as R. rewrite X in R. cbn [snd] in R.
    destruct (lib_pipeline p (o_input o)) as [b0|] eqn:L; [|discriminate R]. injection R as E1 E2. subst b0. split; [exact E1|]. split; [reflexivity|].
    pose proof (exec_plan_log doc bytes read_doc set_lang run_filter write_doc p (o_input o) (o_output o) b L) as Lg. rewrite X in Lg. exact Lg.
  Qed.
End Main.
