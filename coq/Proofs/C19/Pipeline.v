(* C19: the run.  Model/Cli.v run_convert follows tt.convert statement by statement with the readers, filters and
   writers as arbitrary functions that may raise.  Whatever they are:
   - when the plan exists (convert = Ok p) the run is exactly "follow p": its result is the library pipeline of
     Spec/CliSpec.v run on p (lib_pipeline: reader, document language, filters in order, writer), written to the -o path,
     and when that succeeds its log is plan_events p;
   - when no plan exists the run ends in an error;
   - a run that ends in an error has opened no output file (no EvOutput in its log); a run that ends well has opened
     exactly one, last, at the -o path. *)
From Coq Require Import String.
From TT Require Import Base.Prelude Base.CliTypes Gen.CliUnicode Model.Cli Spec.CliSpec Proofs.C19.Plan.

Section Run.
  Variables doc bytes : Type.
  Variable read_doc : reader -> text -> res doc.
  Variable set_lang : text -> doc -> doc.
  Variable run_filter : filter_app -> doc -> res doc.
  Variable write_doc : writer -> doc -> res bytes.

  Notation run_convert := (run_convert doc bytes read_doc set_lang run_filter write_doc).
  Notation run_read := (run_read doc read_doc).
  Notation run_lang := (run_lang doc set_lang).
  Notation run_filters := (run_filters doc run_filter).
  Notation run_write := (run_write doc bytes write_doc).
  Notation call_reader := (call_reader doc read_doc).
  Notation call_writer := (call_writer doc bytes write_doc).
  Notation lib_pipeline := (lib_pipeline doc bytes read_doc set_lang run_filter write_doc).
  Notation filters_pipeline := (filters_pipeline doc run_filter).

  Fixpoint exec_filters (fs : list filter_app) (d : doc) (l : list event) : list event * res doc :=
    match fs with
    | [] => (l, Ok d)
    | f :: r => match run_filter f d with
                | Ok d' => exec_filters r d' (l ++ [EvFilter f])
                | Raise e => (l ++ [EvFilter f], Raise e)
                end
    end.
  Definition exec_plan (p : plan_t) (input output : text) (l : list event) : list event * res (text * bytes) :=
    let l := l ++ match p_progress p with Some b => [EvProgress b] | None => [] end in
    let l := l ++ match p_level p with Some z => [EvLevel z] | None => [] end in
    let l := l ++ [EvRead (p_reader p) input] in
    match read_doc (p_reader p) input with
    | Raise e => (l, Raise e)
    | Ok d =>
        let l := l ++ match p_lang p with Some s => [EvLang s] | None => [] end in
        let d := match p_lang p with Some s => set_lang s d | None => d end in
        match exec_filters (p_filters p) d l with
        | (l, Raise e) => (l, Raise e)
        | (l, Ok d) =>
            let l := l ++ [EvWrite (p_writer p)] in
            match write_doc (p_writer p) d with
            | Raise e => (l, Raise e)
            | Ok b => (l ++ [EvOutput output], Ok (output, b))
            end
        end
    end.

  Lemma run_filters_exec names data fs : apply_filters names data = Ok fs ->
    forall d l, run_filters names data d l = exec_filters fs d l.
  Proof.
    revert fs; induction names as [|n r IH]; intros fs H d l; cbn [apply_filters] in H.
    - inversion H; subst. reflexivity.
    - cbn [Cli.run_filters]. revert H. destruct (get_filter_by_name n) as [[]|]; intro H; [|exact (IH _ H d l)].
      inv_bind H. inversion H; subst. unfold cbind, cthen, lift, emit. cbn [exec_filters].
      destruct (run_filter _ d) as [d'|e]; [|reflexivity]. apply IH. reflexivity.
  Qed.

  (* each phase of the run is its configuration step (Plan.v) followed by its effects *)
  Lemma run_config_eq i f l :
    run_config i f l =
    match load_config i f with
    | Raise e => (l, Raise e)
    | Ok data =>
        match read_config "general" parse_general data with
        | Raise e => (l, Raise e)
        | Ok g => let l := l ++ match progress_of g with Some b => [EvProgress b] | None => [] end in
                  match level_of g with
                  | Raise e => (l, Raise e)
                  | Ok lv => (l ++ match lv with Some z => [EvLevel z] | None => [] end, Ok (data, g))
                  end
        end
    end.
  Proof.
    unfold level_of, run_config, cbind, cthen, lift, ret, emit. destruct (load_config i f) as [data|]; [|reflexivity].
    destruct (read_config "general" parse_general data) as [[[[ll pb] dl]|]|]; cbn [progress_of]; rewrite ?app_nil_r; try reflexivity.
    destruct (is_null ll); [rewrite app_nil_r; reflexivity|]. destruct (check_level ll); reflexivity.
  Qed.
  Lemma run_types_eq o l :
    run_types o l = (l, do rt <- get_file_type (o_itype o) (splitext (o_input o)); do wt <- get_file_type (o_otype o) (splitext (o_output o)); Ok (rt, wt)).
  Proof. unfold run_types, cbind, lift, ret. destruct (get_file_type (o_itype o) _); [destruct (get_file_type (o_otype o) _)|]; reflexivity. Qed.
  Lemma run_read_eq rt data path l :
    run_read rt data path l = match m_reader rt data with Ok rd => (l ++ [EvRead rd path], read_doc rd path) | Raise e => (l, Raise e) end.
  Proof.
    unfold m_reader, Cli.run_read, Cli.call_reader, cbind, cthen, lift, emit.
    destruct rt; try reflexivity; destruct (read_config _ _ data); reflexivity.
  Qed.
  Lemma run_lang_eq (g : option (json * bool * json)) d l :
    run_lang g d l = match lang_of g with
                     | Ok lang => (l ++ match lang with Some s => [EvLang s] | None => [] end, Ok (match lang with Some s => set_lang s d | None => d end))
                     | Raise e => (l, Raise e)
                     end.
  Proof.
    unfold lang_of, Cli.run_lang, cbind, cthen, lift, emit, ret. destruct g as [[[ll pb] dl]|]; [|rewrite app_nil_r; reflexivity].
    destruct (is_null dl); [rewrite app_nil_r; reflexivity|]. destruct (check_lang dl); reflexivity.
  Qed.
  Lemma run_write_eq wt data d path l :
    run_write wt data d path l =
    match m_writer wt data with
    | Ok wr => match write_doc wr d with
               | Ok b => ((l ++ [EvWrite wr]) ++ [EvOutput path], Ok (path, b))
               | Raise e => (l ++ [EvWrite wr], Raise e)
               end
    | Raise e => (l, Raise e)
    end.
  Proof.
    unfold m_writer, Cli.run_write, Cli.call_writer, cbind, cthen, lift, emit, ret.
    destruct wt; try reflexivity; destruct (read_config _ _ data); reflexivity.
  Qed.

  Theorem run_follows_plan o i f p : convert o i f = Ok p ->
    forall l, run_convert o i f l = exec_plan p (o_input o) (o_output o) l.
  Proof.
    rewrite convert_load_steps. unfold convert_steps. intro H. inv_bind H. inversion H; subst; clear H. intro l.
    unfold Cli.run_convert. unfold cbind at 1. rewrite run_config_eq, E, E0, E1. cbn [fst snd].
    unfold cbind at 1. rewrite run_types_eq, E2, E3. cbn [bind fst snd].
    unfold cbind at 1. rewrite run_read_eq, E4.
    unfold exec_plan. cbn [p_progress p_level p_reader p_lang p_filters p_writer].
    destruct (read_doc a4 (o_input o)) as [d|e]; [|reflexivity].
    unfold cbind at 1. rewrite run_lang_eq, E5.
    unfold cbind at 1. rewrite (run_filters_exec _ _ _ E6).
    destruct (exec_filters a6 _ _) as [l3 [d3|e]]; [|reflexivity].
    rewrite run_write_eq, E7. destruct (write_doc a7 d3); reflexivity.
  Qed.

  Lemma exec_filters_result fs : forall d l, snd (exec_filters fs d l) = filters_pipeline fs d.
  Proof.
    induction fs as [|f r IH]; intros d l; [reflexivity|]. cbn [exec_filters CliSpec.filters_pipeline].
    destruct (run_filter f d); [apply IH|reflexivity].
  Qed.
  Lemma exec_filters_log fs : forall d l d', filters_pipeline fs d = Ok d' -> fst (exec_filters fs d l) = l ++ List.map EvFilter fs.
  Proof.
    induction fs as [|f r IH]; intros d l d' H; [cbn; rewrite app_nil_r; reflexivity|]. cbn [exec_filters CliSpec.filters_pipeline List.map] in *.
    destruct (run_filter f d) as [d1|e]; [|discriminate H]. rewrite (IH _ _ _ H), <- app_assoc. reflexivity.
  Qed.
  Lemma no_out_app l x : no_output_event l = true -> no_output_event x = true -> no_output_event (l ++ x) = true.
  Proof. intros. unfold no_output_event in *. rewrite forallb_app. apply andb_true_iff. auto. Qed.
  Lemma exec_filters_quiet fs : forall d l, no_output_event l = true -> no_output_event (fst (exec_filters fs d l)) = true.
  Proof.
    induction fs as [|f r IH]; intros d l N; [exact N|]. cbn [exec_filters].
    pose proof (no_out_app l [EvFilter f] N eq_refl) as N'.
    destruct (run_filter f d); [apply IH; exact N'|exact N'].
  Qed.
  Theorem exec_plan_result p input output l :
    snd (exec_plan p input output l) = match lib_pipeline p input with Ok b => Ok (output, b) | Raise e => Raise e end.
  Proof.
    unfold exec_plan, CliSpec.lib_pipeline. destruct (read_doc (p_reader p) input) as [d|e]; [|reflexivity].
    match goal with |- context [exec_filters ?fs ?d ?l] => pose proof (exec_filters_result fs d l) as R; destruct (exec_filters fs d l) as [l3 [d3|e]] end;
      cbn [snd] in R; rewrite <- R; [|reflexivity]. destruct (write_doc (p_writer p) d3); reflexivity.
  Qed.
  Theorem exec_plan_log p input output b :
    lib_pipeline p input = Ok b -> fst (exec_plan p input output []) = plan_events p input output.
  Proof.
    unfold exec_plan, CliSpec.lib_pipeline, plan_events. destruct (read_doc (p_reader p) input) as [d|e]; [|discriminate].
    set (d1 := match p_lang p with Some s => set_lang s d | None => d end).
    destruct (filters_pipeline (p_filters p) d1) as [d2|e] eqn:F; [|discriminate]. intro W.
    match goal with |- context [exec_filters ?fs ?d ?l] =>
      pose proof (exec_filters_log fs d l _ F) as L; pose proof (exec_filters_result fs d l) as R; destruct (exec_filters fs d l) as [l3 [d3|e]] end;
      cbn [fst snd] in L, R; rewrite F in R; [|discriminate R]. inversion R; subst. rewrite W. cbn [fst app].
    rewrite <- !app_assoc. reflexivity.
  Qed.
  Theorem exec_plan_no_output p input output l e :
    no_output_event l = true -> snd (exec_plan p input output l) = Raise e -> no_output_event (fst (exec_plan p input output l)) = true.
  Proof.
    intros N. unfold exec_plan.
    set (l1 := ((l ++ _) ++ _) ++ _).
    assert (N1 : no_output_event l1 = true).
    { unfold l1. repeat apply no_out_app; try exact N; try reflexivity; [destruct (p_progress p)|destruct (p_level p)]; reflexivity. }
    destruct (read_doc (p_reader p) input) as [d|e']; [|intros _; exact N1].
    set (l2 := l1 ++ _). assert (N2 : no_output_event l2 = true) by (unfold l2; apply no_out_app; [exact N1|destruct (p_lang p); reflexivity]).
    match goal with |- context [exec_filters ?fs ?d ?l] => pose proof (exec_filters_quiet fs d l N2) as Q; destruct (exec_filters fs d l) as [l3 [d3|e']] end;
      cbn [fst] in Q; [|intros _; exact Q].
    destruct (write_doc (p_writer p) d3); [discriminate|]. intros _. apply no_out_app; [exact Q|reflexivity].
  Qed.

  Lemma cbind_ok {A B} (c : comp A) (k : A -> comp B) l b :
    snd (cbind c k l) = Ok b -> exists a l', c l = (l', Ok a) /\ snd (k a l') = Ok b.
  Proof. unfold cbind. destruct (c l) as [l' [a|e]]; [eauto|discriminate]. Qed.
  Lemma run_filters_ok names data : forall d l d', snd (run_filters names data d l) = Ok d' -> exists fs, apply_filters names data = Ok fs.
  Proof.
    induction names as [|n r IH]; intros d l d' H; [cbn; eauto|]. cbn [Cli.run_filters apply_filters] in *.
    destruct (get_filter_by_name n) as [[]|]; [|exact (IH _ _ _ H)].
    unfold cbind, cthen, lift, emit in H. destruct (read_config "lcd" parse_lcd data) as [c|]; [|discriminate H].
    destruct (run_filter _ d) as [d1|]; [|discriminate H]. destruct (IH _ _ _ H) as (fs & ->). cbn [bind]. eauto.
  Qed.
  Theorem run_ok_has_plan o i f l x : snd (run_convert o i f l) = Ok x -> exists p, convert o i f = Ok p.
  Proof.
    unfold Cli.run_convert. rewrite convert_load_steps. unfold convert_steps. intro H.
    apply cbind_ok in H as ([data g] & l1 & C & H). apply cbind_ok in H as ([rt wt] & l2 & Ty & H).
    apply cbind_ok in H as (d & l3 & Rd & H). apply cbind_ok in H as (d1 & l4 & Lg & H). apply cbind_ok in H as (d2 & l5 & Fl & H).
    cbn [fst snd] in *. rewrite run_config_eq in C. rewrite run_types_eq in Ty. rewrite run_read_eq in Rd. rewrite run_lang_eq in Lg.
    rewrite run_write_eq in H.
    destruct (load_config i f) as [data'|]; [|discriminate C]. cbn [bind].
    destruct (read_config "general" parse_general data') as [g'|]; [|discriminate C]. cbn [bind].
    cbv zeta in C. destruct (level_of g') as [lv|]; [|discriminate C]. inversion C; subst. cbn [bind].
    destruct (get_file_type (o_itype o) _) as [rt'|]; [|discriminate Ty]. destruct (get_file_type (o_otype o) _) as [wt'|]; [|discriminate Ty].
    inversion Ty; subst. cbn [bind].
    destruct (m_reader rt data) as [rd|]; [|discriminate Rd]. destruct (lang_of g) as [lang|]; [|discriminate Lg]. cbn [bind].
    destruct (run_filters_ok (o_filters o) data d1 l4 d2 ltac:(rewrite Fl; reflexivity)) as (fs & ->). cbn [bind].
    destruct (m_writer wt data) as [wr|]; [|discriminate H]. cbn [bind]. eauto.
  Qed.
  Corollary run_without_plan_fails o i f e : convert o i f = Raise e -> forall l, exists e', snd (run_convert o i f l) = Raise e'.
  Proof.
    intros H l. destruct (snd (run_convert o i f l)) as [x|e'] eqn:R; [|eauto].
    destruct (run_ok_has_plan _ _ _ _ _ R) as (p & P). rewrite P in H. discriminate H.
  Qed.

  (* run_no_output_on_error needs no plan: run_convert is a chain of quiet steps that ends in call_writer, and
     quiet steps followed by a safe one are safe (safe_cbind) *)
  Definition quiet {A} (c : comp A) : Prop := forall l, no_output_event l = true -> no_output_event (fst (c l)) = true.
  Definition safe {A} (c : comp A) : Prop :=
    forall l, no_output_event l = true -> forall e, snd (c l) = Raise e -> no_output_event (fst (c l)) = true.
  Lemma quiet_ret {A} (a : A) : quiet (ret a).
  Proof. intros l N. exact N. Qed.
  Lemma quiet_lift {A} (r : res A) : quiet (lift r).
  Proof. intros l N. exact N. Qed.
  Lemma quiet_emit e : (match e with EvOutput _ => false | _ => true end) = true -> quiet (emit e).
  Proof. intros E l N. unfold emit. cbn [fst]. apply no_out_app; [exact N|]. cbn. rewrite E. reflexivity. Qed.
  Lemma quiet_cbind {A B} (c : comp A) (k : A -> comp B) : quiet c -> (forall a, quiet (k a)) -> quiet (cbind c k).
  Proof.
    intros Qc Qk l N. unfold cbind. specialize (Qc l N). destruct (c l) as [l' [a|e]]; cbn [fst] in *; [apply Qk; exact Qc|exact Qc].
  Qed.
  Lemma safe_cbind {A B} (c : comp A) (k : A -> comp B) : quiet c -> (forall a, safe (k a)) -> safe (cbind c k).
  Proof.
    intros Qc Sk l N e. unfold cbind. specialize (Qc l N). destruct (c l) as [l' [a|e']]; cbn [fst snd] in *; [apply Sk; exact Qc|intros _; exact Qc].
  Qed.
  Lemma quiet_run_filters names data : forall d, quiet (run_filters names data d).
  Proof.
    induction names as [|n r IH]; intro d; [apply quiet_ret|]. cbn [Cli.run_filters].
    destruct (get_filter_by_name n) as [[]|]; [|apply IH].
    apply quiet_cbind; [apply quiet_lift|]. intro c. apply quiet_cbind; [apply quiet_emit; reflexivity|]. intros _.
    apply quiet_cbind; [apply quiet_lift|]. intro d'. apply IH.
  Qed.
  Lemma safe_call_writer w d path : safe (call_writer w d path).
  Proof.
    intros l N e. unfold Cli.call_writer, cthen, cbind, emit, lift, ret. destruct (write_doc w d); cbn [fst snd]; [discriminate|].
    intros _. apply no_out_app; [exact N|reflexivity].
  Qed.
  Theorem run_no_output_on_error o i f l e :
    no_output_event l = true -> snd (run_convert o i f l) = Raise e -> no_output_event (fst (run_convert o i f l)) = true.
  Proof.
    intros N H. revert l N e H. change (safe (run_convert o i f)). unfold Cli.run_convert.
    apply safe_cbind.
    { unfold run_config. apply quiet_cbind; [apply quiet_lift|]. intro data. apply quiet_cbind; [apply quiet_lift|]. intro g.
      apply quiet_cbind; [destruct g as [[[? ?] ?]|]; [apply quiet_emit; reflexivity|apply quiet_ret]|]. intros _.
      apply quiet_cbind; [|intros _; apply quiet_ret].
      destruct g as [[[ll ?] ?]|]; [|apply quiet_ret]. destruct (is_null ll); [apply quiet_ret|].
      apply quiet_cbind; [apply quiet_lift|]. intro z. apply quiet_emit. reflexivity. }
    intros dg. apply safe_cbind.
    { unfold run_types. apply quiet_cbind; [apply quiet_lift|]. intro rt. apply quiet_cbind; [apply quiet_lift|]. intro wt. apply quiet_ret. }
    intros tw. apply safe_cbind.
    { assert (Q : forall r, quiet (call_reader r (o_input o))).
      { intro r. unfold Cli.call_reader. apply quiet_cbind; [apply quiet_emit; reflexivity|]. intros _. apply quiet_lift. }
      unfold Cli.run_read. destruct (fst tw); try apply Q; (apply quiet_cbind; [apply quiet_lift|]); intro c; apply Q. }
    intros d. apply safe_cbind.
    { unfold Cli.run_lang. destruct (snd dg) as [[[? ?] dl]|]; [|apply quiet_ret]. destruct (is_null dl); [apply quiet_ret|].
      apply quiet_cbind; [apply quiet_lift|]. intro s. apply quiet_cbind; [apply quiet_emit; reflexivity|]. intros _. apply quiet_ret. }
    intros d1. apply safe_cbind; [apply quiet_run_filters|]. intros d2.
    unfold Cli.run_write. destruct (snd tw); try (apply safe_cbind; [apply quiet_lift|]; intro c; apply safe_call_writer);
      intros l N e _; exact N.
  Qed.
End Run.
