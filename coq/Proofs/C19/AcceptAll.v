(* C19: the acceptance table for all 19 documented keys (Accept.v, AcceptFont.v, AcceptColor.v put together). *)
From Coq Require Import String.
From TT Require Import Base.Prelude Base.CliTypes Gen.CliUnicode Model.Cli Spec.CliSpec Proofs.C19.Accept Proofs.C19.AcceptFont
  Proofs.C19.AcceptColor.

Theorem config_exact k v : in_table k v = true -> trigger k v = false -> exact k v.
Proof.
  intros I Tr. destruct (table_key k) eqn:K; [exact (config_exact_plain k v K I Tr)|].
  destruct k; try discriminate K.
  - apply acc_font_stack; [|exact Tr]. intros ->. discriminate I.
  - apply acc_color; [reflexivity|exact Tr].
  - apply acc_color; [reflexivity|exact Tr].
Qed.
Theorem config_accepts k v : in_table k v = true -> trigger k v = false -> (accepts k v = true <-> documented k v = true).
Proof. intros I Tr. exact (proj1 (config_exact k v I Tr)). Qed.
Theorem config_meaning k v : in_table k v = true -> trigger k v = false -> documented k v = true -> decode k v = Ok (meaning k v).
Proof. intros I Tr. exact (proj2 (config_exact k v I Tr)). Qed.
Theorem config_rejects k v : in_table k v = true -> trigger k v = false -> documented k v = false -> exists e, decode k v = Raise e.
Proof.
  intros I Tr D. pose proof (proj1 (config_exact k v I Tr)) as A. unfold agrees, accepts in A.
  destruct (decode k v) as [c|e]; [|eauto]. destruct A as [A _]. rewrite D in A. discriminate (A eq_refl).
Qed.
(* ten keys need no hypothesis about triggers at all: the eight true | false keys, time_format and safe_area *)
Definition untriggered_key (k : key) : bool := bool_key k || match k with KTimeFormat | KSafeArea => true | _ => false end.
Lemma untriggered_key_trigger k v : untriggered_key k = true -> trigger k v = false.
Proof. destruct k; try discriminate; intros _; destruct v; reflexivity. Qed.
Theorem config_exact_untriggered k v : untriggered_key k = true -> in_table k v = true -> exact k v.
Proof. intros K I. exact (config_exact k v I (untriggered_key_trigger k v K)). Qed.
(* imsc_writer.fps: the only trigger is CPython's limit on the length of digit strings *)
Theorem config_exact_fps s : (Z.of_nat (length s) <=? 4300) = true -> exact KFps (JStr s).
Proof. intro L. apply config_exact; [reflexivity|]. unfold trigger. cbn. lia. Qed.
