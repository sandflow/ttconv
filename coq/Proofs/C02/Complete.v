(* C02: completeness (the snapshot at t is the one at the greatest significant time not after t), the code's own list
   under the trigger of the recorded finding, sortedness, the generated sequence. *)
From Coq Require Import Sorting.Sorted.
From TT Require Import Model.Doc Gen.StyleTables Model.Isd Model.SigTimes Proofs.Common.ElemInd Proofs.C02.Stable Proofs.C02.Sig.

(* the greatest significant time not after t *)
Fixpoint floor_sig (l : list Q) (t : Q) : option Q :=
  match l with
  | [] => None
  | x :: l' =>
      match floor_sig l' t with
      | Some f => if Qle_bool x t && Qle_bool f x then Some x else Some f
      | None => if Qle_bool x t then Some x else None
      end
  end.

Lemma floor_sig_none l t : floor_sig l t = None -> forall s, In s l -> ~ Qle s t.
Proof.
  induction l as [|x l IH]; intros H s Hs; [destruct Hs|]. cbn [floor_sig] in H.
  destruct (floor_sig l t); [destruct (Qle_bool x t && Qle_bool q x); discriminate|].
  destruct (Qle_bool x t) eqn:E; [discriminate|].
  destruct Hs as [<-|Hs]; [intros Hst; apply Qle_bool_iff in Hst; congruence | apply IH; auto].
Qed.

Lemma floor_sig_spec l t : forall f, floor_sig l t = Some f ->
  In f l /\ Qle f t /\ forall s, In s l -> Qle s t -> Qle s f.
Proof.
  induction l as [|x l IH]; intros f H; [discriminate|]. cbn [floor_sig] in H.
  destruct (floor_sig l t) as [g|] eqn:Eg.
  - destruct (IH g eq_refl) as (Hin & Hle & Hmax).
    destruct (Qle_bool x t && Qle_bool g x) eqn:E; injection H as <-.
    + apply andb_true_iff in E as [E1 E2]. apply Qle_bool_iff in E1. apply Qle_bool_iff in E2.
      split; [left; reflexivity|]. split; [exact E1|]. intros s [<-|Hs] Hst; [apply Qle_refl|].
      apply Qle_trans with g; [apply Hmax; assumption | exact E2].
    + split; [right; exact Hin|]. split; [exact Hle|]. intros s [<-|Hs] Hst; [|apply Hmax; assumption].
      apply andb_false_iff in E as [E|E].
      * exfalso. apply Qle_bool_iff in Hst. congruence.
      * destruct (Qlt_le_dec x g) as [Hlt|Hge]; [apply Qlt_le_weak, Hlt|]. apply Qle_bool_iff in Hge. congruence.
  - destruct (Qle_bool x t) eqn:E; [|discriminate]. injection H as <-. apply Qle_bool_iff in E.
    split; [left; reflexivity|]. split; [exact E|]. intros s [<-|Hs] Hst; [apply Qle_refl|].
    destruct (floor_sig_none l t Eg s Hs Hst).
Qed.

Lemma floor_same_side l t f : floor_sig l t = Some f -> same_side l f t.
Proof.
  intros H s Hs. destruct (floor_sig_spec l t f H) as (_ & Hle & Hmax). split.
  - intros Hsf. apply Qle_trans with f; assumption.
  - intros Hst. apply Hmax; assumption.
Qed.

Theorem complete_fixed d l t f :
  sig_fixed d = Ok l -> floor_sig l t = Some f -> Qle 0 f -> isd d t = isd d f.
Proof.
  intros Hs Hf H0. symmetry. apply (stable_fixed d l f t Hs (floor_same_side l t f Hf) H0).
  destruct (floor_sig_spec l t f Hf) as (_ & Hle & _). apply Qle_trans with f; assumption.
Qed.

(* The code's own list offsets animation steps by the parent's interval.  `sig_misses` (Model/SigTimes.v) is the trigger
   of the recorded finding: some time of the corrected list is missing from the code's list. *)
Theorem stable_partial d l t1 t2 :
  sig d = Ok l -> sig_misses d = false -> same_side l t1 t2 -> Qle 0 t1 -> Qle 0 t2 -> isd d t1 = isd d t2.
Proof.
  intros Hs Hm Hside H1 H2. unfold sig_misses in Hm. rewrite Hs in Hm.
  assert (exists l', sig_fixed d = Ok l') as [l' Hl'].
  { unfold sig, sig_fixed, sig_gen in *. destruct (cached_docs d); [|discriminate]. eexists. reflexivity. }
  rewrite Hl' in Hm. apply negb_false_iff in Hm. rewrite forallb_forall in Hm.
  apply (stable_fixed d l' t1 t2 Hl'); try assumption.
  intros s Hs'. specialize (Hm s Hs'). unfold qmem in Hm. apply existsb_exists in Hm as (y & Hy & Hq).
  apply Qeq_bool_iff in Hq. rewrite Hq. apply Hside, Hy.
Qed.

Theorem sig_sorted fixed d l : sig_gen fixed d = Ok l -> StronglySorted Qlt l.
Proof.
  unfold sig_gen. destruct (cached_docs d); [|discriminate]. cbn [bind]. intros H. injection H as <-. apply qsort_sorted.
Qed.

Lemma sequence_at d : forall ts s, isd_sequence_at d ts = Ok s ->
  map fst s = ts /\ Forall (fun p => isd_cached d (fst p) = Ok (snd p)) s.
Proof.
  induction ts as [|t ts IH]; intros s H; cbn [isd_sequence_at] in H.
  - injection H as <-. split; [reflexivity | constructor].
  - destruct (isd_cached d t) as [i|] eqn:Ei; [|discriminate]. cbn [bind] in H.
    destruct (isd_sequence_at d ts) as [rest|] eqn:Er; [|discriminate]. cbn [bind] in H. injection H as <-.
    destruct (IH rest eq_refl) as [Hm Hf]. split; [cbn [map fst]; f_equal; exact Hm|]. constructor; [exact Ei | exact Hf].
Qed.
Theorem sequence_spec d s : isd_sequence d = Ok s ->
  exists l, sig d = Ok l /\ map fst s = l /\ Forall (fun p => isd_cached d (fst p) = Ok (snd p)) s.
Proof.
  unfold isd_sequence. destruct (sig d) as [l|] eqn:El; [|discriminate]. cbn [bind]. intros H.
  exists l. split; [reflexivity|]. apply sequence_at, H.
Qed.
