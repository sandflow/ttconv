(* C02: before the first significant time a snapshot has no content. *)
From TT Require Import Model.Doc Gen.StyleTables Model.Isd Model.SigTimes Proofs.Common.Walk Proofs.C02.Stable Proofs.C02.Sig.

Lemma inactive_before t (iv : Q * option Q) : Qlt t (fst iv) -> active_at t iv = false.
Proof.
  intros H. unfold active_at, Qltb. rewrite negb_involutive.
  destruct (Qle_bool (fst iv) t) eqn:E; [|reflexivity]. apply Qle_bool_iff in E. exfalso. apply (Qlt_not_le _ _ H E).
Qed.

Lemma before_all l t : (forall s, In s (qsort l) -> Qlt t s) -> forall x, In x l -> Qlt t x.
Proof. intros H x Hx. destruct (qsort_has l x Hx) as (y & Hy & Hq). rewrite <- Hq. apply H, Hy. Qed.

Lemma begin_in_sig fixed pb pe e : In (fst (make_absolute (e_begin (eattrs e)) (e_end (eattrs e)) pb pe)) (sig_elem fixed pb pe e).
Proof. destruct e as [a cs]. cbn [sig_elem eattrs]. left. reflexivity. Qed.

Lemma proc_region_inactive d t sel r :
  Qlt t (fst (make_absolute (e_begin (eattrs r)) (e_end (eattrs r)) None None)) -> proc_region d t sel r = Ok None.
Proof. intros H. unfold proc_region. rewrite (inactive_before _ _ H). reflexivity. Qed.

Theorem before_first fixed d l t rs :
  sig_gen fixed d = Ok l -> (forall s, In s l -> Qlt t s) -> isd d t = Ok rs -> Forall (fun r => echildren r = []) rs.
Proof.
  unfold sig_gen. intros Hs Hlt Hi.
  destruct (cached_docs d) as [ds|] eqn:Ec; [|discriminate]. injection Hs as <-.
  pose proof (before_all _ t Hlt) as Hb. clear Hlt.
  unfold isd in Hi. destruct (d_regions d) as [|r0 rs'] eqn:Er.
  - (* the default region may be there, with the body inactive below it *)
    unfold cached_docs in Ec. rewrite Er in Ec. injection Ec as <-.
    cbn [flat_map] in Hb. unfold doc_times in Hb. rewrite Er in Hb. cbn [flat_map app] in Hb.
    cbn [collect_regions] in Hi. unfold proc_region in Hi.
    destruct (negb (active_at t _)); [injection Hi as <-; constructor|].
    destruct (style_phase d t _ None _) as [st|]; [|discriminate]. cbn [bind] in Hi.
    destruct (display_none st); [injection Hi as <-; constructor|].
    assert (Hch : match d_body d with
                  | None => Ok []
                  | Some b => bind (proc d t None None (Some (KRegion, st)) None None b) (fun r => Ok (match r with Some x => [x] | None => [] end))
                  end = Ok []).
    { destruct (d_body d) as [[a cs]|]; [|reflexivity]. rewrite proc_node. cbv zeta.
      rewrite inactive_before; [reflexivity|]. apply Hb. rewrite app_nil_r. left. reflexivity. }
    rewrite Hch in Hi. cbn in Hi.
    destruct (sget (strip_inapplicable KRegion st) p_ShowBackground) as [[x| | | | | | | | | | | | | |]|];
      try (injection Hi as <-; constructor).
    destruct (x =? e_ShowBackgroundType_always); injection Hi as <-; repeat constructor.
  - (* every region is a region of some cached document, and begins later *)
    rewrite collect_all_none in Hi; [injection Hi as <-; constructor|].
    intros r Hr. apply proc_region_inactive, Hb. rewrite <- Er in Hr.
    destruct (cached_docs_serve d ds r Ec Hr) as (c & Hc & Hsv). apply in_flat_map. exists c. split; [exact Hc|].
    unfold doc_times. rewrite (serves_region d r c Hsv). cbn [flat_map]. do 2 (apply in_or_app; left). apply begin_in_sig.
Qed.
