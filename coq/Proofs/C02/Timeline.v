(* C02: the generated sequence describes the whole timeline — the entry at the greatest significant time not after t
   renders like the snapshot at t.  Combines completeness (Proofs/C02/Complete.v) with the cached/uncached render
   equivalence of C14 (Proofs/C14/Sequence.v). *)
From TT Require Import Model.Doc Gen.StyleTables Model.Isd Model.SigTimes Model.CloneTrigger Spec.RenderSpec Spec.DocWf.
From TT Require Import Proofs.C02.Stable Proofs.C02.Sig Proofs.C02.Complete Proofs.C14.Sequence.

Theorem complete_partial d l t f :
  sig d = Ok l -> sig_misses d = false -> floor_sig l t = Some f -> Qle 0 f -> isd d t = isd d f.
Proof.
  intros Hs Hm Hf H0. symmetry. apply (stable_partial d l f t Hs Hm (floor_same_side l t f Hf) H0).
  destruct (floor_sig_spec l t f Hf) as (_ & Hle & _). apply Qle_trans with f; assumption.
Qed.

Theorem timeline d s t f rs :
  doc_wf d = true -> clone_empties_doc d = false -> sig_misses d = false ->
  isd_sequence d = Ok s -> floor_sig (map fst s) t = Some f -> Qle 0 f -> isd d t = Ok rs ->
  exists i, In (f, i) s /\ render i = render rs.
Proof.
  intros Hwf Htr Hm Hs Hf H0 Hi.
  destruct (sequence_render d s Hwf Htr Hs) as (l & Hl & Hmap & HF). subst l.
  destruct (floor_sig_spec _ t f Hf) as (Hin & _ & _). apply in_map_iff in Hin as ([f' i] & Hfst & Hp). cbn [fst] in Hfst. subst f'.
  rewrite Forall_forall in HF. destruct (HF (f, i) Hp) as [_ Hr]. cbn [fst snd] in Hr.
  rewrite (complete_partial d _ t f Hl Hm Hf H0) in Hi. destruct (Hr rs Hi) as [_ Heq].
  exists i. split; [exact Hp | exact Heq].
Qed.

(* before the first entry nothing has content (BeforeFirst.v), after it `timeline` applies: a document for which the
   hypotheses hold and the sequence has several entries *)
Lemma timeline_example :
  doc_wf ex_doc = true /\ clone_empties_doc ex_doc = false /\ sig_misses ex_doc = false /\
  exists s, isd_sequence ex_doc = Ok s /\ map fst s = [0%Q; Qmake 2 1; Qmake 4 1] /\ floor_sig (map fst s) (Qmake 3 1) = Some (Qmake 2 1).
Proof.
  destruct hypotheses_satisfiable as (Hwf & Htr & _). destruct ex_doc_sequence as (s & Hs & Hm).
  split; [exact Hwf|]. split; [exact Htr|]. split; [vm_compute; reflexivity|].
  exists s. split; [exact Hs|]. split; [exact Hm|]. rewrite Hm. reflexivity.
Qed.
