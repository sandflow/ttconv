(* C02: the significant times of the corrected transcription (`sig_fixed`: an element's animation steps offset by its
   own interval) contain every time a snapshot depends on, so snapshots are constant between them (`stable_fixed`).
   `qsort` is sorted(set(...)): it keeps and adds nothing up to Qeq and is strictly increasing. *)
From Coq Require Import Sorting.Sorted.
From TT Require Import Model.Doc Gen.StyleTables Model.Isd Model.SigTimes Model.IsdCache Proofs.Common.ElemInd Proofs.Common.Walk Proofs.C02.Stable.

Lemma qinsert_in x l : forall y, In y (qinsert x l) -> Qeq y x \/ In y l.
Proof.
  induction l as [|z l IH]; intros y H; cbn [qinsert] in H.
  - destruct H as [<-|[]]. left. reflexivity.
  - destruct (Qcompare x z) eqn:E.
    + right. exact H.
    + destruct H as [<-|H]; [left; reflexivity | right; exact H].
    + destruct H as [<-|H]; [right; left; reflexivity|]. apply IH in H as [H|H]; [left; exact H | right; right; exact H].
Qed.
Lemma qinsert_has x l : exists y, In y (qinsert x l) /\ Qeq y x.
Proof.
  induction l as [|z l IH]; cbn [qinsert].
  - exists x. split; [left; reflexivity | reflexivity].
  - destruct (Qcompare x z) eqn:E.
    + exists z. split; [left; reflexivity|]. apply Qeq_alt in E. symmetry. exact E.
    + exists x. split; [left; reflexivity | reflexivity].
    + destruct IH as (y & Hy & Hq). exists y. split; [right; exact Hy | exact Hq].
Qed.
Lemma qinsert_keeps x l : forall y, In y l -> exists y', In y' (qinsert x l) /\ Qeq y' y.
Proof.
  induction l as [|z l IH]; intros y H; [destruct H|]. cbn [qinsert].
  destruct (Qcompare x z) eqn:E.
  - exists y. split; [exact H | reflexivity].
  - exists y. split; [right; exact H | reflexivity].
  - destruct H as [<-|H].
    + exists z. split; [left; reflexivity | reflexivity].
    + destruct (IH y H) as (y' & Hy & Hq). exists y'. split; [right; exact Hy | exact Hq].
Qed.
Lemma qsort_has l : forall x, In x l -> exists y, In y (qsort l) /\ Qeq y x.
Proof.
  induction l as [|z l IH]; intros x H; [destruct H|]. cbn [qsort fold_right]. fold (qsort l).
  destruct H as [<-|H].
  - apply qinsert_has.
  - destruct (IH x H) as (y & Hy & Hq). destruct (qinsert_keeps z (qsort l) y Hy) as (y' & Hy' & Hq').
    exists y'. split; [exact Hy'|]. rewrite Hq'. exact Hq.
Qed.
Lemma qsort_in l : forall y, In y (qsort l) -> exists x, In x l /\ Qeq y x.
Proof.
  induction l as [|z l IH]; intros y H; [destruct H|]. cbn [qsort fold_right] in H. fold (qsort l) in H.
  apply qinsert_in in H as [H|H].
  - exists z. split; [left; reflexivity | exact H].
  - destruct (IH y H) as (x & Hx & Hq). exists x. split; [right; exact Hx | exact Hq].
Qed.

Lemma qinsert_sorted x l : StronglySorted Qlt l -> StronglySorted Qlt (qinsert x l).
Proof.
  induction l as [|z l IH]; intros H; cbn [qinsert].
  - constructor; constructor.
  - inversion H as [|? ? Hs Hf]; subst. destruct (Qcompare x z) eqn:E.
    + exact H.
    + apply Qlt_alt in E. constructor; [exact H|]. constructor; [exact E|].
      rewrite Forall_forall in *. intros y Hy. apply Qlt_trans with z; [exact E | apply Hf, Hy].
    + apply Qgt_alt in E. constructor; [apply IH, Hs|].
      rewrite Forall_forall in *. intros y Hy. apply qinsert_in in Hy as [Hy|Hy]; [rewrite Hy; exact E | apply Hf, Hy].
Qed.
Lemma qsort_sorted l : StronglySorted Qlt (qsort l).
Proof. induction l as [|z l IH]; [constructor|]. cbn [qsort fold_right]. apply qinsert_sorted, IH. Qed.

Lemma same_side_qsort l t1 t2 : same_side (qsort l) t1 t2 -> same_side l t1 t2.
Proof.
  intros H s Hs. destruct (qsort_has l s Hs) as (y & Hy & Hq). specialize (H y Hy). rewrite Hq in H. exact H.
Qed.

Lemma times_sel_incl sel : forall e inh pb pe, incl (times_sel sel inh pb pe e) (sig_elem true pb pe e).
Proof.
  induction e as [a cs IH] using elem_ind2. intros inh pb pe. rewrite sig_elem_node. cbn [times_sel]. cbv zeta.
  destruct (region_test sel _ _); [intros x []|].
  do 2 (apply incl_app_app; [apply incl_refl|]).
  apply flat_map_incl. intros c Hc. rewrite Forall_forall in IH. apply (IH c Hc).
Qed.

(* when there are several regions the times are taken from the clone made for each region: pruning by `restrict` loses
   none of the times the region's snapshot depends on *)
Lemma restrict_times rid : forall e inh pb pe,
  match restrict rid inh e with
  | Ok (Some e') => incl (times_sel (Some rid) inh pb pe e) (sig_elem true pb pe e')
  | Ok None => times_sel (Some rid) inh pb pe e = []
  | Err _ => True
  end.
Proof.
  induction e as [a cs IH] using elem_ind2. intros inh pb pe. rewrite restrict_node. cbn [times_sel]. cbv zeta.
  destruct (region_test (Some rid) _ _); [reflexivity|].
  destruct (collect_regions _) as [cs'|] eqn:Eg; [|exact I]. cbn [bind].
  destruct (is_nonempty_l cs' && _); [exact I|].
  rewrite sig_elem_node. cbv zeta. do 2 (apply incl_app_app; [apply incl_refl|]).
  apply collect_map_ok in Eg as (outs & HF & ->). clear - IH HF.
  induction HF as [|c o cs outs Hc HF IHF]; [apply incl_refl|]. inversion IH as [|? ? IHc IHcs]; subst.
  specialize (IHc (assoc_region a inh) (Some (fst (make_absolute (e_begin a) (e_end a) pb pe))) (snd (make_absolute (e_begin a) (e_end a) pb pe))).
  rewrite Hc in IHc. cbn [flat_map]. destruct o as [c'|]; cbn [opt_list app].
  - apply incl_app_app; [exact IHc | exact (IHF IHcs)].
  - rewrite IHc. exact (IHF IHcs).
Qed.

Definition region_times (r : elem) : list Q :=
  let a := eattrs r in let iv := make_absolute (e_begin a) (e_end a) None None in
  (fst iv :: opt_list (snd iv)) ++ anim_times iv (e_anims a).
(* what the snapshot of region r (selected by sel) of d depends on *)
Definition dep_times (d : doc) (sel : option text) (r : elem) : list Q :=
  region_times r ++ match d_body d with Some b => times_sel sel None None None b | None => [] end.

Lemma proc_region_same d t1 t2 sel r :
  same_side (dep_times d sel r) t1 t2 -> proc_region d t1 sel r = proc_region d t2 sel r.
Proof.
  intros H. apply same_side_app in H as [Hr Hb]. unfold region_times in Hr. apply same_side_app in Hr as [Hiv Han].
  unfold proc_region. set (a := eattrs r) in *. set (iv := make_absolute (e_begin a) (e_end a) None None) in *.
  rewrite (active_same t1 t2 iv Hiv). destruct (negb (active_at t2 iv)); [reflexivity|].
  rewrite (style_phase_same d t1 t2 a None iv Han).
  destruct (style_phase d t2 a None iv) as [st|c]; [|reflexivity]. cbn [bind].
  destruct (display_none st); [reflexivity|].
  destruct (d_body d) as [b|]; [|reflexivity].
  rewrite (proc_same d t1 t2 sel b None (Some (KRegion, st)) None None Hb). reflexivity.
Qed.

Lemma region_times_incl r : incl (region_times r) (sig_elem true None None r).
Proof. destruct r as [a cs]. rewrite sig_elem_node. rewrite app_assoc. apply incl_appl, incl_refl. Qed.

(* the cached documents: every region of d is the one region of a clone, or d has that region only *)
Definition serves (d : doc) (r : elem) (c : doc) : Prop := (c = d /\ d_regions d = [r]) \/ clone_one_region d r = Ok c.

Lemma cached_docs_serve d ds r : cached_docs d = Ok ds -> In r (d_regions d) -> exists c, In c ds /\ serves d r c.
Proof.
  unfold cached_docs, serves. intros Hc Hr. destruct (d_regions d) as [|r1 [|r2 rs]] eqn:Er; [destruct Hr| |].
  - injection Hc as <-. destruct Hr as [<-|[]]. exists d. split; [left; reflexivity | left; split; reflexivity].
  - destruct (Forall2_In_l _ _ _ r (clones_forall d _ ds Hc) Hr) as (c & Hin & Hcl). exists c. split; [exact Hin | right; exact Hcl].
Qed.

Lemma serves_region d r c : serves d r c -> d_regions c = [r].
Proof. intros [[-> H]|H]; [exact H|]. apply clone_one_region_inv in H as (rid & b' & _ & _ & ->). reflexivity. Qed.

Lemma serves_times d r c : serves d r c -> incl (dep_times d (e_id (eattrs r)) r) (doc_times true c).
Proof.
  intros H. unfold dep_times, doc_times. rewrite (serves_region d r c H). cbn [flat_map]. rewrite app_nil_r.
  apply incl_app_app; [apply region_times_incl|]. destruct H as [[-> _]|H].
  - destruct (d_body d); [apply times_sel_incl | apply incl_refl].
  - apply clone_one_region_inv in H as (rid & b' & -> & Hb & ->). cbn [d_body]. destruct (d_body d) as [b|].
    + pose proof (restrict_times rid b None None None) as Hr. rewrite Hb in Hr.
      destruct b' as [x|]; [exact Hr | rewrite Hr; apply incl_refl].
    + injection Hb as <-. apply incl_refl.
Qed.

Theorem stable_fixed d l t1 t2 :
  sig_fixed d = Ok l -> same_side l t1 t2 -> Qle 0 t1 -> Qle 0 t2 -> isd d t1 = isd d t2.
Proof.
  unfold sig_fixed, sig_gen. intros Hs Hside H1 H2.
  destruct (cached_docs d) as [ds|] eqn:Ec; [|discriminate]. injection Hs as <-.
  apply same_side_qsort in Hside. unfold isd. destruct (d_regions d) as [|r0 rs] eqn:Er.
  - (* no region: the default region, active at every t >= 0, and the cache holds the document itself *)
    unfold cached_docs in Ec. rewrite Er in Ec. injection Ec as <-. do 2 f_equal. apply proc_region_same.
    apply same_side_app. split; [intros s [<-|[]]; split; intros _; assumption|].
    cbn [flat_map] in Hside. rewrite app_nil_r in Hside. unfold doc_times in Hside. rewrite Er in Hside.
    destruct (d_body d); [|intros s []]. eapply same_side_incl; [apply times_sel_incl | exact Hside].
  - f_equal. apply map_ext_in. intros r Hr. apply proc_region_same.
    rewrite <- Er in Hr. destruct (cached_docs_serve d ds r Ec Hr) as (c & Hc & Hsv).
    eapply same_side_incl; [apply (serves_times d r c Hsv)|].
    apply (proj1 (same_side_flat_map _ _ _ _) Hside c Hc).
Qed.
