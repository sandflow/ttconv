(* C02: snapshots are constant between significant times.
   Key lemma: two query times on the same side of every absolute begin/end of the elements, regions and
   animation steps that a snapshot can reach give equal snapshots. *)
From TT Require Import Model.Doc Gen.StyleTables Model.Isd Model.SigTimes Model.IsdCache Proofs.Common.ElemInd Proofs.Common.Walk.

Definition same_side (l : list Q) (t1 t2 : Q) : Prop := forall s, In s l -> (Qle s t1 <-> Qle s t2).

Lemma same_side_app l1 l2 t1 t2 : same_side (l1 ++ l2) t1 t2 <-> same_side l1 t1 t2 /\ same_side l2 t1 t2.
Proof.
  unfold same_side. split.
  - intros H. split; intros s Hs; apply H; apply in_or_app; auto.
  - intros [H1 H2] s Hs. apply in_app_or in Hs as [Hs|Hs]; auto.
Qed.
Lemma same_side_cons x l t1 t2 : same_side (x :: l) t1 t2 <-> (Qle x t1 <-> Qle x t2) /\ same_side l t1 t2.
Proof.
  unfold same_side. split.
  - intros H. split; [apply H; left; reflexivity | intros s Hs; apply H; right; assumption].
  - intros [H1 H2] s [<-|Hs]; auto.
Qed.
Lemma same_side_flat_map {A} (f : A -> list Q) l t1 t2 :
  same_side (flat_map f l) t1 t2 <-> forall x, In x l -> same_side (f x) t1 t2.
Proof.
  unfold same_side. split.
  - intros H x Hx s Hs. apply H, in_flat_map. exists x. split; assumption.
  - intros H s Hs. apply in_flat_map in Hs as (x & Hx & Hs). apply (H x Hx s Hs).
Qed.
Lemma same_side_incl l l' t1 t2 : incl l l' -> same_side l' t1 t2 -> same_side l t1 t2.
Proof. intros Hi H s Hs. apply H, Hi, Hs. Qed.

Lemma Qle_bool_same x t1 t2 : (Qle x t1 <-> Qle x t2) -> Qle_bool x t1 = Qle_bool x t2.
Proof.
  intros H. destruct (Qle_bool x t1) eqn:E1, (Qle_bool x t2) eqn:E2; try reflexivity.
  - apply Qle_bool_iff in E1. apply H in E1. apply Qle_bool_iff in E1. congruence.
  - apply Qle_bool_iff in E2. apply H in E2. apply Qle_bool_iff in E2. congruence.
Qed.

Lemma active_same t1 t2 (iv : Q * option Q) :
  same_side (fst iv :: opt_list (snd iv)) t1 t2 -> active_at t1 iv = active_at t2 iv.
Proof.
  intros H. apply same_side_cons in H as [Hb He].
  unfold active_at, Qltb. rewrite !negb_involutive. rewrite (Qle_bool_same _ _ _ Hb).
  destruct (snd iv) as [e|]; [|reflexivity].
  assert (Qle e t1 <-> Qle e t2) as Hx by (apply He; left; reflexivity).
  rewrite (Qle_bool_same _ _ _ Hx). reflexivity.
Qed.

(* the times of the animation steps of one element, offset by the element's own interval *)
Definition anim_times (iv : Q * option Q) (l : list anim) : list Q :=
  flat_map (fun s => let aiv := make_absolute (a_begin s) (a_end s) (Some (fst iv)) (snd iv) in
                     fst aiv :: opt_list (snd aiv)) l.

Lemma apply_anims_same t1 t2 iv l : same_side (anim_times iv l) t1 t2 ->
  forall st todo, apply_anims t1 iv l st todo = apply_anims t2 iv l st todo.
Proof.
  induction l as [|a l IH]; intros H st todo; [reflexivity|].
  unfold anim_times in H. cbn [flat_map] in H. apply same_side_app in H as [Ha Hl].
  cbn [apply_anims]. rewrite (active_same t1 t2 _ Ha).
  destruct (active_at t2 _); apply IH; exact Hl.
Qed.

Lemma style_phase_same d t1 t2 a par iv : same_side (anim_times iv (e_anims a)) t1 t2 ->
  style_phase d t1 a par iv = style_phase d t2 a par iv.
Proof. intros H. unfold style_phase. rewrite (apply_anims_same t1 t2 iv _ H). reflexivity. Qed.

(* the times a snapshot of region sel can depend on below an element: like compute_sig_times (with the
   element's own interval for its animation steps), but skipping subtrees that region selection prunes *)
Fixpoint times_sel (sel inh : option text) (pb pe : option Q) (e : elem) : list Q :=
  match e with
  | Elem a cs =>
      let assoc := assoc_region a inh in
      if region_test sel assoc (is_nonempty_l cs) then []
      else
        let iv := make_absolute (e_begin a) (e_end a) pb pe in
        (fst iv :: opt_list (snd iv)) ++ anim_times iv (e_anims a) ++ flat_map (times_sel sel assoc (Some (fst iv)) (snd iv)) cs
  end.

Lemma proc_same d t1 t2 sel : forall e inh par pb pe,
  same_side (times_sel sel inh pb pe e) t1 t2 ->
  proc d t1 sel inh par pb pe e = proc d t2 sel inh par pb pe e.
Proof.
  induction e as [a cs IH] using elem_ind2. intros inh par pb pe H.
  rewrite !proc_node. cbn [times_sel] in H. cbv zeta in *.
  destruct (region_test sel _ _).
  - (* pruned by region selection whatever the activity *)
    destruct (negb (active_at t1 _)), (negb (active_at t2 _)); reflexivity.
  - apply same_side_app in H as [Hiv H]. apply same_side_app in H as [Han Hcs].
    rewrite (active_same t1 t2 _ Hiv), (style_phase_same d t1 t2 a par _ Han).
    destruct (negb (active_at t2 _)); [reflexivity|].
    destruct (style_phase d t2 a par _) as [st|c]; [|reflexivity]. cbn [bind].
    destruct (display_none st); [reflexivity|].
    do 2 f_equal. apply map_ext_in. intros c Hc. rewrite Forall_forall in IH. apply (IH c Hc).
    apply (proj1 (same_side_flat_map _ _ _ _) Hcs c Hc).
Qed.
