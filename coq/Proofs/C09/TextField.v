(* C09_tf: the one-pass machine of tf.to_model (buffer, look-ahead, look-behind, span bookkeeping) computes
   exactly the staged interpretation of the specification (cut at the first unused-space byte; tokens decided
   by the neighbours of each position; runs between attribute codes and row ends), for every list of integers
   (not only bytes), for both teletext and open subtitles and for any character decoder.  Induction on the
   byte list with the `_Context` record as invariant. *)
From TT Require Import Base.Prelude Gen.StlTables Model.StlTf Model.StlTriggers Spec.Ebu3264Spec.

(* how the two output vocabularies correspond: Model/StlTriggers.v attrs_of, piece_of_leaf *)

(* classifiers: literally the same range tests *)
Lemma character_graphic c : is_character_code c = graphic c.  Proof. reflexivity. Qed.
Lemma printable_printable c : is_printable_code c = printable c.  Proof. reflexivity. Qed.
Lemma control_attribute c : is_control_code c = attribute_code c.  Proof. reflexivity. Qed.

Lemma initial_attrs tele : attrs_of (initial_style tele) = default_attrs tele.
Proof. destruct tele; reflexivity. Qed.

Lemma apply_control_attrs ch c :
  attrs_of (c_style (apply_control ch c)) = apply_attribute ch (attrs_of (c_style c)) /\
  c_span (apply_control ch c) = c_span c /\ c_buf (apply_control ch c) = c_buf c.
Proof.
  unfold apply_control, apply_attribute.
  (* one case per code that either chain tests; what is left is no colour code *)
  repeat match goal with |- context [ch =? ?k] => destruct (Z.eqb_spec ch k) as [->|?]; [repeat split|] end.
  replace (in_range 0 7 ch) with false by (unfold in_range; lia). destruct (c_style c); repeat split.
Qed.

(* the suffix form of the specification's tokenisation: position-by-position with the left neighbour carried *)
Definition tokens_from (dh : bool) (prev : Z) (t : list Z) : list token :=
  flat_map (token_at dh) (combine (combine (prev :: t) t) (tl t ++ [filler])).

Lemma tokens_from_start t : tokens t = tokens_from (double_height t) filler t.
Proof. reflexivity. Qed.

Definition next_of (t : list Z) : Z := match t with [] => filler | n :: _ => n end.

Lemma tokens_from_cons dh prev c t : tokens_from dh prev (c :: t) = token_at dh (prev, c, next_of t) ++ tokens_from dh c t.
Proof.
  unfold tokens_from. destruct t as [|n t']; cbn [tl app combine flat_map next_of]; [rewrite app_nil_r|]; reflexivity.
Qed.

Lemma next_of_text rest : next_of (text_of_field rest) = peek rest.
Proof.
  destruct rest as [|n r]; [reflexivity|]. cbn [text_of_field peek].
  destruct (n =? filler) eqn:E; [apply Z.eqb_eq in E; subst; reflexivity | reflexivity].
Qed.

(* the invariant tying `_Context` to the specification's (attributes, pending run) *)
Definition ctx_rel (c : ctx) (a : attrs) (run : list Z) : Prop :=
  attrs_of (c_style c) = a /\ c_buf c = run /\
  ((c_span c = None /\ run = []) \/ (c_span c = Some (c_style c) /\ run <> [])).

Lemma end_span_rel dec c a run : ctx_rel c a run ->
  map piece_of_leaf (fst (end_span dec c)) = flush dec a run /\
  ctx_rel (snd (end_span dec c)) a [] /\ c_style (snd (end_span dec c)) = c_style c.
Proof.
  intros (Ha & Hb & [[Hs Hr]|[Hs Hr]]); unfold end_span; rewrite Hb, Hs.
  - rewrite Hr in *. cbn [fst snd flush map]. split; [reflexivity|]. split; [|reflexivity].
    unfold ctx_rel. split; [assumption|]. split; [assumption|]. left; auto.
  - destruct run as [|x r]; [congruence|]. cbn [fst snd flush map piece_of_leaf c_style c_span c_buf]. rewrite Ha.
    split; [reflexivity|]. split; [|reflexivity].
    unfold ctx_rel. cbn [c_style c_span c_buf]. split; [assumption|]. split; [reflexivity|]. left; auto.
Qed.

Lemma append_rel c a run ch : ctx_rel c a run -> ctx_rel (append_character c ch) a (run ++ [ch]).
Proof.
  intros (Ha & Hb & Hs). unfold ctx_rel, append_character. cbn. repeat split; auto; [rewrite Hb; reflexivity|].
  right. split; [|destruct run; discriminate].
  destruct Hs as [[Hs _]|[Hs _]]; rewrite Hs; reflexivity.
Qed.

(* bytes.partition(b'\x8f')[0] is the specification's "text": everything before the first unused-space byte *)
Lemma cut_is_cut bs : before_8f bs = text_of_field bs.
Proof. induction bs as [|b r IH]; [reflexivity|]. cbn [before_8f text_of_field]. change filler with 143. rewrite IH. reflexivity. Qed.

Lemma tf_loop_spec dec tele dh : forall bs prev c a run, ctx_rel c a run ->
  map piece_of_leaf (tf_loop dec tele dh prev bs c) = interpret dec tele a run (tokens_from dh prev (text_of_field bs)).
Proof.
  induction bs as [|ch rest IH]; intros prev c a run Hrel.
  - cbn [tf_loop text_of_field]. apply (end_span_rel dec) in Hrel as (H & _). exact H.
  - cbn [tf_loop text_of_field]. unfold is_unused_space_code. change 143 with filler.
    destruct (ch =? filler) eqn:Efill.
    { apply (end_span_rel dec) in Hrel as (H & _). exact H. }
    rewrite tokens_from_cons, next_of_text.
    change is_printable_code with printable. change is_character_code with graphic. change is_control_code with attribute_code.
    unfold token_at.
    assert (Hng : printable ch = true -> graphic ch = true) by (unfold printable; intros H; apply andb_true_iff in H; tauto).
    destruct (printable ch) eqn:Epr.
    { rewrite (Hng eq_refl). cbn [orb app interpret]. apply IH. apply append_rel, Hrel. }
    destruct (graphic ch) eqn:Egr.
    { (* a space *)
      assert (Hsp : ch =? 32 = true) by (unfold printable in Epr; rewrite Egr in Epr; destruct (ch =? 32); [reflexivity|discriminate]).
      change 0x20 with 32. rewrite Hsp. cbn [orb].
      rewrite (andb_comm (printable (peek rest))).
      destruct (printable prev && printable (peek rest)); cbn [app interpret]; [apply IH; apply append_rel, Hrel | apply IH; exact Hrel]. }
    assert (Hns : ch =? 0x20 = false).
    { destruct (ch =? 0x20) eqn:E; [|reflexivity]. apply Z.eqb_eq in E; subst ch. discriminate. }
    rewrite Hns. unfold is_newline_code. change 138 with newline_code.
    destruct (ch =? newline_code) eqn:Enl.
    { change 143 with filler.
      assert (Hc : negb (dh && (peek rest =? newline_code)) && negb (peek rest =? filler) =
                   negb ((peek rest =? filler) || dh && (peek rest =? newline_code)))
        by (destruct (dh && (peek rest =? newline_code)), (peek rest =? filler); reflexivity).
      rewrite Hc.
      destruct ((peek rest =? filler) || dh && (peek rest =? newline_code)) eqn:Enx; cbn [negb].
      - cbn [app]. apply IH. exact Hrel.
      - cbn [app interpret].
        destruct (end_span dec c) as [out c1] eqn:Ees.
        pose proof (end_span_rel dec c a run Hrel) as (Hout & Hr1 & Hst). rewrite Ees in Hout, Hr1, Hst. cbn [fst snd] in Hout, Hr1, Hst.
        rewrite map_app. cbn [map piece_of_leaf]. rewrite Hout. f_equal. f_equal.
        apply IH. destruct tele.
        + destruct Hr1 as (_ & Hb1 & Hs1). unfold ctx_rel, reset_styles. cbn. repeat split; auto.
          destruct Hs1 as [[Hs1 _]|[_ Hs1]]; [left; auto | congruence].
        + exact Hr1. }
    destruct (attribute_code ch) eqn:Eat.
    { cbn [app interpret].
      destruct (end_span dec c) as [out c1] eqn:Ees.
      pose proof (end_span_rel dec c a run Hrel) as (Hout & Hr1 & Hst). rewrite Ees in Hout, Hr1, Hst. cbn [fst snd] in Hout, Hr1, Hst.
      rewrite map_app, Hout. f_equal.
      rewrite (andb_comm (printable (peek rest))).
      pose proof (apply_control_attrs ch c1) as (Hac & Hsp & Hbf).
      destruct Hr1 as (Ha1 & Hb1 & Hs1).
      assert (Hrel2 : ctx_rel (apply_control ch c1) (apply_attribute ch a) []).
      { unfold ctx_rel. rewrite Hac, Ha1, Hsp, Hbf. repeat split; auto.
        destruct Hs1 as [[Hs1 _]|[_ Hs1]]; [left; auto | congruence]. }
      destruct (printable prev && printable (peek rest)).
      - apply IH. apply (append_rel _ _ [] 32) in Hrel2. exact Hrel2.
      - apply IH. exact Hrel2. }
    cbn [app]. apply IH. exact Hrel.
Qed.

Lemma tf_refines dec tele bs : map piece_of_leaf (tf_model dec tele bs) = tf_spec dec tele bs.
Proof.
  unfold tf_model, tf_spec. rewrite tokens_from_start, cut_is_cut. change 143 with filler.
  change (has_double_height_char (text_of_field bs)) with (double_height (text_of_field bs)). apply tf_loop_spec.
  unfold ctx_rel, ctx_init. cbn. rewrite initial_attrs. repeat split. left; auto.
Qed.

Lemma interpret_ext dec1 dec2 tele : forall ts a run,
  (forall r, dec1 r = dec2 r) -> interpret dec1 tele a run ts = interpret dec2 tele a run ts.
Proof.
  induction ts as [|t ts IH]; intros a run H; cbn [interpret]; unfold flush.
  - destruct run; [reflexivity | rewrite H; reflexivity].
  - destruct t; [apply IH, H | | ]; (destruct run; [|rewrite H]); rewrite (IH _ _ H); reflexivity.
Qed.

(* every run that is decoded consists of bytes of the field and of spaces, so two decoders that agree on such strings
   give the same pieces *)
Section Decoders.
  Variable P : Z -> Prop.
  Variables dec1 dec2 : list Z -> text.
  Hypothesis Hdec : forall l, Forall P l -> dec1 l = dec2 l.
  Hypothesis Hsp : P 32.

  Definition token_ok (t : token) : Prop := match t with TChar c => P c | _ => True end.

  Lemma interpret_agree tele : forall ts a run, Forall token_ok ts -> Forall P run ->
    interpret dec1 tele a run ts = interpret dec2 tele a run ts.
  Proof.
    induction ts as [|t ts IH]; intros a run Hts Hrun; cbn [interpret]; unfold flush.
    - destruct run; [reflexivity | rewrite (Hdec _ Hrun); reflexivity].
    - inversion Hts as [|? ? Ht Hts']; subst. destruct t as [c| |c sp].
      + apply IH; [exact Hts'|]. apply Forall_app. split; [exact Hrun | constructor; [exact Ht | constructor]].
      + rewrite (IH _ [] Hts' (Forall_nil _)). destruct run; [reflexivity | rewrite (Hdec _ Hrun); reflexivity].
      + assert (Hn : Forall P (if sp then [32] else [])) by (destruct sp; [constructor; [exact Hsp | constructor] | constructor]).
        rewrite (IH _ _ Hts' Hn). destruct run; [reflexivity | rewrite (Hdec _ Hrun); reflexivity].
  Qed.

  Lemma token_at_ok dh p c n : P c -> Forall token_ok (token_at dh (p, c, n)).
  Proof.
    intros Hc. unfold token_at.
    destruct (printable c); [constructor; [exact Hc | constructor]|].
    destruct (c =? 32); [destruct (printable p && printable n); [constructor; [exact Hc | constructor] | constructor]|].
    destruct (c =? newline_code); [destruct ((n =? filler) || (dh && (n =? newline_code))); [constructor | constructor; [exact I | constructor]]|].
    destruct (attribute_code c); [constructor; [exact I | constructor] | constructor].
  Qed.

  Lemma tokens_from_ok dh : forall t prev, Forall P t -> Forall token_ok (tokens_from dh prev t).
  Proof.
    induction t as [|c t IH]; intros prev Ht; [constructor|].
    inversion Ht as [|? ? Hc Ht']; subst. rewrite tokens_from_cons. apply Forall_app. split; [apply token_at_ok, Hc | apply IH, Ht'].
  Qed.

  Lemma text_of_field_forall bs : Forall P bs -> Forall P (text_of_field bs).
  Proof.
    induction 1 as [|b bs Hb _ IH]; [constructor|]. cbn [text_of_field]. destruct (b =? filler); [constructor | constructor; assumption].
  Qed.

  Lemma tf_spec_agree tele bs : Forall P bs -> tf_spec dec1 tele bs = tf_spec dec2 tele bs.
  Proof.
    intros Hb. unfold tf_spec. apply interpret_agree; [|constructor].
    rewrite tokens_from_start. apply tokens_from_ok, text_of_field_forall, Hb.
  Qed.
End Decoders.
