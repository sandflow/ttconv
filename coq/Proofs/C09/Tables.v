(* C09, the code tables.  What is finite is decided inside the kernel: the byte classes and the ISO 8859 tables on every
   byte (the bound is part of each statement), the ISO 6937 tables entry by entry.  From these, byte strings of any length. *)
From TT Require Import Base.Prelude Gen.Iso6937Tables Gen.StlTables Gen.Iso6937Spec Model.Iso6937 Model.StlTf Model.StlTriggers Spec.Ebu3264Spec.

Fixpoint all_upto (k : nat) (i : Z) (p : Z -> bool) : bool :=
  match k with O => true | S k' => p i && all_upto k' (i + 1) p end.

Lemma all_upto_spec k : forall i p, all_upto k i p = true -> forall w, i <= w < i + Z.of_nat k -> p w = true.
Proof.
  induction k as [|k IH]; intros i p H w Hw; [lia|].
  cbn [all_upto] in H. apply andb_true_iff in H as [H1 H2].
  destruct (Z.eq_dec w i) as [->|Hne]; [assumption|].
  apply (IH (i + 1) p H2). lia.
Qed.
Lemma all_bytes p : all_upto 256 0 p = true -> forall b, 0 <= b < 256 -> p b = true.
Proof. intros H b Hb. apply (all_upto_spec 256 0 p H). lia. Qed.


(* the range tests of Model/StlTf.v are tf.py's classifier functions on every byte (tf_class_table is regenerated from them),
   and the specification's classes coincide with them *)
Lemma classifiers_are_source : forall b, 0 <= b < 256 -> class_mask b = nth (Z.to_nat b) tf_class_table (-1).
Proof.
  intros b Hb. apply Z.eqb_eq. revert b Hb.
  apply (all_bytes (fun b => class_mask b =? nth (Z.to_nat b) tf_class_table (-1))). vm_compute. reflexivity.
Qed.

Lemma classes_agree : forall b, 0 <= b < 256 ->
  is_character_code b = graphic b /\ is_printable_code b = printable b /\ is_control_code b = attribute_code b.
Proof.
  intros b Hb.
  assert (H : (Bool.eqb (is_character_code b) (graphic b) && Bool.eqb (is_printable_code b) (printable b) &&
               Bool.eqb (is_control_code b) (attribute_code b)) = true).
  { revert b Hb. apply all_bytes. vm_compute. reflexivity. }
  apply andb_true_iff in H as [H H3]. apply andb_true_iff in H as [H1 H2].
  apply Bool.eqb_prop in H1, H2, H3. auto.
Qed.

Definition style_attrs_eqb (s : style) (a : attrs) : bool :=
  (s_fg s =? a_fg a) && (s_bg s =? a_bg a) && Bool.eqb (s_italic s) (a_italic a) && Bool.eqb (s_underline s) (a_underline a).

(* The regenerated _CCT0_DECODE_MAP and the standard's two tables hold the same entries, in whatever order: each entry
   of one is what the other gives for its key (a finite fact, decided by evaluation).  A first-match lookup returns an
   entry of its table, so the lookups agree on every key; no bound on the bytes is needed. *)
Lemma bytes_eqb_eq a b : bytes_eqb a b = true -> a = b.
Proof.
  revert b; induction a as [|x a IH]; intros [|y b] H; simpl in H; try discriminate; [reflexivity|].
  apply andb_true_iff in H as [H1 H2]. apply Z.eqb_eq in H1. apply IH in H2. congruence.
Qed.

Lemma map_get_in m k v : map_get m k = Some v -> In (k, v) m.
Proof.
  induction m as [|[k' v'] m IH]; cbn [map_get]; [discriminate|].
  destruct (bytes_eqb k' k) eqn:E; [|right; auto].
  intros [= ->]. apply bytes_eqb_eq in E as ->. left; reflexivity.
Qed.
Lemma assoc1_in m k v : assoc1 m k = Some v -> In (k, v) m.
Proof.
  induction m as [|[k' v'] m IH]; cbn [assoc1]; [discriminate|].
  destruct (k' =? k) eqn:E; [|right; auto].
  intros [= ->]. apply Z.eqb_eq in E as ->. left; reflexivity.
Qed.
Lemma assoc2_in m a b v : assoc2 m a b = Some v -> In (a, b, v) m.
Proof.
  induction m as [|[[a' b'] v'] m IH]; cbn [assoc2]; [discriminate|].
  destruct ((a' =? a) && (b' =? b)) eqn:E; [|right; auto].
  intros [= ->]. apply andb_true_iff in E as [->%Z.eqb_eq ->%Z.eqb_eq]. left; reflexivity.
Qed.

Lemma or_replacement_ext x y : (forall v, x = Some v -> or_replacement y = v) ->
  (forall v, y = Some v -> or_replacement x = v) -> or_replacement x = or_replacement y.
Proof.
  destruct x as [v|]; [intros H _; symmetry; apply H; reflexivity|].
  destruct y as [v|]; [intros _ H; apply H; reflexivity | reflexivity].
Qed.

(* no single-byte key of the source's map is a diacritical mark *)
Definition in_standard (e : list Z * Z) : bool :=
  match fst e with
  | [b] => negb (is_diacritic b) && (or_replacement (assoc1 iso6937_single b) =? snd e)
  | [d; l] => or_replacement (assoc2 iso6937_pairs_spec d l) =? snd e
  | _ => false
  end.
Lemma cct0_in_standard : forallb in_standard cct0_map = true.
Proof. vm_compute. reflexivity. Qed.
Lemma singles_in_cct0 : forallb (fun e => cct0_lookup [fst e] =? snd e) iso6937_single = true.
Proof. vm_compute. reflexivity. Qed.
Lemma pairs_in_cct0 : forallb (fun e => cct0_lookup [fst (fst e); snd (fst e)] =? snd e) iso6937_pairs_spec = true.
Proof. vm_compute. reflexivity. Qed.

Lemma cct0_lookup_get k : cct0_lookup k = or_replacement (map_get cct0_map k).
Proof. reflexivity. Qed.

Lemma cct0_char b : cct0_lookup [b] = or_replacement (assoc1 iso6937_single b).
Proof.
  rewrite cct0_lookup_get. apply or_replacement_ext; intros v E.
  - apply map_get_in, (proj1 (forallb_forall _ _) cct0_in_standard), andb_true_iff in E. apply Z.eqb_eq, E.
  - apply assoc1_in, (proj1 (forallb_forall _ _) singles_in_cct0) in E. apply Z.eqb_eq, E.
Qed.
Lemma cct0_pair d l : cct0_lookup [d; l] = or_replacement (assoc2 iso6937_pairs_spec d l).
Proof.
  rewrite cct0_lookup_get. apply or_replacement_ext; intros v E.
  - apply map_get_in, (proj1 (forallb_forall _ _) cct0_in_standard) in E. apply Z.eqb_eq, E.
  - apply assoc2_in, (proj1 (forallb_forall _ _) pairs_in_cct0) in E. apply Z.eqb_eq, E.
Qed.
Lemma cct0_mark d : is_diacritic d = true -> cct0_lookup [d] = replacement.
Proof.
  intros Hd. rewrite cct0_lookup_get. destruct (map_get cct0_map [d]) as [v|] eqn:E; [|reflexivity].
  apply map_get_in, (proj1 (forallb_forall _ _) cct0_in_standard), andb_true_iff in E.
  cbn [fst] in E. rewrite Hd in E. destruct E; discriminate.
Qed.

(* no byte is excepted.  A mark takes the byte after it along, hence the induction on a bound of the length. *)
Lemma iso6937_agree bs : decode6937 bs = decode_iso6937 bs.
Proof.
  remember (length bs) as n eqn:Hn. assert (Hlen : (length bs <= n)%nat) by lia. clear Hn. revert bs Hlen.
  induction n as [|n IH]; intros [|b rest] Hlen; try reflexivity; cbn [length] in Hlen; [lia|].
  cbn [decode6937 decode_iso6937]. change ((193 <=? b) && (b <=? 207)) with (is_diacritic b).
  destruct (is_diacritic b) eqn:Hd.
  - replace ((32 <=? b) && (b <=? 126)) with false by (unfold is_diacritic in Hd; lia).
    destruct rest as [|l rest]; [rewrite (cct0_mark b Hd); reflexivity|].
    rewrite cct0_pair. f_equal. apply IH. cbn [length] in Hlen. lia.
  - unfold iso6937_char. rewrite cct0_char.
    destruct ((32 <=? b) && (b <=? 126)); f_equal; apply IH; lia.
Qed.

Definition is_byte (b : Z) : Prop := 0 <= b < 256.
Lemma bytes_ok l : forallb (fun b => (0 <=? b) && (b <? 256)) l = true -> Forall is_byte l.
Proof. rewrite forallb_forall, Forall_forall. intros H b Hb. specialize (H b Hb). unfold is_byte. lia. Qed.

(* ISO 8859-5/6/7/8: CPython's codec tables (regenerated) against the standard's tables *)
Definition t8859_ok (b : Z) : bool :=
  (nth (Z.to_nat b) iso8859_5_table fffd =? iso8859_5 b) && (nth (Z.to_nat b) iso8859_6_table fffd =? iso8859_6 b) &&
  (nth (Z.to_nat b) iso8859_7_table fffd =? iso8859_7 b) && (nth (Z.to_nat b) iso8859_8_table fffd =? iso8859_8 b).
Lemma iso8859_b : forall b, 0 <= b < 256 -> t8859_ok b = true.
Proof. apply all_bytes. vm_compute. reflexivity. Qed.

Lemma charmap_eq table f bs : (forall b, is_byte b -> nth (Z.to_nat b) table fffd = f b) -> Forall is_byte bs ->
  charmap_decode table bs = map f bs.
Proof.
  intros H Hb. unfold charmap_decode. induction Hb as [|b bs Hb1 _ IH]; [reflexivity|].
  cbn [map]. rewrite (H b Hb1), IH. reflexivity.
Qed.

Lemma iso8859_tables b : is_byte b ->
  nth (Z.to_nat b) iso8859_5_table fffd = iso8859_5 b /\ nth (Z.to_nat b) iso8859_6_table fffd = iso8859_6 b /\
  nth (Z.to_nat b) iso8859_7_table fffd = iso8859_7 b /\ nth (Z.to_nat b) iso8859_8_table fffd = iso8859_8 b.
Proof.
  intros Hb. pose proof (iso8859_b b Hb) as H. unfold t8859_ok in H.
  rewrite !andb_true_iff, !Z.eqb_eq in H. tauto.
Qed.

Lemma cct_is_eqb cct d : cct_is cct d = bytes_eqb cct [48; d].
Proof.
  destruct cct as [|a [|b [|c r]]]; cbn [cct_is bytes_eqb]; rewrite ?andb_true_r, ?andb_false_r; reflexivity.
Qed.

Lemma decoder_agrees cct bs : Forall is_byte bs -> decoder_of_cct cct bs = decoder_spec cct bs.
Proof.
  intros Hb. unfold decoder_of_cct, decoder_spec. rewrite !cct_is_eqb.
  (* CCT 00 is none of 01..04, where the standard's choice starts *)
  destruct (bytes_eqb cct [48; 48]) eqn:E0; [apply bytes_eqb_eq in E0 as ->; apply iso6937_agree|].
  destruct (bytes_eqb cct [48; 49]); [|destruct (bytes_eqb cct [48; 50]); [|destruct (bytes_eqb cct [48; 51]);
    [|destruct (bytes_eqb cct [48; 52]); [|apply iso6937_agree]]]].
  all: apply charmap_eq; [intros b H; apply (iso8859_tables b H) | exact Hb].
Qed.
