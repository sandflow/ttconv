(* C09, the whole file: the composition of the per-block steps of the reader (Model/StlDatafile.v reader_model:
   GSI decoding, 128-byte blocks, skipping, extension chains, cumulative sets, divisions per SGN, region sharing)
   against the specification's `presentation` (Spec/Ebu3264Spec.v), for every file in the specification's domain.
   The route: the reader's fold over the blocks is a fold of complete_subtitle over the specification's subtitles
   (fold_groups); one subtitle is one step of paragraphs_go, with the reader's state as invariant (Inv, step); the
   reader's SGN -> div map is the specification's by_group (divisions_match); DataFile.__init__ reads the GSI block as
   the specification does (init_spec).  Then every list of blocks, every file; errors, totality, regions. *)
From Coq Require Import QArith Lia.
From TT Require Import Base.Prelude Gen.StlTables Model.TimeCode Model.Iso6937 Model.StlTf Model.StlDatafile Model.StlTriggers.
From TT Require Import Spec.Smpte12M Spec.Ebu3264Spec.
From TT Require Import Proofs.C09.Tables Proofs.C09.TextField Proofs.C09.Text Proofs.C09.Times Proofs.C09.Datafile.
Open Scope Z_scope.

Definition tti_of (b : block) : tti :=
  mkTti (b_sgn b) (b_sn b) (b_ebn b) (b_cs b) (b_tci b) (b_tco b) (b_vp b) (b_jc b) (b_cf b) (b_tf b).
Lemma unpack_block buf : unpack_tti buf = tti_of (block_of buf).
Proof. reflexivity. Qed.
Lemma carries_text_block b : carries_text b = text_block (tti_of b).
Proof.
  unfold carries_text, text_block, tti_of. cbn [t_ebn t_cf]. f_equal. f_equal.
  change 0xF0 with 240. change 0xFE with 254.
  destruct (240 <=? b_ebn b) eqn:E1, (b_ebn b <=? 254) eqn:E2, (239 <? b_ebn b) eqn:E3, (b_ebn b <? 255) eqn:E4; try reflexivity; lia.
Qed.

Lemma blocks_of_S k bs : bs <> [] ->
  blocks_of (S k) bs = if Nat.eqb (length (firstn 128 bs)) 128
                       then match blocks_of k (skipn 128 bs) with Some r => Some (block_of (firstn 128 bs) :: r) | None => None end
                       else None.
Proof. destruct bs; [contradiction | reflexivity]. Qed.
Lemma read_blocks_S k f s bs : bs <> [] ->
  read_blocks (S k) f s bs = if negb (Nat.eqb (length (firstn 128 bs)) 128) then inr EStruct else
                             match process_tti f s (unpack_tti (firstn 128 bs)) with
                             | inr e => inr e
                             | inl s' => read_blocks k f s' (skipn 128 bs)
                             end.
Proof. destruct bs; [contradiction | reflexivity]. Qed.

Lemma read_blocks_fold f : forall fuel bs s bl, blocks_of fuel bs = Some bl ->
  read_blocks fuel f s bs = fold_blocks f s (map tti_of bl).
Proof.
  induction fuel as [|k IH]; intros bs s bl H.
  - cbn [blocks_of] in H. injection H as <-. reflexivity.
  - destruct bs as [|b0 bs'].
    + cbn [blocks_of] in H. injection H as <-. reflexivity.
    + rewrite blocks_of_S in H by discriminate. rewrite read_blocks_S by discriminate.
      generalize dependent (firstn 128 (b0 :: bs')). generalize (skipn 128 (b0 :: bs')). intros rest buf H.
      destruct (Nat.eqb (length buf) 128); [|discriminate]. cbn [negb].
      destruct (blocks_of k rest) as [r|] eqn:Hr; [|discriminate]. injection H as <-.
      cbn [map fold_blocks]. rewrite unpack_block.
      destruct (process_tti f s (tti_of (block_of buf))) as [s'|e]; [|reflexivity].
      apply IH, Hr.
Qed.

(* the division of an SGN is created when its first paragraph is opened *)
Definition ensure (divs : list (Z * list para)) (sgn : Z) : list (Z * list para) :=
  if has_div divs sgn then divs else divs ++ [(sgn, [])].

Definition new_para (f : datafile) (t : tti) (tf : list Z) (ri : Z) : para :=
  let b := (offset_q (f_fps f) (t_tci t) - f_start f)%Q in
  let e := (offset_q (f_fps f) (t_tco t) - f_start f)%Q in
  let leaves := tf_model (decoder_of_cct (f_cct f)) (f_teletext f) tf in
  let fs := if f_teletext f && negb (has_double_height_char tf) then default_single_height_font_size_pct
            else default_double_height_font_size_pct in
  if (t_cs t =? 1) || (t_cs t =? 2) || (t_cs t =? 3)
  then mkPara ri (text_align_of (t_jc t)) fs default_line_height_pct None
              [PSub b e (if (t_cs t =? 1) || (t_cs t =? 2) then leaves ++ [LBr] else leaves)]
  else mkPara ri (text_align_of (t_jc t)) fs default_line_height_pct (Some (b, e)) (map PLeaf leaves).
Definition more_para (f : datafile) (t : tti) (tf : list Z) (p : para) : para :=
  let b := (offset_q (f_fps f) (t_tci t) - f_start f)%Q in
  let e := (offset_q (f_fps f) (t_tco t) - f_start f)%Q in
  let leaves := tf_model (decoder_of_cct (f_cct f)) (f_teletext f) tf in
  if (t_cs t =? 1) || (t_cs t =? 2) || (t_cs t =? 3)
  then mkPara (p_region p) (p_align p) (p_font_size p) (p_line_height p) (p_time p)
              (p_items p ++ [PSub b e (if (t_cs t =? 1) || (t_cs t =? 2) then leaves ++ [LBr] else leaves)])
  else mkPara (p_region p) (p_align p) (p_font_size p) (p_line_height p) (Some (b, e)) (p_items p ++ map PLeaf leaves).

(* complete_subtitle as one equation: dropped, a new paragraph in its region, or one more member of the open paragraph
   (the last branch's None is the AttributeError that no state reaches: no_paragraph s = false there) *)
Lemma complete_cases f s t tf :
  complete_subtitle f s t tf =
  let b := (offset_q (f_fps f) (t_tci t) - f_start f)%Q in
  let e := (offset_q (f_fps f) (t_tco t) - f_start f)%Q in
  if q_neg b || q_lt e b then inl (mkState false tf (st_last_sn s) (st_divs s) (st_cur s) (st_regions s))
  else if sn_differs (t_sn t) (st_last_sn s) && ((t_cs t =? 0) || (t_cs t =? 1)) || no_paragraph s then
    match region_for (f_max_rows f) (t_vp t) tf (has_double_height_char tf) with
    | None => inr EZeroDiv
    | Some rr => let (ri, rs) := get_region (st_regions s) rr in
                 inl (mkState false tf (Some (t_sn t)) (ensure (commit s) (t_sgn t)) (Some (t_sgn t, new_para f t tf ri)) rs)
    end
  else match st_cur s with
       | Some (sgn, p) => inl (mkState false tf (st_last_sn s) (st_divs s) (Some (sgn, more_para f t tf p)) (st_regions s))
       | None => inr EAttribute
       end.
Proof.
  unfold complete_subtitle, new_para, more_para, ensure, text_align_of. cbv zeta.
  destruct (q_neg _); [reflexivity|]. destruct (q_lt _ _); [reflexivity|]. cbn [orb].
  destruct (_ || no_paragraph s).
  - destruct (region_for _ _ _ _); [|reflexivity]. destruct (get_region _ _). cbn [st_cur].
    destruct ((t_cs t =? 1) || (t_cs t =? 2) || (t_cs t =? 3)); reflexivity.
  - cbn [st_cur]. destruct (st_cur s) as [[sgn p]|]; [|reflexivity].
    destruct ((t_cs t =? 1) || (t_cs t =? 2) || (t_cs t =? 3)); reflexivity.
Qed.

(* what every caller needs of it: the only failure is the division by a row count of zero; otherwise the extension
   state is reset and the regions are kept or extended by the region of the subtitle *)
Lemma region_none rows vp tf dh : region_for rows vp tf dh = None -> rows = 0.
Proof.
  unfold region_for. cbv zeta. destruct (_ <? _); [discriminate|]. destruct (rows =? 0) eqn:E; [lia | discriminate].
Qed.
Lemma complete_outcome f s t tf :
  (complete_subtitle f s t tf = inr EZeroDiv /\ f_max_rows f = 0) \/
  exists last divs cur rs, complete_subtitle f s t tf = inl (mkState false tf last divs cur rs) /\
    (rs = st_regions s \/
     exists rr, region_for (f_max_rows f) (t_vp t) tf (has_double_height_char tf) = Some rr /\ rs = snd (get_region (st_regions s) rr)).
Proof.
  rewrite complete_cases. cbv zeta. destruct (_ || _); [right; eauto 7|].
  destruct (_ || no_paragraph s) eqn:En.
  - destruct (region_for _ _ _ _) as [rr|] eqn:Er; [right | left; split; [reflexivity | eapply region_none, Er]].
    destruct (get_region (st_regions s) rr) as [ri rs] eqn:Eg. do 4 eexists. split; [reflexivity|].
    right. exists rr. rewrite Eg. auto.
  - destruct (st_cur s) as [[sgn p]|] eqn:Hc; [right; eauto 7|].
    unfold no_paragraph in En. rewrite Hc, orb_true_r in En. discriminate.
Qed.
Lemma complete_not_ext f s t tf s' : complete_subtitle f s t tf = inl s' -> st_in_ext s' = false.
Proof.
  destruct (complete_outcome f s t tf) as [[-> _]|(l & d & c & rs & -> & _)]; [discriminate|]. intros [= <-]. reflexivity.
Qed.

Fixpoint fold_subs (f : datafile) (s : state) (subs : list subtitle) : state + error :=
  match subs with
  | [] => inl s
  | x :: r => match complete_subtitle f s (tti_of (s_head x)) (s_field x) with
              | inl s' => fold_subs f s' r
              | inr e => inr e
              end
  end.

(* complete_subtitle reads the state only through the last number, the divisions, the current paragraph and the regions *)
Definition core (s : state) : state := mkState false [] (st_last_sn s) (st_divs s) (st_cur s) (st_regions s).
Lemma complete_core f s t tf : complete_subtitle f s t tf = complete_subtitle f (core s) t tf.
Proof. reflexivity. Qed.
Lemma fold_subs_core f s x r : fold_subs f s (x :: r) = fold_subs f (core s) (x :: r).
Proof. cbn [fold_subs]. rewrite complete_core. reflexivity. Qed.
Definition pending_rel (s : state) (pending : option subtitle) : Prop :=
  match pending with
  | None => st_in_ext s = false
  | Some p => st_in_ext s = true /\ st_tf s = s_field p
  end.

Lemma subtitles_go_cons b r pending : subtitles_go (b :: r) pending =
  if match pending with Some p => negb (same_subtitle (s_head p) b) | None => false end then None else
  let p' := mkSub b ((match pending with Some p => s_field p | None => [] end) ++ text_of_field (b_tf b)) in
  if b_ebn b =? 255 then match subtitles_go r None with Some l => Some (p' :: l) | None => None end
  else subtitles_go r (Some p').
Proof. destruct pending; reflexivity. Qed.

Lemma pending_nonempty : forall l p subs, subtitles_go l (Some p) = Some subs -> subs <> [].
Proof.
  induction l as [|b r IH]; intros p subs H; [discriminate|]. rewrite subtitles_go_cons in H. cbv zeta in H.
  destruct (negb (same_subtitle (s_head p) b)); [discriminate|].
  destruct (b_ebn b =? 255).
  - destruct (subtitles_go r None); [|discriminate]. injection H as <-. discriminate.
  - eapply IH, H.
Qed.

(* the reader's fold over all blocks of the file = the fold of complete_subtitle over the specification's subtitles:
   skipped blocks change nothing, extension blocks only accumulate text, the terminal block completes the subtitle with
   the concatenation of the texts *)
Lemma fold_groups f : forall bl pending s subs,
  subtitles_go (filter carries_text bl) pending = Some subs -> pending_rel s pending ->
  fold_blocks f s (map tti_of bl) = fold_subs f s subs.
Proof.
  induction bl as [|b r IH]; intros pending s subs H Hp.
  - cbn [filter subtitles_go] in H. destruct pending; [discriminate|]. injection H as <-. reflexivity.
  - cbn [filter map fold_blocks] in *. rewrite carries_text_block in H.
    destruct (text_block (tti_of b)) eqn:Htb.
    2:{ rewrite (process_skip f s _ Htb). eapply IH; eassumption. }
    rewrite subtitles_go_cons in H. destruct (match pending with Some _ => _ | None => _ end); [discriminate|]. cbv zeta in H.
    assert (Hacc : acc_tf s = match pending with Some p => s_field p | None => [] end).
    { unfold acc_tf. destruct pending as [p|]; cbn [pending_rel] in Hp; [destruct Hp as [-> ->]; reflexivity | rewrite Hp; reflexivity]. }
    set (fld := (match pending with Some p => s_field p | None => [] end) ++ text_of_field (b_tf b)) in *.
    destruct (b_ebn b =? 255) eqn:Ee.
    + apply Z.eqb_eq in Ee.
      destruct (subtitles_go (filter carries_text r) None) as [l|] eqn:Hl; [|discriminate]. injection H as <-.
      rewrite (process_terminal f s (tti_of b) Htb Ee). cbn [fold_subs s_head s_field].
      change (t_tf (tti_of b)) with (b_tf b). rewrite cut_is_cut, Hacc. fold fld.
      destruct (complete_subtitle f s (tti_of b) fld) as [s'|e] eqn:Hc; [|reflexivity].
      eapply IH; [exact Hl|]. cbn [pending_rel]. eapply complete_not_ext, Hc.
    + assert (Hx : is_ext (tti_of b) = true) by (unfold is_ext; rewrite Htb; cbn [t_ebn tti_of]; rewrite Ee; reflexivity).
      rewrite (process_ext f s _ Hx). change (t_tf (tti_of b)) with (b_tf b). rewrite cut_is_cut, Hacc. fold fld.
      set (s1 := mkState true fld (st_last_sn s) (st_divs s) (st_cur s) (st_regions s)).
      rewrite (IH (Some (mkSub b fld)) s1 subs H) by (cbn [pending_rel]; split; reflexivity).
      pose proof (pending_nonempty _ _ _ H) as Hne. destruct subs as [|x rest]; [contradiction|].
      rewrite (fold_subs_core f s1), (fold_subs_core f s). reflexivity.
Qed.

Definition spec_step (r : frame_rate) (start : Q) (dec : list Z -> text) (teletext : bool) (s : subtitle)
           (last_sn : Z) (acc : list paragraph) (open_set : option bool) : option (Z * list paragraph * option bool) :=
  let h := s_head s in
  let b := (time_of r (b_tci h) - start)%Q in
  let e := (time_of r (b_tco h) - start)%Q in
  if negb (last_sn <? b_sn h) then None else
  if q_ltb e b then None else
  let kept := negb (q_ltb b 0) in
  let txt := tf_spec dec teletext (s_field s) in
  let cs := b_cs h in
  if cs =? 0 then
    match open_set with
    | Some _ => None
    | None => Some (b_sn h, (if kept then acc ++ [mkParagraph (b_sgn h) (justification (b_jc h)) (first_row (b_vp h)) (rows_occupied (s_field s)) [mkPart b e txt]] else acc), None)
    end
  else if cs =? 1 then
    match open_set with
    | Some _ => None
    | None => Some (b_sn h, (if kept then acc ++ [mkParagraph (b_sgn h) (justification (b_jc h)) (first_row (b_vp h)) (rows_occupied (s_field s)) [mkPart b e (txt ++ [Break])]] else acc), Some kept)
    end
  else if (cs =? 2) || (cs =? 3) then
    match open_set with
    | None => None
    | Some k =>
        if negb (Bool.eqb k kept) then None else
        let piece_list := if cs =? 2 then txt ++ [Break] else txt in
        let acc' := if kept then
                      match rev acc with
                      | p :: before => rev before ++ [mkParagraph (pg_sgn p) (pg_align p) (pg_vp p) (pg_rows p) (pg_parts p ++ [mkPart b e piece_list])]
                      | [] => acc
                      end
                    else acc in
        Some (b_sn h, acc', if cs =? 2 then Some k else None)
    end
  else None.

Lemma paragraphs_go_cons r start dec tele s rest last_sn acc open_set :
  paragraphs_go r start dec tele (s :: rest) last_sn acc open_set =
  match spec_step r start dec tele s last_sn acc open_set with
  | Some (l, a, o) => paragraphs_go r start dec tele rest l a o
  | None => None
  end.
Proof.
  cbn [paragraphs_go]. unfold spec_step.
  destruct (negb (last_sn <? b_sn (s_head s))); [reflexivity|].
  destruct (q_ltb _ _); [reflexivity|].
  destruct (b_cs (s_head s) =? 0); [destruct open_set; reflexivity|].
  destruct (b_cs (s_head s) =? 1); [destruct open_set; reflexivity|].
  destruct ((b_cs (s_head s) =? 2) || (b_cs (s_head s) =? 3)); [|reflexivity].
  destruct open_set as [k|]; [|reflexivity]. destruct (negb (Bool.eqb k _)); reflexivity.
Qed.

(* the reader's divisions as a function of the paragraphs opened so far *)
Definition grp_step (d : list (Z * list para)) (x : Z * para) : list (Z * list para) :=
  div_add (ensure d (fst x)) (fst x) (snd x).
Definition grp (L : list (Z * para)) : list (Z * list para) := fold_left grp_step L [].

Inductive shape : state -> list (Z * para) -> Prop :=
| shape_nil s : st_cur s = None -> st_divs s = [] -> shape s []
| shape_snoc s L sgn p : st_cur s = Some (sgn, p) -> st_divs s = ensure (grp L) sgn -> shape s (L ++ [(sgn, p)]).

Lemma grp_snoc L sgn p : grp (L ++ [(sgn, p)]) = div_add (ensure (grp L) sgn) sgn p.
Proof. unfold grp. rewrite fold_left_app. reflexivity. Qed.
Lemma commit_shape s L : shape s L -> commit s = grp L.
Proof.
  intros [s' Hc Hd | s' L' sgn p Hc Hd]; unfold commit; rewrite Hc.
  - exact Hd.
  - rewrite Hd, grp_snoc. reflexivity.
Qed.

Lemma shape_snoc_inv s L sgn p : shape s (L ++ [(sgn, p)]) -> st_cur s = Some (sgn, p) /\ st_divs s = ensure (grp L) sgn.
Proof.
  intros H. remember (L ++ [(sgn, p)]) as LL eqn:E. destruct H as [s Hc Hd | s L' sgn' p' Hc Hd]; [destruct L; discriminate|].
  apply app_inj_tail in E as [-> Hp]. injection Hp as -> ->. auto.
Qed.

Lemma region_eqb_refl r : region_eqb r r = true.
Proof. unfold region_eqb. rewrite !Qeq_bool_refl, Bool.eqb_reflx. reflexivity. Qed.
Lemma region_eqb_equiv a b : region_eqb a b = true -> rect_equiv (rect_of a) (rect_of b).
Proof.
  unfold region_eqb. rewrite !andb_true_iff, !Qeq_bool_iff. intros ((((Hx & Hy) & Hh) & Hw) & Ha%Bool.eqb_prop).
  unfold rect_equiv, rect_of. cbn [x0 y0 width height align_after]. auto.
Qed.
Lemma rect_equiv_trans a b c : rect_equiv a b -> rect_equiv b c -> rect_equiv a c.
Proof.
  intros ((H1 & H2 & H3 & H4) & H5) ((G1 & G2 & G3 & G4) & G5). unfold rect_equiv.
  rewrite H1, H2, H3, H4, H5. auto.
Qed.

Lemma find_region_spec r : forall rs i k, find_region rs r i = Some k ->
  i <= k /\ exists r', nth_error rs (Z.to_nat (k - i)) = Some r' /\ region_eqb r' r = true.
Proof.
  induction rs as [|x rs IH]; intros i k H; cbn [find_region] in H; [discriminate|].
  destruct (region_eqb x r) eqn:E.
  - injection H as <-. split; [lia|]. exists x. rewrite Z.sub_diag. split; [reflexivity | exact E].
  - apply IH in H as (Hik & r' & Hn & He). split; [lia|]. exists r'. split; [|exact He].
    replace (Z.to_nat (k - i)) with (S (Z.to_nat (k - (i + 1)))) by lia. exact Hn.
Qed.
Lemma get_region_spec rs r ri rs' : get_region rs r = (ri, rs') ->
  0 <= ri /\ (exists ext, rs' = rs ++ ext) /\ exists r', nth_error rs' (Z.to_nat ri) = Some r' /\ region_eqb r' r = true.
Proof.
  unfold get_region. destruct (find_region rs r 0) as [k|] eqn:E; intros H; injection H as <- <-.
  - apply find_region_spec in E as (Hk & r' & Hn & He). rewrite Z.sub_0_r in Hn.
    split; [exact Hk|]. split; [exists []; symmetry; apply app_nil_r|]. exists r'. auto.
  - split; [lia|]. split; [exists [r]; reflexivity|]. exists r. rewrite Nat2Z.id, nth_error_app2, Nat.sub_diag by lia.
    split; [reflexivity | apply region_eqb_refl].
Qed.

Lemma leaves_of_leaves ls : leaves_of_items (map PLeaf ls) = Some ls.
Proof. induction ls as [|l ls IH]; [reflexivity|]. cbn [map leaves_of_items]. rewrite IH. reflexivity. Qed.
Lemma parts_of_subs_snoc its ps b e ls : parts_of_subs its = Some ps ->
  parts_of_subs (its ++ [PSub b e ls]) = Some (ps ++ [mkPart b e (map piece_of_leaf ls)]).
Proof.
  revert ps. induction its as [|i its IH]; intros ps H.
  - injection H as <-. reflexivity.
  - destruct i as [l|b' e' ls']; cbn [parts_of_subs app] in *; [discriminate|].
    destruct (parts_of_subs its) as [ps'|]; [|discriminate]. injection H as <-. rewrite (IH ps' eq_refl). reflexivity.
Qed.
Lemma align_codes jc : text_align_of jc = align_code (justification jc).
Proof. unfold text_align_of, justification. destruct (jc =? 1); [reflexivity|]. destruct (jc =? 3); reflexivity. Qed.

Lemma Forall2_single_l {A B} (P : A -> B -> Prop) a l : Forall2 P [a] l -> exists b, l = [b] /\ P a b.
Proof.
  intros H. destruct l as [|b [|c l]].
  - inversion H.
  - exists b. split; [reflexivity|]. inversion H; assumption.
  - inversion H as [|? ? ? ? _ H2]. inversion H2.
Qed.

Lemma new_para_obs f t tf ri :
  p_region (new_para f t tf ri) = ri /\ p_align (new_para f t tf ri) = text_align_of (t_jc t) /\
  (t_cs t =? 1 = true -> p_time (new_para f t tf ri) = None) /\
  ((t_cs t =? 0) || (t_cs t =? 1) = true ->
   parts_of_para (new_para f t tf ri) =
   Some [mkPart (offset_q (f_fps f) (t_tci t) - f_start f)%Q (offset_q (f_fps f) (t_tco t) - f_start f)%Q
                (map piece_of_leaf (tf_model (decoder_of_cct (f_cct f)) (f_teletext f) tf) ++
                 (if t_cs t =? 1 then [Break] else []))]).
Proof.
  unfold new_para, parts_of_para. cbv zeta.
  destruct (t_cs t =? 1) eqn:E1.
  { apply Z.eqb_eq in E1. rewrite E1. cbn [Z.eqb Pos.eqb orb p_region p_align p_time p_items parts_of_subs].
    rewrite map_app. repeat split. }
  destruct (t_cs t =? 0) eqn:E0.
  { apply Z.eqb_eq in E0. rewrite E0. cbn [Z.eqb orb p_region p_align p_time p_items].
    rewrite leaves_of_leaves, app_nil_r. repeat split. discriminate. }
  destruct (false || _ || _); repeat split; discriminate.
Qed.
Lemma more_para_obs f t tf p parts : (t_cs t =? 2) || (t_cs t =? 3) = true -> p_time p = None -> parts_of_para p = Some parts ->
  p_region (more_para f t tf p) = p_region p /\ p_align (more_para f t tf p) = p_align p /\
  p_time (more_para f t tf p) = None /\
  parts_of_para (more_para f t tf p) =
  Some (parts ++ [mkPart (offset_q (f_fps f) (t_tci t) - f_start f)%Q (offset_q (f_fps f) (t_tco t) - f_start f)%Q
                         (map piece_of_leaf (tf_model (decoder_of_cct (f_cct f)) (f_teletext f) tf) ++
                          (if t_cs t =? 2 then [Break] else []))]).
Proof.
  intros Hcs Ht Hp. unfold more_para, parts_of_para in *. cbv zeta. rewrite Ht in Hp.
  replace ((t_cs t =? 1) || (t_cs t =? 2) || (t_cs t =? 3)) with true by lia. cbn [p_region p_align p_time p_items]. rewrite Ht.
  repeat split. rewrite (parts_of_subs_snoc _ _ _ _ _ Hp). do 4 f_equal.
  destruct (t_cs t =? 2) eqn:E2; [rewrite orb_true_r, map_app; reflexivity|].
  replace (t_cs t =? 1) with false by lia. symmetry. apply app_nil_r.
Qed.

Section Paragraphs.
  Variables (f : datafile) (r : frame_rate) (start : Q) (cct : list Z) (tele : bool) (rows : Z).
  Hypothesis Hstart : f_start f = start.
  Hypothesis Hcct : f_cct f = cct.
  Hypothesis Htele : f_teletext f = tele.
  Hypothesis Hrows : f_max_rows f = rows.
  Hypothesis Hpos : 1 <= rows.

  (* what is assumed of a subtitle: its field consists of bytes, and its two time codes are converted as the
     specification converts them (true of every label at 24, 25, 30000/1001, 50 fps: Proofs/C09/Times.v) *)
  Definition sub_ok (x : subtitle) : Prop :=
    Forall is_byte (s_field x) /\
    offset_q (f_fps f) (b_tci (s_head x)) = time_of r (b_tci (s_head x)) /\
    offset_q (f_fps f) (b_tco (s_head x)) = time_of r (b_tco (s_head x)).

  Definition R (regions : list region) (x : Z * para) (g : paragraph) : Prop :=
    fst x = pg_sgn g /\ para_matches rows regions (snd x) g.

  Lemma R_mono regions ext x g : R regions x g -> R (regions ++ ext) x g.
  Proof.
    intros (H1 & H2 & H3 & rr & Hn & H0 & Hr). split; [exact H1|]. split; [exact H2|]. split; [exact H3|].
    exists rr. split; [|split; assumption]. rewrite nth_error_app1; [exact Hn|]. apply nth_error_Some. rewrite Hn. discriminate.
  Qed.
  Lemma R_mono_all regions ext L acc : Forall2 (R regions) L acc -> Forall2 (R (regions ++ ext)) L acc.
  Proof. induction 1; constructor; [apply R_mono|]; assumption. Qed.

  Definition Inv (s : state) (last_sn : Z) (acc : list paragraph) (open_set : option bool) (L : list (Z * para)) : Prop :=
    shape s L /\ Forall2 (R (st_regions s)) L acc /\
    (match st_last_sn s with Some l => l <= last_sn | None => True end) /\
    (open_set = Some true -> exists L0 sgn p, L = L0 ++ [(sgn, p)] /\ p_time p = None).

  Lemma region_matches rs vp tf rr ri rs' :
    region_for rows vp tf (has_double_height_char tf) = Some rr -> get_region rs rr = (ri, rs') ->
    exists r', nth_error rs' (Z.to_nat ri) = Some r' /\ 0 <= ri /\
               (rect_equiv (rect_of r') (top_anchored rows (first_row vp)) \/
                rect_equiv (rect_of r') (bottom_anchored rows (first_row vp + rows_occupied tf - 1))).
  Proof.
    intros Hr Hg. apply get_region_spec in Hg as (H0 & _ & r' & Hn & He). apply region_eqb_equiv in He.
    exists r'. split; [exact Hn|]. split; [exact H0|].
    destruct (region_choice rows vp tf rr Hr) as [[_ H]|[_ H]]; [left | right]; eapply rect_equiv_trans; eassumption.
  Qed.

  Lemma step x s last_sn acc open_set L last_sn' acc' open_set' :
    Inv s last_sn acc open_set L -> sub_ok x ->
    spec_step r start (decoder_spec cct) tele x last_sn acc open_set = Some (last_sn', acc', open_set') ->
    exists s' L', complete_subtitle f s (tti_of (s_head x)) (s_field x) = inl s' /\ Inv s' last_sn' acc' open_set' L'.
  Proof using Hstart Hcct Htele Hrows Hpos.
    intros (Hshape & HR & Hsn & Hopen) (Hbytes & Htci & Htco) Hstep.
    set (h := s_head x) in *. set (tf := s_field x) in *. set (t := tti_of h).
    unfold spec_step in Hstep. fold h tf in Hstep. cbv zeta in Hstep.
    set (b := (time_of r (b_tci h) - start)%Q) in *. set (e := (time_of r (b_tco h) - start)%Q) in *.
    assert (Hb : (offset_q (f_fps f) (t_tci t) - f_start f)%Q = b) by (unfold b, t; cbn [tti_of t_tci]; rewrite Htci, Hstart; reflexivity).
    assert (He : (offset_q (f_fps f) (t_tco t) - f_start f)%Q = e) by (unfold e, t; cbn [tti_of t_tco]; rewrite Htco, Hstart; reflexivity).
    assert (Htxt : map piece_of_leaf (tf_model (decoder_of_cct (f_cct f)) (f_teletext f) tf) = tf_spec (decoder_spec cct) tele tf)
      by (rewrite Hcct, Htele; apply text_full, Hbytes).
    destruct (last_sn <? b_sn h) eqn:Hlt; [cbn [negb] in Hstep | discriminate].
    destruct (q_ltb e b) eqn:Heb; [discriminate|].
    assert (Hdiff : sn_differs (t_sn t) (st_last_sn s) = true).
    { apply sn_value. change (t_sn t) with (b_sn h). destruct (st_last_sn s) as [l|]; [|discriminate]. intros [= ->]. lia. }
    assert (Hsn' : match st_last_sn s with Some l => l <= b_sn h | None => True end) by (destruct (st_last_sn s); [lia | exact I]).
    rewrite complete_cases. cbv zeta. rewrite Hb, He, Hdiff. change (t_cs t) with (b_cs h).
    change (q_lt e b) with (q_ltb e b). change (q_neg b) with (q_ltb b 0). rewrite Heb, orb_false_r. cbn [andb].
    destruct (q_ltb b 0) eqn:Hkept; cbn [negb] in Hstep.
    { (* dropped: starts before the programme start; no cumulative set with kept members is open afterwards *)
      eexists _, L. split; [reflexivity|].
      enough (Hi : forall o, o <> Some true -> Inv (mkState false tf (st_last_sn s) (st_divs s) (st_cur s) (st_regions s)) (b_sn h) acc o L).
      { destruct (b_cs h =? 0); [destruct open_set; [discriminate|]; injection Hstep as <- <- <-; apply Hi; discriminate|].
        destruct (b_cs h =? 1); [destruct open_set; [discriminate|]; injection Hstep as <- <- <-; apply Hi; discriminate|].
        destruct ((b_cs h =? 2) || (b_cs h =? 3)); [|discriminate].
        destruct open_set as [[|]|]; try discriminate. injection Hstep as <- <- <-. apply Hi. destruct (b_cs h =? 2); discriminate. }
      intros o Ho. split; [|split; [exact HR | split; [exact Hsn' | intros ->; contradiction]]].
      destruct Hshape as [s0 Hc Hd | s0 L0 sgn p Hc Hd]; [apply shape_nil | apply shape_snoc]; assumption. }
    destruct ((b_cs h =? 0) || (b_cs h =? 1)) eqn:Hcs01.
    - (* a new paragraph in the region of its rows *)
      assert (Hacc : open_set = None /\ last_sn' = b_sn h /\ open_set' = (if b_cs h =? 1 then Some true else None) /\
                     acc' = acc ++ [mkParagraph (b_sgn h) (justification (b_jc h)) (first_row (b_vp h)) (rows_occupied tf)
                                       [mkPart b e (tf_spec (decoder_spec cct) tele tf ++ (if b_cs h =? 1 then [Break] else []))]]).
      { destruct (b_cs h =? 0) eqn:E0.
        - apply Z.eqb_eq in E0. rewrite E0. cbn [Z.eqb]. rewrite app_nil_r.
          destruct open_set; [discriminate|]. injection Hstep as <- <- <-. auto.
        - cbn [orb] in Hcs01. rewrite Hcs01 in *. destruct open_set; [discriminate|]. injection Hstep as <- <- <-. auto. }
      destruct Hacc as (-> & -> & -> & ->). cbn [orb].
      destruct (region_exists (f_max_rows f) (t_vp t) tf (has_double_height_char tf)) as [rr Hrr]; [lia|]. rewrite Hrr.
      destruct (get_region (st_regions s) rr) as [ri rs] eqn:Hg.
      eexists _, (L ++ [(t_sgn t, new_para f t tf ri)]). split; [reflexivity|].
      pose proof (new_para_obs f t tf ri) as (Hreg & Hal & Htime & Hparts). specialize (Hparts Hcs01). rewrite Hb, He, Htxt in Hparts.
      rewrite Hrows in Hrr. destruct (region_matches _ _ _ _ _ _ Hrr Hg) as (r' & Hnth & Hri & Hrect).
      pose proof (get_region_spec _ _ _ _ Hg) as (_ & (ext & ->) & _).
      split; [|split; [|split]].
      + apply shape_snoc; [reflexivity|]. cbn [st_divs]. rewrite (commit_shape _ _ Hshape). reflexivity.
      + cbn [st_regions]. apply Forall2_app; [apply R_mono_all, HR|]. constructor; [|constructor].
        split; [reflexivity|]. cbn [snd]. split; [rewrite Hal; apply align_codes|]. split; [exact Hparts|].
        exists r'. rewrite Hreg. auto.
      + cbn [st_last_sn]. change (t_sn t) with (b_sn h). lia.
      + intros Ho. exists L, (t_sgn t), (new_para f t tf ri). split; [reflexivity|]. apply Htime.
        change (t_cs t) with (b_cs h). destruct (b_cs h =? 1); [reflexivity | discriminate].
    - (* one more member of the open cumulative set *)
      apply orb_false_iff in Hcs01 as [Hcs0 Hcs1]. rewrite Hcs0, Hcs1 in Hstep.
      destruct ((b_cs h =? 2) || (b_cs h =? 3)) eqn:Hcs23; [|discriminate].
      destruct open_set as [[|]|]; try discriminate. injection Hstep as <- <- <-.
      destruct (Hopen eq_refl) as (L0 & sgn & p & -> & Hpt).
      apply Forall2_app_inv_l in HR as (acc0 & accl & HR0 & HRl & ->).
      apply Forall2_single_l in HRl as (g & -> & (H1 & H2 & H3 & H4)).
      rewrite rev_app_distr. cbn [rev app]. rewrite rev_involutive.
      apply shape_snoc_inv in Hshape as [Hcur Hdivs]. unfold no_paragraph. rewrite Hcur. cbn [orb].
      eexists _, (L0 ++ [(sgn, more_para f t tf p)]). split; [reflexivity|].
      pose proof (more_para_obs f t tf p _ Hcs23 Hpt H3) as (Hreg & Hal & Htm & Hparts). rewrite Hb, He, Htxt in Hparts.
      split; [|split; [|split]].
      + apply shape_snoc; [reflexivity | exact Hdivs].
      + cbn [st_regions]. apply Forall2_app; [exact HR0|]. constructor; [|constructor].
        split; [exact H1|]. cbn [fst snd pg_align pg_parts pg_vp pg_rows] in *.
        split; [rewrite Hal; exact H2|]. split; [|rewrite Hreg; exact H4].
        rewrite Hparts. change (t_cs t) with (b_cs h). destruct (b_cs h =? 2); rewrite ?app_nil_r; reflexivity.
      + exact Hsn'.
      + intros _. exists L0, sgn, (more_para f t tf p). split; [reflexivity | exact Htm].
  Qed.

  Lemma fold_paragraphs : forall subs s last_sn acc open_set L ps,
    Inv s last_sn acc open_set L -> Forall sub_ok subs ->
    paragraphs_go r start (decoder_spec cct) tele subs last_sn acc open_set = Some ps ->
    exists s' L', fold_subs f s subs = inl s' /\ shape s' L' /\ Forall2 (R (st_regions s')) L' ps.
  Proof.
    induction subs as [|x rest IH]; intros s last_sn acc open_set L ps HI Hok H.
    - cbn [paragraphs_go] in H. destruct open_set; [discriminate|]. injection H as <-.
      exists s, L. destruct HI as (H1 & H2 & _). split; [reflexivity|]. split; assumption.
    - rewrite paragraphs_go_cons in H. apply Forall_cons_iff in Hok as [Hx Hrest].
      destruct (spec_step r start (decoder_spec cct) tele x last_sn acc open_set) as [[[l a] o]|] eqn:Hs; [|discriminate].
      destruct (step x s last_sn acc open_set L l a o HI Hx Hs) as (s1 & L1 & Hc & HI1).
      cbn [fold_subs]. rewrite Hc. eapply IH; eassumption.
  Qed.
End Paragraphs.

(* the reader's SGN -> div map, filled paragraph by paragraph, is the specification's grouping of the
   paragraphs by subtitle group in order of first appearance *)
Definition ord_step (acc : list Z) (k : Z) : list Z := if existsb (fun s => s =? k) acc then acc else acc ++ [k].
Definition ord (K : list Z) : list Z := fold_left ord_step K [].

Lemma existsb_rev {A} (p : A -> bool) l : existsb p (rev l) = existsb p l.
Proof.
  induction l as [|a l IH]; [reflexivity|]. cbn [rev existsb]. rewrite existsb_app, IH. cbn [existsb]. rewrite orb_false_r. apply orb_comm.
Qed.
Lemma sgn_order_ord : forall ps seen, sgn_order ps seen = fold_left ord_step (map pg_sgn ps) (rev seen).
Proof.
  induction ps as [|p r IH]; intros seen; [reflexivity|]. cbn [sgn_order map fold_left]. unfold ord_step at 2.
  rewrite existsb_rev. destruct (existsb (fun s => s =? pg_sgn p) seen); rewrite IH; reflexivity.
Qed.
Lemma by_group_ord ps : by_group ps = map (fun g => filter (fun p => pg_sgn p =? g) ps) (ord (map pg_sgn ps)).
Proof. unfold by_group. rewrite sgn_order_ord. reflexivity. Qed.

Lemma ord_snoc K k : ord (K ++ [k]) = ord_step (ord K) k.
Proof. unfold ord. rewrite fold_left_app. reflexivity. Qed.
Lemma mem_in O k : existsb (fun s => s =? k) O = true <-> In k O.
Proof.
  rewrite existsb_exists. split; [intros (x & Hx & He); apply Z.eqb_eq in He; subst; exact Hx | intros H; exists k; split; [exact H | apply Z.eqb_refl]].
Qed.
Lemma ord_nodup K : NoDup (ord K).
Proof.
  induction K as [|k K IH] using rev_ind; [constructor|]. rewrite ord_snoc. unfold ord_step.
  destruct (existsb (fun s => s =? k) (ord K)) eqn:E; [exact IH|].
  apply nodup_snoc; [exact IH|]. intros Hi. apply mem_in in Hi. congruence.
Qed.
Lemma ord_in K : forall k, In k (ord K) <-> In k K.
Proof.
  induction K as [|a K IH] using rev_ind; intros k; [reflexivity|]. rewrite ord_snoc. unfold ord_step.
  destruct (existsb (fun s => s =? a) (ord K)) eqn:E; rewrite !in_app_iff; cbn [In].
  - apply mem_in in E. apply IH in E. rewrite IH. split; [tauto|]. intros [H|[<-|[]]]; assumption.
  - rewrite IH. reflexivity.
Qed.

Definition sel (L : list (Z * para)) (k : Z) : list para := map snd (filter (fun x => fst x =? k) L).
Definition entry (L : list (Z * para)) (k : Z) : Z * list para := (k, sel L k).

Lemma sel_snoc L k p k' : sel (L ++ [(k, p)]) k' = sel L k' ++ (if k =? k' then [p] else []).
Proof. unfold sel. rewrite filter_app, map_app. cbn [filter fst]. destruct (k =? k'); reflexivity. Qed.
Lemma entry_other L k p k' : k' <> k -> entry (L ++ [(k, p)]) k' = entry L k'.
Proof. intros H. unfold entry. rewrite sel_snoc. destruct (k =? k') eqn:E; [lia|]. rewrite app_nil_r. reflexivity. Qed.
Lemma entries_other L k p O : ~ In k O -> map (entry (L ++ [(k, p)])) O = map (entry L) O.
Proof. intros H. apply map_ext_in. intros a Ha. apply entry_other. intros ->. contradiction. Qed.
Lemma sel_absent L k : ~ In k (map fst L) -> sel L k = [].
Proof.
  unfold sel. induction L as [|x L IH]; intros H; [reflexivity|]. cbn [map filter In] in *.
  destruct (fst x =? k) eqn:E; [exfalso; apply H; left; lia|]. apply IH. tauto.
Qed.

Lemma has_div_entries L O k : has_div (map (entry L) O) k = existsb (fun s => s =? k) O.
Proof. unfold has_div. induction O as [|a O IH]; [reflexivity|]. cbn [map existsb entry fst]. rewrite IH. reflexivity. Qed.
Lemma div_add_in L k p : forall O, NoDup O -> In k O -> div_add (map (entry L) O) k p = map (entry (L ++ [(k, p)])) O.
Proof.
  induction O as [|a O IH]; intros Hn Hi; [destruct Hi|]. apply NoDup_cons_iff in Hn as [Ha Hn].
  cbn [map div_add entry]. destruct (a =? k) eqn:E.
  - apply Z.eqb_eq in E. subst a. rewrite (entries_other L k p O Ha). unfold entry. rewrite sel_snoc, Z.eqb_refl. reflexivity.
  - destruct Hi as [->|Hi]; [lia|]. rewrite (IH Hn Hi). f_equal. symmetry. apply entry_other. lia.
Qed.
Lemma div_add_notin L k p : forall O, ~ In k O -> div_add (map (entry L) O ++ [(k, [])]) k p = map (entry L) O ++ [(k, [p])].
Proof.
  induction O as [|a O IH]; intros Hi.
  - cbn [map app div_add]. rewrite Z.eqb_refl. reflexivity.
  - cbn [map app div_add entry]. destruct (a =? k) eqn:E; [exfalso; apply Hi; left; lia|]. rewrite IH; [reflexivity|]. intros H; apply Hi; right; exact H.
Qed.

Lemma grp_char L : grp L = map (entry L) (ord (map fst L)).
Proof.
  induction L as [|[k p] L IH] using rev_ind; [reflexivity|].
  rewrite grp_snoc, IH, map_app. cbn [map fst]. rewrite ord_snoc. unfold ensure, ord_step.
  rewrite has_div_entries. set (O := ord (map fst L)).
  destruct (existsb (fun s => s =? k) O) eqn:E.
  - apply div_add_in; [apply ord_nodup | apply mem_in, E].
  - assert (Hk : ~ In k O) by (intros Hi; apply mem_in in Hi; congruence).
    rewrite div_add_notin by exact Hk. rewrite map_app, (entries_other L k p O Hk). cbn [map]. unfold entry at 3.
    rewrite sel_snoc, Z.eqb_refl, sel_absent; [reflexivity|]. intros Hi. apply Hk. apply ord_in, Hi.
Qed.

Lemma divisions_match (PM : para -> paragraph -> Prop) L ps :
  Forall2 (fun x g => fst x = pg_sgn g /\ PM (snd x) g) L ps ->
  Forall2 (Forall2 PM) (map snd (grp L)) (by_group ps).
Proof.
  intros H.
  assert (Hk : map fst L = map pg_sgn ps) by (induction H as [|x g L' ps' [Hx _] _ IH]; [reflexivity | cbn [map]; rewrite Hx, IH; reflexivity]).
  rewrite grp_char, by_group_ord, Hk, map_map. cbn [entry snd].
  induction (ord (map pg_sgn ps)) as [|k O IHO]; [constructor|]. cbn [map]. constructor; [|exact IHO].
  clear IHO Hk. unfold sel. induction H as [|x g L' ps' [Hx Hp] _ IH]; [constructor|].
  cbn [filter]. rewrite Hx. destruct (pg_sgn g =? k); [cbn [map]; constructor; assumption | exact IH].
Qed.

Ltac zlit H z := destruct z as [|z|z]; try discriminate H; repeat (destruct z as [z|z|]; try discriminate H).
Lemma dfc_inv dfc r : dfc_rate dfc = Some r -> exists a b, dfc = [83; 84; 76; a; b; 46; 48; 49].
Proof.
  intros H. unfold dfc_rate in H.
  destruct dfc as [|c0 l]; [discriminate|]. zlit H c0.
  destruct l as [|c1 l]; [discriminate|]. zlit H c1.
  destruct l as [|c2 l]; [discriminate|]. zlit H c2.
  destruct l as [|a l]; [discriminate|].
  destruct l as [|b l]; [discriminate|].
  destruct l as [|c5 l]; [discriminate|]. zlit H c5.
  destruct l as [|c6 l]; [discriminate|]. zlit H c6.
  destruct l as [|c7 l]; [discriminate|]. zlit H c7.
  destruct l as [|c8 l]; [|discriminate].
  exists a, b. reflexivity.
Qed.

(* the reader converts time codes as the specification does; at 24000/1001 only within the first minute (df-23976) *)
Definition rate_ok (dfc : list Z) (fps : rate) (r : frame_rate) : Prop :=
  forall l, is_stl23 dfc && beyond_first_minute l = false -> offset_q fps l = time_of r l.

Lemma rates dfc r : dfc_rate dfc = Some r ->
  exists n d, map_get_bytes dfc_fraction_map dfc = Some (n, d) /\ rate_ok dfc (mkRate n d) r.
Proof.
  intros H. destruct (dfc_inv dfc r H) as (a & b & ->). cbn [dfc_rate] in H.
  (* one case per rate of the table: the two digits are known, the code's table gives the fraction, and the conversion
     theorem of that rate applies *)
  repeat match type of H with (if ?c then _ else _) = _ =>
    destruct c eqn:E in H;
    [apply andb_true_iff in E as [->%Z.eqb_eq ->%Z.eqb_eq]; injection H as <-; do 2 eexists; (split; [reflexivity|]); intros l Hl | clear E]
  end; [apply offset23976_partial, Hl | apply (offset_int 24) | apply (offset_int 25) | apply offset2997 | apply (offset_int 50) | discriminate].
Qed.

Definition dstep (acc : option Z) (c : Z) : option Z :=
  match acc, digit_val c with Some a, Some d => Some (10 * a + d) | _, _ => None end.
Lemma dstep_none bs : fold_left dstep bs None = None.
Proof. induction bs as [|b r IH]; [reflexivity | exact IH]. Qed.

(* int(bytes) on the numeric GSI fields.  A plain character is one that int() reads as nothing but a digit or an error: no
   blank, sign or underscore *)
Definition plain (b : Z) : Prop := py_space b = false /\ b <> 43 /\ b <> 45 /\ b <> 95.

Lemma digits_go_fold : forall bs a pd, Forall plain bs -> bs <> [] \/ pd = true ->
  digits_go bs a pd = fold_left dstep bs (Some a).
Proof.
  induction bs as [|b r IH]; intros a pd Hp Hne.
  - destruct Hne as [Hne | ->]; [contradiction | reflexivity].
  - inversion Hp as [|? ? (_ & _ & _ & H95) Hr]; subst. cbn [digits_go fold_left dstep]. unfold digit_val, is_digit.
    destruct ((48 <=? b) && (b <=? 57)).
    + replace (a * 10 + (b - 48)) with (10 * a + (b - 48)) by ring. apply IH; auto.
    + rewrite dstep_none. destruct (b =? 95) eqn:E; [lia | reflexivity].
Qed.
Lemma digits_plain : forall bs a n, fold_left dstep bs (Some a) = Some n -> Forall plain bs.
Proof.
  induction bs as [|b r IH]; intros a n H; [constructor|]. cbn [fold_left dstep] in H. unfold digit_val in H.
  destruct ((48 <=? b) && (b <=? 57)) eqn:E; [|rewrite dstep_none in H; discriminate].
  constructor; [unfold plain, py_space; lia | eapply IH, H].
Qed.

Lemma nosign {A} (b : Z) (r : list Z) (X Y : list Z -> A) (D : A) : b <> 43 -> b <> 45 ->
  match b :: r with 43 :: r' => X r' | 45 :: r' => Y r' | _ => D end = D.
Proof.
  intros H1 H2. destruct b as [|p|p]; try reflexivity.
  repeat (destruct p as [p|p|]; try reflexivity); congruence.
Qed.
Lemma py_int_digits bs : Forall plain bs -> bs <> [] -> py_int bs = digits_value bs.
Proof.
  intros H Hne. unfold py_int.
  assert (Hs : forall l, Forall plain l -> lstrip_sp l = l).
  { intros [|b l] Hl; [reflexivity|]. cbn [lstrip_sp]. inversion Hl as [|? ? (Hb & _) _]; subst. rewrite Hb. reflexivity. }
  rewrite (Hs bs H), (Hs (rev bs)) by (apply Forall_rev, H). rewrite rev_involutive.
  destruct bs as [|b r]; [contradiction|]. inversion H as [|? ? (_ & H43 & H45 & _) _]; subst.
  rewrite (nosign b r (fun r' => digits_go r' 0 false)
                  (fun r' => match digits_go r' 0 false with Some n => Some (- n) | None => None end)) by assumption.
  apply digits_go_fold; [exact H | left; discriminate].
Qed.

Lemma py_int_field bs v : bs <> [] -> numeric_field bs = Some v ->
  py_int bs = match v with Number n => Some n | NotANumber => None end.
Proof.
  intros Hne H. unfold numeric_field in H.
  assert (Hp : Forall plain bs).
  { destruct (digits_value bs) as [n|] eqn:Ev; [exact (digits_plain bs 0 n Ev)|].
    destruct (existsb lenient_char bs) eqn:El; [discriminate|]. apply Forall_forall. intros b Hb.
    assert (Hl : lenient_char b = false).
    { destruct (lenient_char b) eqn:E; [|reflexivity]. rewrite <- El. symmetry. apply existsb_exists. eauto. }
    unfold lenient_char, in_range in Hl. unfold plain, py_space. lia. }
  rewrite (py_int_digits bs Hp Hne).
  destruct (digits_value bs); [|destruct (existsb _ _); [discriminate|]]; injection H as <-; reflexivity.
Qed.

Lemma sub_nonempty off len (g : list Z) : (0 < len)%nat -> (off < length g)%nat -> sub off len g <> [].
Proof.
  intros Hl Ho H. apply (f_equal (@length Z)) in H. unfold sub in H. rewrite firstn_length, skipn_length in H. cbn [length] in H. lia.
Qed.
Lemma sub_length off len (g : list Z) : (off + len <= length g)%nat -> length (sub off len g) = len.
Proof. intros H. unfold sub. rewrite firstn_length, skipn_length. lia. Qed.

Lemma label_inv t l : label_of_text t = Some l ->
  exists a b c d e f g h, t = [a; b; 58; c; d; 58; e; f; 58; g; h].
Proof.
  intros H. unfold label_of_text in H.
  destruct t as [|a t]; [discriminate|]. destruct t as [|b t]; [discriminate|].
  destruct t as [|s1 t]; [discriminate|]. zlit H s1.
  destruct t as [|c t]; [discriminate|]. destruct t as [|d t]; [discriminate|].
  destruct t as [|s2 t]; [discriminate|]. zlit H s2.
  destruct t as [|e t]; [discriminate|]. destruct t as [|f t]; [discriminate|].
  destruct t as [|s3 t]; [discriminate|]. zlit H s3.
  destruct t as [|g t]; [discriminate|]. destruct t as [|h t]; [discriminate|].
  destruct t as [|x t]; [|discriminate].
  exists a, b, c, d, e, f, g, h. reflexivity.
Qed.
Lemma two_digit_digits a b : two_digit a b = two_digits a b.
Proof.
  unfold two_digit, two_digits, digit_val, is_digit. change 0x30 with 48. change 0x39 with 57.
  destruct ((48 <=? a) && (a <=? 57)), ((48 <=? b) && (b <=? 57)); try reflexivity. cbn [andb]. f_equal. ring.
Qed.
Lemma label_match t l : label_of_text t = Some l -> fullmatch_tc (fun c => c =? colon) t = Some l.
Proof.
  intros H. destruct (label_inv t l H) as (a & b & c & d & e & f & g & h & ->).
  cbn [label_of_text] in H. rewrite !two_digit_digits in H. exact H.
Qed.
Lemma parse_label t l fps : label_of_text t = Some l -> parse_tc t fps = Some (l, fps).
Proof.
  intros H. apply label_match in H. unfold fullmatch_tc in H. destruct (Nat.eqb (length t) 11); [|discriminate].
  unfold parse_tc. rewrite H. reflexivity.
Qed.

Definition start_beyond (g : list Z) (cfg : config) : bool :=
  match cf_start cfg with
  | StNone => false
  | StTCP => let tcp := sub 256 8 g in
             match py_int (slice 0 2 tcp), py_int (slice 2 2 tcp), py_int (slice 4 2 tcp), py_int (slice 6 2 tcp) with
             | Some h, Some m, Some s, Some f => beyond_first_minute (h, m, s, f)
             | _, _, _, _ => false
             end
  | StStr t => match parse_tc t r23976 with Some (l, _) => beyond_first_minute l | None => false end
  end.

(* S's grid (a declared count that is not positive is no count) is the reader's row count after its guard
   `if self.max_row_count < 1` *)
Lemma grid_rows_guard n : grid_rows n = if n <? 1 then 23 else n.
Proof. destruct (n <? 1) eqn:E; destruct n as [|p|p]; cbn [grid_rows]; try reflexivity; lia. Qed.
Lemma grid_rows_pos n : 1 <= grid_rows n.
Proof. destruct n as [|p|p]; cbn [grid_rows]; lia. Qed.
Lemma max_rows_pos g c rows : max_rows g c = Some rows -> 1 <= rows.
Proof.
  unfold max_rows. destruct (teletext_dsc _); [intros H; injection H as <-; lia|].
  destruct c as [| |n].
  - intros H; injection H as <-; lia.
  - destruct (numeric_field _) as [[n|]|]; [| |discriminate]; intros H; injection H as <-; [apply grid_rows_pos | lia].
  - intros H; injection H as <-. apply grid_rows_pos.
Qed.
Lemma rows_guard_pos x : 1 <= (if x <? 1 then default_teletext_rows else x).
Proof. change default_teletext_rows with 23. destruct (x <? 1) eqn:E; lia. Qed.

(* the parts of `init` that depend on the configuration, under names of their own *)
Definition fps_of (dfc : list Z) : rate :=
  match map_get_bytes dfc_fraction_map dfc with Some (n, d) => mkRate n d | None => mkRate 25 1 end.
Definition start_of (tcp : list Z) (c : start_tc) (fps : rate) : Q + error :=
  match c with
  | StNone => inl 0%Q
  | StTCP => match py_int (slice 0 2 tcp), py_int (slice 2 2 tcp), py_int (slice 4 2 tcp), py_int (slice 6 2 tcp) with
             | Some h, Some m, Some s, Some f => inl (offset_q fps (h, m, s, f))
             | _, _, _, _ => inl 0%Q
             end
  | StStr t => match parse_tc t fps with Some (l, r) => inl (offset_q r l) | None => inr EValue end
  end.
Definition rows_of (teletext : bool) (mnr : list Z) (c : max_rows_cfg) : Z :=
  let raw := match c with
             | MrNone => default_teletext_rows
             | MrMNR => if teletext then default_teletext_rows
                        else match py_int mnr with Some n => n | None => default_teletext_rows end
             | MrInt n => if teletext then default_teletext_rows else n
             end in
  if raw <? 1 then default_teletext_rows else raw.

Lemma init_parts g cfg : exists count lang,
  init g cfg = match start_of (g_tcp g) (cf_start cfg) (fps_of (g_dfc g)) with
               | inr e => inr e
               | inl start => inl (mkDatafile (fps_of (g_dfc g)) (g_cct g) (teletext_dsc (g_dsc g)) count lang start
                                              (rows_of (teletext_dsc (g_dsc g)) (g_mnr g) (cf_rows cfg)))
               end.
Proof. do 2 eexists. reflexivity. Qed.

(* the only start that fails is a configured time code that SmpteTimeCode.parse rejects *)
Lemma start_of_error tcp c fps e : start_of tcp c fps = inr e -> e = EValue /\ exists t, c = StStr t /\ parse_tc t fps = None.
Proof.
  destruct c as [| |t]; cbn [start_of]; [discriminate | |].
  - destruct (py_int _); [destruct (py_int _); [destruct (py_int _); [destruct (py_int _)|]|]|]; discriminate.
  - destruct (parse_tc t fps) as [[l r]|] eqn:E; [discriminate|]. intros [= <-]. eauto.
Qed.
Lemma init_errors g cfg e : init g cfg = inr e -> e = EValue /\ exists t fps, cf_start cfg = StStr t /\ parse_tc t fps = None.
Proof.
  destruct (init_parts g cfg) as (count & lang & ->).
  destruct (start_of _ _ _) eqn:E; [discriminate|]. intros [= <-].
  apply start_of_error in E as (-> & t & Hc & Hp). eauto.
Qed.
(* DataFile.__init__ leaves at least one row, whatever the GSI block and the configuration *)
Lemma init_rows g cfg f : init g cfg = inl f -> 1 <= f_max_rows f.
Proof.
  destruct (init_parts g cfg) as (count & lang & ->).
  destruct (start_of _ _ _); [|discriminate]. intros [= <-]. exact (rows_guard_pos _).
Qed.

Lemma rows_spec g cfg rows : length g = 1024%nat -> max_rows g (spec_rows (cf_rows cfg)) = Some rows ->
  rows_of (teletext_dsc (gsi_dsc g)) (gsi_mnr g) (cf_rows cfg) = rows.
Proof.
  intros Hlen H. unfold max_rows in H. unfold rows_of. change default_teletext_rows with 23.
  destruct (teletext_dsc (gsi_dsc g)).
  - injection H as <-. destruct (cf_rows cfg); reflexivity.
  - destruct (cf_rows cfg) as [| |n]; cbn [spec_rows] in H.
    + injection H as <-. reflexivity.
    + destruct (numeric_field (gsi_mnr g)) as [v|] eqn:E; [|discriminate].
      rewrite (py_int_field _ v) by (exact E || (apply sub_nonempty; lia)).
      destruct v; injection H as <-; [symmetry; apply grid_rows_guard | reflexivity].
    + injection H as <-. symmetry. apply grid_rows_guard.
Qed.

Lemma start_spec g cfg sc r fps start : length g = 1024%nat ->
  spec_start (cf_start cfg) = Some sc -> programme_start r g sc = Some start ->
  rate_ok (gsi_dfc g) fps r -> is_stl23 (gsi_dfc g) && start_beyond g cfg = false ->
  start_of (gsi_tcp g) (cf_start cfg) fps = inl start.
Proof.
  intros Hlen Hsc Hps Hrate Htrig. unfold start_beyond in Htrig. unfold start_of.
  destruct (cf_start cfg) as [| |t]; cbn [spec_start] in Hsc.
  - injection Hsc as <-. injection Hps as <-. reflexivity.
  - injection Hsc as <-. cbn [programme_start] in Hps. change slice with sub in *. change (sub 256 8 g) with (gsi_tcp g) in Htrig.
    assert (Ht : length (gsi_tcp g) = 8%nat) by (apply sub_length; lia).
    destruct (numeric_field (sub 0 2 (gsi_tcp g))) as [v0|] eqn:E0; [|discriminate].
    destruct (numeric_field (sub 2 2 (gsi_tcp g))) as [v2|] eqn:E2; [|destruct v0; discriminate].
    destruct (numeric_field (sub 4 2 (gsi_tcp g))) as [v4|] eqn:E4; [|destruct v0, v2; discriminate].
    destruct (numeric_field (sub 6 2 (gsi_tcp g))) as [v6|] eqn:E6; [|destruct v0, v2, v4; discriminate].
    rewrite (py_int_field _ v0), (py_int_field _ v2), (py_int_field _ v4), (py_int_field _ v6) in *
      by (assumption || (apply sub_nonempty; lia)).
    destruct v0, v2, v4, v6; injection Hps as <-; try reflexivity. f_equal. apply Hrate, Htrig.
  - destruct (label_of_text t) as [l|] eqn:El; [|discriminate]. injection Hsc as <-. injection Hps as <-.
    rewrite (parse_label t l fps El). rewrite (parse_label t l r23976 El) in Htrig. f_equal. apply Hrate, Htrig.
Qed.

Lemma init_spec g cfg sc r start rows : length g = 1024%nat ->
  spec_start (cf_start cfg) = Some sc -> dfc_rate (gsi_dfc g) = Some r ->
  max_rows g (spec_rows (cf_rows cfg)) = Some rows -> programme_start r g sc = Some start ->
  is_stl23 (gsi_dfc g) && start_beyond g cfg = false ->
  exists fdat, init (unpack_gsi g) cfg = inl fdat /\ rate_ok (gsi_dfc g) (f_fps fdat) r /\ f_start fdat = start /\
               f_cct fdat = gsi_cct g /\ f_teletext fdat = teletext_dsc (gsi_dsc g) /\ f_max_rows fdat = rows.
Proof.
  intros Hlen Hsc Hr Hrows Hps Htrig.
  destruct (rates _ _ Hr) as (n & d & Hmap & Hrate).
  destruct (init_parts (unpack_gsi g) cfg) as (count & lang & ->). cbn [unpack_gsi g_tcp g_dfc g_cct g_dsc g_mnr].
  change slice with sub. change (nth 11 g 0) with (gsi_dsc g). fold (gsi_dfc g) (gsi_tcp g) (gsi_mnr g). unfold fps_of. rewrite Hmap.
  rewrite (start_spec g cfg sc r (mkRate n d) start Hlen Hsc Hps Hrate Htrig), (rows_spec g cfg rows Hlen Hrows).
  eexists. split; [reflexivity|]. cbn [f_fps f_start f_cct f_teletext f_max_rows]. auto.
Qed.


Lemma chunks_S k (bs : list Z) : bs <> [] -> chunks (S k) bs = firstn 128 bs :: chunks k (skipn 128 bs).
Proof. destruct bs; [contradiction | reflexivity]. Qed.

(* the blocks the trigger looks at are the blocks the specification reads; their text fields are bytes *)
Lemma blocks_facts : forall fuel l bs, blocks_of fuel l = Some bs -> Forall is_byte l ->
  map unpack_tti (filter (fun c => Nat.eqb (length c) 128) (chunks fuel l)) = map tti_of bs /\
  Forall (fun b => Forall is_byte (b_tf b)) bs.
Proof.
  induction fuel as [|k IH]; intros l bs H Hb.
  - cbn [blocks_of] in H. injection H as <-. split; [reflexivity | constructor].
  - destruct l as [|b0 l'].
    + cbn [blocks_of] in H. injection H as <-. split; [reflexivity | constructor].
    + rewrite blocks_of_S in H by discriminate. rewrite chunks_S by discriminate.
      pose proof (Forall_firstn _ 128 _ Hb) as Hb1. pose proof (Forall_skipn _ 128 _ Hb) as Hb2.
      generalize dependent (firstn 128 (b0 :: l')). generalize dependent (skipn 128 (b0 :: l')). intros rest Hb2 buf H Hb1.
      cbn [filter]. destruct (Nat.eqb (length buf) 128); [|discriminate].
      destruct (blocks_of k rest) as [r|] eqn:Hr; [|discriminate]. injection H as <-.
      destruct (IH rest r Hr Hb2) as [H1 H2]. split.
      * cbn [map]. rewrite H1, unpack_block. reflexivity.
      * constructor; [|exact H2]. cbn [block_of b_tf]. unfold sub. apply Forall_firstn, Forall_skipn, Hb1.
Qed.

Lemma subs_facts (P : block -> Prop) : forall l pending subs, subtitles_go l pending = Some subs ->
  Forall (fun b => P b /\ Forall is_byte (b_tf b)) l ->
  match pending with Some p => Forall is_byte (s_field p) | None => True end ->
  Forall (fun x => P (s_head x) /\ Forall is_byte (s_field x)) subs.
Proof.
  induction l as [|b r IH]; intros pending subs H Hl Hp.
  - destruct pending; [discriminate|]. injection H as <-. constructor.
  - apply Forall_cons_iff in Hl as [[HP Hb] Hl].
    assert (Hf : Forall is_byte ((match pending with Some p => s_field p | None => [] end) ++ text_of_field (b_tf b))).
    { apply Forall_app. split; [destruct pending; [exact Hp | constructor] | apply text_of_field_forall, Hb]. }
    rewrite subtitles_go_cons in H. destruct (match pending with Some _ => _ | None => _ end); [discriminate|]. cbv zeta in H.
    destruct (b_ebn b =? 255).
    + destruct (subtitles_go r None) as [l'|] eqn:Hl'; [|discriminate]. injection H as <-.
      constructor; [split; assumption|]. eapply IH; [exact Hl' | exact Hl | exact I].
    + eapply IH; [exact H | exact Hl | exact Hf].
Qed.

Lemma reader_model_ok file cfg f s : length (firstn 1024 file) = 1024%nat ->
  init (unpack_gsi (firstn 1024 file)) cfg = inl f -> read_blocks (S (length file)) f state0 (skipn 1024 file) = inl s ->
  reader_model file cfg = Ok (finish f cfg s).
Proof. intros Hl Hi Hr. unfold reader_model. cbv zeta. rewrite Hl, Nat.eqb_refl, Hi, Hr. reflexivity. Qed.

(* EVERY list of TTI blocks in the specification's domain, any data file parameters that convert the time codes of the
   text-carrying blocks as the specification does *)
Theorem blocks_presentation f r start cct tele rows bl subs ps :
  f_start f = start -> f_cct f = cct -> f_teletext f = tele -> f_max_rows f = rows -> 1 <= rows ->
  Forall (fun b => carries_text b = true ->
                   Forall is_byte (b_tf b) /\ offset_q (f_fps f) (b_tci b) = time_of r (b_tci b) /\
                   offset_q (f_fps f) (b_tco b) = time_of r (b_tco b)) bl ->
  subtitles_of bl = Some subs ->
  paragraphs_go r start (decoder_spec cct) tele subs (-1) [] None = Some ps ->
  exists s, fold_blocks f state0 (map tti_of bl) = inl s /\
            Forall2 (Forall2 (para_matches rows (st_regions s))) (map snd (commit s)) (by_group ps).
Proof.
  intros Hfs Hfc Hft Hfr Hrows Hbl Hsubs Hps. unfold subtitles_of in Hsubs.
  rewrite (fold_groups f bl None state0 subs Hsubs eq_refl).
  set (P := fun b : block => offset_q (f_fps f) (b_tci b) = time_of r (b_tci b) /\ offset_q (f_fps f) (b_tco b) = time_of r (b_tco b)).
  assert (HP : Forall (fun b => P b /\ Forall is_byte (b_tf b)) (filter carries_text bl)).
  { apply Forall_forall. intros b Hb. apply filter_In in Hb as [Hin Hct]. rewrite Forall_forall in Hbl.
    destruct (Hbl b Hin Hct) as (H1 & H2 & H3). split; [split|]; assumption. }
  pose proof (subs_facts P _ None subs Hsubs HP I) as Hall.
  assert (Hok : Forall (sub_ok f r) subs).
  { eapply Forall_impl; [|exact Hall]. intros x [[H1 H2] H3]. split; [exact H3 | split; assumption]. }
  assert (HI : Inv rows state0 (-1) [] None []).
  { split; [apply shape_nil; reflexivity|]. split; [constructor|]. split; [exact I | discriminate]. }
  destruct (fold_paragraphs f r start cct tele rows Hfs Hfc Hft Hfr Hrows subs state0 (-1) [] None [] ps HI Hok Hps)
    as (s' & L' & Hfold & Hshape & HR).
  exists s'. split; [exact Hfold|]. rewrite (commit_shape _ _ Hshape). apply divisions_match. exact HR.
Qed.

(* THE WHOLE FILE.  For every file made of bytes that lies in the domain of the specification (a complete GSI block
   with a known DFC, complete TTI blocks, well-bracketed extension chains and cumulative sets, increasing subtitle
   numbers, TCO not before TCI, numeric GSI fields without blanks or signs) and every reader configuration - any
   row count, a count below 1 meaning the default grid -, outside the one recorded finding (df-23976), the reader
   returns a document, and its divisions are
   the specification's subtitle groups: paragraph by paragraph the same alignment, exactly the same timed parts
   (begin and end = TCI and TCO at the DFC rate minus the programme start, early subtitles dropped; the text of the
   concatenated text fields up to the first unused-space bytes, decoded with the CCT's table, with its line breaks,
   colours, italics and underline; cumulative members accumulated), and a region that is the specification's
   top-anchored region of the first row or bottom-anchored region of the last row *)
Theorem file_presentation file cfg sc groups rows :
  Forall is_byte file -> spec_start (cf_start cfg) = Some sc ->
  presentation file sc (spec_rows (cf_rows cfg)) = Some (groups, rows) ->
  trigger_23976 file cfg = false ->
  exists d, reader_model file cfg = Ok d /\ doc_matches rows d groups.
Proof.
  intros Hbytes Hsc Hpres Htrig. unfold presentation in Hpres.
  set (g := firstn 1024 file) in Hpres. cbv zeta in Hpres.
  destruct (Nat.eqb (length g) 1024) eqn:Hlen; [cbn [negb] in Hpres | discriminate].
  apply Nat.eqb_eq in Hlen.
  destruct (dfc_rate (gsi_dfc g)) as [r|] eqn:Hr; [|discriminate].
  destruct (blocks_of (S (length file)) (skipn 1024 file)) as [bs|] eqn:Hbs; [|discriminate].
  destruct (subtitles_of bs) as [subs|] eqn:Hsubs; [|discriminate].
  destruct (max_rows g (spec_rows (cf_rows cfg))) as [rows'|] eqn:Hrows; [|discriminate].
  destruct (programme_start r g sc) as [start|] eqn:Hstart; [|discriminate].
  destruct (paragraphs_go r start (decoder_spec (gsi_cct g)) (teletext_dsc (gsi_dsc g)) subs (-1) [] None) as [ps|] eqn:Hps; [|discriminate].
  injection Hpres as <- <-.
  (* the trigger, in parts: the blocks it looks at are the blocks the specification reads *)
  pose proof (blocks_facts _ _ _ Hbs (Forall_skipn _ _ _ Hbytes)) as [Hblocks Hbb].
  change (is_stl23 (gsi_dfc g) &&
          (existsb (fun t => text_block t && (beyond_first_minute (t_tci t) || beyond_first_minute (t_tco t))) (tti_blocks file)
           || start_beyond g cfg) = false) in Htrig.
  unfold tti_blocks in Htrig. rewrite Hblocks in Htrig.
  assert (Hts : is_stl23 (gsi_dfc g) && start_beyond g cfg = false /\
                forall b, In b bs -> carries_text b = true ->
                          is_stl23 (gsi_dfc g) && beyond_first_minute (b_tci b) = false /\
                          is_stl23 (gsi_dfc g) && beyond_first_minute (b_tco b) = false).
  { destruct (is_stl23 (gsi_dfc g)); [cbn [andb] in *|auto]. apply orb_false_iff in Htrig as [He Hs].
    split; [exact Hs|]. intros b Hin Hct. apply orb_false_iff.
    destruct (_ || _) eqn:Eb; [|reflexivity]. rewrite <- He. symmetry. apply existsb_exists.
    exists (tti_of b). split; [apply in_map, Hin|]. rewrite <- carries_text_block, Hct. exact Eb. }
  destruct Hts as [Hts Hbm].
  pose proof (init_spec g cfg sc r start rows' Hlen Hsc Hr Hrows Hstart Hts) as (fdat & Hinit & Hrate & Hfs & Hfc & Hft & Hfr).
  assert (Hbl : Forall (fun b => carries_text b = true ->
                        Forall is_byte (b_tf b) /\ offset_q (f_fps fdat) (b_tci b) = time_of r (b_tci b) /\
                        offset_q (f_fps fdat) (b_tco b) = time_of r (b_tco b)) bs).
  { apply Forall_forall. intros b Hin Hct. split; [rewrite Forall_forall in Hbb; apply Hbb, Hin|].
    pose proof (Hbm b Hin Hct) as [H1 H2]. split; apply Hrate; assumption. }
  pose proof (blocks_presentation fdat r start _ _ rows' bs subs ps Hfs Hfc Hft Hfr (max_rows_pos _ _ _ Hrows) Hbl Hsubs Hps)
    as (s & Hfold & Hm).
  exists (finish fdat cfg s). split; [|exact Hm].
  apply reader_model_ok; [exact Hlen | exact Hinit|]. rewrite (read_blocks_fold fdat _ _ state0 bs Hbs). exact Hfold.
Qed.

(* the reader never fails for want of a paragraph, and - since DataFile.__init__ replaces a row count below 1 by the
   default - never divides by zero: whatever the file and the configuration, the only failures are a short GSI or TTI
   block and an unparsable configured start time code *)
Lemma complete_errors f s t tf e : complete_subtitle f s t tf = inr e -> e = EZeroDiv /\ f_max_rows f = 0.
Proof.
  destruct (complete_outcome f s t tf) as [[-> H0]|(l & d & c & rs & -> & _)]; [intros [= <-]; auto | discriminate].
Qed.
Lemma process_errors f s t e : process_tti f s t = inr e -> e = EZeroDiv /\ f_max_rows f = 0.
Proof.
  destruct (process_cases f s t) as [(s' & -> & _) | ->]; [discriminate | apply complete_errors].
Qed.
Lemma process_total f s t : 1 <= f_max_rows f -> exists s', process_tti f s t = inl s'.
Proof.
  intros Hr. destruct (process_tti f s t) as [s'|e] eqn:Hp; [eexists; reflexivity|].
  apply process_errors in Hp. lia.
Qed.
(* with at least one row the loop over the blocks fails only on a short block, and keeps what every block keeps *)
Lemma read_blocks_inv f (P : state -> Prop) : 1 <= f_max_rows f ->
  (forall s t s', process_tti f s t = inl s' -> P s -> P s') ->
  forall fuel bs s, P s -> match read_blocks fuel f s bs with inl s' => P s' | inr e => e = EStruct end.
Proof.
  intros Hr Hstep. induction fuel as [|k IH]; intros bs s Hs; [exact Hs|].
  destruct bs as [|b0 bs']; [exact Hs|]. rewrite read_blocks_S by discriminate.
  destruct (negb _); [reflexivity|].
  destruct (process_total f s (unpack_tti (firstn 128 (b0 :: bs'))) Hr) as [s1 Hp]. rewrite Hp.
  apply IH. eapply Hstep; eassumption.
Qed.
Theorem reader_errors file cfg e : reader_model file cfg = Err e -> e = EStruct \/ e = EValue.
Proof.
  unfold reader_model. cbv zeta. destruct (negb _); [intros H; injection H as <-; auto|].
  destruct (init _ cfg) as [f|e'] eqn:Hi; [|intros H; injection H as <-; right; eapply init_errors, Hi].
  destruct (read_blocks _ f state0 _) as [s|e'] eqn:Hr; [discriminate|].
  intros H; injection H as <-. left.
  pose proof (read_blocks_inv f (fun _ => True) (init_rows _ _ _ Hi) (fun _ _ _ _ _ => I) (S (length file)) (skipn 1024 file) state0 I) as H.
  rewrite Hr in H. exact H.
Qed.
(* ... in particular a division by zero never happens, not even with MNR 00 or max_row_count 0 *)
Theorem reader_no_zero_div file cfg : reader_model file cfg <> Err EZeroDiv.
Proof. intros H. apply reader_errors in H as [H|H]; discriminate. Qed.
(* with the GSI block and the TTI blocks complete and a decoded configuration (C09_config_start_parses) the reader
   returns a document: every file whose length is 1024 + 128 k bytes, every configuration without a start time code
   that SmpteTimeCode.parse rejects *)
Lemma read_blocks_total f : 1 <= f_max_rows f -> forall fuel bs s,
  (exists k, length bs = (128 * k)%nat) -> exists s', read_blocks fuel f s bs = inl s'.
Proof.
  intros Hr. induction fuel as [|n IH]; intros bs s [k Hk]; [eexists; reflexivity|].
  destruct bs as [|b0 bs']; [eexists; reflexivity|]. rewrite read_blocks_S by discriminate.
  destruct k as [|k]; [cbn [length] in Hk; lia|].
  assert (Hl : length (firstn 128 (b0 :: bs')) = 128%nat) by (rewrite firstn_length; lia).
  rewrite Hl. cbn [Nat.eqb negb].
  destruct (process_total f s (unpack_tti (firstn 128 (b0 :: bs'))) Hr) as [s' Hp]. rewrite Hp.
  apply IH. exists k. rewrite skipn_length. lia.
Qed.
Theorem reader_total file cfg k : length file = (1024 + 128 * k)%nat ->
  (forall t, cf_start cfg = StStr t -> forall fps, parse_tc t fps <> None) ->
  exists d, reader_model file cfg = Ok d.
Proof.
  intros Hlen Hcfg.
  assert (Hg : length (firstn 1024 file) = 1024%nat) by (rewrite firstn_length; lia).
  destruct (init (unpack_gsi (firstn 1024 file)) cfg) as [f|e] eqn:Hi.
  - destruct (read_blocks_total f (init_rows _ _ _ Hi) (S (length file)) (skipn 1024 file) state0) as [s Hs].
    + exists k. rewrite skipn_length. lia.
    + eexists. apply reader_model_ok; eassumption.
  - apply init_errors in Hi as (_ & t & fps & Hc & Hp). destruct (Hcfg t Hc fps Hp).
Qed.
(* the region of every subtitle whose rows fit the grid lies inside the safe area, for EVERY GSI block and every
   configuration (no hypothesis on the row count: init_rows) *)
Theorem reader_region_inside g cfg f vp tf r : init g cfg = inl f ->
  region_for (f_max_rows f) vp tf (has_double_height_char tf) = Some r ->
  first_row vp + rows_occupied tf - 1 <= f_max_rows f -> inside_safe_area (rect_of r).
Proof. intros Hi. apply region_inside. pose proof (init_rows _ _ _ Hi). lia. Qed.
Theorem reader_region_exists g cfg f vp tf dh : init g cfg = inl f -> exists r, region_for (f_max_rows f) vp tf dh = Some r.
Proof. intros Hi. apply region_exists. pose proof (init_rows _ _ _ Hi). lia. Qed.

(* every region of the document that is returned - whatever the file and the configuration - is the region the reader
   computes for some subtitle on a grid of at least one row, hence (region_choice) the specification's top-anchored
   region of a first row or bottom-anchored region of a last row on that grid *)
Definition anchored (rows : Z) (r : region) : Prop :=
  exists vp tf, region_for rows vp tf (has_double_height_char tf) = Some r.
Lemma get_region_forall (P : region -> Prop) rs r : Forall P rs -> P r -> Forall P (snd (get_region rs r)).
Proof.
  intros H Hr. unfold get_region. destruct (find_region rs r 0); cbn [snd]; [exact H|].
  apply Forall_app. split; [exact H | constructor; [exact Hr | constructor]].
Qed.
Lemma complete_regions f s t tf s' : complete_subtitle f s t tf = inl s' ->
  Forall (anchored (f_max_rows f)) (st_regions s) -> Forall (anchored (f_max_rows f)) (st_regions s').
Proof.
  destruct (complete_outcome f s t tf) as [[-> _]|(l & d & c & rs & -> & [->|(rr & Hr & ->)])]; [discriminate| |];
    intros [= <-] Hs; [exact Hs|].
  apply get_region_forall; [exact Hs | exists (t_vp t), tf; exact Hr].
Qed.
Lemma process_regions f s t s' : process_tti f s t = inl s' ->
  Forall (anchored (f_max_rows f)) (st_regions s) -> Forall (anchored (f_max_rows f)) (st_regions s').
Proof.
  destruct (process_cases f s t) as [(s1 & -> & E) | ->]; [intros [= <-]; rewrite E; auto | apply complete_regions].
Qed.
Theorem reader_regions file cfg d : reader_model file cfg = Ok d ->
  exists rows, 1 <= rows /\ Forall (anchored rows) (d_regions d).
Proof.
  unfold reader_model. cbv zeta. destruct (negb _); [discriminate|].
  destruct (init _ cfg) as [f|e] eqn:Hi; [|discriminate].
  destruct (read_blocks _ f state0 _) as [s|e] eqn:Hr; [|discriminate].
  intros H. injection H as <-. exists (f_max_rows f). split; [eapply init_rows, Hi|].
  pose proof (read_blocks_inv f _ (init_rows _ _ _ Hi) (process_regions f) (S (length file)) (skipn 1024 file) state0 (Forall_nil _)) as H.
  rewrite Hr in H. exact H.
Qed.
Theorem reader_regions_spec file cfg d : reader_model file cfg = Ok d ->
  exists rows, 1 <= rows /\
    Forall (fun r => exists vp tf,
              (first_row vp < rows / 2 /\ rect_equiv (rect_of r) (top_anchored rows (first_row vp))) \/
              (rows / 2 <= first_row vp /\ rect_equiv (rect_of r) (bottom_anchored rows (first_row vp + rows_occupied tf - 1))))
           (d_regions d).
Proof.
  intros H. destruct (reader_regions _ _ _ H) as (rows & Hr & Ha). exists rows. split; [exact Hr|].
  eapply Forall_impl; [|exact Ha]. intros r (vp & tf & E). exists vp, tf. eapply region_choice, E.
Qed.

(* a file in the domain: non-vacuity of file_presentation *)
Definition example_file : list Z :=
  witness_gsi ++ witness_tti 1 1 2 20 1 0 [65] ++ witness_tti 2 2 3 20 3 0 [66] ++ witness_tti 3 4 5 0 0 0 [3; 67; 138; 68] ++
  witness_tti 4 6 7 20 0 1 [88].
Lemma example_file_bytes : Forall is_byte example_file.
Proof. apply bytes_ok. vm_compute. reflexivity. Qed.
