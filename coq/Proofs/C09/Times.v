(* C09_times: TCI/TCO are converted with SmpteTimeCode.to_temporal_offset (Model/TimeCode.v).  From the C12 lemmas:
   the n-th address of the SMPTE 12M counting sequence at the DFC frame rate is presented exactly n frame periods
   after 00:00:00:00, and the conversion equals the specification's closed form on every label, valid or not.
   24000/1001 is the recorded finding df-23976. *)
From Coq Require Import QArith.
From TT Require Import Base.Prelude Model.TimeCode Model.StlDatafile Model.StlTriggers Spec.Smpte12M Spec.Ebu3264Spec.
From TT Require Import Proofs.C12.Integer Proofs.C12.DropFrame Proofs.C12.Derived.
Open Scope Z_scope.

(* closed forms: the frame count of the code = the SMPTE count of S, for every label; hence the rational offsets
   coincide with S's time_of.  Every whole rate counts alike. *)
Lemma offset_int n l : offset_q (mkRate n 1) l = time_of (mkFR n 1 n 0) l.
Proof.
  destruct l as [[[h m] s] f]. unfold offset_q, to_temporal_offset, time_of, to_frames, smpte_count.
  cbn [is_df rd rn fr_nominal fr_drop fr_den fr_num Z.eqb Pos.eqb]. rewrite Z.div_1_r. f_equal. ring.
Qed.

Definition fr2997 := mkFR 30000 1001 30 2.   Definition fr23976 := mkFR 24000 1001 24 0.
Lemma count2997 l : to_frames r2997 l = smpte_count 30 2 l.
Proof.
  destruct l as [[[h m] s] f]. unfold to_frames, smpte_count.
  change (is_df r2997) with true. change (drop_per_minute r2997) with 2. change (ndf r2997) with 30. cbv iota. lia.
Qed.
Lemma offset2997 l : offset_q r2997 l = time_of fr2997 l.
Proof. unfold offset_q, to_temporal_offset, time_of. rewrite count2997. reflexivity. Qed.

(* the DFC table of the code and of S name the same rates *)
Lemma dfc_rates_agree :
  map (fun kv => dfc_rate (fst kv)) Gen.StlTables.dfc_fraction_map =
  map (fun kv => let '(n, d) := snd kv in
                 Some (mkFR n d (ceil_div n d) (if (n =? 30000) && (d =? 1001) then 2 else 0))) Gen.StlTables.dfc_fraction_map.
Proof. vm_compute. reflexivity. Qed.

Lemma seq_offset r F D (Hspec : forall n : nat, from_frames r (Z.of_nat n) = label_spec F D n)
      (Hrt : forall n, 0 <= n -> to_frames r (from_frames r n) = n) (n : nat) :
  offset_q r (label_spec F D n) = Qmake (Z.of_nat n * rd r) (Z.to_pos (rn r)).
Proof. unfold offset_q, to_temporal_offset. rewrite <- Hspec, Hrt by lia. reflexivity. Qed.

Lemma times24 (n : nat) : offset_q r24 (label_spec 24 0 n) = Qmake (Z.of_nat n) 24.
Proof. rewrite (seq_offset r24 24 0 spec24 rt24). cbn [rd rn r24 Z.to_pos]. rewrite Z.mul_1_r. reflexivity. Qed.
Lemma times25 (n : nat) : offset_q r25 (label_spec 25 0 n) = Qmake (Z.of_nat n) 25.
Proof. rewrite (seq_offset r25 25 0 spec25 rt25). cbn [rd rn r25 Z.to_pos]. rewrite Z.mul_1_r. reflexivity. Qed.
Lemma times50 (n : nat) : offset_q r50 (label_spec 50 0 n) = Qmake (Z.of_nat n) 50.
Proof. rewrite (seq_offset r50 50 0 spec50 rt50). cbn [rd rn r50 Z.to_pos]. rewrite Z.mul_1_r. reflexivity. Qed.
Lemma times2997 (n : nat) : offset_q r2997 (label_spec 30 2 n) = Qmake (Z.of_nat n * 1001) 30000.
Proof. rewrite (seq_offset r2997 30 2 spec2997 rt2997). reflexivity. Qed.

(* 24000/1001: the code applies a drop-frame compensation that SMPTE 12M does not define *)
Lemma count23976_partial l : beyond_first_minute l = false -> to_frames r23976 l = smpte_count 24 0 l.
Proof.
  destruct l as [[[h m] s] f]. unfold beyond_first_minute, to_frames, smpte_count. intros H.
  change (is_df r23976) with true. change (drop_per_minute r23976) with 1. change (ndf r23976) with 24. cbv iota.
  assert (h = 0 /\ m = 0) as [-> ->] by lia. lia.
Qed.
Lemma offset23976_partial l : beyond_first_minute l = false -> offset_q r23976 l = time_of fr23976 l.
Proof. intros H. unfold offset_q, to_temporal_offset, time_of. rewrite (count23976_partial l H). reflexivity. Qed.
Lemma offset23976_refuted : exists l, valid 24 0 l /\ ~ (offset_q r23976 l == time_of fr23976 l)%Q.
Proof.
  exists (0, 1, 0, 0). split.
  - unfold valid. repeat split; try lia.
  - vm_compute. discriminate.
Qed.
