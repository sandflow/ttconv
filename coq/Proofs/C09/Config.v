(* C09, the configuration in front of DataFile.__init__: STLReaderConfiguration.parse (stl/config.py _decode_start_tc,
   _decode_max_row_count; ttconv/config.py decode_bool, ModuleConfiguration.parse) as transcribed in
   Model/StlDatafile.v: program_start_tc is matched with re.fullmatch (no trailing text after the time code),
   max_row_count refuses true and false although Python counts them as integers, and the fields documented as
   true | false take the two JSON booleans only, not any value by truthiness.  What each decoder accepts is characterised exactly (iff) by the declarative predicates of
   Spec/Ebu3264Spec.v (any_case, complete_time_code), every value it lets through is one DataFile.__init__ can use, and
   a parsed configuration never makes the reader fail on a well-sized file. *)
From Coq Require Import QArith Lia.
From TT Require Import Base.Prelude Gen.StlTables Model.TimeCode Model.Iso6937 Model.StlTf Model.StlDatafile Model.StlTriggers.
From TT Require Import Spec.Smpte12M Spec.Ebu3264Spec.
From TT Require Import Proofs.C09.File.
Open Scope Z_scope.

(* the two building blocks: value.upper() == keyword, pattern.fullmatch(value) *)
Lemma upper_is_iff a b c t : upper_is a b c t = true <-> any_case [a; b; c] t.
Proof.
  unfold any_case. split.
  - destruct t as [|x [|y [|z [|w t]]]]; cbn [upper_is]; try discriminate. intros H.
    constructor; [lia|]. constructor; [lia|]. constructor; [lia|]. constructor.
  - intros H. inversion H as [|? x ? t1 Hx H1]; subst. inversion H1 as [|? y ? t2 Hy H2]; subst.
    inversion H2 as [|? z ? t3 Hz H3]; subst. inversion H3; subst. cbn [upper_is]. lia.
Qed.

Lemma any_case_length k t : any_case k t -> length t = length k.
Proof. unfold any_case. induction 1; cbn [length]; congruence. Qed.

Lemma two_digits_iff a b : (exists n, two_digits a b = Some n) <-> ascii_digit a /\ ascii_digit b.
Proof.
  unfold two_digits, is_digit, ascii_digit. split.
  - intros [n H]. destruct ((48 <=? a) && (a <=? 57) && ((48 <=? b) && (b <=? 57))) eqn:E; [lia | discriminate].
  - intros H. replace ((48 <=? a) && (a <=? 57) && ((48 <=? b) && (b <=? 57))) with true by lia. eexists; reflexivity.
Qed.

Lemma fullmatch_iff sep_ok t :
  is_some (fullmatch_tc sep_ok t) = true <-> complete_time_code (fun c => sep_ok c = true) t.
Proof.
  unfold complete_time_code, fullmatch_tc. split.
  - destruct t as [|h1 [|h2 [|s1 [|m1 [|m2 [|s2 [|c1 [|c2 [|s3 [|f1 [|f2 [|x t]]]]]]]]]]]]; cbn [length Nat.eqb is_some];
      try discriminate.
    cbn [match_tc]. destruct (sep_ok s1) eqn:E1; [|discriminate]. destruct (sep_ok s2) eqn:E2; [|discriminate].
    destruct (sep_ok s3) eqn:E3; [|discriminate]. cbn [andb].
    destruct (two_digits h1 h2) as [hh|] eqn:Eh; [|discriminate]. destruct (two_digits m1 m2) as [mm|] eqn:Em; [|discriminate].
    destruct (two_digits c1 c2) as [ss|] eqn:Es; [|discriminate]. destruct (two_digits f1 f2) as [ff|] eqn:Ef; [|discriminate].
    intros _. exists h1, h2, s1, m1, m2, s2, c1, c2, s3, f1, f2. split; [reflexivity|].
    destruct (proj1 (two_digits_iff h1 h2) (ex_intro _ _ Eh)). destruct (proj1 (two_digits_iff m1 m2) (ex_intro _ _ Em)).
    destruct (proj1 (two_digits_iff c1 c2) (ex_intro _ _ Es)). destruct (proj1 (two_digits_iff f1 f2) (ex_intro _ _ Ef)).
    split; repeat (apply Forall_cons; [assumption|]); apply Forall_nil.
  - intros (h1 & h2 & s1 & m1 & m2 & s2 & c1 & c2 & s3 & f1 & f2 & -> & Hd & Hs).
    cbn [length Nat.eqb match_tc].
    inversion Hs as [|? ? E1 Hs1]; subst. inversion Hs1 as [|? ? E2 Hs2]; subst. inversion Hs2 as [|? ? E3 Hs3]; subst.
    rewrite E1, E2, E3. cbn [andb].
    inversion Hd as [|? ? D1 Hd1]; subst. inversion Hd1 as [|? ? D2 Hd2]; subst. inversion Hd2 as [|? ? D3 Hd3]; subst.
    inversion Hd3 as [|? ? D4 Hd4]; subst. inversion Hd4 as [|? ? D5 Hd5]; subst. inversion Hd5 as [|? ? D6 Hd6]; subst.
    inversion Hd6 as [|? ? D7 Hd7]; subst. inversion Hd7 as [|? ? D8 Hd8]; subst.
    destruct (proj2 (two_digits_iff h1 h2) (conj D1 D2)) as [? ->]. destruct (proj2 (two_digits_iff m1 m2) (conj D3 D4)) as [? ->].
    destruct (proj2 (two_digits_iff c1 c2) (conj D5 D6)) as [? ->]. destruct (proj2 (two_digits_iff f1 f2) (conj D7 D8)) as [? ->].
    reflexivity.
Qed.

Lemma complete_time_code_impl (p q : Z -> Prop) t : (forall c, p c -> q c) -> complete_time_code p t -> complete_time_code q t.
Proof.
  intros Hpq (h1 & h2 & s1 & m1 & m2 & s2 & c1 & c2 & s3 & f1 & f2 & E & Hd & Hs).
  exists h1, h2, s1, m1, m2, s2, c1, c2, s3, f1, f2. repeat split; try assumption.
  eapply Forall_impl; [|exact Hs]. exact Hpq.
Qed.
Lemma complete_time_code_length p t : complete_time_code p t -> length t = 11%nat.
Proof. intros (h1 & h2 & s1 & m1 & m2 & s2 & c1 & c2 & s3 & f1 & f2 & -> & _). reflexivity. Qed.

(* the two patterns of _decode_start_tc as one: the NDF pattern (colons) is a special case of the DF pattern (any
   character but a new-line) *)
Definition not_newline (c : Z) : Prop := c <> 10.
Lemma start_patterns t :
  is_some (fullmatch_tc (fun c => negb (c =? newline)) t) || is_some (fullmatch_tc (fun c => c =? colon) t) = true
  <-> complete_time_code not_newline t.
Proof.
  assert (Hdf : is_some (fullmatch_tc (fun c => negb (c =? newline)) t) = true <-> complete_time_code not_newline t).
  { rewrite fullmatch_iff. split; apply complete_time_code_impl; unfold not_newline, newline; intros c; lia. }
  split.
  - intros H. apply Bool.orb_true_iff in H. destruct H as [H | H]; [apply Hdf; exact H|].
    apply fullmatch_iff in H. revert H. apply complete_time_code_impl. unfold not_newline, colon. intros c; lia.
  - intros H. apply Bool.orb_true_iff. left. apply Hdf. exact H.
Qed.

(* _decode_start_tc lets through exactly: null (no start), "TCP" in any letter case, a complete time code - two
   digits, a character that is not a new-line, ... eleven characters, nothing before or after them - which is kept as
   it is.  Nothing else: no trailing text, no shorter or longer form *)
Lemma decode_start_accepts v s :
  decode_start_tc v = inl s <->
  (v = VNull /\ s = StNone) \/
  (exists t, v = VStr t /\ any_case [84; 67; 80] t /\ s = StTCP) \/
  (exists t, v = VStr t /\ complete_time_code not_newline t /\ s = StStr t).
Proof.
  split.
  - destruct v as [|t|n|b|]; cbn [decode_start_tc]; try discriminate.
    + intros H. injection H as <-. left. split; reflexivity.
    + destruct (upper_is 84 67 80 t) eqn:U.
      * intros H. injection H as <-. right. left. exists t. split; [reflexivity|]. split; [apply upper_is_iff; exact U | reflexivity].
      * destruct (is_some _ || is_some _) eqn:P; [|discriminate]. intros H. injection H as <-.
        right. right. exists t. split; [reflexivity|]. split; [apply start_patterns; exact P | reflexivity].
  - intros [[-> ->] | [(t & -> & H & ->) | (t & -> & H & ->)]]; cbn [decode_start_tc]; [reflexivity | |].
    + apply upper_is_iff in H. rewrite H. reflexivity.
    + destruct (upper_is 84 67 80 t) eqn:U.
      * apply upper_is_iff in U. apply complete_time_code_length in H. apply any_case_length in U. cbn [length] in U. lia.
      * apply start_patterns in H. rewrite H. reflexivity.
Qed.
(* ... and everything else is rejected with ValueError: a string that is neither; a value that is not a string - a
   boolean, a number, a list - as well (not with the AttributeError of value.upper()) *)
Lemma decode_start_rejects v e :
  decode_start_tc v = inr e <->
  e = EValue /\ v <> VNull /\ forall t, v = VStr t -> ~ any_case [84; 67; 80] t /\ ~ complete_time_code not_newline t.
Proof.
  split.
  - destruct v as [|t|n|b|]; cbn [decode_start_tc]; try discriminate;
      try (intros H; injection H as <-; split; [reflexivity|]; split; [discriminate | intros t; discriminate]).
    destruct (upper_is 84 67 80 t) eqn:U; [discriminate|]. destruct (is_some _ || is_some _) eqn:P; [discriminate|].
    intros H. injection H as <-. split; [reflexivity|]. split; [discriminate|]. intros t' E. injection E as <-. split.
    + intros A. apply upper_is_iff in A. congruence.
    + intros A. apply start_patterns in A. congruence.
  - intros (-> & Hn & Hs). destruct v as [|t|n|b|]; cbn [decode_start_tc]; try reflexivity; [contradiction|].
    destruct (Hs t eq_refl) as [Hk Hc].
    destruct (upper_is 84 67 80 t) eqn:U; [apply upper_is_iff in U; contradiction|].
    destruct (is_some _ || is_some _) eqn:P; [apply start_patterns in P; contradiction | reflexivity].
Qed.
Lemma decode_start_non_string v : v <> VNull -> (forall t, v <> VStr t) -> decode_start_tc v = inr EValue.
Proof.
  intros Hn Hs. apply decode_start_rejects. split; [reflexivity|]. split; [exact Hn|]. intros t E. exfalso. exact (Hs t E).
Qed.
Lemma decode_start_tcp v : decode_start_tc v = inl StTCP <-> exists t, v = VStr t /\ any_case [84; 67; 80] t.
Proof.
  rewrite decode_start_accepts. split.
  - intros [[_ H] | [(t & -> & H & _) | (t & _ & _ & H)]]; try discriminate. exists t. split; [reflexivity | exact H].
  - intros (t & -> & H). right. left. exists t. repeat split. exact H.
Qed.
Lemma decode_start_no_trailing t x u : complete_time_code not_newline t -> decode_start_tc (VStr (t ++ x :: u)) = inr EValue.
Proof.
  intros H. apply decode_start_rejects. split; [reflexivity|]. split; [discriminate|]. intros t' E. injection E as <-.
  apply complete_time_code_length in H. split.
  - intros A. apply any_case_length in A. rewrite app_length in A. cbn [length] in A. lia.
  - intros A. apply complete_time_code_length in A. rewrite app_length in A. cbn [length] in A. lia.
Qed.

(* whatever _decode_start_tc lets through, SmpteTimeCode.parse accepts: with a decoded configuration the reader never
   raises ValueError *)
Lemma decode_start_parses v t : decode_start_tc v = inl (StStr t) -> forall fps, parse_tc t fps <> None.
Proof.
  intros H fps. apply decode_start_accepts in H. destruct H as [[_ H] | [(t' & _ & _ & H) | (t' & _ & H & E)]]; try discriminate.
  injection E as <-. unfold not_newline in H.
  assert (Hm : is_some (fullmatch_tc (fun c => negb (c =? newline)) t) = true).
  { apply fullmatch_iff. revert H. apply complete_time_code_impl. unfold newline. intros c; lia. }
  unfold fullmatch_tc in Hm. destruct (Nat.eqb (length t) 11); [|discriminate].
  unfold parse_tc. destruct (match_tc (fun c => c =? colon) t); [discriminate|].
  destruct (match_tc (fun c => negb (c =? newline)) t); [discriminate | discriminate].
Qed.
(* the documented HH:MM:SS:FF form: accepted, kept, and it means what the specification reads; and a value with colons
   is accepted exactly when the specification can read it *)
Lemma label_iff t : (exists l, label_of_text t = Some l) <-> complete_time_code (fun c => c = 58) t.
Proof.
  split.
  - intros [l H]. apply label_match in H.
    apply (complete_time_code_impl (fun c => (c =? colon) = true)); [unfold colon; intros c; lia|].
    apply fullmatch_iff. rewrite H. reflexivity.
  - intros H. pose proof H as (h1 & h2 & s1 & m1 & m2 & s2 & c1 & c2 & s3 & f1 & f2 & -> & _ & Hs).
    apply (complete_time_code_impl _ (fun c => (c =? colon) = true)), fullmatch_iff in H; [|unfold colon; intros c; lia].
    inversion Hs as [|? ? -> Hs1]; subst. inversion Hs1 as [|? ? -> Hs2]; subst. inversion Hs2 as [|? ? -> _]; subst.
    cbn [label_of_text]. rewrite !two_digit_digits. destruct (fullmatch_tc _ _) as [l|] eqn:E; [|discriminate]. exists l. exact E.
Qed.
Lemma decode_start_label t l : label_of_text t = Some l ->
  decode_start_tc (VStr t) = inl (StStr t) /\ spec_start (StStr t) = Some (StartLabel l).
Proof.
  intros H. split; [|cbn [spec_start]; rewrite H; reflexivity].
  apply decode_start_accepts. right. right. exists t. split; [reflexivity|]. split; [|reflexivity].
  assert (Hc : complete_time_code (fun c => c = 58) t) by (apply label_iff; exists l; exact H).
  revert Hc. apply complete_time_code_impl. unfold not_newline. intros c; lia.
Qed.
(* every value that is let through and kept is one the specification reads as a start label when its separators are
   colons; with other separators (the drop-frame pattern's unescaped dot) S says nothing (spec_start = None) *)
Lemma decode_start_spec v t : decode_start_tc v = inl (StStr t) ->
  (exists l, spec_start (StStr t) = Some (StartLabel l)) <-> complete_time_code (fun c => c = 58) t.
Proof.
  intros _. rewrite <- label_iff. cbn [spec_start]. split.
  - intros [l H]. destruct (label_of_text t) as [l'|]; [exists l'; reflexivity | discriminate].
  - intros [l ->]. exists l. reflexivity.
Qed.

(* _decode_max_row_count lets through exactly: null, "MNR" in any letter case, an integer that is not a boolean *)
Lemma decode_rows_accepts v r :
  decode_max_row_count v = inl r <->
  (v = VNull /\ r = MrNone) \/ (exists t, v = VStr t /\ any_case [77; 78; 82] t /\ r = MrMNR) \/ (exists n, v = VInt n /\ r = MrInt n).
Proof.
  split.
  - destruct v as [|t|n|b|]; cbn [decode_max_row_count]; try discriminate.
    + intros H. injection H as <-. left. split; reflexivity.
    + destruct (upper_is 77 78 82 t) eqn:U; [|discriminate]. intros H. injection H as <-.
      right. left. exists t. split; [reflexivity|]. split; [apply upper_is_iff; exact U | reflexivity].
    + intros H. injection H as <-. right. right. exists n. split; reflexivity.
  - intros [[-> ->] | [(t & -> & H & ->) | (n & -> & ->)]]; cbn [decode_max_row_count]; try reflexivity.
    apply upper_is_iff in H. rewrite H. reflexivity.
Qed.
(* everything else - true and false, a number written as a string, a float, a list - is a ValueError *)
Lemma decode_rows_rejects v e : decode_max_row_count v = inr e -> e = EValue.
Proof.
  destruct v as [|t|n|b|]; cbn [decode_max_row_count]; try discriminate; try (intros H; injection H as <-; reflexivity).
  destruct (upper_is 77 78 82 t); [discriminate|]. intros H; injection H as <-; reflexivity.
Qed.
Lemma decode_rows_bool b : decode_max_row_count (VBool b) = inr EValue.
Proof. reflexivity. Qed.
Lemma decode_rows_digits t : Forall ascii_digit t -> decode_max_row_count (VStr t) = inr EValue.
Proof.
  intros H. cbn [decode_max_row_count]. destruct (upper_is 77 78 82 t) eqn:U; [|reflexivity].
  apply upper_is_iff in U. inversion U as [|k c ? ? Hc _]; subst. inversion H as [|? ? D _]; subst.
  unfold ascii_digit in D. lia.
Qed.

(* disable_fill_line_gap, disable_line_padding: ttconv.config.decode_bool lets through exactly the two JSON booleans and returns them; null, 0, 1, "true", "false",
   "no" are ValueErrors *)
Lemma decode_bool_accepts v b : decode_bool v = inl b <-> v = VBool b.
Proof.
  split; [|intros ->; reflexivity]. destruct v; cbn [decode_bool]; try discriminate. intros H; injection H as <-; reflexivity.
Qed.
Lemma decode_bool_rejects v e : decode_bool v = inr e <-> e = EValue /\ forall b, v <> VBool b.
Proof.
  split.
  - destruct v; cbn [decode_bool]; try discriminate; intros H; injection H as <-; (split; [reflexivity | intros b'; discriminate]).
  - intros [-> H]. destruct v; cbn [decode_bool]; try reflexivity. exfalso. exact (H b eq_refl).
Qed.

(* STLReaderConfiguration.parse returns a configuration exactly when every key that is present holds a value its decoder
   accepts, and the configuration holds the decoded values (absent keys: False / None) *)
Lemma parse_config_accepts fill start pad rows cfg :
  parse_config fill start pad rows = inl cfg <->
  exists nofill st nopad r,
    decode_bool (dict_get fill (VBool false)) = inl nofill /\ decode_start_tc (dict_get start VNull) = inl st /\
    decode_bool (dict_get pad (VBool false)) = inl nopad /\ decode_max_row_count (dict_get rows VNull) = inl r /\
    cfg = mkConfig st r nofill nopad None.
Proof.
  unfold parse_config. split.
  - destruct (decode_bool (dict_get fill _)) as [nofill|]; [|discriminate].
    destruct (decode_start_tc _) as [st|]; [|discriminate]. destruct (decode_bool (dict_get pad _)) as [nopad|]; [|discriminate].
    destruct (decode_max_row_count _) as [r|]; [|discriminate]. intros H. injection H as <-.
    exists nofill, st, nopad, r. repeat split.
  - intros (nofill & st & nopad & r & -> & -> & -> & -> & ->). reflexivity.
Qed.
Lemma parse_config_empty : parse_config None None None None = inl (mkConfig StNone MrNone false false None).
Proof. reflexivity. Qed.
(* a rejected dictionary is rejected with ValueError, whatever the values are: no decoder has another exception class *)
Lemma parse_config_errors fill start pad rows e : parse_config fill start pad rows = inr e -> e = EValue.
Proof.
  unfold parse_config.
  destruct (decode_bool (dict_get fill _)) as [nofill|e1] eqn:E1.
  2:{ intros H. injection H as <-. apply decode_bool_rejects in E1. tauto. }
  destruct (decode_start_tc _) as [st|e2] eqn:E2.
  2:{ intros H. injection H as <-. apply decode_start_rejects in E2. tauto. }
  destruct (decode_bool (dict_get pad _)) as [nopad|e3] eqn:E3.
  2:{ intros H. injection H as <-. apply decode_bool_rejects in E3. tauto. }
  destruct (decode_max_row_count _) as [r|e4] eqn:E4; [discriminate|].
  intros H. injection H as <-. exact (decode_rows_rejects _ _ E4).
Qed.
(* a configuration that STLReaderConfiguration.parse returns never makes the reader fail on a file of 1024 + 128 k
   bytes: ValueError in DataFile.__init__ (SmpteTimeCode.parse of the configured start) cannot happen *)
Lemma parse_config_reader_total fill start pad rows cfg file k :
  parse_config fill start pad rows = inl cfg -> length file = (1024 + 128 * k)%nat -> exists d, reader_model file cfg = Ok d.
Proof.
  intros H Hl. apply parse_config_accepts in H. destruct H as (nofill & st & nopad & r & _ & Hs & _ & _ & ->).
  apply (reader_total file _ k Hl). cbn [cf_start]. intros t ->. exact (decode_start_parses _ t Hs).
Qed.
