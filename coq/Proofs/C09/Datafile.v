(* C09, data-file level: the text of a block (cut at the first unused-space byte), rows and region geometry (VP/JC ->
   region inside the safe area, over Q), subtitle numbers, grouping and the per-block steps.  The whole-file composition
   is Proofs/C09/File.v. *)
From Coq Require Import QArith Lia Lqa.
From TT Require Import Base.Prelude Gen.StlTables Model.TimeCode Model.Iso6937 Model.StlTf Model.StlDatafile Model.StlTriggers Spec.Ebu3264Spec.
From TT Require Import Proofs.C09.TextField.
Open Scope Z_scope.

Definition clean (t : list Z) : bool := forallb (fun b => negb (b =? 143)) t.

Lemma cut_clean tf : clean (before_8f tf) = true.
Proof.
  induction tf as [|b r IH]; [reflexivity|]. cbn [before_8f]. destruct (b =? 143) eqn:E; [reflexivity|].
  cbn [clean forallb]. rewrite E. exact IH.
Qed.
Lemma text_of_clean_id t : clean t = true -> text_of_field t = t.
Proof.
  induction t as [|b t IH]; [reflexivity|]. cbn [clean forallb text_of_field]. change filler with 143. intros H.
  apply andb_true_iff in H as [Hb Ht]. destruct (b =? 143); [discriminate|]. f_equal. apply IH, Ht.
Qed.

Lemma line_count_breaks dh : forall bs count was, line_count_go dh bs count was = count + count_breaks dh bs was + 1.
Proof.
  induction bs as [|c r IH]; intros count was; cbn [line_count_go count_breaks]; [lia|].
  unfold is_newline_code. change newline_code with 138.
  destruct (c =? 138); [|rewrite IH; lia].
  destruct dh; cbn [andb]; [destruct was|]; rewrite IH; lia.
Qed.

Lemma rows_agree tf : line_count tf (has_double_height_char tf) * (if has_double_height_char tf then 2 else 1) = rows_occupied tf.
Proof.
  unfold line_count, rows_occupied. rewrite line_count_breaks. change (double_height tf) with (has_double_height_char tf). lia.
Qed.

Lemma max_first_row vp : Z.max vp 1 = first_row vp.
Proof. unfold first_row. destruct (vp <? 1) eqn:E; lia. Qed.

(* the region of a new subtitle is the specification's top-anchored region of its first row (VP, or row 1 for VP = 0)
   or the bottom-anchored region of its last row; the anchor is chosen by first row < max_rows // 2 *)
Lemma region_choice max_rows vp tf r : region_for max_rows vp tf (has_double_height_char tf) = Some r ->
  (first_row vp < max_rows / 2 /\ rect_equiv (rect_of r) (top_anchored max_rows (first_row vp))) \/
  (max_rows / 2 <= first_row vp /\ rect_equiv (rect_of r) (bottom_anchored max_rows (first_row vp + rows_occupied tf - 1))).
Proof.
  unfold region_for. cbv zeta. rewrite max_first_row. generalize (first_row vp) as v. intros v.
  destruct (v <? max_rows / 2) eqn:E.
  - intros H. injection H as <-. left. split; [lia|]. unfold rect_equiv, rect_of, top_anchored, row_top.
    cbn [r_x r_y r_w r_h r_after x0 y0 width height align_after]. repeat split; try reflexivity;
    unfold qz, safe_top, safe_height; change default_vertical_safe_margin_pct with 10; change safe_area_height with 80;
    change (inject_Z (100 - 10)) with 90%Q; change (inject_Z 10) with 10%Q; change (inject_Z 80) with 80%Q; ring.
  - destruct (max_rows =? 0); [discriminate|]. intros H. injection H as <-. right. split; [lia|].
    rewrite <- rows_agree. unfold rect_equiv, rect_of, bottom_anchored, row_bottom.
    cbn [r_x r_y r_w r_h r_after x0 y0 width height align_after]. repeat split; try reflexivity;
    unfold qz, safe_top, safe_height; change safe_area_height with 80; change (inject_Z 80) with 80%Q; ring.
Qed.
(* with at least one row the region always exists (the division by max_row_count is the only partial step) *)
Lemma region_exists max_rows vp tf dh : max_rows <> 0 -> exists r, region_for max_rows vp tf dh = Some r.
Proof.
  intros H. unfold region_for. cbv zeta. destruct (Z.max vp 1 <? max_rows / 2); [eexists; reflexivity|].
  destruct (max_rows =? 0) eqn:E; [lia | eexists; reflexivity].
Qed.

Lemma ratio_bounds a b : 0 <= a <= b -> 0 < b -> (0 <= inject_Z a / inject_Z b /\ inject_Z a / inject_Z b <= 1)%Q.
Proof.
  intros Ha Hb. destruct b as [|p|p]; try lia.
  unfold Qdiv, Qinv, Qmult, Qle, inject_Z. cbn [Qnum Qden]. split; lia.
Qed.

Lemma top_inside rows vp : 0 < rows -> 1 <= vp <= rows + 1 -> inside_safe_area (top_anchored rows vp).
Proof.
  intros Hr Hv. destruct (ratio_bounds (vp - 1) rows ltac:(lia) Hr) as [H0 H1].
  unfold inside_safe_area, top_anchored, row_top, safe_left, safe_top, safe_width, safe_height.
  cbn [x0 y0 width height]. set (q := (inject_Z (vp - 1) / inject_Z rows)%Q) in *. repeat split; lra.
Qed.

Lemma bottom_inside rows last : 0 < rows -> 0 <= last <= rows -> inside_safe_area (bottom_anchored rows last).
Proof.
  intros Hr Hv. destruct (ratio_bounds last rows ltac:(lia) Hr) as [H0 H1].
  unfold inside_safe_area, bottom_anchored, row_bottom, safe_left, safe_top, safe_width, safe_height.
  cbn [x0 y0 width height]. set (q := (inject_Z last / inject_Z rows)%Q) in *. repeat split; lra.
Qed.

Lemma inside_equiv a b : rect_equiv a b -> inside_safe_area b -> inside_safe_area a.
Proof.
  intros ((Hx & Hy & Hw & Hh) & _) (H1 & H2 & H3 & H4 & H5). unfold inside_safe_area.
  rewrite Hx, Hy, Hw, Hh. repeat split; assumption.
Qed.

Lemma count_breaks_nonneg dh : forall t was, 0 <= count_breaks dh t was.
Proof.
  induction t as [|c r IH]; intros was; cbn [count_breaks]; [lia|].
  destruct (c =? newline_code); [destruct (dh && was); [apply IH | specialize (IH true); lia] | apply IH].
Qed.
Lemma rows_occupied_pos tf : 1 <= rows_occupied tf.
Proof. unfold rows_occupied. pose proof (count_breaks_nonneg (double_height tf) tf false). destruct (double_height tf); lia. Qed.

(* the region of every subtitle whose rows fit the grid lies inside the safe area - for every VP, 0 included (first_row) *)
Lemma region_inside rows vp tf r : 0 < rows -> region_for rows vp tf (has_double_height_char tf) = Some r ->
  first_row vp + rows_occupied tf - 1 <= rows -> inside_safe_area (rect_of r).
Proof.
  intros Hr H Hfit. pose proof (rows_occupied_pos tf) as Hk.
  assert (Hv : 1 <= first_row vp) by (unfold first_row; destruct (vp <? 1) eqn:E; lia).
  destruct (region_choice rows vp tf r H) as [[Hlt He]|[Hge He]]; eapply inside_equiv; try exact He.
  - apply top_inside; [exact Hr|]. assert (rows / 2 <= rows) by (apply Z.div_le_upper_bound; lia). lia.
  - apply bottom_inside; [exact Hr | lia].
Qed.

(* witness files, used by Findings/C09.v and the examples of Properties/C09.v *)
Definition put (off : nat) (v : list Z) (l : list Z) : list Z := firstn off l ++ v ++ skipn (off + length v) l.
Definition witness_gsi : list Z :=
  put 3 [83; 84; 76; 50; 53; 46; 48; 49] (put 11 [49; 48; 48; 48; 57] (put 238 [48; 48; 48; 48; 50] (put 253 [50; 51] (repeat 32 1024%nat)))).
Definition witness_tti (sn : Z) (s0 s1 vp cs cf : Z) (tf : list Z) : list Z :=
  [0; sn mod 256; sn / 256; 255; cs; 0; 0; s0; 0; 0; 0; s1; 0; vp; 2; cf] ++ firstn 112 (tf ++ repeat 143 112%nat).
Definition cfg0 : config := mkConfig StNone MrNone false false None.
Definition paragraphs_of (o : outcome) : Z :=
  match o with Ok d => Z.of_nat (length (concat (d_divs d))) | Err _ => -1 end.

(* subtitle numbers are compared by value: a block opens a paragraph iff its number differs from the last one's *)
Lemma sn_value sn last : sn_differs sn last = true <-> last <> Some sn.
Proof.
  unfold sn_differs. destruct last as [l|]; [|split; [discriminate | reflexivity]].
  destruct (sn =? l) eqn:E; cbn [negb]; split; intros H; try reflexivity; try discriminate.
  - apply Z.eqb_eq in E. subst. contradiction.
  - intros Heq. injection Heq as ->. rewrite Z.eqb_refl in E. discriminate.
Qed.

(* grouping: extension blocks are concatenated, user-data/reserved and comment blocks are skipped *)
Definition is_ext (t : tti) : bool := text_block t && negb (t_ebn t =? 255).
Definition ext_or_skip (t : tti) : Prop := is_ext t = true \/ text_block t = false.
Definition acc_tf (s : state) : list Z := if st_in_ext s then st_tf s else [].

Fixpoint fold_blocks (f : datafile) (s : state) (ts : list tti) : state + error :=
  match ts with
  | [] => inl s
  | t :: r => match process_tti f s t with inl s' => fold_blocks f s' r | inr e => inr e end
  end.

Lemma process_skip f s t : text_block t = false -> process_tti f s t = inl s.
Proof.
  unfold text_block, process_tti. intros H. destruct ((239 <? t_ebn t) && (t_ebn t <? 255)); [reflexivity|].
  destruct (t_cf t =? 1); [reflexivity | discriminate].
Qed.
Lemma process_ext f s t : is_ext t = true ->
  process_tti f s t = inl (mkState true (acc_tf s ++ before_8f (t_tf t)) (st_last_sn s) (st_divs s) (st_cur s) (st_regions s)).
Proof.
  unfold is_ext, text_block, process_tti, acc_tf. intros H. apply andb_true_iff in H as [H1 H2].
  destruct ((239 <? t_ebn t) && (t_ebn t <? 255)); [discriminate|].
  destruct (t_cf t =? 1); [discriminate|]. rewrite H2. reflexivity.
Qed.
(* the terminal block of a subtitle: the rest of process_tti_block runs on the accumulated field *)
Lemma process_terminal f s t : text_block t = true -> t_ebn t = 255 ->
  process_tti f s t = complete_subtitle f s t (acc_tf s ++ before_8f (t_tf t)).
Proof.
  unfold text_block, process_tti, acc_tf. intros H He.
  destruct ((239 <? t_ebn t) && (t_ebn t <? 255)); [discriminate|].
  destruct (t_cf t =? 1); [discriminate|]. rewrite He. reflexivity.
Qed.

Lemma process_cases f s t :
  (exists s', process_tti f s t = inl s' /\ st_regions s' = st_regions s) \/
  process_tti f s t = complete_subtitle f s t (acc_tf s ++ before_8f (t_tf t)).
Proof.
  destruct (text_block t) eqn:Ht; [|left; rewrite (process_skip f s t Ht); eauto].
  destruct (t_ebn t =? 255) eqn:E; [right; apply process_terminal; [exact Ht | lia] | left].
  rewrite process_ext by (unfold is_ext; rewrite Ht, E; reflexivity). eauto.
Qed.

Lemma ext_chain f : forall ts s, Forall ext_or_skip ts ->
  exists s', fold_blocks f s ts = inl s' /\
             acc_tf s' = acc_tf s ++ concat (map (fun x => before_8f (t_tf x)) (filter text_block ts)) /\
             st_last_sn s' = st_last_sn s /\ st_divs s' = st_divs s /\ st_cur s' = st_cur s /\ st_regions s' = st_regions s.
Proof.
  induction ts as [|t r IH]; intros s H.
  - exists s. cbn. rewrite app_nil_r. repeat split.
  - inversion H as [|? ? Ht Hr]; subst. cbn [fold_blocks filter]. destruct Ht as [Ht|Ht].
    + rewrite (process_ext f s t Ht).
      assert (Htb : text_block t = true) by (unfold is_ext in Ht; apply andb_true_iff in Ht; tauto). rewrite Htb.
      destruct (IH (mkState true (acc_tf s ++ before_8f (t_tf t)) (st_last_sn s) (st_divs s) (st_cur s) (st_regions s)) Hr)
        as (s' & Hf & Ha & H1 & H2 & H3 & H4).
      exists s'. split; [exact Hf|]. cbn [map concat]. unfold acc_tf in *. cbn [st_in_ext st_tf] in Ha.
      rewrite Ha, <- app_assoc. repeat split; assumption.
    + rewrite (process_skip f s t Ht), Ht. apply IH, Hr.
Qed.

(* the text field that the terminal block of a subtitle is decoded from: the texts (Tech 3264: up to the first
   unused-space byte) of all its text-carrying blocks, in order - for every chain of blocks *)
Lemma grouping f ts s t : st_in_ext s = false -> Forall ext_or_skip ts -> text_block t = true -> t_ebn t = 255 ->
  exists s', fold_blocks f s ts = inl s' /\
             process_tti f s' t =
             complete_subtitle f s' t (concat (map (fun x => text_of_field (t_tf x)) (filter text_block (ts ++ [t])))).
Proof.
  intros Hs Hts Ht He. destruct (ext_chain f ts s Hts) as (s' & Hf & Ha & _).
  exists s'. split; [exact Hf|]. rewrite (process_terminal f s' t Ht He), Ha.
  unfold acc_tf at 1. rewrite Hs. cbn [app]. rewrite filter_app, map_app, concat_app. cbn [filter]. rewrite Ht.
  cbn [map concat]. rewrite app_nil_r, cut_is_cut.
  rewrite (map_ext (fun x => before_8f (t_tf x)) (fun x => text_of_field (t_tf x)) (fun x => cut_is_cut (t_tf x))). reflexivity.
Qed.

Definition text_align_of (jc : Z) : Z := if jc =? 1 then 0 else if jc =? 3 then 2 else 1.

(* the terminal block of a non-cumulative subtitle with a new number becomes a paragraph visible exactly from TCI to TCO
   (shifted by the programme start), holding the pieces of its accumulated text field, aligned by JC, in the region of its VP *)
Lemma new_subtitle f s t tf r :
  t_cs t = 0 -> st_last_sn s <> Some (t_sn t) ->
  let b := (offset_q (f_fps f) (t_tci t) - f_start f)%Q in
  let e := (offset_q (f_fps f) (t_tco t) - f_start f)%Q in
  q_neg b = false -> q_lt e b = false ->
  region_for (f_max_rows f) (t_vp t) tf (has_double_height_char tf) = Some r ->
  exists s', complete_subtitle f s t tf = inl s' /\
    st_cur s' = Some (t_sgn t,
                      mkPara (fst (get_region (st_regions s) r)) (text_align_of (t_jc t))
                             (if f_teletext f && negb (has_double_height_char tf) then default_single_height_font_size_pct
                              else default_double_height_font_size_pct)
                             default_line_height_pct (Some (b, e))
                             (map PLeaf (tf_model (decoder_of_cct (f_cct f)) (f_teletext f) tf))) /\
    st_regions s' = snd (get_region (st_regions s) r).
Proof.
  intros Hcs Hsn b e Hb He Hr. apply sn_value in Hsn.
  unfold complete_subtitle. fold b. rewrite Hb. fold e. rewrite He.
  rewrite Hsn, Hcs. cbn [Z.eqb orb andb]. rewrite Hr.
  destruct (get_region (st_regions s) r) as [ri rs] eqn:Hg. cbn [st_cur fst snd].
  eexists. split; [reflexivity|]. cbn [st_cur st_regions]. split; reflexivity.
Qed.

(* a subtitle that starts before the programme start is dropped: nothing but the extension bookkeeping changes *)
Lemma early_subtitle_dropped f s t tf :
  q_neg (offset_q (f_fps f) (t_tci t) - f_start f) = true ->
  exists s', complete_subtitle f s t tf = inl s' /\ st_divs s' = st_divs s /\ st_cur s' = st_cur s /\
             st_regions s' = st_regions s /\ st_last_sn s' = st_last_sn s /\ st_in_ext s' = false.
Proof.
  intros Hb. unfold complete_subtitle. rewrite Hb. eexists. split; [reflexivity|]. repeat split.
Qed.

(* an intermediate (CS 2) or last (CS 3) member of a cumulative set is added to the open paragraph as a span timed by
   its own TCI/TCO, followed by a line break unless it is the last *)
Lemma cumulative_member f s t tf sgn p :
  t_cs t = 2 \/ t_cs t = 3 -> st_cur s = Some (sgn, p) ->
  let b := (offset_q (f_fps f) (t_tci t) - f_start f)%Q in
  let e := (offset_q (f_fps f) (t_tco t) - f_start f)%Q in
  q_neg b = false -> q_lt e b = false ->
  exists s', complete_subtitle f s t tf = inl s' /\
    st_cur s' = Some (sgn, mkPara (p_region p) (p_align p) (p_font_size p) (p_line_height p) (p_time p)
                                  (p_items p ++ [PSub b e (tf_model (decoder_of_cct (f_cct f)) (f_teletext f) tf ++
                                                           (if t_cs t =? 2 then [LBr] else []))])) /\
    st_divs s' = st_divs s /\ st_regions s' = st_regions s.
Proof.
  intros Hcs Hcur b e Hb He.
  unfold complete_subtitle. fold b. rewrite Hb. fold e. rewrite He. unfold no_paragraph. rewrite Hcur.
  destruct Hcs as [Hcs|Hcs]; rewrite Hcs; cbn [Z.eqb Pos.eqb orb andb]; rewrite andb_false_r; cbn [orb st_cur]; rewrite ?Hcur;
    eexists; (split; [reflexivity|]); cbn [st_cur st_divs st_regions]; rewrite ?app_nil_r; repeat split.
Qed.

(* a member of a cumulative set that arrives while no paragraph exists (its first member was dropped, or the file starts
   in the middle of a set) starts a paragraph of its own: no block makes the reader fail for want of a paragraph *)
Lemma no_attribute_error f s t tf : complete_subtitle f s t tf <> inr EAttribute.
Proof.
  unfold complete_subtitle.
  destruct (q_neg _); [discriminate|]. destruct (q_lt _ _); [discriminate|].
  unfold no_paragraph. destruct (st_cur s) as [[sgn p]|] eqn:Hcur.
  - rewrite orb_false_r. destruct (sn_differs _ _ && _).
    + destruct (region_for _ _ _ _); [|discriminate]. destruct (get_region _ _). cbn [st_cur]. discriminate.
    + cbn [st_cur]. rewrite ?Hcur. discriminate.
  - rewrite orb_true_r. destruct (region_for _ _ _ _); [|discriminate]. destruct (get_region _ _). cbn [st_cur]. discriminate.
Qed.
Lemma process_no_attribute_error f s t : process_tti f s t <> inr EAttribute.
Proof.
  destruct (process_cases f s t) as [(s' & -> & _) | ->]; [discriminate | apply no_attribute_error].
Qed.
