(* C09: text field + character decoding together: what tf.to_model appends for a text field under the CCT's decoder
   is what the specification prescribes with the standard's code table, for every byte string and without trigger. *)
From TT Require Import Base.Prelude Model.Iso6937 Model.StlTf Model.StlTriggers Spec.Ebu3264Spec.
From TT Require Import Proofs.C09.Tables Proofs.C09.TextField.

Lemma text_full cct tele bs : Forall is_byte bs ->
  map piece_of_leaf (tf_model (decoder_of_cct cct) tele bs) = tf_spec (decoder_spec cct) tele bs.
Proof.
  intros Hb. rewrite tf_refines.
  apply (tf_spec_agree is_byte).
  - intros l Hl. apply decoder_agrees, Hl.
  - unfold is_byte; lia.
  - exact Hb.
Qed.
