(* C10, the line machine: reading the lines of a grammar-conforming file - however they are terminated - gives one
   paragraph per cue, with the exact times, whose children are what _TextParser makes of the cue's text; with
   Tags.v, the round trip for every file of the grammar. *)
From TT Require Import Base.Prelude Base.SrtTypes Gen.SrtTables Model.SrtReader Spec.SrtCueSpec
  Proofs.C10.Time Proofs.C10.Lines Proofs.C10.Text Proofs.C10.Tags.
From Coq Require Import QArith.
Local Open Scope Z_scope.

Lemma space_is_ws c : is_space c = true -> ws_char c = true.
Proof. apply space_class. reflexivity. Qed.
Lemma blank_is_space c : blank_char c = true -> is_space c = true.
Proof. unfold blank_char. intro H. assert (c = 32 \/ c = 9) as [E|E] by lia; subst; vm_compute; reflexivity. Qed.
Lemma spaces_of_blanks ws : forallb blank_char ws = true -> forallb is_space ws = true.
Proof. intro H. rewrite forallb_forall in *. auto using blank_is_space. Qed.
Lemma dec_is_udigit c : is_dec c = true -> is_udigit c = true.
Proof.
  intro H. unfold is_udigit. apply existsb_exists. exists (48, 57). split.
  - vm_compute. left. reflexivity.
  - exact H.
Qed.
Lemma term_is_space t : term_ok t -> forallb is_space t = true.
Proof. intros [E|[E|E]]; subst t; vm_compute; reflexivity. Qed.

Lemma blank_line_is_blank l t : term_ok t -> l ++ t <> [] -> forallb blank_char l = true -> is_blank (l ++ t) = true.
Proof.
  intros Tt N H. unfold is_blank. destruct (l ++ t) eqn:E; [congruence|]. rewrite <- E.
  rewrite forallb_app, spaces_of_blanks, term_is_space by auto. reflexivity.
Qed.
Lemma nonblank_line l t : negb (all_ws l) = true -> is_blank (l ++ t) = false.
Proof.
  intro H. unfold is_blank. destruct (l ++ t) eqn:E; [reflexivity|]. rewrite <- E.
  apply negb_true_iff in H. unfold all_ws in H.
  destruct (forallb is_space (l ++ t)) eqn:F; [|reflexivity].
  rewrite forallb_app in F. apply andb_true_iff in F as [F _].
  assert (forallb ws_char l = true); [|congruence].
  rewrite forallb_forall in *. auto using space_is_ws.
Qed.
Lemma counter_line l t : existsb is_dec l = true -> is_blank (l ++ t) = false /\ has_digit (l ++ t) = true.
Proof.
  intro H. apply existsb_exists in H as (c & I & D). split.
  - unfold is_blank. destruct (l ++ t) eqn:E; [reflexivity|]. rewrite <- E.
    destruct (forallb is_space (l ++ t)) eqn:F; [|reflexivity].
    rewrite forallb_forall in F. specialize (F c (in_or_app _ _ _ (or_introl I))).
    rewrite digit_not_space in F by exact D. discriminate.
  - unfold has_digit. apply existsb_exists. exists c. split; [apply in_or_app; auto|apply dec_is_udigit; auto].
Qed.

(* `consumes P s s'`: whatever follows, reading the lines P in state s comes to the same as being in state s' with the
   lines that follow.  When P ends the file and its last line is empty and unterminated, that line is not read at
   all; the end of the file then does in s what it does in s'. *)
Definition consumes (P : list text) (s s' : mstate) : Prop :=
  forall ls rs, reads (P ++ ls) rs -> exists rs', reads ls rs' /\ run rs s = run rs' s'.

Lemma consumes_nil s : consumes [] s s.
Proof. intros ls rs R. exists rs. auto. Qed.
Lemma consumes_app P Q s s' s'' : consumes P s s' -> consumes Q s' s'' -> consumes (P ++ Q) s s''.
Proof.
  intros A B ls rs R. rewrite <- app_assoc in R.
  destruct (A _ _ R) as (r1 & R1 & E1). destruct (B _ _ R1) as (r2 & R2 & E2). exists r2. split; congruence.
Qed.
Lemma consumes_line l s s' :
  (forall t, term_ok t -> l ++ t <> [] -> step s (l ++ t) = Continue s') -> (l = [] -> at_eof s = at_eof s') ->
  consumes [l] s s'.
Proof.
  intros St Eof ls rs R. inversion R; subst.
  - exists []. split; [constructor|]. apply Eof. reflexivity.
  - exists rs0. split; [assumption|]. cbn [run]. rewrite St by assumption. reflexivity.
Qed.
Lemma consumes_all P s s' rs : consumes P s s' -> reads P rs -> run rs s = at_eof s'.
Proof.
  intros C R. rewrite <- (app_nil_r P) in R. destruct (C _ _ R) as (r & R' & E). inversion R'; subst. exact E.
Qed.

Lemma blanks_consumed bs s : m_mode s = COUNTER -> forallb (forallb blank_char) bs = true -> consumes bs s s.
Proof.
  intro M. induction bs as [|b bs IH]; intro H; [apply consumes_nil|].
  cbn [forallb] in H. apply andb_true_iff in H as [H1 H2].
  apply (consumes_app [b] bs s s s); [|auto]. apply consumes_line; [|reflexivity].
  intros t Tt N. unfold step. rewrite M, blank_line_is_blank by auto. reflexivity.
Qed.

Definition kids_of (p : list node) : list elem :=
  match parse_text (rw (print_nodes p)) with Ok k => k | _ => [] end.
Definition pcue_of (c : cue_src) : pcue :=
  mkP (clock_seconds (c_begin c)) (clock_seconds (c_end c)) (kids_of (c_payload c)).
Definition cue_ok (c : cue_src) : Prop := payload_good (c_payload c) /\ no_cr (print_nodes (c_payload c)).

Lemma observe_pcue_of c : cue_ok c -> observe (pcue_of c) = cue_of c.
Proof.
  intros [(k & P & F) _]. unfold observe, pcue_of, cue_of, kids_of. cbn [p_begin p_end p_kids].
  rewrite P. rewrite F. reflexivity.
Qed.

Record cue_wf (c : cue_src) : Prop := {
  w_counter : existsb is_dec (c_counter c) = true;
  w_begin : wf_clock (c_begin c) = true;
  w_end : wf_clock (c_end c) = true;
  w_ws1 : c_ws1 c <> [] /\ forallb blank_char (c_ws1 c) = true;
  w_ws2 : c_ws2 c <> [] /\ forallb blank_char (c_ws2 c) = true;
  w_lines : forallb (fun l => negb (all_ws l)) (payload_lines (c_payload c)) = true;
  w_blank : forallb (forallb blank_char) (c_blank c) = true;
  w_counter_eol : no_eol (c_counter c) = true;
  w_tail_eol : no_eol (c_tail c) = true;
  w_nodes : forallb wf_node (c_payload c) = true;
  w_stray : forallb (stray_ok None) (c_payload c) = true }.

Lemma wf_cue_fields last c : wf_cue last c = true -> cue_wf c /\ (last = false -> c_blank c <> []).
Proof.
  unfold wf_cue. intro H.
  repeat (apply andb_true_iff in H as [H ?]).
  split.
  - constructor; auto.
    + split; [destruct (c_ws1 c); [discriminate|discriminate]|auto].
    + split; [destruct (c_ws2 c); [discriminate|discriminate]|auto].
  - intro L. subst last. destruct (c_blank c); [discriminate|discriminate].
Qed.
Lemma wf_cues_cons c cs : wf_cues (c :: cs) = true -> cue_wf c /\ (cs <> [] -> c_blank c <> []) /\ wf_cues cs = true.
Proof.
  destruct cs as [|c' cs]; intro W.
  - destruct (wf_cue_fields _ _ W). auto.
  - change (wf_cue false c && wf_cues (c' :: cs) = true) in W. apply andb_true_iff in W as [W1 W2].
    destruct (wf_cue_fields _ _ W1). auto.
Qed.
Lemma wf_cues_each cs : wf_cues cs = true -> Forall cue_wf cs.
Proof.
  induction cs as [|c cs IH]; intro W; constructor; apply wf_cues_cons in W; [|apply IH]; tauto.
Qed.

Lemma step_timing t c d tm att tx : cue_wf c ->
  step (mkM TC d tm att tx) (timing_line c ++ t) =
  Continue (mkM TEXT d (clock_seconds (c_begin c), clock_seconds (c_end c)) false tx).
Proof.
  intros W. destruct W as [_ Wb We [N1 B1] [N2 B2] _ _ _ _ _ _].
  unfold step. cbn [m_mode m_done m_text].
  assert (E : timing_line c ++ t =
              timing_text (hours_text (c_begin c)) (pad2 (k_m (c_begin c))) (pad2 (k_s (c_begin c))) (pad3 (k_ms (c_begin c)))
                          (c_ws1 c) (c_ws2 c)
                          (hours_text (c_end c)) (pad2 (k_m (c_end c))) (pad2 (k_s (c_end c))) (pad3 (k_ms (c_end c)))
                          (c_tail c ++ t)).
  { unfold timing_line, timing_text. rewrite !print_clock_text. repeat rewrite <- app_assoc. reflexivity. }
  rewrite E. rewrite search_tc_spec; auto using clock_digits_print, spaces_of_blanks.
  cbn [g_bh g_bm g_bs g_bms g_eh g_em g_es g_ems]. rewrite !hours_convert by auto. cbn [andb negb].
  rewrite !clock_value by auto. reflexivity.
Qed.

Definition clean_lines (ls : list text) : Prop := Forall (fun l => no_eol l = true) ls.

(* every line of the text is stripped of its terminator and given a line feed *)
Lemma text_consumed ls : forall d tm tx, forallb (fun l => negb (all_ws l)) ls = true -> clean_lines ls ->
  consumes ls (mkM TEXT_MORE d tm true tx) (mkM TEXT_MORE d tm true (tx ++ concat (with_eol [10] ls))).
Proof.
  induction ls as [|l ls IH]; intros d tm tx H C.
  - cbn [with_eol map concat]. rewrite app_nil_r. apply consumes_nil.
  - cbn [forallb] in H. apply andb_true_iff in H as [H1 H2]. inversion C as [|? ? Cl C']; subst.
    apply no_eol_split in Cl as [Cl1 Cl2].
    cbn [with_eol map concat]. fold (with_eol [10] ls). rewrite (app_assoc tx), app_assoc.
    eapply (consumes_app [l]); [|apply IH; assumption]. apply consumes_line; [|intros ->; discriminate].
    intros t Tt _. unfold step. cbn [m_mode]. rewrite nonblank_line, rstrip_line by assumption. rewrite <- app_assoc. reflexivity.
Qed.

Definition text_of (c : cue_src) : text := concat (with_eol [10] (payload_lines (c_payload c))).
Definition times_of (c : cue_src) : Q * Q := (clock_seconds (c_begin c), clock_seconds (c_end c)).

Lemma payload_clean c : cue_ok c -> clean_lines (payload_lines (c_payload c)).
Proof. intros [_ Cr]. rewrite payload_lines_split. apply split_lf_no_eol. exact Cr. Qed.

Lemma body_consumed c s : m_mode s = COUNTER -> cue_wf c -> cue_ok c ->
  consumes (c_counter c :: timing_line c :: payload_lines (c_payload c)) s
           (mkM TEXT_MORE (m_done s) (times_of c) true (text_of c)).
Proof.
  intros M W G. pose proof (w_lines c W) as L. pose proof (payload_clean c G) as C. unfold text_of.
  destruct (payload_lines (c_payload c)) as [|l ls] eqn:EP; [destruct (split_lf_nonempty (print_nodes (c_payload c))); rewrite <- payload_lines_split; exact EP|].
  cbn [forallb] in L. apply andb_true_iff in L as [L1 L2]. inversion C as [|? ? Cl C']; subst.
  apply no_eol_split in Cl as [Cl1 Cl2].
  eapply (consumes_app [_]); [|eapply (consumes_app [_]); [|eapply (consumes_app [l])]].
  - apply consumes_line; [|intros E; pose proof (w_counter c W) as D; rewrite E in D; discriminate].
    intros t _ _. unfold step. rewrite M. destruct (counter_line _ t (w_counter c W)) as [A1 A2]. rewrite A1, A2. reflexivity.
  - apply consumes_line; [intros t _ _; apply step_timing; exact W|].
    unfold timing_line. rewrite print_clock_text. intro E.
    destruct (hd_digit _ _ _ _ (c_ws1 c ++ [45; 45; 62] ++ c_ws2 c ++ print_clock (c_end c) ++ c_tail c)
                (clock_digits_print _ (w_begin c W))) as (c0 & r & E0 & _). congruence.
  - apply consumes_line; [|intros ->; discriminate].
    intros t Tt _. unfold step. cbn [m_mode m_done m_times]. rewrite nonblank_line, rstrip_line by assumption. reflexivity.
  - cbn [with_eol map concat]. apply text_consumed; assumption.
Qed.

Lemma finish_cue_good c d : cue_wf c -> cue_ok c ->
  finish_cue (mkM TEXT_MORE d (times_of c) true (text_of c)) = Continue (mkM COUNTER (d ++ [pcue_of c]) (times_of c) true (text_of c)).
Proof.
  intros W [G Cr]. unfold finish_cue, text_of. cbn [m_attached m_text m_done m_times].
  rewrite payload_lines_split, concat_split_lf. rewrite rewrite_text_rw.
  pose proof (w_lines c W) as L. rewrite payload_lines_split in L.
  rewrite (strip_lines _ true) by auto.
  destruct G as (k & P & F). unfold pcue_of, kids_of. rewrite P. reflexivity.
Qed.

(* a cue, with the blank lines that follow it: the paragraph is there at the end of the file, and the machine is between
   cues again when blank lines followed *)
Lemma cue_consumed c s : m_mode s = COUNTER -> cue_wf c -> cue_ok c ->
  exists s', consumes (cue_lines c) s s' /\ at_eof s' = Ok (m_done s ++ [pcue_of c]) /\
             (c_blank c <> [] -> m_mode s' = COUNTER /\ m_done s' = m_done s ++ [pcue_of c]).
Proof.
  intros M W G. pose proof (body_consumed c s M W G) as B. pose proof (finish_cue_good c (m_done s) W G) as F.
  unfold cue_lines. rewrite !app_comm_cons. pose proof (w_blank c W) as WB.
  destruct (c_blank c) as [|b bs].
  - eexists. rewrite app_nil_r. split; [exact B|]. split; [|congruence]. cbn [at_eof m_mode]. rewrite F. reflexivity.
  - cbn [forallb] in WB. apply andb_true_iff in WB as [WB1 WB2].
    set (s' := mkM COUNTER (m_done s ++ [pcue_of c]) (times_of c) true (text_of c)) in *.
    exists s'. split; [|split; [reflexivity|intros _; split; reflexivity]].
    apply (consumes_app _ _ _ _ _ B). apply (consumes_app [b] bs _ s').
    + apply consumes_line.
      * intros t Tt N. unfold step. cbn [m_mode]. rewrite blank_line_is_blank by assumption. exact F.
      * intros _. cbn [at_eof m_mode]. rewrite F. reflexivity.
    + apply blanks_consumed; [reflexivity|exact WB2].
Qed.

Lemma cues_consumed cs : wf_cues cs = true -> Forall cue_ok cs -> forall s, m_mode s = COUNTER ->
  exists s', consumes (flat_map cue_lines cs) s s' /\ at_eof s' = Ok (m_done s ++ map pcue_of cs).
Proof.
  induction cs as [|c cs IH]; intros W G s M.
  - exists s. split; [apply consumes_nil|]. unfold at_eof. rewrite M, app_nil_r. reflexivity.
  - inversion G as [|? ? Gc Gs]; subst. apply wf_cues_cons in W as (Wc & NB & Ws).
    destruct (cue_consumed c s M Wc Gc) as (s1 & C1 & E1 & B1). cbn [flat_map map].
    destruct cs as [|c' cs'].
    + exists s1. rewrite app_nil_r. auto.
    + destruct B1 as [M1 D1]; [apply NB; discriminate|].
      destruct (IH Ws Gs s1 M1) as (s2 & C2 & E2). exists s2. split; [exact (consumes_app _ _ _ _ _ C1 C2)|].
      rewrite E2, D1, <- app_assoc. reflexivity.
Qed.

Theorem run_file f rs : wf_file f = true -> Forall cue_ok (f_cues f) -> reads (file_lines f) rs ->
  run rs m_init = Ok (map pcue_of (f_cues f)).
Proof.
  intros W G R. apply andb_true_iff in W as [WL WC].
  destruct (cues_consumed _ WC G m_init eq_refl) as (s' & C & E).
  rewrite (consumes_all _ _ _ _ (consumes_app _ _ _ _ _ (blanks_consumed _ m_init eq_refl WL) C) R). exact E.
Qed.

Lemma no_eol_app a b : no_eol (a ++ b) = no_eol a && no_eol b.
Proof. apply forallb_app. Qed.
Lemma no_eol_class (P : Z -> bool) l : P 10 = false -> P 13 = false -> forallb P l = true -> no_eol l = true.
Proof. intros A B H. apply no_eol_join; [apply (lacks_class P)|apply (lacks_class P)]; assumption. Qed.

Lemma clock_no_eol k : wf_clock k = true -> no_eol (print_clock k) = true.
Proof.
  intro H. pose proof (clock_digits_print k H) as [_ A _ B _ C _ D].
  rewrite print_clock_text. unfold clock_text. rewrite !no_eol_app.
  pose proof (no_eol_class is_digit) as E. rewrite (E _ eq_refl eq_refl A), (E _ eq_refl eq_refl B), (E _ eq_refl eq_refl C), (E _ eq_refl eq_refl D). reflexivity.
Qed.

Lemma cue_lines_no_eol c : cue_wf c -> cue_ok c -> clean_lines (cue_lines c).
Proof.
  intros W G. unfold cue_lines. constructor; [apply (w_counter_eol c W)|]. constructor.
  - unfold timing_line. rewrite !no_eol_app, !clock_no_eol, (w_tail_eol c W) by apply W.
    pose proof (no_eol_class blank_char) as E.
    rewrite (E _ eq_refl eq_refl (proj2 (w_ws1 c W))), (E _ eq_refl eq_refl (proj2 (w_ws2 c W))). reflexivity.
  - apply Forall_app. split; [apply payload_clean; exact G|].
    apply Forall_forall. intros b I. apply (no_eol_class blank_char); try reflexivity.
    pose proof (w_blank c W) as WB. rewrite forallb_forall in WB. auto.
Qed.

Lemma file_lines_no_eol f : wf_file f = true -> Forall cue_ok (f_cues f) -> clean_lines (file_lines f).
Proof.
  unfold wf_file, file_lines. intros W G. apply andb_true_iff in W as [WL WC]. apply Forall_app. split.
  - rewrite forallb_forall in WL. apply Forall_forall. intros b I. apply (no_eol_class blank_char); auto.
  - apply wf_cues_each in WC. induction G as [|c cs Gc _ IH]; [constructor|]. inversion WC; subst.
    cbn [flat_map]. apply Forall_app. split; [apply cue_lines_no_eol|apply IH]; assumption.
Qed.

Lemma observe_all cs : Forall cue_ok cs -> map observe (map pcue_of cs) = map cue_of cs.
Proof. induction 1 as [|c cs H _ IH]; [reflexivity|]. cbn [map]. rewrite observe_pcue_of by auto. rewrite IH. reflexivity. Qed.

Lemma cues_ok_all f : wf_file f = true -> Forall cue_ok (f_cues f).
Proof.
  intros W. apply andb_true_iff in W as [_ W]. apply wf_cues_each in W.
  apply (Forall_impl _ (fun c (Wc : cue_wf c) => payload_good_all _ (w_nodes c Wc) (w_stray c Wc)) W).
Qed.

(* reading through a stream that does not translate newlines: LF or CR LF terminators all the same, the last line
   with or without one *)
Theorem roundtrip_stream_full f : wf_file f = true -> read_cues (print_file f) = Ok (cues f).
Proof.
  intros W. pose proof (cues_ok_all f W) as G. destruct (no_eol_lines _ (file_lines_no_eol f W G)) as [L1 L2].
  unfold read_cues, to_model, print_file.
  rewrite (run_file f _ W G (readlines_join _ _ _ (eol_ok_eol _) L1)). cbn [outcome_map]. rewrite observe_all by exact G. reflexivity.
Qed.

(* reading through a text-mode file (universal newlines) *)
Theorem roundtrip_file_full f : wf_file f = true -> read_cues_file (print_file f) = Ok (cues f).
Proof.
  intros W. pose proof (cues_ok_all f W) as G. destruct (no_eol_lines _ (file_lines_no_eol f W G)) as [L1 L2].
  unfold read_cues_file, to_model_file, to_model, print_file. rewrite universal_join by auto using eol_ok_eol.
  rewrite (run_file f _ W G (readlines_join _ _ _ (or_introl eq_refl) L1)). cbn [outcome_map]. rewrite observe_all by exact G. reflexivity.
Qed.

(* tag-free files with a final terminator *)
Theorem roundtrip_plain_file f : wf_file f = true -> f_final_eol f = true -> plain_file f = true ->
  read_cues_file (print_file f) = Ok (cues f).
Proof. intros W _ _. apply roundtrip_file_full, W. Qed.
Theorem roundtrip_plain_stream f : wf_file f = true -> f_final_eol f = true -> plain_file f = true ->
  read_cues (print_file f) = Ok (cues f).
Proof. intros W _ _. apply roundtrip_stream_full, W. Qed.

Lemma same_content_cue c c' : same_content c c' -> cue_of c = cue_of c'.
Proof.
  intros ((A1 & A2 & A3 & A4) & (B1 & B2 & B3 & B4) & P). unfold cue_of, clock_seconds.
  rewrite A1, A2, A3, A4, B1, B2, B3, B4, P. reflexivity.
Qed.

Theorem tolerates f f' :
  wf_file f = true -> wf_file f' = true -> Forall2 same_content (f_cues f) (f_cues f') ->
  read_cues_file (print_file f) = Ok (cues f) /\ read_cues (print_file f) = Ok (cues f) /\
  read_cues_file (print_file f') = Ok (cues f) /\ read_cues (print_file f') = Ok (cues f).
Proof.
  intros W W' S. rewrite !roundtrip_file_full, !roundtrip_stream_full by auto.
  assert (E : cues f' = cues f); [|rewrite E; auto].
  unfold cues. induction S as [|c c' l l' H _ IH]; [reflexivity|]. cbn [map]. rewrite (same_content_cue c c' H), IH. reflexivity.
Qed.
