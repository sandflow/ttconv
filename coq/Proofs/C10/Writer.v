(* C10, last clause: every text of the form the SRT writer emits (Spec/SrtWriterOut.v) is the printed form of a
   file of the cue grammar, so the round-trip theorem applies to it: reading it returns the cues written. *)
From TT Require Import Base.Prelude Base.SrtTypes Gen.SrtTables Model.SrtReader Spec.SrtCueSpec Spec.SrtWriterOut
  Proofs.C10.Time Proofs.C10.Lines Proofs.C10.Text Proofs.C10.Roundtrip.
From Coq Require Import QArith.
Local Open Scope Z_scope.

Section WInd.
  Variable P : wnode -> Prop.
  Variable Q : list wnode -> Prop.
  Hypothesis Hc : forall c, P (WChar c).
  Hypothesis Hb : P WBreak.
  Hypothesis Hf : forall r g b a body, Q body -> P (WFont r g b a body).
  Hypothesis Hbo : forall body, Q body -> P (WBold body).
  Hypothesis Hi : forall body, Q body -> P (WItalic body).
  Hypothesis Hu : forall body, Q body -> P (WUnder body).
  Hypothesis Hnil : Q [].
  Hypothesis Hcons : forall x l, P x -> Q l -> Q (x :: l).
  Fixpoint wnode_ind2 (n : wnode) : P n :=
    match n with
    | WChar c => Hc c
    | WBreak => Hb
    | WFont r g b a body => Hf r g b a body ((fix go (l : list wnode) : Q l := match l with [] => Hnil | x :: l' => Hcons x l' (wnode_ind2 x) (go l') end) body)
    | WBold body => Hbo body ((fix go (l : list wnode) : Q l := match l with [] => Hnil | x :: l' => Hcons x l' (wnode_ind2 x) (go l') end) body)
    | WItalic body => Hi body ((fix go (l : list wnode) : Q l := match l with [] => Hnil | x :: l' => Hcons x l' (wnode_ind2 x) (go l') end) body)
    | WUnder body => Hu body ((fix go (l : list wnode) : Q l := match l with [] => Hnil | x :: l' => Hcons x l' (wnode_ind2 x) (go l') end) body)
    end.
  Definition wnodes_ind2 (l : list wnode) : Q l :=
    (fix go (l : list wnode) : Q l := match l with [] => Hnil | x :: l' => Hcons x l' (wnode_ind2 x) (go l') end) l.
End WInd.

Fixpoint embed (n : wnode) : node :=
  match n with
  | WChar c => NChar c
  | WBreak => NBreak
  | WFont r g b a body => NFont (CHex8 r g b a false) QDouble ((fix go (l : list wnode) : list node := match l with [] => [] | x :: l' => embed x :: go l' end) body)
  | WBold body => NTag KB AngleShort ((fix go (l : list wnode) : list node := match l with [] => [] | x :: l' => embed x :: go l' end) body)
  | WItalic body => NTag KI AngleShort ((fix go (l : list wnode) : list node := match l with [] => [] | x :: l' => embed x :: go l' end) body)
  | WUnder body => NTag KU AngleShort ((fix go (l : list wnode) : list node := match l with [] => [] | x :: l' => embed x :: go l' end) body)
  end.
Definition embed_list (l : list wnode) : list node := map embed l.

Lemma wprint_inner body :
  (fix go (l : list wnode) : text := match l with [] => [] | x :: l' => wprint_node x ++ go l' end) body = wprint_nodes body.
Proof. induction body as [|x l IH]; [reflexivity|]. cbn [wprint_nodes]. rewrite <- IH. reflexivity. Qed.
Lemma wwf_inner body :
  (fix go (l : list wnode) : bool := match l with [] => true | x :: l' => wwf_node x && go l' end) body = forallb wwf_node body.
Proof. induction body as [|x l IH]; [reflexivity|]. cbn [forallb]. rewrite <- IH. reflexivity. Qed.
Lemma witems_inner (f : sstyle) body :
  (fix go (l : list wnode) : list item := match l with [] => [] | x :: l' => witems f x ++ go l' end) body = witems_list f body.
Proof. induction body as [|x l IH]; [reflexivity|]. cbn [witems_list]. rewrite <- IH. reflexivity. Qed.

(* the three tags without an attribute are one constructor each of `wnode`, and one of `node` over the kind *)
Definition wtag (k : tagk) : list wnode -> wnode := match k with KB => WBold | KI => WItalic | KU => WUnder end.

Lemma embed_font r g b a body : embed (WFont r g b a body) = NFont (CHex8 r g b a false) QDouble (embed_list body).
Proof. reflexivity. Qed.
Lemma embed_tag k body : embed (wtag k body) = NTag k AngleShort (embed_list body).
Proof. destruct k; reflexivity. Qed.
Lemma wprint_tag k body : wprint_node (wtag k body) = open_tag k AngleShort ++ wprint_nodes body ++ close_tag k AngleShort.
Proof. rewrite <- wprint_inner. destruct k; reflexivity. Qed.
Lemma witems_tag s k body : witems s (wtag k body) = witems_list (with_tag k s) body.
Proof. rewrite <- witems_inner. destruct k; reflexivity. Qed.
Lemma wwf_tag k body : wwf_node (wtag k body) = forallb wwf_node body.
Proof. rewrite <- wwf_inner. destruct k; reflexivity. Qed.

(* what the grammar says of an embedded payload is what the writer's description says of the payload *)
Definition node_facts (n : wnode) : Prop := wwf_node n = true ->
  print_node (embed n) = wprint_node n /\ wf_node (embed n) = true /\ (forall ctx, stray_ok ctx (embed n) = true) /\
  (forall s, items s (embed n) = witems s n).
Definition nodes_facts (p : list wnode) : Prop := forallb wwf_node p = true ->
  print_nodes (embed_list p) = wprint_nodes p /\ forallb wf_node (embed_list p) = true /\
  (forall ctx, forallb (stray_ok ctx) (embed_list p) = true) /\
  (forall s, items_list s (embed_list p) = witems_list s p).

Lemma tag_facts k body : nodes_facts body -> node_facts (wtag k body).
Proof.
  intros IH W. rewrite wwf_tag in W. destruct (IH W) as (A & B & C & D).
  rewrite embed_tag, print_tag, wf_tag, wprint_tag, A, B. repeat split.
  - intro ctx. rewrite stray_tag. apply C.
  - intro s. rewrite items_tag, witems_tag. apply D.
Qed.

Lemma embed_facts p : nodes_facts p.
Proof.
  apply (wnodes_ind2 node_facts nodes_facts).
  - intros c W. cbn [wwf_node] in W. cbn [embed print_node wprint_node wf_node stray_ok items witems]. auto.
  - intros _. cbn [embed print_node wprint_node wf_node stray_ok items witems]. auto.
  - intros r g b a body IH W. cbn [wwf_node] in W. rewrite wwf_inner in W.
    apply andb_true_iff in W as [W1 W2]. destruct (IH W2) as (A & B & C & D).
    rewrite embed_font, print_font, wf_font, B. cbn [wprint_node]. rewrite wprint_inner, A.
    repeat split.
    + cbn [wf_colspec]. rewrite W1. reflexivity.
    + intro ctx. rewrite stray_font. apply C.
    + intro s. rewrite items_font. cbn [witems]. rewrite witems_inner. apply D.
  - exact (tag_facts KB).
  - exact (tag_facts KI).
  - exact (tag_facts KU).
  - intros _. repeat split.
  - intros x l IHx IHl W. cbn [forallb] in W. apply andb_true_iff in W as [W1 W2].
    destruct (IHx W1) as (A1 & B1 & C1 & D1). destruct (IHl W2) as (A2 & B2 & C2 & D2).
    cbn [embed_list map print_nodes wprint_nodes forallb items_list witems_list]. fold (embed_list l).
    rewrite A1, A2, B1, B2. repeat split.
    + intro ctx. rewrite C1, C2. reflexivity.
    + intro s. rewrite D1, D2. reflexivity.
Qed.

(* the hour field is as wide as the writer prints it *)
Definition clock_of (ms : Z) : clock :=
  mkClock (ms / 3600000) (length (whours (ms / 3600000))) ((ms / 60000) mod 60) ((ms / 1000) mod 60) (ms mod 1000).

Lemma digits_fuel_padn fuel : forall n acc, 0 <= n < 10 ^ Z.of_nat fuel ->
  exists w, digits_fuel fuel 10 n acc = padn w n ++ acc /\ n < 10 ^ Z.of_nat w.
Proof.
  induction fuel as [|k IH]; intros n acc H.
  - exists 0%nat. split; [reflexivity|apply H].
  - rewrite Nat2Z.inj_succ, Z.pow_succ_r in H by lia. cbn [digits_fuel].
    replace (n mod 10 <? 10) with true by lia. cbn iota.
    destruct (n / 10 =? 0) eqn:E.
    + exists 1%nat. split; [reflexivity|]. change (Z.of_nat 1) with 1. lia.
    + destruct (IH (n / 10) ((48 + n mod 10) :: acc)) as (w & W2 & W3); [lia|].
      exists (S w). split.
      * rewrite W2. cbn [padn]. unfold dig. rewrite <- app_assoc. reflexivity.
      * rewrite Nat2Z.inj_succ, Z.pow_succ_r by lia. lia.
Qed.

Lemma log2_fuel h : 0 < h -> h < 10 ^ Z.of_nat (S (Z.to_nat (Z.log2 h))).
Proof.
  intro H. pose proof (Z.log2_nonneg h) as L. destruct (Z.log2_spec h H) as [_ U].
  rewrite Nat2Z.inj_succ, Z2Nat.id by lia.
  assert (2 ^ Z.succ (Z.log2 h) <= 10 ^ Z.succ (Z.log2 h)) by (apply Z.pow_le_mono_l; lia). lia.
Qed.

(* what the writer prints for the hour is the hour written with some width w >= 2 that holds it *)
Lemma whours_padn h : 0 <= h ->
  exists w, (2 <= w)%nat /\ whours h = padn w h /\ h < 10 ^ Z.of_nat w.
Proof.
  intro H. unfold whours. destruct (h <? 100) eqn:E.
  - exists 2%nat. split; [lia|]. split; [apply pad2_padn; lia|]. change (10 ^ Z.of_nat 2) with 100. lia.
  - destruct (digits_fuel_padn (S (Z.to_nat (Z.log2 h))) h []) as (w & W2 & W3).
    { split; [lia|]. apply log2_fuel. lia. }
    exists w. rewrite W2, app_nil_r. split; [|split; [reflexivity|exact W3]].
    (* a width of at most 2 holds no number from 100 on *)
    destruct (Nat.le_gt_cases w 2) as [S|S]; [|lia].
    assert (10 ^ Z.of_nat w <= 10 ^ 2) by (apply Z.pow_le_mono_r; lia). lia.
Qed.

Definition in_range (ms : Z) : Prop := 0 <= ms /\ Z.of_nat (length (whours (ms / 3600000))) <= max_hour_digits.
Lemma wtime_in_range ms : wtime_ok ms = true -> in_range ms.
Proof. unfold wtime_ok, in_range. lia. Qed.

Lemma wclock_print ms : in_range ms -> print_clock (clock_of ms) = wclock ms.
Proof.
  intros [R _]. unfold print_clock, clock_of, wclock. cbn [k_hw k_h k_m k_s k_ms].
  destruct (whours_padn (ms / 3600000)) as (w & _ & W & _); [lia|].
  rewrite W at 1. rewrite padn_length, <- W. reflexivity.
Qed.

Lemma wf_clock_of ms : in_range ms -> wf_clock (clock_of ms) = true.
Proof.
  intros [R B]. unfold wf_clock, clock_shape, clock_of. cbn [k_hw k_h k_m k_s k_ms].
  destruct (whours_padn (ms / 3600000)) as (w & W1 & W & W3); [lia|].
  rewrite W, padn_length in *.
  apply Nat.leb_le in W1. rewrite W1. cbn [andb]. lia.
Qed.

Lemma clock_fields_sum ms : 0 <= ms ->
  (ms / 3600000 * 3600 + (ms / 60000) mod 60 * 60 + (ms / 1000) mod 60) * 1000 + ms mod 1000 = ms.
Proof.
  intro H.
  replace (ms / 60000) with (ms / 1000 / 60) by (rewrite Z.div_div by lia; reflexivity).
  replace (ms / 3600000) with (ms / 1000 / 60 / 60) by (rewrite !Z.div_div by lia; reflexivity).
  lia.
Qed.

Lemma clock_seconds_of ms : 0 <= ms -> clock_seconds (clock_of ms) = Qred (Qmake ms 1000).
Proof.
  intro H. unfold clock_seconds, clock_of. cbn [k_h k_m k_s k_ms]. rewrite clock_fields_sum by auto. reflexivity.
Qed.

Definition embed_cue (last : bool) (c : wcue) : cue_src :=
  mkCue (wc_counter c) (clock_of (wc_begin c)) [32] [32] (clock_of (wc_end c)) [] (embed_list (wc_payload c))
        (if last then [] else [[]]).
Fixpoint embed_cues (cs : list wcue) : list cue_src :=
  match cs with
  | [] => []
  | [c] => [embed_cue true c]
  | c :: cs' => embed_cue false c :: embed_cues cs'
  end.
Definition embed_file (cs : list wcue) : file_src := mkFile [] (embed_cues cs) false true.

(* the last cue of a list is the one that nothing follows *)
Definition is_nil {A} (l : list A) : bool := match l with [] => true | _ => false end.
Lemma embed_cues_cons c cs : embed_cues (c :: cs) = embed_cue (is_nil cs) c :: embed_cues cs.
Proof. destruct cs; reflexivity. Qed.
Lemma embed_cues_nil cs : is_nil (embed_cues cs) = is_nil cs.
Proof. destruct cs as [|c [|c' cs]]; reflexivity. Qed.
Lemma wf_cues_cons_eq c cs : wf_cues (c :: cs) = wf_cue (is_nil cs) c && wf_cues cs.
Proof. destruct cs; [symmetry; apply andb_true_r|reflexivity]. Qed.
Lemma wprint_cons c cs : wprint (c :: cs) = wprint_cue (is_nil cs) c ++ wprint cs.
Proof. destruct cs; [symmetry; apply app_nil_r|reflexivity]. Qed.

Lemma wwf_cue_fields c : wwf_cue c = true ->
  wc_counter c <> [] /\ forallb is_dec (wc_counter c) = true /\ in_range (wc_begin c) /\ in_range (wc_end c) /\
  forallb wwf_node (wc_payload c) = true /\
  forallb (fun l => negb (all_ws l)) (split_at_lf (wprint_nodes (wc_payload c)) []) = true.
Proof.
  unfold wwf_cue. intro W.
  apply andb_true_iff in W as [W F6]. apply andb_true_iff in W as [W F5]. apply andb_true_iff in W as [W F4].
  apply andb_true_iff in W as [W F3]. apply andb_true_iff in W as [F1 F2].
  split; [destruct (wc_counter c); [discriminate|discriminate]|].
  split; [exact F2|]. split; [apply wtime_in_range; exact F3|]. split; [apply wtime_in_range; exact F4|]. split; assumption.
Qed.

Lemma digits_no_eol_dec l : forallb is_dec l = true -> no_eol l = true.
Proof.
  unfold no_eol, is_dec. intro H. rewrite forallb_forall in *. intros x I. specialize (H x I). lia.
Qed.

Lemma embed_cue_wf last c : wwf_cue c = true -> wf_cue last (embed_cue last c) = true.
Proof.
  intros W. destruct (wwf_cue_fields c W) as (F1 & F2 & F3 & F4 & F5 & F6).
  destruct (embed_facts (wc_payload c) F5) as (A & B & C & D).
  unfold wf_cue, embed_cue. cbn [c_counter c_begin c_ws1 c_ws2 c_end c_tail c_payload c_blank].
  rewrite !wf_clock_of by auto. rewrite B, C. unfold payload_lines. rewrite A.
  rewrite digits_no_eol_dec by auto.
  assert (E : existsb is_dec (wc_counter c) = true).
  { destruct (wc_counter c) as [|x l]; [congruence|]. cbn [forallb existsb] in *.
    apply andb_true_iff in F2 as [H1 _]. rewrite H1. reflexivity. }
  rewrite E, F6.
  destruct last; reflexivity.
Qed.

Lemma embed_cues_wf cs : wwf cs = true -> wf_cues (embed_cues cs) = true.
Proof.
  unfold wwf. induction cs as [|c cs IH]; intros W; [reflexivity|].
  cbn [forallb] in W. apply andb_true_iff in W as [W1 W2].
  rewrite embed_cues_cons, wf_cues_cons_eq, embed_cues_nil, embed_cue_wf, IH by auto. reflexivity.
Qed.

Lemma embed_file_wf cs : wwf cs = true -> wf_file (embed_file cs) = true.
Proof. intros. unfold wf_file, embed_file. cbn [f_lead f_cues forallb andb]. apply embed_cues_wf; auto. Qed.

Lemma concat_lines_flat_map (g : cue_src -> list text) l :
  concat (with_eol [10] (flat_map g l)) = concat (map (fun c => concat (with_eol [10] (g c))) l).
Proof.
  induction l as [|c l IH]; [reflexivity|]. cbn [flat_map map concat]. rewrite <- IH. unfold with_eol. rewrite map_app, concat_app. reflexivity.
Qed.

Lemma cue_text_print last c : wwf_cue c = true ->
  concat (with_eol [10] (cue_lines (embed_cue last c))) = wprint_cue last c.
Proof.
  intros W. destruct (wwf_cue_fields c W) as (F1 & F2 & F3 & F4 & F5 & F6).
  destruct (embed_facts (wc_payload c) F5) as (A & _).
  unfold cue_lines, timing_line, embed_cue, wprint_cue. cbn [c_counter c_begin c_ws1 c_ws2 c_end c_tail c_payload c_blank].
  unfold with_eol. cbn [map]. rewrite map_app. cbn [concat]. rewrite concat_app.
  change (map (fun l => l ++ [10]) (payload_lines (embed_list (wc_payload c)))) with (with_eol [10] (payload_lines (embed_list (wc_payload c)))).
  rewrite payload_lines_split, concat_split_lf, A. rewrite !wclock_print by auto.
  destruct last; cbn [map concat]; repeat rewrite <- app_assoc; cbn [app]; reflexivity.
Qed.

Lemma embed_print cs : wwf cs = true -> print_file (embed_file cs) = wprint cs.
Proof.
  intros W. unfold print_file, embed_file, file_lines. cbn [f_lead f_cues f_crlf f_final_eol eol app].
  rewrite join_final, concat_lines_flat_map.
  unfold wwf in W. induction cs as [|c cs IH]; [reflexivity|].
  cbn [forallb] in W. apply andb_true_iff in W as [W1 W2].
  rewrite embed_cues_cons, wprint_cons. cbn [map concat]. rewrite cue_text_print, IH by auto. reflexivity.
Qed.

Lemma embed_cue_meaning last c : wwf_cue c = true -> cue_of (embed_cue last c) = wmeaning c.
Proof.
  intro W. destruct (wwf_cue_fields c W) as (F1 & F2 & F3 & F4 & F5 & F6).
  destruct (embed_facts (wc_payload c) F5) as (_ & _ & _ & D).
  unfold cue_of, embed_cue, wmeaning. cbn [c_begin c_end c_payload].
  rewrite !clock_seconds_of by (destruct F3, F4; assumption). rewrite D. reflexivity.
Qed.
Lemma embed_cues_meaning cs : wwf cs = true -> map cue_of (embed_cues cs) = map wmeaning cs.
Proof.
  unfold wwf. induction cs as [|c cs IH]; intro W; [reflexivity|].
  cbn [forallb] in W. apply andb_true_iff in W as [W1 W2].
  rewrite embed_cues_cons. cbn [map]. rewrite embed_cue_meaning, IH by auto. reflexivity.
Qed.

(* no trigger: every text of the form the writer emits, whatever the width of its hour fields *)
Theorem writer_roundtrip cs : wwf cs = true ->
  read_cues (wprint cs) = Ok (map wmeaning cs) /\ read_cues_file (wprint cs) = Ok (map wmeaning cs).
Proof.
  intros W. rewrite <- (embed_print cs W).
  rewrite roundtrip_stream_full, roundtrip_file_full by (apply embed_file_wf; auto).
  unfold cues, embed_file. cbn [f_cues]. rewrite embed_cues_meaning by auto. auto.
Qed.
