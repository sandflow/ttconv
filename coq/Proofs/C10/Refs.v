(* C10, character references: html.unescape as transcribed (unescape) on the references of the grammar. *)
From TT Require Import Base.Prelude Base.SrtTypes Gen.SrtTables Model.SrtReader Spec.SrtCueSpec
  Proofs.C10.Lines Proofs.C10.Text.
Local Open Scope Z_scope.

(* a text after which unescaping starts afresh: no reference is left open at its end *)
Definition closed (s : text) : Prop := forall x, unescape (s ++ x) = unescape s ++ unescape x.

Lemma closed_nil : closed [].
Proof. intro x. reflexivity. Qed.

Lemma unescape_cons c x : c <> 38 -> unescape (c :: x) = c :: unescape x.
Proof. intro H. unfold unescape. cbn [unesc_go]. replace (c =? 38) with false by lia. reflexivity. Qed.

Lemma closed_snoc s c : closed s -> c <> 38 -> closed (s ++ [c]) /\ unescape (s ++ [c]) = unescape s ++ [c].
Proof.
  intros H N. assert (E : unescape (s ++ [c]) = unescape s ++ [c]).
  { rewrite H. rewrite unescape_cons by auto. reflexivity. }
  split; auto. intro x. rewrite <- app_assoc. cbn [app]. rewrite H. rewrite unescape_cons by auto.
  rewrite E. rewrite <- app_assoc. reflexivity.
Qed.

Lemma unesc_skip a : forall x, unesc_go (length a) (a ++ x) = unesc_go O x.
Proof. induction a as [|c a IH]; intro x; [reflexivity|]. cbn [length app unesc_go]. apply IH. Qed.

Lemma assocz_none {B} n (l : list (Z * B)) : forallb (fun kv => negb (fst kv =? n)) l = true -> assocz n l = None.
Proof.
  induction l as [|[k v] l IH]; intro H; [reflexivity|].
  cbn [forallb fst] in H. apply andb_true_iff in H as [H1 H2]. cbn [assocz].
  replace (n =? k) with false by lia. auto.
Qed.

Definition ref_range (n : Z) : bool := ((32 <=? n) && (n <=? 126)) || ((160 <=? n) && (n <=? 55295)).

Lemma numeric_ref_plain n : ref_range n = true -> numeric_ref n = [n].
Proof.
  intro R. unfold ref_range in R. unfold numeric_ref.
  assert (A : forallb (fun kv => negb (ref_range (fst kv))) invalid_charrefs = true) by (vm_compute; reflexivity).
  assert (B : forallb (fun k => negb (ref_range k)) invalid_codepoints = true) by (vm_compute; reflexivity).
  rewrite assocz_none.
  2:{ rewrite forallb_forall in *. intros kv I. specialize (A kv I). unfold ref_range in A. lia. }
  replace (((55296 <=? n) && (n <=? 57343)) || (1114111 <? n)) with false by lia.
  destruct (existsb (Z.eqb n) invalid_codepoints) eqn:E; [|reflexivity].
  apply existsb_exists in E as (k & I & Q). apply Z.eqb_eq in Q. subst k.
  rewrite forallb_forall in B. specialize (B n I). unfold ref_range in B. exfalso. lia.
Qed.

Definition dig_char (base : Z) (c : Z) : bool := if base =? 10 then is_digit c else is_hex c.
Definition dig_val (base : Z) (c : Z) : Z := if base =? 10 then c - 48 else hex_val c.

Lemma hexdig_spec u n : 0 <= n < 16 -> is_hex (hexdig u n) = true /\ hex_val (hexdig u n) = n.
Proof.
  intro H. unfold hexdig, is_hex, hex_val, is_digit. destruct (n <? 10) eqn:E; [|destruct u].
  - replace ((48 <=? 48 + n) && (48 + n <=? 57)) with true by lia. split; [reflexivity|lia].
  - replace ((48 <=? 55 + n) && (55 + n <=? 57)) with false by lia. replace (55 + n <=? 70) with true by lia. split; lia.
  - replace ((48 <=? 87 + n) && (87 + n <=? 57)) with false by lia. replace (87 + n <=? 70) with false by lia. split; lia.
Qed.

Lemma digit_of base d : (base = 10 \/ base = 16) -> 0 <= d < base ->
  let ch := if d <? 10 then 48 + d else 87 + d in dig_char base ch = true /\ dig_val base ch = d.
Proof.
  intros [B|B] H; subst base; unfold dig_char, dig_val; cbn [Z.eqb Pos.eqb]; cbn zeta.
  - replace (d <? 10) with true by lia. unfold is_digit. lia.
  - exact (hexdig_spec false d H).
Qed.

Lemma digits_fuel_S k base n acc :
  digits_fuel (S k) base n acc =
  if n / base =? 0 then (if n mod base <? 10 then 48 + n mod base else 87 + n mod base) :: acc
  else digits_fuel k base (n / base) ((if n mod base <? 10 then 48 + n mod base else 87 + n mod base) :: acc).
Proof. reflexivity. Qed.

Lemma digits_fuel_spec base : (base = 10 \/ base = 16) -> forall k n acc, 0 <= n < base ^ Z.of_nat (S k) ->
  exists D, digits_fuel (S k) base n acc = D ++ acc /\ D <> [] /\ forallb (dig_char base) D = true /\
            fold_left (fun a c => a * base + dig_val base c) D 0 = n.
Proof.
  intros B. assert (Bp : 2 <= base) by lia.
  induction k as [|k IH]; intros n acc H.
  - change (Z.of_nat 1) with 1 in H. rewrite Z.pow_1_r in H.
    cbn [digits_fuel]. rewrite Z.mod_small by lia.
    destruct (digit_of base n B H) as [P V]. cbn zeta in P, V.
    replace (n / base =? 0) with true by (rewrite Z.div_small by lia; reflexivity).
    eexists [_]. split; [reflexivity|]. split; [discriminate|]. cbn [forallb fold_left]. rewrite P, V. split; [reflexivity|lia].
  - assert (Hd : 0 <= n mod base < base) by (apply Z.mod_pos_bound; lia).
    destruct (digit_of base (n mod base) B Hd) as [P V]. cbn zeta in P, V.
    rewrite digits_fuel_S. destruct (n / base =? 0) eqn:E.
    + eexists [_]. split; [reflexivity|]. split; [discriminate|]. cbn [forallb fold_left]. rewrite P, V. split; [reflexivity|].
      assert (n / base = 0) by lia. pose proof (Z.div_mod n base ltac:(lia)). lia.
    + assert (Hq : 0 <= n / base < base ^ Z.of_nat (S k)).
      { split; [apply Z.div_pos; lia|]. apply Z.div_lt_upper_bound; [lia|].
        rewrite (Nat2Z.inj_succ (S k)) in H. rewrite Z.pow_succ_r in H by lia. lia. }
      destruct (IH (n / base) ((if n mod base <? 10 then 48 + n mod base else 87 + n mod base) :: acc) Hq) as (D & E1 & E2 & E3 & E4).
      exists (D ++ [if n mod base <? 10 then 48 + n mod base else 87 + n mod base]).
      split; [rewrite E1, <- app_assoc; reflexivity|]. split; [destruct D; discriminate|].
      split; [rewrite forallb_app; cbn [forallb]; rewrite E3, P; reflexivity|].
      rewrite fold_left_app. cbn [fold_left]. rewrite E4, V. pose proof (Z.div_mod n base ltac:(lia)). lia.
Qed.

Lemma take_while_app f D c rest : forallb f D = true -> f c = false -> take_while f (D ++ c :: rest) = (D, c :: rest).
Proof.
  induction D as [|d D IH]; intros H N.
  - cbn [app take_while]. rewrite N. reflexivity.
  - cbn [forallb] in H. apply andb_true_iff in H as [H1 H2]. cbn [app take_while]. rewrite H1. rewrite IH by auto. reflexivity.
Qed.

Lemma wf_cref_range n : ((32 <=? n) && (n <=? 126)) || ((160 <=? n) && (n <=? 55295)) = true ->
  ref_range n = true /\ 0 <= n < 10 ^ Z.of_nat 8 /\ 0 <= n < 16 ^ Z.of_nat 8 /\ n <> 10.
Proof. intro H. unfold ref_range. change (10 ^ Z.of_nat 8) with 100000000. change (16 ^ Z.of_nat 8) with 4294967296. lia. Qed.

Lemma unescape_charref a rep x : charref (a ++ x) = Some (rep, length a) -> unescape (38 :: a ++ x) = rep ++ unescape x.
Proof. intro C. unfold unescape. cbn [unesc_go Z.eqb Pos.eqb]. rewrite C, unesc_skip. reflexivity. Qed.

Lemma charref_dec D x : D <> [] -> forallb is_digit D = true ->
  charref ((35 :: D ++ [59]) ++ x) = Some (numeric_ref (int_of_digits D), length (35 :: D ++ [59])).
Proof.
  intros N H. destruct D as [|d D0] eqn:ED; [congruence|]. rewrite <- ED in *.
  assert (Hd : is_digit d = true) by (rewrite ED in H; cbn [forallb] in H; apply andb_true_iff in H; tauto).
  cbn [app]. rewrite <- app_assoc. cbn [app]. rewrite ED at 1. cbn [app charref].
  replace ((d =? 120) || (d =? 88)) with false by (unfold is_digit in Hd; lia). cbn [andb]. rewrite Hd.
  change (d :: D0 ++ 59 :: x) with ((d :: D0) ++ 59 :: x). rewrite <- ED.
  rewrite take_while_app by (auto; reflexivity). cbn [opt_semi Z.eqb Pos.eqb length].
  rewrite app_length. reflexivity.
Qed.
Lemma charref_hex D x : D <> [] -> forallb is_hex D = true ->
  charref ((35 :: 120 :: D ++ [59]) ++ x) = Some (numeric_ref (int_of_hex D), length (35 :: 120 :: D ++ [59])).
Proof.
  intros N H. destruct D as [|d D0] eqn:ED; [congruence|]. rewrite <- ED in *.
  assert (Hd : is_hex d = true) by (rewrite ED in H; cbn [forallb] in H; apply andb_true_iff in H; tauto).
  cbn [app]. rewrite <- app_assoc. cbn [app]. rewrite ED at 1. cbn [app charref Z.eqb Pos.eqb orb]. rewrite Hd. cbn [andb].
  change (d :: D0 ++ 59 :: x) with ((d :: D0) ++ 59 :: x). rewrite <- ED.
  rewrite take_while_app by (auto; reflexivity). cbn [opt_semi Z.eqb Pos.eqb length].
  rewrite app_length. reflexivity.
Qed.

Theorem unescape_ref r x : wf_cref r = true -> unescape (print_cref r ++ x) = cref_char r :: unescape x.
Proof.
  intro W. destruct r as [| | | | |n|n]; try reflexivity; cbn [wf_cref] in W; destruct (wf_cref_range n W) as (R & H10 & H16 & _);
    cbn [print_cref cref_char].
  - (* &#ddd; *)
    destruct (digits_fuel_spec 10 (or_introl eq_refl) 7 n [] H10) as (D & E1 & E2 & E3 & E4).
    rewrite E1, app_nil_r. change ([38; 35] ++ D ++ [59]) with (38 :: 35 :: D ++ [59]).
    cbn [app]. rewrite app_comm_cons, unescape_charref with (rep := [n]); [reflexivity|].
    rewrite charref_dec by assumption. unfold int_of_digits. change (fun a c => a * 10 + (c - 48)) with (fun a c => a * 10 + dig_val 10 c).
    rewrite E4, numeric_ref_plain by assumption. reflexivity.
  - (* &#xhhh; *)
    destruct (digits_fuel_spec 16 (or_intror eq_refl) 7 n [] H16) as (D & E1 & E2 & E3 & E4).
    rewrite E1, app_nil_r. change ([38; 35; 120] ++ D ++ [59]) with (38 :: 35 :: 120 :: D ++ [59]).
    cbn [app]. rewrite 2 app_comm_cons, unescape_charref with (rep := [n]); [reflexivity|].
    rewrite charref_hex by assumption. unfold int_of_hex. change (fun a c => a * 16 + hex_val c) with (fun a c => a * 16 + dig_val 16 c).
    rewrite E4, numeric_ref_plain by assumption. reflexivity.
Qed.

(* characters of a printed reference: none that starts markup or ends a line *)
Definition ref_char (c : Z) : bool := is_hex c || (c =? 38) || (c =? 35) || (c =? 59) || (c =? 120).
Lemma cref_chars r : wf_cref r = true ->
  lacks 60 (print_cref r) /\ lacks 123 (print_cref r) /\ no_cr (print_cref r) /\ lacks 10 (print_cref r).
Proof.
  intro W.
  assert (C : forall D, forallb is_hex D = true -> forall pre, forallb ref_char pre = true ->
              let t := pre ++ D ++ [59] in lacks 60 t /\ lacks 123 t /\ no_cr t /\ lacks 10 t).
  { intros D H pre P t. assert (A : forallb ref_char t = true).
    { unfold t. rewrite !forallb_app, P. cbn [forallb andb]. rewrite andb_true_r.
      rewrite forallb_forall in *. intros c I. unfold ref_char. rewrite (H c I). reflexivity. }
    repeat split; apply (lacks_class ref_char); auto. }
  destruct r as [| | | | |n|n]; try (repeat split; reflexivity); cbn [wf_cref] in W; destruct (wf_cref_range n W) as (R & H10 & H16 & _);
    cbn [print_cref].
  - destruct (digits_fuel_spec 10 (or_introl eq_refl) 7 n [] H10) as (D & E1 & _ & E3 & _). rewrite E1, app_nil_r.
    apply C; [|reflexivity]. rewrite forallb_forall in *. intros c I. specialize (E3 c I). unfold dig_char in E3. cbn [Z.eqb Pos.eqb] in E3.
    unfold is_hex. rewrite E3. reflexivity.
  - destruct (digits_fuel_spec 16 (or_intror eq_refl) 7 n [] H16) as (D & E1 & _ & E3 & _). rewrite E1, app_nil_r.
    apply C; [exact E3|reflexivity].
Qed.

Lemma cref_char_not_lf r : wf_cref r = true -> cref_char r <> 10.
Proof.
  intro W. destruct r as [| | | | |n|n]; cbn [cref_char]; try lia;
  cbn [wf_cref] in W; destruct (wf_cref_range n W) as (_ & _ & _ & N); exact N.
Qed.
