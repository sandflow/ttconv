(* C10, the brace forms: the replace chain of rewrite_text turns {bold} {/bold} {italic} {/italic} {underline}
   {/underline} {b} {/b} {i} {/i} {u} {/u} into the angle forms and leaves everything else alone, so a payload that
   uses them is read like the same payload written with <bold> ... <b> ... (`angleify`). *)
From TT Require Import Base.Prelude Base.SrtTypes Gen.SrtTables Model.SrtReader Spec.SrtCueSpec
  Proofs.C10.Lines Proofs.C10.Text Proofs.C10.Font Proofs.C10.Refs.
Local Open Scope Z_scope.

Lemma prefixb_app p rest : prefixb p (p ++ rest) = true.
Proof. induction p as [|x p IH]; [reflexivity|]. cbn [app prefixb]. rewrite Z.eqb_refl. exact IH. Qed.

Lemma replace_skip pat rep a : forall rest, replace_go pat rep (length a) (a ++ rest) = replace_go pat rep O rest.
Proof. induction a as [|c a IH]; intro rest; [reflexivity|]. cbn [length app replace_go]. apply IH. Qed.

Lemma replace_hit x pat rep rest :
  replace_go (x :: pat) rep O ((x :: pat) ++ rest) = rep ++ replace_go (x :: pat) rep O rest.
Proof.
  cbn [app replace_go]. change (x :: pat ++ rest) with ((x :: pat) ++ rest). rewrite prefixb_app.
  cbn [length]. rewrite Nat.sub_succ, Nat.sub_0_r. rewrite replace_skip. reflexivity.
Qed.

Inductive btok := BC (c : Z) | BB (k : tagk) (lg : bool) (closing : bool).
Definition bname (k : tagk) (lg : bool) : text :=
  match k, lg with
  | KB, true => t_bold | KI, true => t_italic | KU, true => t_underline
  | KB, false => t_b | KI, false => t_i | KU, false => t_u
  end.
Definition render1 (t : btok) : text := match t with BC c => [c] | BB k lg cl => brace cl (bname k lg) end.
Definition render (ts : list btok) : text := flat_map render1 ts.
Definition okc (t : btok) : Prop := match t with BC c => c <> 123 | BB _ _ _ => True end.

Definition same_tag (k : tagk) (lg cl : bool) (k' : tagk) (lg' cl' : bool) : bool :=
  tagk_eqb k k' && Bool.eqb lg lg' && Bool.eqb cl cl'.
Definition subst1 (k : tagk) (lg cl : bool) (t : btok) : list btok :=
  match t with
  | BB k' lg' cl' => if same_tag k lg cl k' lg' cl' then map BC (angle cl (bname k lg)) else [t]
  | BC _ => [t]
  end.
Definition subst (k : tagk) (lg cl : bool) (ts : list btok) : list btok := flat_map (subst1 k lg cl) ts.

Lemma render_chars s : render (map BC s) = s.
Proof. induction s as [|c s IH]; [reflexivity|]. cbn [map render flat_map render1 app]. fold (render (map BC s)). rewrite IH. reflexivity. Qed.
Lemma render_app a b : render (a ++ b) = render a ++ render b.
Proof. unfold render. apply flat_map_app. Qed.

Lemma replace_miss k lg cl k' lg' cl' rest : same_tag k lg cl k' lg' cl' = false ->
  replace_go (brace cl (bname k lg)) (angle cl (bname k lg)) O (brace cl' (bname k' lg') ++ rest) =
  brace cl' (bname k' lg') ++ replace_go (brace cl (bname k lg)) (angle cl (bname k lg)) O rest.
Proof. intro H. destruct k, lg, cl, k', lg', cl'; try discriminate; reflexivity. Qed.

Lemma brace_is_cons cl k lg : exists p, brace cl (bname k lg) = 123 :: p.
Proof. eexists. reflexivity. Qed.

Lemma replace_tokens k lg cl ts : Forall okc ts ->
  replace (brace cl (bname k lg)) (angle cl (bname k lg)) (render ts) = render (subst k lg cl ts).
Proof.
  unfold replace. induction 1 as [|t ts Ht _ IH]; [reflexivity|].
  cbn [render flat_map subst]. fold (render ts). fold (subst k lg cl ts). rewrite render_app.
  destruct t as [c|k' lg' cl'].
  - cbn [render1 subst1 app okc] in *. destruct (brace_is_cons cl k lg) as (p & E). rewrite E.
    cbn [replace_go prefixb]. replace (123 =? c) with false by lia. cbn [andb]. rewrite <- E. rewrite IH. reflexivity.
  - cbn [render1 subst1]. destruct (same_tag k lg cl k' lg' cl') eqn:S.
    + assert (k' = k /\ lg' = lg /\ cl' = cl) as (-> & -> & ->) by (destruct k, k', lg, lg', cl, cl'; try discriminate; auto).
      destruct (brace_is_cons cl k lg) as (p & E). rewrite E. rewrite replace_hit. rewrite <- E. rewrite IH.
      rewrite render_chars. reflexivity.
    + rewrite replace_miss by auto. rewrite IH. cbn [render flat_map render1]. rewrite app_nil_r. reflexivity.
Qed.

Lemma subst_ok k lg cl ts : Forall okc ts -> Forall okc (subst k lg cl ts).
Proof.
  induction 1 as [|t ts Ht _ IH]; [constructor|]. cbn [subst flat_map]. apply Forall_app. split; [|exact IH].
  destruct t as [c|k' lg' cl']; cbn [subst1]; [repeat constructor; auto|].
  destruct (same_tag k lg cl k' lg' cl'); [|repeat constructor].
  destruct k, lg, cl; repeat constructor; cbn; lia.
Qed.

(* the twelve replacements, in the order of rewrite_text *)
Definition subst6 (lg : bool) (ts : list btok) : list btok :=
  subst KU lg true (subst KU lg false (subst KI lg true (subst KI lg false (subst KB lg true (subst KB lg false ts))))).
Definition subst12 (ts : list btok) : list btok := subst6 false (subst6 true ts).
Definition final1 (t : btok) : text := match t with BC c => [c] | BB k lg cl => angle cl (bname k lg) end.

Lemma subst_app k lg cl a b : subst k lg cl (a ++ b) = subst k lg cl a ++ subst k lg cl b.
Proof. unfold subst. apply flat_map_app. Qed.
Lemma subst6_app lg a b : subst6 lg (a ++ b) = subst6 lg a ++ subst6 lg b.
Proof. unfold subst6. rewrite !subst_app. reflexivity. Qed.
Lemma subst12_cons t ts : subst12 (t :: ts) = subst12 [t] ++ subst12 ts.
Proof. unfold subst12. change (t :: ts) with ([t] ++ ts). rewrite !subst6_app. reflexivity. Qed.
Lemma subst12_one t : render (subst12 [t]) = final1 t.
Proof. destruct t as [c|k lg cl]; [reflexivity|]. destruct k, lg, cl; reflexivity. Qed.
Lemma render_subst12 ts : render (subst12 ts) = flat_map final1 ts.
Proof.
  induction ts as [|t ts IH]; [reflexivity|]. rewrite subst12_cons, render_app, subst12_one, IH. reflexivity.
Qed.
Lemma subst6_ok lg ts : Forall okc ts -> Forall okc (subst6 lg ts).
Proof. intro H. unfold subst6. auto 10 using subst_ok. Qed.

Lemma rw_subst6 lg ts : Forall okc ts ->
  replace (brace true (bname KU lg)) (angle true (bname KU lg))
   (replace (brace false (bname KU lg)) (angle false (bname KU lg))
    (replace (brace true (bname KI lg)) (angle true (bname KI lg))
     (replace (brace false (bname KI lg)) (angle false (bname KI lg))
      (replace (brace true (bname KB lg)) (angle true (bname KB lg))
       (replace (brace false (bname KB lg)) (angle false (bname KB lg)) (render ts)))))) = render (subst6 lg ts).
Proof.
  intro H. unfold subst6. rewrite !replace_tokens by auto 8 using subst_ok. reflexivity.
Qed.

Lemma rw_tokens ts : Forall okc ts -> no_cr (render ts) -> rw (render ts) = flat_map final1 ts.
Proof.
  intros H B. unfold rw. rewrite (replace_id _ _ _ (has_sub_lfcr _ B)).
  change t_bold with (bname KB true). change t_italic with (bname KI true). change t_underline with (bname KU true).
  change t_b with (bname KB false). change t_i with (bname KI false). change t_u with (bname KU false).
  rewrite rw_subst6 by auto. rewrite rw_subst6 by auto using subst6_ok.
  apply render_subst12.
Qed.

Definition angleify_syn (sy : syn) : syn := match sy with BraceLong => AngleLong | BraceShort => AngleShort | _ => sy end.
Fixpoint angleify (n : node) : node :=
  match n with
  | NTag k sy body => NTag k (angleify_syn sy) ((fix go (l : list node) : list node := match l with [] => [] | x :: l' => angleify x :: go l' end) body)
  | NFont c q body => NFont c q ((fix go (l : list node) : list node := match l with [] => [] | x :: l' => angleify x :: go l' end) body)
  | NStray k sy => NStray k (angleify_syn sy)
  | _ => n
  end.
Definition angleify_list (l : list node) : list node := map angleify l.
Definition ctx_map (ctx : option (tagk * syn)) : option (tagk * syn) :=
  match ctx with Some (k, sy) => Some (k, angleify_syn sy) | None => None end.

(* the tokens of an opening and of a closing tag: one brace token, or the characters of the angle form *)
Definition otok (k : tagk) (sy : syn) : list btok :=
  match sy with BraceLong => [BB k true false] | BraceShort => [BB k false false] | _ => map BC (open_tag k sy) end.
Definition ctok (k : tagk) (sy : syn) : list btok :=
  match sy with BraceLong => [BB k true true] | BraceShort => [BB k false true] | _ => map BC (close_tag k sy) end.
Fixpoint btoks (n : node) : list btok :=
  match n with
  | NTag k sy body =>
      otok k sy ++ (fix go (l : list node) : list btok := match l with [] => [] | x :: l' => btoks x ++ go l' end) body ++ ctok k sy
  | NFont c q body =>
      map BC (open_font c q) ++ (fix go (l : list node) : list btok := match l with [] => [] | x :: l' => btoks x ++ go l' end) body ++ map BC close_font
  | NStray k sy => ctok k sy
  | _ => map BC (print_node n)
  end.
Definition btoks_list (l : list node) : list btok := flat_map btoks l.

Lemma angle_tag k sy body : angle_node (NTag k sy body) = negb (is_brace sy) && forallb angle_node body.
Proof. reflexivity. Qed.
Lemma angle_font c q body : angle_node (NFont c q body) = forallb angle_node body.
Proof. reflexivity. Qed.
Lemma angleify_tag k sy body : angleify (NTag k sy body) = NTag k (angleify_syn sy) (angleify_list body).
Proof. reflexivity. Qed.
Lemma angleify_font c q body : angleify (NFont c q body) = NFont c q (angleify_list body).
Proof. reflexivity. Qed.
Lemma btoks_inner body :
  (fix go (l : list node) : list btok := match l with [] => [] | x :: l' => btoks x ++ go l' end) body = btoks_list body.
Proof. induction body as [|x l IH]; [reflexivity|]. unfold btoks_list. cbn [flat_map]. fold (btoks_list l). rewrite <- IH. reflexivity. Qed.

Lemma okc_chars s : lacks 123 s -> Forall okc (map BC s).
Proof.
  unfold lacks. induction s as [|c s IH]; intro H; [constructor|].
  cbn [forallb] in H. apply andb_true_iff in H as [H1 H2]. cbn [map]. constructor; [cbn; lia|auto].
Qed.
Lemma flat_final_chars s : flat_map final1 (map BC s) = s.
Proof. induction s as [|c s IH]; [reflexivity|]. cbn [map flat_map final1 app]. rewrite IH. reflexivity. Qed.

Lemma tag_toks k sy :
  render (otok k sy) = open_tag k sy /\ render (ctok k sy) = close_tag k sy /\
  flat_map final1 (otok k sy) = open_tag k (angleify_syn sy) /\ flat_map final1 (ctok k sy) = close_tag k (angleify_syn sy).
Proof. destruct k, sy; repeat split. Qed.
Lemma tag_toks_chars k sy :
  Forall okc (otok k sy) /\ Forall okc (ctok k sy) /\ no_cr (open_tag k sy) /\ no_cr (close_tag k sy).
Proof. destruct k, sy; repeat split; repeat constructor; discriminate. Qed.

Lemma same_name_angleify k sy k' sy' : same_name k (angleify_syn sy) k' (angleify_syn sy') = same_name k sy k' sy'.
Proof. destruct sy, sy'; reflexivity. Qed.

(* the angle form: an angle payload, well formed when the payload is, with the same meaning, and in which the
   closers that close nothing still close nothing *)
Lemma angleify_angle : forall p, forallb angle_node (angleify_list p) = true.
Proof.
  apply (nodes_ind2 (fun n => angle_node (angleify n) = true)); try reflexivity.
  - intros k sy body IH. rewrite angleify_tag, angle_tag, IH. destruct sy; reflexivity.
  - intros c q body IH. rewrite angleify_font, angle_font. exact IH.
  - intros k sy. destruct sy; reflexivity.
  - intros x l Hx Hl. cbn [angleify_list map forallb]. fold (angleify_list l). rewrite Hx, Hl. reflexivity.
Qed.

Lemma angleify_wf : forall p, forallb wf_node (angleify_list p) = forallb wf_node p.
Proof.
  apply (nodes_ind2 (fun n => wf_node (angleify n) = wf_node n)); try reflexivity.
  - intros k sy body IH. rewrite angleify_tag, !wf_tag. exact IH.
  - intros c q body IH. rewrite angleify_font, !wf_font, IH. reflexivity.
  - intros x l Hx Hl. cbn [angleify_list map forallb]. fold (angleify_list l). rewrite Hx, Hl. reflexivity.
Qed.

Lemma angleify_items : forall p s, items_list s (angleify_list p) = items_list s p.
Proof.
  apply (nodes_ind2 (fun n => forall s, items s (angleify n) = items s n)
                    (fun p => forall s, items_list s (angleify_list p) = items_list s p)); try reflexivity.
  - intros k sy body IH s. rewrite angleify_tag, !items_tag. apply IH.
  - intros c q body IH s. rewrite angleify_font, !items_font. apply IH.
  - intros x l Hx Hl s. cbn [angleify_list map items_list]. fold (angleify_list l). rewrite Hx, Hl. reflexivity.
Qed.

Lemma angleify_stray : forall p ctx, forallb (stray_ok (ctx_map ctx)) (angleify_list p) = forallb (stray_ok ctx) p.
Proof.
  apply (nodes_ind2 (fun n => forall ctx, stray_ok (ctx_map ctx) (angleify n) = stray_ok ctx n)
                    (fun p => forall ctx, forallb (stray_ok (ctx_map ctx)) (angleify_list p) = forallb (stray_ok ctx) p));
    try reflexivity.
  - intros k sy body IH ctx. rewrite angleify_tag, !stray_tag. apply (IH (Some (k, sy))).
  - intros c q body IH ctx. rewrite angleify_font, !stray_font. apply (IH None).
  - intros k sy [[k' sy']|]; cbn [angleify ctx_map stray_ok]; [rewrite same_name_angleify|]; reflexivity.
  - intros x l Hx Hl ctx. cbn [angleify_list map forallb]. fold (angleify_list l). rewrite Hx, Hl. reflexivity.
Qed.

(* the tokens: the printed payload is their rendering, and after the twelve replacements their rendering is the
   printed form of the angle payload *)
Lemma print_btoks : forall p, print_nodes p = render (btoks_list p) /\ flat_map final1 (btoks_list p) = print_nodes (angleify_list p).
Proof.
  apply (nodes_ind2 (fun n => print_node n = render (btoks n) /\ flat_map final1 (btoks n) = print_node (angleify n))).
  - intro c. split; reflexivity.
  - intro r. cbn [btoks angleify]. rewrite render_chars, flat_final_chars. split; reflexivity.
  - split; reflexivity.
  - intros k sy body [P1 P3]. destruct (tag_toks k sy) as (T1 & T2 & T3 & T4).
    rewrite angleify_tag, !print_tag. cbn [btoks]. rewrite btoks_inner.
    rewrite !render_app, !flat_map_app, T1, T2, T3, T4, <- P1, P3. split; reflexivity.
  - intros c q body [P1 P3]. rewrite angleify_font, !print_font. cbn [btoks]. rewrite btoks_inner.
    rewrite !render_app, !render_chars, !flat_map_app, !flat_final_chars, <- P1, P3. split; reflexivity.
  - intros k sy. destruct (tag_toks k sy) as (_ & T2 & _ & T4). cbn [btoks angleify print_node]. rewrite T2, T4. split; reflexivity.
  - split; reflexivity.
  - intros x l [A1 A3] [B1 B3]. cbn [print_nodes btoks_list flat_map angleify_list map]. fold (btoks_list l). fold (angleify_list l).
    rewrite render_app, flat_map_app, <- A1, <- B1, A3, B3. split; reflexivity.
Qed.

Lemma btoks_chars : forall p, forallb wf_node p = true -> Forall okc (btoks_list p) /\ no_cr (print_nodes p).
Proof.
  apply (nodes_ind2
    (fun n => wf_node n = true -> Forall okc (btoks n) /\ no_cr (print_node n))
    (fun p => forallb wf_node p = true -> Forall okc (btoks_list p) /\ no_cr (print_nodes p))).
  - intros c W. cbn [wf_node] in W. unfold plain_char in W. cbn [btoks print_node map]. split.
    + repeat constructor. cbn. lia.
    + unfold no_cr. cbn [forallb]. rewrite andb_true_r. lia.
  - intros r W. cbn [wf_node] in W. destruct (cref_chars r W) as (_ & A & B & _). cbn [btoks]. auto using okc_chars.
  - intros _. split; [repeat constructor; cbn; lia|reflexivity].
  - intros k sy body IH Hw. rewrite wf_tag in Hw. destruct (IH Hw) as [P2 P7].
    destruct (tag_toks_chars k sy) as (T5 & T6 & T7 & T8).
    rewrite print_tag. cbn [btoks]. rewrite btoks_inner. split.
    + repeat (apply Forall_app; split); auto.
    + repeat (first [assumption | apply lacks_app]).
  - intros c q body IH Hw. rewrite wf_font in Hw. apply andb_true_iff in Hw as [Wc Hw]. destruct (IH Hw) as [P2 P7].
    destruct (font_open_chars c q Wc) as [Q1 Q2].
    rewrite print_font. cbn [btoks]. rewrite btoks_inner. split.
    + repeat (apply Forall_app; split); auto using okc_chars. apply okc_chars. reflexivity.
    + repeat (first [assumption | apply lacks_app]). reflexivity.
  - intros k sy _. destruct (tag_toks_chars k sy) as (_ & T6 & _ & T8). split; assumption.
  - intros _. split; [constructor|reflexivity].
  - intros x l IHx IHl Hw. cbn [forallb] in Hw. apply andb_true_iff in Hw as [Hw1 Hw2].
    destruct (IHx Hw1) as [A2 A7], (IHl Hw2) as [B2 B7]. cbn [print_nodes btoks_list flat_map]. fold (btoks_list l).
    split; [apply Forall_app|apply lacks_app]; auto.
Qed.
