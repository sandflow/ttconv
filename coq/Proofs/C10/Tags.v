(* C10, tag scoping: for b/i/u tags (<b> <bold> <B> ..., and the brace forms through Brace.v) and <font color=..> tags,
   nested and adjacent at will around plain text, character references and line breaks, with closing tags that close
   nothing anywhere, the children that _TextParser builds flatten to the payload's characters, each with exactly
   the styles of the tags that enclose it. *)
From TT Require Import Base.Prelude Base.SrtTypes Gen.SrtTables Model.SrtReader Spec.SrtCueSpec
  Proofs.C10.Lines Proofs.C10.Text Proofs.C10.Font Proofs.C10.Refs Proofs.C10.Brace.
Local Open Scope Z_scope.

Definition frames := list frame.
Fixpoint style_of (fs : frames) : sstyle :=
  match fs with [] => st0 | (_, s, _) :: fs' => inherit (style_of fs') s end.
Fixpoint view (fs : frames) (pk : list elem) : list item :=
  match fs with
  | [] => flat_list st0 pk
  | (_, s, k) :: fs' => view fs' pk ++ flat_list (style_of fs) k
  end.
(* what stays the same while children are added: the names and styles of the open spans *)
Definition shape (fs : frames) : list (text * sstyle) := map fst fs.

Lemma close_all_view fs : forall extra pk,
  flat_list st0 (close_all extra fs pk) = view fs pk ++ flat_list (style_of fs) extra.
Proof.
  induction fs as [|[[n s] k] fs IH]; intros extra pk; cbn [close_all view style_of].
  - apply flat_list_app.
  - rewrite IH. cbn [flat_list]. rewrite flat_span, app_nil_r. rewrite flat_list_app, app_assoc. reflexivity.
Qed.

Lemma view_push fs pk es :
  match push_kids fs pk es with
  | CP fs' pk' => view fs' pk' = view fs pk ++ flat_list (style_of fs) es /\ shape fs' = shape fs
  end.
Proof.
  destruct fs as [|[[n s] k] fs]; cbn [push_kids view style_of].
  - rewrite flat_list_app. auto.
  - rewrite flat_list_app, app_assoc. auto.
Qed.

Lemma style_of_shape a : forall b, shape a = shape b -> style_of a = style_of b.
Proof.
  unfold shape. induction a as [|[[n s] k] a IH]; intros [|[[n' s'] k'] b] H; try discriminate; [reflexivity|].
  cbn [map fst] in H. injection H as H1 H2 H3. subst. cbn [style_of]. rewrite (IH b) by auto. reflexivity.
Qed.

(* pending data flushed into the tree *)
Definition pview (pend : text) (fs : frames) (pk : list elem) : list item :=
  view fs pk ++ items_of_text (style_of fs) (unescape (rev pend)).

Lemma handle_flush pend fs pk ts :
  exists fs' pk',
    handle (flush pend ++ ts) (CP fs pk) = handle ts (CP fs' pk') /\
    view fs' pk' = pview pend fs pk /\ shape fs' = shape fs.
Proof.
  unfold flush, pview. destruct pend as [|c pend].
  - exists fs, pk. cbn [app rev]. change (unescape []) with (@nil Z). cbn [items_of_text flat_map]. rewrite app_nil_r. auto.
  - cbn [app handle].
    cbn [handle_data]. pose proof (view_push fs pk (data_kids true (split_lf (unescape (rev (c :: pend)))))) as V.
    destruct (push_kids fs pk _) as [fs' pk'].
    exists fs', pk'. destruct V as (V1 & V2). rewrite V1. rewrite flat_data_kids. cbn [app]. auto.
Qed.

Definition low_name (k : tagk) (sy : syn) : text :=
  match k, sy with
  | KB, (AngleShort | AngleUpper | BraceShort) => [98]
  | KI, (AngleShort | AngleUpper | BraceShort) => [105]
  | KU, (AngleShort | AngleUpper | BraceShort) => [117]
  | KB, _ => t_bold
  | KI, _ => t_italic
  | KU, _ => t_underline
  end.

Lemma tok_open k sy pend X : is_brace sy = false ->
  tok O pend (open_tag k sy ++ X) = flush pend ++ TStart (low_name k sy) [] :: tok O [] X.
Proof. intro H. destruct k, sy; try discriminate; reflexivity. Qed.

Lemma tok_close k sy pend X : is_brace sy = false ->
  tok O pend (close_tag k sy ++ X) = flush pend ++ TEnd (low_name k sy) :: tok O [] X.
Proof. intro H. destruct k, sy; try discriminate; reflexivity. Qed.

Definition tag_st (k : tagk) : sstyle :=
  match k with KB => mkSt true false false None | KI => mkSt false true false None | KU => mkSt false false true None end.

Lemma tag_style_spec k sy : is_brace sy = false ->
  tag_style (low_name k sy) [] = Ok (tag_st k).
Proof. intro H. destruct k, sy; try discriminate; reflexivity. Qed.

Lemma inherit_tag k outer :
  inherit outer (tag_st k)
  = with_tag k outer.
Proof. destruct outer as [b i u c], k; unfold inherit, with_tag; cbn [st_b st_i st_u st_c]; rewrite ?orb_true_r, ?orb_false_r; reflexivity. Qed.

(* the innermost open span is the tag that directly encloses the node (or a font span, or nothing is open) *)
Definition top_ok (ctx : option (tagk * syn)) (fs : frames) : Prop :=
  match fs with
  | [] => True
  | (nm, _, _) :: _ => match ctx with Some (k, sy) => nm = low_name k sy | None => nm = t_font end
  end.
Lemma top_ok_shape ctx a b : shape a = shape b -> top_ok ctx a -> top_ok ctx b.
Proof.
  unfold shape. destruct a as [|[[n s] k] a], b as [|[[n' s'] k'] b]; cbn [map fst]; try discriminate; auto.
  intro H. injection H as H1 _ _. subst. auto.
Qed.

(* a closer that closes nothing is ignored: its name is not the name of the innermost open span *)
Lemma stray_name k sy k' sy' : same_name k sy k' sy' = false -> text_eqb (low_name k' sy') (low_name k sy) = false.
Proof. destruct k, sy, k', sy'; try discriminate; reflexivity. Qed.
Lemma font_name k sy : text_eqb t_font (low_name k sy) = false.
Proof. destruct k, sy; reflexivity. Qed.


Lemma handle_stray ctx k sy fs pk ts : stray_ok ctx (NStray k sy) = true -> top_ok ctx fs ->
  handle (TEnd (low_name k sy) :: ts) (CP fs pk) = handle ts (CP fs pk).
Proof.
  intros S T. cbn [handle handle_end]. destruct fs as [|[[nm s] kk] fs]; [reflexivity|].
  cbn [top_ok] in T. cbn [stray_ok] in S. destruct ctx as [[k' sy']|]; subst nm.
  - apply negb_true_iff in S. rewrite stray_name by auto. reflexivity.
  - rewrite font_name. reflexivity.
Qed.

Definition node_goal (n : node) : Prop :=
  angle_node n = true -> wf_node n = true ->
  forall ctx, stray_ok ctx n = true ->
  forall pend fs pk X, closed (rev pend) -> top_ok ctx fs ->
  exists pend' fs' pk',
    handle (tok O pend (print_node n ++ X)) (CP fs pk) = handle (tok O pend' X) (CP fs' pk') /\
    closed (rev pend') /\ shape fs' = shape fs /\
    pview pend' fs' pk' = pview pend fs pk ++ items (style_of fs) n.
Definition nodes_goal (l : list node) : Prop :=
  forallb angle_node l = true -> forallb wf_node l = true ->
  forall ctx, forallb (stray_ok ctx) l = true ->
  forall pend fs pk X, closed (rev pend) -> top_ok ctx fs ->
  exists pend' fs' pk',
    handle (tok O pend (print_nodes l ++ X)) (CP fs pk) = handle (tok O pend' X) (CP fs' pk') /\
    closed (rev pend') /\ shape fs' = shape fs /\
    pview pend' fs' pk' = pview pend fs pk ++ items_list (style_of fs) l.

Lemma char_step c pend fs pk X : plain_char c = true \/ c = 10 -> closed (rev pend) ->
  tok O pend (c :: X) = tok O (c :: pend) X /\ closed (rev (c :: pend)) /\
  pview (c :: pend) fs pk = pview pend fs pk ++ item_of_char (style_of fs) c.
Proof.
  intros Hc A. assert (c <> 60 /\ c <> 38) as [N1 N2] by (unfold plain_char in Hc; lia).
  destruct (closed_snoc (rev pend) c A N2) as [A' E].
  split; [|split].
  - cbn [tok]. replace (c =? 60) with false by lia. reflexivity.
  - exact A'.
  - unfold pview. cbn [rev]. rewrite E. rewrite items_of_text_app. rewrite app_assoc. f_equal.
    unfold items_of_text. cbn [flat_map]. rewrite app_nil_r. reflexivity.
Qed.

Lemma tok_plain a : forall pend X, lacks 60 a -> tok O pend (a ++ X) = tok O (rev a ++ pend) X.
Proof.
  unfold lacks. induction a as [|c a IH]; intros pend X H; [reflexivity|].
  cbn [forallb] in H. apply andb_true_iff in H as [H1 H2]. cbn [app tok].
  replace (c =? 60) with false by lia. rewrite IH by auto. cbn [rev]. rewrite <- app_assoc. reflexivity.
Qed.

Lemma ref_step r pend fs pk X : wf_cref r = true -> closed (rev pend) ->
  tok O pend (print_cref r ++ X) = tok O (rev (print_cref r) ++ pend) X /\ closed (rev (rev (print_cref r) ++ pend)) /\
  pview (rev (print_cref r) ++ pend) fs pk = pview pend fs pk ++ [Ch (cref_char r) (style_of fs)].
Proof.
  intros W A. destruct (cref_chars r W) as (L60 & _).
  assert (E : unescape (rev pend ++ print_cref r) = unescape (rev pend) ++ [cref_char r]).
  { rewrite A. f_equal. rewrite <- (app_nil_r (print_cref r)). rewrite unescape_ref by auto. reflexivity. }
  split; [apply tok_plain; auto|]. rewrite rev_app_distr, rev_involutive. split.
  - intro x. rewrite <- app_assoc. rewrite A. rewrite unescape_ref by auto. rewrite E. rewrite <- app_assoc. reflexivity.
  - unfold pview. rewrite rev_app_distr, rev_involutive. rewrite E. rewrite items_of_text_app. rewrite app_assoc. f_equal.
    unfold items_of_text. cbn [flat_map]. rewrite app_nil_r. unfold item_of_char.
    pose proof (cref_char_not_lf r W). replace (cref_char r =? 10) with false by lia. reflexivity.
Qed.

Lemma pview_nil fs pk : pview [] fs pk = view fs pk.
Proof. unfold pview. cbn [rev]. change (unescape []) with (@nil Z). cbn [items_of_text flat_map]. apply app_nil_r. Qed.

(* An element: a start tag `o` read as TStart nm attrs, which opens a span of style stk; a body `bt` that, read inside
   that span, adds the items `its` of the span's inherited style; an end tag `cl` read as TEnd nm, which closes the span
   because nothing else is open above it (the body leaves the open spans as they were). *)
Lemma span_step nm attrs stk o cl bt (its : sstyle -> list item) :
  (forall pend X, tok O pend (o ++ X) = flush pend ++ TStart nm attrs :: tok O [] X) ->
  (forall pend X, tok O pend (cl ++ X) = flush pend ++ TEnd nm :: tok O [] X) ->
  tag_style nm attrs = Ok stk ->
  (forall fs pk X, exists pend' fs' pk',
     handle (tok O [] (bt ++ X)) (CP ((nm, stk, []) :: fs) pk) = handle (tok O pend' X) (CP fs' pk') /\
     shape fs' = shape ((nm, stk, []) :: fs) /\
     pview pend' fs' pk' = view ((nm, stk, []) :: fs) pk ++ its (inherit (style_of fs) stk)) ->
  forall pend fs pk X, exists fs' pk',
    handle (tok O pend (o ++ bt ++ cl ++ X)) (CP fs pk) = handle (tok O [] X) (CP fs' pk') /\
    shape fs' = shape fs /\
    view fs' pk' = pview pend fs pk ++ its (inherit (style_of fs) stk).
Proof.
  intros To Tc Ts Body pend fs pk X. rewrite To.
  destruct (handle_flush pend fs pk (TStart nm attrs :: tok O [] (bt ++ cl ++ X))) as (fs1 & pk1 & E1 & V1 & S1).
  rewrite E1. cbn [handle handle_start]. rewrite Ts.
  destruct (Body fs1 pk1 (cl ++ X)) as (pend2 & fs2 & pk2 & E2 & S2 & V2).
  rewrite E2, Tc.
  destruct (handle_flush pend2 fs2 pk2 (TEnd nm :: tok O [] X)) as (fs3 & pk3 & E3 & V3 & S3).
  rewrite E3. cbn [handle].
  rewrite S2 in S3. unfold shape in S3. cbn [map fst] in S3.
  destruct fs3 as [|[[n3 s3] k3] fs3']; [discriminate|]. cbn [map fst] in S3. injection S3 as S3n S3a S3b. subst s3 n3.
  cbn [handle_end]. rewrite text_eqb_refl.
  pose proof (view_push fs3' pk3 [ESpan stk k3]) as VP.
  destruct (push_kids fs3' pk3 [ESpan stk k3]) as [fs4 pk4]. destruct VP as (V4 & S4).
  exists fs4, pk4. split; [reflexivity|]. split; [unfold shape in *; congruence|].
  rewrite V4. cbn [flat_list]. rewrite flat_span, app_nil_r.
  change (view fs3' pk3 ++ flat_list (inherit (style_of fs3') stk) k3) with (view ((nm, stk, k3) :: fs3') pk3).
  transitivity (pview pend2 fs2 pk2); [exact V3|]. rewrite V2. cbn [view flat_list]. rewrite app_nil_r, V1, (style_of_shape fs1 fs) by auto. reflexivity.
Qed.

Lemma forest_lemma : forall l, nodes_goal l.
Proof.
  apply (nodes_ind2 node_goal nodes_goal); unfold node_goal, nodes_goal.
  - (* NChar *) intros c _ W ctx _ pend fs pk X A _. cbn [wf_node] in W.
    destruct (char_step c pend fs pk X (or_introl W) A) as (T & L & V).
    exists (c :: pend), fs, pk. cbn [print_node app]. rewrite T. repeat split; auto.
    rewrite V. cbn [items]. unfold item_of_char. replace (c =? 10) with false by (unfold plain_char in W; lia). reflexivity.
  - (* NRef *) intros r _ W ctx _ pend fs pk X A _. cbn [wf_node] in W.
    destruct (ref_step r pend fs pk X W A) as (T & L & V).
    exists (rev (print_cref r) ++ pend), fs, pk. cbn [print_node]. rewrite T. repeat split; auto.
  - (* NBreak *) intros _ _ ctx _ pend fs pk X A _.
    destruct (char_step 10 pend fs pk X (or_intror eq_refl) A) as (T & L & V).
    exists (10 :: pend), fs, pk. cbn [print_node app]. rewrite T. repeat split; auto.
  - (* NTag *) intros k sy body IH Ha Hw ctx Hs0 pend fs pk X A T0.
    rewrite angle_tag in Ha. apply andb_true_iff in Ha as [Hs Hb]. apply negb_true_iff in Hs.
    rewrite wf_tag in Hw. rewrite stray_tag in Hs0. rewrite print_tag. repeat rewrite <- app_assoc.
    destruct (span_step _ [] _ _ _ (print_nodes body) (fun s => items_list s body)
                (fun p Y => tok_open k sy p Y Hs) (fun p Y => tok_close k sy p Y Hs) (tag_style_spec k sy Hs)) with (pend := pend) (fs := fs) (pk := pk) (X := X)
      as (fs' & pk' & E & S & V).
    { intros fs1 pk1 Y. destruct (IH Hb Hw (Some (k, sy)) Hs0 [] ((low_name k sy, tag_st k, []) :: fs1) pk1 Y closed_nil eq_refl)
        as (p2 & f2 & k2 & E2 & _ & S2 & V2). exists p2, f2, k2. rewrite pview_nil in V2. split; [exact E2|split; [exact S2|exact V2]]. }
    exists [], fs', pk'. rewrite pview_nil, V, items_tag, inherit_tag. auto using closed_nil.
  - (* NFont *) intros c q body IH Ha Hw ctx Hs0 pend fs pk X A T0.
    rewrite angle_font in Ha. rewrite wf_font in Hw. apply andb_true_iff in Hw as [Wc Hw]. rewrite stray_font in Hs0.
    rewrite print_font. repeat rewrite <- app_assoc.
    destruct (span_step _ _ _ _ _ (print_nodes body) (fun s => items_list s body)
                (fun p Y => tok_font c q p Y Wc) tok_close_font (font_style_spec c Wc)) with (pend := pend) (fs := fs) (pk := pk) (X := X)
      as (fs' & pk' & E & S & V).
    { intros fs1 pk1 Y. destruct (IH Ha Hw None Hs0 [] ((t_font, mkSt false false false (Some (colspec_rgba c)), []) :: fs1) pk1 Y closed_nil eq_refl)
        as (p2 & f2 & k2 & E2 & _ & S2 & V2). exists p2, f2, k2. rewrite pview_nil in V2. split; [exact E2|split; [exact S2|exact V2]]. }
    exists [], fs', pk'. rewrite pview_nil, V, items_font, inherit_color. auto using closed_nil.
  - (* NStray: flushed data, then an end tag that is ignored *)
    intros k sy Ha _ ctx Hs0 pend fs pk X A T0. cbn [angle_node] in Ha. apply negb_true_iff in Ha.
    cbn [print_node]. rewrite tok_close by auto.
    destruct (handle_flush pend fs pk (TEnd (low_name k sy) :: tok O [] X)) as (fs1 & pk1 & E1 & V1 & S1).
    rewrite E1. rewrite (handle_stray ctx) by (auto; apply (top_ok_shape ctx fs fs1); auto).
    exists [], fs1, pk1. split; [reflexivity|]. split; [exact closed_nil|]. split; [auto|].
    unfold pview at 1. cbn [rev]. change (unescape []) with (@nil Z). cbn [items_of_text flat_map items]. rewrite !app_nil_r. exact V1.
  - (* nil *) intros _ _ ctx _ pend fs pk X A _. exists pend, fs, pk. cbn [print_nodes app items_list]. rewrite app_nil_r. auto.
  - (* cons *) intros x l IHx IHl Ha Hw ctx Hs0 pend fs pk X A T0. cbn [forallb] in *.
    apply andb_true_iff in Ha as [Ha1 Ha2]. apply andb_true_iff in Hw as [Hw1 Hw2]. apply andb_true_iff in Hs0 as [Hs1 Hs2].
    cbn [print_nodes]. rewrite <- app_assoc.
    destruct (IHx Ha1 Hw1 ctx Hs1 pend fs pk (print_nodes l ++ X) A T0) as (p1 & f1 & k1 & E1 & A1 & S1 & V1).
    destruct (IHl Ha2 Hw2 ctx Hs2 p1 f1 k1 X A1 (top_ok_shape ctx fs f1 (eq_sym S1) T0)) as (p2 & f2 & k2 & E2 & A2 & S2 & V2).
    exists p2, f2, k2. rewrite E1, E2. repeat split; auto; try congruence.
    rewrite V2, V1. cbn [items_list]. rewrite (style_of_shape f1 fs) by auto. rewrite app_assoc. reflexivity.
Qed.

Lemma angle_parse p : forallb angle_node p = true -> forallb wf_node p = true -> forallb (stray_ok None) p = true ->
  exists kids, parse_text (print_nodes p) = Ok kids /\ flat_list st0 kids = items_list st0 p.
Proof.
  intros Ha Hw Hs. unfold parse_text, tokenize.
  destruct (forest_lemma p Ha Hw None Hs [] [] [] [] closed_nil I) as (pend & fs & pk & E & L & S & V).
  rewrite app_nil_r in E. rewrite E. cbn [tok].
  destruct (handle_flush pend fs pk []) as (fs2 & pk2 & E2 & V2 & S2).
  rewrite app_nil_r in E2. rewrite E2. cbn [handle].
  rewrite S in S2. unfold shape in S2. cbn [map] in S2. destruct fs2; [|discriminate].
  eexists. split; [reflexivity|].
  cbn [close_all]. rewrite app_nil_r. change (flat_list st0 pk2) with (view [] pk2).
  rewrite V2, V. unfold pview. cbn [view flat_list rev]. change (unescape []) with (@nil Z). cbn [items_of_text flat_map style_of app]. reflexivity.
Qed.

(* every tag syntax of the grammar: the replace chain turns the payload into its angle form, which has the same
   items and in which the closers that close nothing still close nothing *)
Theorem payload_good_all p :
  forallb wf_node p = true -> forallb (stray_ok None) p = true ->
  payload_good p /\ no_cr (print_nodes p).
Proof.
  intros Hw Hs. destruct (print_btoks p) as [P1 P3], (btoks_chars p Hw) as [P2 P7]. split; auto.
  unfold payload_good. rewrite P1. rewrite rw_tokens by (auto; rewrite <- P1; auto). rewrite P3.
  destruct (angle_parse (angleify_list p)) as (kids & K1 & K2).
  { apply angleify_angle. } { rewrite angleify_wf. exact Hw. } { rewrite <- Hs. apply (angleify_stray p None). }
  exists kids. split; auto. rewrite K2. apply angleify_items.
Qed.

Theorem angle_payload_good p :
  forallb angle_node p = true -> forallb wf_node p = true -> forallb (stray_ok None) p = true ->
  payload_good p /\ no_cr (print_nodes p).
Proof. intros _. apply payload_good_all. Qed.

Theorem tags_scope p :
  forallb wf_node p = true -> forallb (stray_ok None) p = true ->
  forallb (fun l => negb (all_ws l)) (payload_lines p) = true ->
  exists kids, parse_text (rewrite_text (print_nodes p)) = Ok kids /\ flat_list st0 kids = items_list st0 p.
Proof.
  intros Hw Hs Hl. destruct (payload_good_all p Hw Hs) as [G Cr].
  rewrite rewrite_text_rw. rewrite payload_lines_split in Hl.
  pose proof (strip_lines (print_nodes p) false Cr Hl) as S. rewrite app_nil_r in S. rewrite S. exact G.
Qed.
