(* C10, lines: what readlines returns for the printed form of a file - LF or CR LF terminators, through a
   text-mode stream (universal newlines) or not, the last line with or without terminator - as one relation
   `reads` between the lines of the abstract file and the lines as read. *)
From TT Require Import Base.Prelude Base.SrtTypes Gen.SrtTables Model.SrtReader Spec.SrtCueSpec.
Local Open Scope Z_scope.

Definition lacks (x : Z) (s : text) : Prop := forallb (fun c => negb (c =? x)) s = true.
Definition no_lf (l : text) : Prop := forallb (fun c => negb (c =? 10)) l = true.
Definition no_cr (l : text) : Prop := forallb (fun c => negb (c =? 13)) l = true.

Lemma lacks_cons x c s : lacks x (c :: s) <-> c <> x /\ lacks x s.
Proof. unfold lacks. cbn [forallb]. rewrite andb_true_iff, negb_true_iff, Z.eqb_neq. tauto. Qed.
Lemma lacks_app x a b : lacks x a -> lacks x b -> lacks x (a ++ b).
Proof. unfold lacks. intros. rewrite forallb_app. apply andb_true_iff; auto. Qed.
Lemma lacks_in x s : lacks x s <-> forall c, In c s -> c <> x.
Proof.
  unfold lacks. rewrite forallb_forall. split; intros H c I; specialize (H c I).
  - apply negb_true_iff, Z.eqb_neq in H. exact H.
  - apply negb_true_iff, Z.eqb_neq. exact H.
Qed.
Lemma lacks_rev x s : lacks x s -> lacks x (rev s).
Proof. rewrite !lacks_in. intros H c I. apply H, in_rev, I. Qed.
Lemma lacks_class (P : Z -> bool) x s : P x = false -> forallb P s = true -> lacks x s.
Proof. intros N H. apply lacks_in. intros c I E. subst c. rewrite forallb_forall in H. rewrite (H x I) in N. discriminate. Qed.

(* the white space of the reader (`str.isspace`, \s) is a table: a class holds all of it, or none of it, by the table *)
Lemma space_class (P : Z -> bool) : forallb P py_space = true -> forall c, is_space c = true -> P c = true.
Proof.
  intros A c H. apply existsb_exists in H as (x & I & E). apply Z.eqb_eq in E. subst x.
  rewrite forallb_forall in A. auto.
Qed.
Lemma nonspace_class (P : Z -> bool) : forallb (fun x => negb (P x)) py_space = true -> forall c, P c = true -> is_space c = false.
Proof.
  intros A c H. destruct (is_space c) eqn:E; [|reflexivity].
  apply (space_class _ A) in E. rewrite H in E. discriminate.
Qed.

Lemma no_eol_split l : no_eol l = true <-> no_lf l /\ no_cr l.
Proof.
  change (no_lf l) with (lacks 10 l). change (no_cr l) with (lacks 13 l).
  rewrite !lacks_in. unfold no_eol. rewrite forallb_forall. split.
  - intro H. split; intros c I; specialize (H c I); lia.
  - intros [A B] c I. specialize (A c I). specialize (B c I). lia.
Qed.
Lemma no_eol_join l : no_lf l -> no_cr l -> no_eol l = true.
Proof. intros. apply no_eol_split. auto. Qed.
Lemma no_eol_lines ls : Forall (fun l => no_eol l = true) ls -> Forall no_lf ls /\ Forall no_cr ls.
Proof. intro H. split; apply (Forall_impl _ (fun l E => proj1 (no_eol_split l) E)) in H; revert H; apply Forall_impl; tauto. Qed.

Definition eol_ok (e : text) : Prop := e = [10] \/ e = [13; 10].
Lemma eol_ok_eol crlf : eol_ok (eol crlf).
Proof. destruct crlf; [right|left]; reflexivity. Qed.

Lemma readlines_line l rest : no_lf l -> readlines (l ++ 10 :: rest) = (l ++ [10]) :: readlines rest.
Proof.
  induction l as [|c l IH]; intro H; [reflexivity|]. apply (lacks_cons 10) in H as [H1 H2].
  cbn [app readlines]. apply Z.eqb_neq in H1. rewrite H1, IH by auto. reflexivity.
Qed.
Lemma readlines_line_e e l rest : eol_ok e -> no_lf l -> readlines (l ++ e ++ rest) = (l ++ e) :: readlines rest.
Proof.
  intros [E|E] H; subst e.
  - apply readlines_line; auto.
  - change (l ++ [13; 10] ++ rest) with (l ++ [13] ++ 10 :: rest). rewrite app_assoc.
    rewrite readlines_line by (apply lacks_app; [exact H|reflexivity]). rewrite <- app_assoc. reflexivity.
Qed.
Lemma readlines_nolf l : no_lf l -> l <> [] -> readlines l = [l].
Proof.
  induction l as [|c l IH]; intros H N; [congruence|]. apply (lacks_cons 10) in H as [H1 H2].
  cbn [readlines]. apply Z.eqb_neq in H1. rewrite H1. destruct l as [|d l]; [reflexivity|].
  rewrite IH by (auto; discriminate). reflexivity.
Qed.

(* The lines of an abstract file as they are read: each with a terminator of its own - LF, CR LF, or none, as the
   last line of a file may be -, and an empty last line without terminator is no line at all. *)
Definition term_ok (t : text) : Prop := t = [] \/ eol_ok t.
Inductive reads : list text -> list text -> Prop :=
| reads_nil : reads [] []
| reads_end : reads [[]] []
| reads_cons l t ls rs : term_ok t -> l ++ t <> [] -> reads ls rs -> reads (l :: ls) ((l ++ t) :: rs).

Lemma readlines_join e final ls : eol_ok e -> Forall no_lf ls -> reads ls (readlines (join_lines e final ls)).
Proof.
  intros Ee H. assert (Ne : forall l, l ++ e <> []) by (intros [|? ?]; destruct Ee; subst e; discriminate).
  induction H as [|l ls Hl _ IH]; [constructor|]. destruct ls as [|l' ls].
  - cbn [join_lines]. destruct final.
    + rewrite <- (app_nil_r (l ++ e)), <- app_assoc, readlines_line_e by auto. constructor; [right; exact Ee|apply Ne|constructor].
    + destruct l as [|c l]; [constructor|]. rewrite readlines_nolf by (auto; discriminate).
      rewrite <- (app_nil_r (c :: l)) at 2. constructor; [left; reflexivity|discriminate|constructor].
  - change (join_lines e final (l :: l' :: ls)) with (l ++ e ++ join_lines e final (l' :: ls)).
    rewrite readlines_line_e by auto. constructor; [right; exact Ee|apply Ne|exact IH].
Qed.

Lemma universal_app l rest : no_cr l -> universal (l ++ rest) = l ++ universal rest.
Proof.
  induction l as [|c l IH]; intro H; [reflexivity|]. apply (lacks_cons 13) in H as [H1 H2].
  cbn [app universal]. apply Z.eqb_neq in H1. rewrite H1, IH by auto. reflexivity.
Qed.
Lemma universal_join e final ls : eol_ok e -> Forall no_cr ls ->
  universal (join_lines e final ls) = join_lines [10] final ls.
Proof.
  intros Ee H. assert (U : forall rest, universal (e ++ rest) = 10 :: universal rest) by (destruct Ee; subst e; reflexivity).
  induction H as [|l ls Hl _ IH]; [reflexivity|]. destruct ls as [|l' ls].
  - cbn [join_lines]. destruct final.
    + rewrite <- (app_nil_r e), universal_app, U by auto. reflexivity.
    + rewrite <- (app_nil_r l), universal_app by auto. reflexivity.
  - change (join_lines e final (l :: l' :: ls)) with (l ++ e ++ join_lines e final (l' :: ls)).
    rewrite universal_app, U, IH by auto. reflexivity.
Qed.

(* line.rstrip("\r\n"): a line as read loses exactly its terminator *)
Lemma lstrip_keep a s : is_crlf a = false -> lstrip_crlf (a :: s) = a :: s.
Proof. intro H. cbn [lstrip_crlf]. rewrite H. reflexivity. Qed.
Lemma lstrip_clean s : no_lf s -> no_cr s -> lstrip_crlf s = s.
Proof.
  destruct s as [|c s]; [reflexivity|]. intros H1 H2.
  apply (lacks_cons 10) in H1 as [A _]. apply (lacks_cons 13) in H2 as [B _]. apply lstrip_keep. unfold is_crlf. lia.
Qed.
Lemma rstrip_line l t : no_lf l -> no_cr l -> term_ok t -> rstrip_crlf (l ++ t) = l.
Proof.
  intros H1 H2 E. unfold rstrip_crlf. rewrite rev_app_distr.
  assert (R : lstrip_crlf (rev l) = rev l) by (apply lstrip_clean; apply lacks_rev; assumption).
  destruct E as [E|[E|E]]; subst t; cbn [rev app lstrip_crlf is_crlf Z.eqb orb]; rewrite R; apply rev_involutive.
Qed.

Definition with_eol (e : text) (ls : list text) : list text := map (fun l => l ++ e) ls.
Lemma join_final e ls : join_lines e true ls = concat (with_eol e ls).
Proof.
  induction ls as [|l ls IH]; [reflexivity|].
  cbn [with_eol map concat]. fold (with_eol e ls). rewrite <- IH. destruct ls as [|l' ls]; cbn [join_lines].
  - rewrite app_nil_r. reflexivity.
  - rewrite app_assoc. reflexivity.
Qed.
