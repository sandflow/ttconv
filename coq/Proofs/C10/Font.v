(* C10, <font color=..>: the tokenizer stand-in on the printed tag, and parse_color on the printed colour. *)
From TT Require Import Base.Prelude Base.SrtTypes Gen.SrtTables Model.SrtReader Spec.SrtCueSpec
  Proofs.C10.Lines Proofs.C10.Text Proofs.C10.Refs.
Local Open Scope Z_scope.

(* letters, digits, '#': nothing that ends an attribute value *)
Definition value_char (c : Z) : bool :=
  (c =? 35) || ((48 <=? c) && (c <=? 57)) || ((65 <=? c) && (c <=? 90)) || ((97 <=? c) && (c <=? 122)).

Lemma value_char_facts c : value_char c = true ->
  is_space c = false /\ c <> 62 /\ c <> 34 /\ c <> 39 /\ c <> 38 /\ c <> 123 /\ c <> 13 /\ c <> 10 /\ c < 128.
Proof.
  intro H. split.
  - revert H. apply nonspace_class. reflexivity.
  - assert (R : c = 35 \/ 48 <= c <= 57 \/ 65 <= c <= 90 \/ 97 <= c <= 122) by (unfold value_char in H; lia).
    clear H. repeat split; lia.
Qed.

Lemma hex_value_char c : is_hex c = true -> value_char c = true.
Proof. unfold is_hex, is_digit, value_char. lia. Qed.

Lemma hex2_spec u n : 0 <= n <= 255 ->
  exists a b, hex2 u n = [a; b] /\ value_char a = true /\ value_char b = true /\ is_hex a = true /\ is_hex b = true /\
              int_of_hex [a; b] = n.
Proof.
  intro H. unfold hex2. do 2 eexists. split; [reflexivity|].
  destruct (hexdig_spec u (n / 16)) as (A2 & A3); [lia|].
  destruct (hexdig_spec u (n mod 16)) as (B2 & B3); [lia|].
  repeat split; auto using hex_value_char. unfold int_of_hex. cbn [fold_left]. rewrite A3, B3. lia.
Qed.

Lemma upcase_value c : value_char c = true -> value_char (upcase c) = true /\ lower_ascii (upcase c) = lower_ascii c.
Proof.
  intro H. unfold upcase. destruct ((97 <=? c) && (c <=? 122)) eqn:E; [|auto].
  split.
  - unfold value_char. lia.
  - unfold lower_ascii. replace ((65 <=? c - 32) && (c - 32 <=? 90)) with true by lia.
    replace ((65 <=? c) && (c <=? 90)) with false by lia. lia.
Qed.

Lemma upcase_text n : forallb value_char n = true ->
  forallb value_char (map upcase n) = true /\ lower (map upcase n) = lower n.
Proof.
  induction n as [|c n IH]; [auto|]. cbn [forallb map lower]. intro H. apply andb_true_iff in H as [H1 H2].
  destruct (upcase_value c H1) as [A B], (IH H2) as [C D]. unfold lower in D. rewrite A, B, C, D. auto.
Qed.

(* the named colours of S are found in the code's table with the value S gives them; written in upper case they are
   the same keys *)
Definition named_ok (nv : text * rgba) : bool :=
  negb (match fst nv with [] => true | _ => false end) && forallb value_char (fst nv) &&
  match assoc (lower (fst nv)) named_colors with Some c => rgba_eqb c (snd nv) | None => false end.
Lemma named_all_ok : forallb named_ok spec_colors = true.
Proof. vm_compute. reflexivity. Qed.

Lemma rgba_eqb_eq a b : rgba_eqb a b = true -> a = b.
Proof.
  destruct a as [[[r1 g1] b1] a1], b as [[[r2 g2] b2] a2]. unfold rgba_eqb. intro H.
  repeat (apply andb_true_iff in H as [H ?]). repeat f_equal; lia.
Qed.

Lemma named_spec i u : (i < length spec_colors)%nat ->
  print_colspec (CNamed i u) <> [] /\ forallb value_char (print_colspec (CNamed i u)) = true /\
  assoc (lower (print_colspec (CNamed i u))) named_colors = Some (colspec_rgba (CNamed i u)).
Proof.
  intro L. cbn [print_colspec colspec_rgba].
  pose proof named_all_ok as A. rewrite forallb_forall in A.
  generalize (A _ (nth_In spec_colors ([], (0, 0, 0, 0)) L)). clear A.
  destruct (nth i spec_colors ([], (0, 0, 0, 0))) as [n v]. unfold named_ok. cbn [fst snd].
  destruct (assoc (lower n) named_colors) as [c|] eqn:E; [|cbv iota; rewrite andb_false_r; discriminate].
  intro A. apply andb_true_iff in A as [A A3]. apply andb_true_iff in A as [A1 A2]. apply rgba_eqb_eq in A3. subst c.
  destruct (upcase_text n A2) as [U1 U2].
  destruct u; [rewrite U1, U2, E|rewrite A2, E]; (split; [destruct n; [discriminate A1|discriminate]|auto]).
Qed.

Lemma hex2_chars u n : 0 <= n <= 255 -> forallb value_char (hex2 u n) = true.
Proof. intro H. destruct (hex2_spec u n H) as (a & b & E & A & B & _). rewrite E. cbn [forallb]. rewrite A, B. reflexivity. Qed.

Lemma colspec_chars c : wf_colspec c = true -> forallb value_char (print_colspec c) = true /\ print_colspec c <> [].
Proof.
  destruct c as [r g b u|r g b a u|i u]; cbn [wf_colspec]; intro W.
  - unfold byte_ok in W. cbn [print_colspec forallb]. rewrite !forallb_app, !hex2_chars by lia. split; [reflexivity|discriminate].
  - unfold byte_ok in W. cbn [print_colspec forallb]. rewrite !forallb_app, !hex2_chars by lia. split; [reflexivity|discriminate].
  - apply Nat.ltb_lt in W. destruct (named_spec i u W) as (A & B & _). auto.
Qed.


Lemma lower_hash_hex6 (a b c d e f : Z) : exists x, lower [35; a; b; c; d; e; f] = 35 :: x.
Proof. eexists. reflexivity. Qed.

Lemma ascii_of_value v : forallb value_char v = true -> forallb (fun c => c <? 128) v = true.
Proof.
  intro H. rewrite forallb_forall in *. intros x I. specialize (H x I). apply value_char_facts in H. lia.
Qed.

Lemma lower_key_ascii v : forallb (fun c => c <? 128) v = true -> lower_key v = Some (lower v).
Proof.
  induction v as [|c v IH]; intro H; [reflexivity|].
  cbn [forallb] in H. apply andb_true_iff in H as [H1 H2]. cbn [lower_key]. rewrite H1, IH by auto. reflexivity.
Qed.

(* #rrggbb and #rrggbbaa: three components, and a fourth one or none *)
Lemma hex_color_print u r g b a (eight : bool) :
  0 <= r <= 255 -> 0 <= g <= 255 -> 0 <= b <= 255 -> 0 <= a <= 255 ->
  hex_color (35 :: hex2 u r ++ hex2 u g ++ hex2 u b ++ (if eight then hex2 u a else [])) =
  Some (r, g, b, if eight then a else 255).
Proof.
  intros R G B A.
  destruct (hex2_spec u r R) as (a1 & a2 & E1 & _ & _ & X1 & X2 & I1).
  destruct (hex2_spec u g G) as (b1 & b2 & E2 & _ & _ & Y1 & Y2 & I2).
  destruct (hex2_spec u b B) as (c1 & c2 & E3 & _ & _ & Z1 & Z2 & I3).
  destruct (hex2_spec u a A) as (d1 & d2 & E4 & _ & _ & W1 & W2 & I4).
  rewrite E1, E2, E3, E4.
  destruct eight; cbn [app hex_color]; rewrite X1, X2, Y1, Y2, Z1, Z2, ?W1, ?W2; cbn [andb]; rewrite I1, I2, I3, ?I4; reflexivity.
Qed.

Lemma parse_color_hash x c : forallb value_char (35 :: x) = true -> hex_color (35 :: x) = Some c ->
  parse_color (35 :: x) = Ok c.
Proof. intros V H. unfold parse_color. rewrite (lower_key_ascii _ (ascii_of_value _ V)), H. reflexivity. Qed.

Theorem parse_color_spec c : wf_colspec c = true -> parse_color (print_colspec c) = Ok (colspec_rgba c).
Proof.
  intro W. pose proof (colspec_chars c W) as [V _].
  destruct c as [r g b u|r g b a u|i u]; cbn [wf_colspec print_colspec colspec_rgba] in *.
  - unfold byte_ok in W. apply parse_color_hash; [exact V|]. apply (hex_color_print u r g b 255 false); lia.
  - unfold byte_ok in W. apply parse_color_hash; [exact V|]. apply (hex_color_print u r g b a true); lia.
  - apply Nat.ltb_lt in W. destruct (named_spec i u W) as (_ & _ & A). cbn [print_colspec colspec_rgba] in A.
    unfold parse_color. rewrite (lower_key_ascii _ (ascii_of_value _ V)), A. reflexivity.
Qed.

Lemma attrs_quoted q name v : forall val acc n rest,
  forallb value_char v = true -> (q = 34 \/ q = 39) ->
  attrs_go (SQ q name val) acc n (v ++ q :: rest) =
  attrs_go SA (mkattr name (Some (rev v ++ val)) :: acc) (S (length v + n)) rest.
Proof.
  induction v as [|c v IH]; intros val acc n rest H Q.
  - cbn [app attrs_go]. rewrite Z.eqb_refl. reflexivity.
  - cbn [forallb] in H. apply andb_true_iff in H as [H1 H2]. apply value_char_facts in H1.
    cbn [app attrs_go]. replace (c =? q) with false by lia. rewrite IH by auto.
    cbn [rev length]. rewrite <- app_assoc. cbn [app]. do 2 f_equal. lia.
Qed.

Lemma attrs_bare name v : forall val acc n rest,
  forallb value_char v = true ->
  attrs_go (SB name val) acc n (v ++ 62 :: rest) =
  Some (rev (mkattr name (Some (rev v ++ val)) :: acc), false, S (length v + n)).
Proof.
  induction v as [|c v IH]; intros val acc n rest H.
  - cbn [app attrs_go]. change (is_space 62) with false. cbn iota. reflexivity.
  - cbn [forallb] in H. apply andb_true_iff in H as [H1 H2]. apply value_char_facts in H1 as (S & G & _).
    cbn [app attrs_go]. rewrite S. replace (c =? 62) with false by lia. rewrite IH by auto.
    cbn [rev length]. rewrite <- app_assoc. cbn [app]. do 3 f_equal. lia.
Qed.

Lemma tok_skip a : forall p X, tok (length a) p (a ++ X) = tok O p X.
Proof. induction a as [|c a IH]; intros p X; [reflexivity|]. cbn [length app tok]. apply IH. Qed.

Lemma unescape_value v : forallb value_char v = true -> unescape v = v.
Proof.
  intro H. apply unescape_id. unfold lacks. rewrite forallb_forall in *. intros x I. specialize (H x I).
  apply value_char_facts in H. lia.
Qed.

Lemma parse_markup_font_prefix rest :
  parse_markup (60 :: 102 :: 111 :: 110 :: 116 :: 32 :: 99 :: 111 :: 108 :: 111 :: 114 :: 61 :: rest) =
  match attrs_go (SEq [114;111;108;111;99] false) [] 7%nat rest with
  | Some (attrs, selfclosing, n) => MToks (TStart t_font attrs :: (if selfclosing then [TEnd t_font] else [])) (1 + 4 + n)
  | None => MBad
  end.
Proof. reflexivity. Qed.

Lemma attrs_color_quoted qc v X n : qc = 34 \/ qc = 39 -> forallb value_char v = true ->
  attrs_go (SEq [114;111;108;111;99] false) [] n (qc :: v ++ qc :: 62 :: X) =
  Some ([(t_color, Some v)], false, S (S (length v + S n))).
Proof.
  intros Q V. cbn [attrs_go].
  replace (qc =? 61) with false by lia. replace (is_space qc) with false by (destruct Q; subst qc; reflexivity).
  replace ((qc =? 39) || (qc =? 34)) with true by lia.
  rewrite attrs_quoted by auto. cbn [attrs_go]. change (is_space 62) with false. cbn iota.
  rewrite Z.eqb_refl. unfold mkattr. rewrite app_nil_r, rev_involutive, unescape_value by auto. reflexivity.
Qed.

Lemma parse_markup_font c q X : wf_colspec c = true ->
  parse_markup (open_font c q ++ X) = MToks [TStart t_font [(t_color, Some (print_colspec c))]] (length (open_font c q)).
Proof.
  intro W. pose proof (colspec_chars c W) as [V NE]. unfold open_font.
  remember (print_colspec c) as v eqn:EV0. clear EV0.
  repeat rewrite <- app_assoc. cbn [app]. rewrite parse_markup_font_prefix.
  destruct q; cbn [quote_chars app].
  - rewrite attrs_color_quoted by auto. f_equal. cbn [length]. rewrite ?app_length. cbn [length]. lia.
  - rewrite attrs_color_quoted by auto. f_equal. cbn [length]. rewrite ?app_length. cbn [length]. lia.
  - (* bare: the value is not empty *)
    destruct v as [|c0 v0] eqn:EV; [congruence|].
    cbn [forallb] in V. apply andb_true_iff in V as [V1 V2]. pose proof (value_char_facts _ V1) as (S0 & G0 & Q1 & Q2 & _).
    cbn [app attrs_go]. unfold value_char in V1.
    replace (c0 =? 61) with false by lia. rewrite S0. replace ((c0 =? 39) || (c0 =? 34)) with false by lia.
    replace (c0 =? 62) with false by lia.
    rewrite attrs_bare by auto.
    unfold mkattr. cbn [rev app]. rewrite rev_app_distr, rev_involutive. cbn [rev app].
    rewrite unescape_value by (cbn [forallb]; apply andb_true_iff; split; auto).
    cbn [lower map]. f_equal; try reflexivity; cbn [length]; rewrite ?app_length; cbn [length]; lia.
Qed.

Lemma tok_font c q pend X : wf_colspec c = true ->
  tok O pend (open_font c q ++ X) = flush pend ++ TStart t_font [(t_color, Some (print_colspec c))] :: tok O [] X.
Proof.
  intro W. pose proof (parse_markup_font c q X W) as P.
  remember (open_font c q) as o eqn:EO. destruct o as [|h o]; [unfold open_font in EO; discriminate|].
  assert (h = 60) by (unfold open_font in EO; cbn in EO; congruence). subst h.
  cbn [app tok]. change (60 =? 60) with true. cbn iota.
  change (60 :: o ++ X) with ((60 :: o) ++ X). rewrite P. cbn [length]. rewrite Nat.sub_succ, Nat.sub_0_r.
  rewrite tok_skip. reflexivity.
Qed.

Lemma tok_close_font pend X : tok O pend (close_font ++ X) = flush pend ++ TEnd t_font :: tok O [] X.
Proof. reflexivity. Qed.

Lemma font_style_spec c : wf_colspec c = true ->
  tag_style t_font [(t_color, Some (print_colspec c))] = Ok (mkSt false false false (Some (colspec_rgba c))).
Proof.
  intro W. unfold tag_style. change (lower t_font) with t_font.
  change (text_eqb t_font t_b || text_eqb t_font t_bold) with false.
  change (text_eqb t_font t_i || text_eqb t_font t_italic) with false.
  change (text_eqb t_font t_u || text_eqb t_font t_underline) with false.
  change (text_eqb t_font t_font) with true. cbn iota.
  cbn [find_color]. change (text_eqb t_color t_color) with true. cbn iota.
  rewrite parse_color_spec by auto. reflexivity.
Qed.

Lemma inherit_color c outer : inherit outer (mkSt false false false (Some c)) = with_color c outer.
Proof. destruct outer as [b i u oc]; unfold inherit, with_color; cbn [st_b st_i st_u st_c]; rewrite ?orb_false_r; reflexivity. Qed.

Lemma font_open_chars c q : wf_colspec c = true -> lacks 123 (open_font c q) /\ no_cr (open_font c q).
Proof.
  intro W. pose proof (colspec_chars c W) as [V _].
  assert (A : lacks 123 (print_colspec c) /\ no_cr (print_colspec c)).
  { unfold lacks, no_cr. split; apply forallb_forall; intros x I; rewrite forallb_forall in V; specialize (V x I);
    apply value_char_facts in V; lia. }
  destruct A as [A1 A2]. unfold open_font, lacks, no_cr in *.
  split; rewrite !forallb_app; rewrite ?A1, ?A2; destruct q; reflexivity.
Qed.
