(* C10, time syntax: _TIMECODE_RE as transcribed (search_tc) finds the printed clocks of a timing line
   and the value computed from the groups is the positional value of the digits, exactly. *)
From TT Require Import Base.Prelude Base.SrtTypes Gen.SrtTables Model.SrtReader Spec.SrtCueSpec Proofs.C10.Lines.
From Coq Require Import QArith.
Local Open Scope Z_scope.

Lemma digit_not_space c : is_digit c = true -> is_space c = false.
Proof. apply nonspace_class. reflexivity. Qed.

Lemma dec_digits_forall ds : dec_digits ds = true -> forallb is_digit ds = true.
Proof. unfold dec_digits, is_digit. intro H; exact H. Qed.

Lemma fold_digits_acc ds : forall a,
  fold_left (fun a c => a * 10 + (c - 48)) ds a = a * 10 ^ Z.of_nat (length ds) + dec_value ds.
Proof.
  induction ds as [|d r IH]; intro a; cbn [fold_left dec_value length].
  - change (Z.of_nat 0) with 0. rewrite Z.pow_0_r. lia.
  - rewrite IH. rewrite Nat2Z.inj_succ, Z.pow_succ_r by lia. ring.
Qed.
Lemma int_of_digits_value ds : int_of_digits ds = dec_value ds.
Proof. unfold int_of_digits. rewrite fold_digits_acc. lia. Qed.

Lemma take_digits_app n : forall ds rest, length ds = n -> forallb is_digit ds = true ->
  take_digits n (ds ++ rest) = Some (ds, rest).
Proof.
  induction n as [|n IH]; intros ds rest Hl Hd.
  - destruct ds; [reflexivity|discriminate].
  - destruct ds as [|d ds]; [discriminate|]. cbn [app take_digits].
    cbn [forallb] in Hd. apply andb_true_iff in Hd as [Hd1 Hd2]. rewrite Hd1.
    rewrite IH; auto.
Qed.

Lemma take_digits_stop n : forall ds c rest, (length ds < n)%nat -> is_digit c = false ->
  take_digits n (ds ++ c :: rest) = None.
Proof.
  induction n as [|n IH]; intros ds c rest Hl Hc; [lia|].
  destruct ds as [|d ds]; cbn [app take_digits].
  - rewrite Hc. reflexivity.
  - destruct (is_digit d); [|reflexivity]. rewrite IH; auto. cbn [length] in Hl. lia.
Qed.

Lemma take_all_digits_app h : forall rest c, forallb is_digit h = true -> is_digit c = false ->
  take_all_digits (h ++ c :: rest) = (h, c :: rest).
Proof.
  induction h as [|d h IH]; intros rest c Hd Hc; cbn [app take_all_digits].
  - rewrite Hc. reflexivity.
  - cbn [forallb] in Hd. apply andb_true_iff in Hd as [Hd1 Hd2]. rewrite Hd1, IH by auto. reflexivity.
Qed.

(* [0-9]{2,} : every width from two digits on *)
Lemma take_hours_app h rest c : (2 <= length h)%nat -> forallb is_digit h = true ->
  is_digit c = false -> take_hours (h ++ c :: rest) = Some (h, c :: rest).
Proof.
  intros Hl Hd Hc. unfold take_hours. rewrite take_all_digits_app by auto.
  destruct h as [|a [|b h]]; cbn [length] in Hl; try lia. reflexivity.
Qed.

Definition clock_text (h m s ms : text) : text := h ++ [58] ++ m ++ [58] ++ s ++ [44] ++ ms.

Record clock_digits (h m s ms : text) : Prop := {
  cd_h : (2 <= length h)%nat; cd_hd : forallb is_digit h = true;
  cd_m : length m = 2%nat; cd_md : forallb is_digit m = true;
  cd_s : length s = 2%nat; cd_sd : forallb is_digit s = true;
  cd_ms : length ms = 3%nat; cd_msd : forallb is_digit ms = true }.

Lemma clock_at_spec h m s ms rest : clock_digits h m s ms ->
  clock_at (clock_text h m s ms ++ rest) = Some (h, m, s, ms, rest).
Proof.
  intros [Hh Hhd Hm Hmd Hs Hsd Hms Hmsd]. unfold clock_at, clock_text.
  repeat rewrite <- app_assoc. cbn [app].
  rewrite take_hours_app by (auto; reflexivity). cbn [bind expect]. rewrite Z.eqb_refl. cbn [bind].
  rewrite take_digits_app by auto. cbn [bind expect]. rewrite Z.eqb_refl. cbn [bind].
  rewrite take_digits_app by auto. cbn [bind expect]. rewrite Z.eqb_refl. cbn [bind].
  rewrite take_digits_app by auto. reflexivity.
Qed.

Lemma skip_spaces_app ws rest : forallb is_space ws = true ->
  skip_spaces (ws ++ rest) = skip_spaces rest.
Proof.
  induction ws as [|c ws IH]; intro H; [reflexivity|].
  cbn [forallb] in H. apply andb_true_iff in H as [H1 H2]. cbn [app skip_spaces]. rewrite H1. auto.
Qed.
Lemma skip_spaces_nonspace c rest : is_space c = false -> skip_spaces (c :: rest) = c :: rest.
Proof. intro H. cbn [skip_spaces]. rewrite H. reflexivity. Qed.
Lemma spaces1_app ws c rest : ws <> [] -> forallb is_space ws = true -> is_space c = false ->
  spaces1 (ws ++ c :: rest) = Some (c :: rest).
Proof.
  intros Hne Hs Hc. destruct ws as [|w ws]; [congruence|].
  cbn [forallb] in Hs. apply andb_true_iff in Hs as [H1 H2].
  cbn [app spaces1]. rewrite H1. rewrite skip_spaces_app by auto. rewrite skip_spaces_nonspace; auto.
Qed.

Definition timing_text (bh bm bs bms ws1 ws2 eh em es ems tail : text) : text :=
  clock_text bh bm bs bms ++ ws1 ++ [45;45;62] ++ ws2 ++ clock_text eh em es ems ++ tail.

Lemma hd_digit h m s ms rest : clock_digits h m s ms ->
  exists c r, clock_text h m s ms ++ rest = c :: r /\ is_digit c = true.
Proof.
  intros [Hh Hhd _ _ _ _ _ _]. destruct h as [|c h]; [cbn [length] in Hh; lia|].
  exists c. eexists. split; [reflexivity|]. cbn [forallb] in Hhd. apply andb_true_iff in Hhd. tauto.
Qed.

Lemma match_tc_at_spec bh bm bs bms ws1 ws2 eh em es ems tail :
  clock_digits bh bm bs bms -> clock_digits eh em es ems ->
  ws1 <> [] -> forallb is_space ws1 = true -> ws2 <> [] -> forallb is_space ws2 = true ->
  match_tc_at (timing_text bh bm bs bms ws1 ws2 eh em es ems tail) = Some (mkTcm bh bm bs bms eh em es ems).
Proof.
  intros Hb He Hw1 Hs1 Hw2 Hs2. unfold match_tc_at, timing_text.
  rewrite clock_at_spec by auto. cbn [bind].
  cbn [app]. rewrite spaces1_app by (auto; vm_compute; reflexivity). cbn [bind expect].
  rewrite !Z.eqb_refl. cbn [bind expect]. rewrite ?Z.eqb_refl. cbn [bind expect]. rewrite ?Z.eqb_refl. cbn [bind].
  destruct (hd_digit eh em es ems tail He) as (c & r & Heq & Hc).
  rewrite Heq. rewrite spaces1_app by (auto using digit_not_space). cbn [bind].
  rewrite <- Heq. rewrite clock_at_spec by auto. reflexivity.
Qed.

Lemma search_tc_spec bh bm bs bms ws1 ws2 eh em es ems tail :
  clock_digits bh bm bs bms -> clock_digits eh em es ems ->
  ws1 <> [] -> forallb is_space ws1 = true -> ws2 <> [] -> forallb is_space ws2 = true ->
  search_tc (timing_text bh bm bs bms ws1 ws2 eh em es ems tail) = Some (mkTcm bh bm bs bms eh em es ems).
Proof.
  intros. destruct (timing_text bh bm bs bms ws1 ws2 eh em es ems tail) eqn:E;
  cbn [search_tc]; rewrite <- E; rewrite match_tc_at_spec; auto.
Qed.

Lemma seconds_of_value h m s ms :
  seconds_of h m s ms = Qred (printed_seconds h m s ms).
Proof. unfold seconds_of, printed_seconds. rewrite !int_of_digits_value. reflexivity. Qed.

Lemma seconds_of_eq h m s ms :
  Qeq (seconds_of h m s ms) (printed_seconds h m s ms).
Proof. rewrite seconds_of_value. apply Qred_correct. Qed.

(* C10_exact_time: for every timing line made of digit strings of the pattern's widths (two or more
   hour digits - any number of them), whatever the digits, the white space around the arrow and the rest of the line, the
   reader's begin and end are h*3600 + m*60 + s + ms/1000 of the printed digits - as rationals in lowest
   terms (structural equality with Qred of the specification's value), hence equal as rationals. *)
Theorem exact_time bh bm bs bms ws1 ws2 eh em es ems tail :
  clock_digits bh bm bs bms -> clock_digits eh em es ems ->
  ws1 <> [] -> forallb is_space ws1 = true -> ws2 <> [] -> forallb is_space ws2 = true ->
  exists g, search_tc (timing_text bh bm bs bms ws1 ws2 eh em es ems tail) = Some g /\
    seconds_of (g_bh g) (g_bm g) (g_bs g) (g_bms g) = Qred (printed_seconds bh bm bs bms) /\
    seconds_of (g_eh g) (g_em g) (g_es g) (g_ems g) = Qred (printed_seconds eh em es ems) /\
    Qeq (seconds_of (g_bh g) (g_bm g) (g_bs g) (g_bms g)) (printed_seconds bh bm bs bms) /\
    Qeq (seconds_of (g_eh g) (g_em g) (g_es g) (g_ems g)) (printed_seconds eh em es ems).
Proof.
  intros. eexists. split; [apply search_tc_spec; auto|]. cbn [g_bh g_bm g_bs g_bms g_eh g_em g_es g_ems].
  repeat split; auto using seconds_of_value, seconds_of_eq.
Qed.

Lemma is_digit_dig n : 0 <= n <= 9 -> is_digit (dig n) = true.
Proof. unfold is_digit, dig. lia. Qed.

Definition hours_text (k : clock) : text := padn (k_hw k) (k_h k).

Lemma dec_value_snoc l d : dec_value (l ++ [d]) = dec_value l * 10 + (d - 48).
Proof. rewrite <- !int_of_digits_value. unfold int_of_digits. rewrite fold_left_app. reflexivity. Qed.

Lemma padn_length w : forall n, length (padn w n) = w.
Proof. induction w as [|w IH]; intro n; cbn [padn]; [reflexivity|]. rewrite app_length, IH. cbn [length]. lia. Qed.

Lemma padn_digits w : forall n, 0 <= n < 10 ^ Z.of_nat w ->
  forallb is_digit (padn w n) = true /\ length (padn w n) = w /\ dec_value (padn w n) = n.
Proof.
  induction w as [|w IH]; intros n H.
  - change (Z.of_nat 0) with 0 in H. rewrite Z.pow_0_r in H. cbn [padn forallb length dec_value]. repeat split. lia.
  - rewrite Nat2Z.inj_succ, Z.pow_succ_r in H by lia. rewrite padn_length. cbn [padn].
    destruct (IH (n / 10)) as (A & _ & C); [lia|].
    rewrite forallb_app, A, dec_value_snoc, C. cbn [forallb].
    rewrite is_digit_dig by lia. repeat split. unfold dig. lia.
Qed.

Lemma pad2_padn n : 0 <= n <= 99 -> pad2 n = padn 2 n.
Proof. intro H. unfold pad2. cbn [padn app]. replace (n / 10 mod 10) with (n / 10) by lia. reflexivity. Qed.
Lemma pad3_padn n : 0 <= n <= 999 -> pad3 n = padn 3 n.
Proof. intro H. unfold pad3. cbn [padn app]. replace (n / 10 / 10 mod 10) with (n / 100) by lia. reflexivity. Qed.

Lemma pad2_digits n : 0 <= n <= 99 -> forallb is_digit (pad2 n) = true /\ length (pad2 n) = 2%nat /\ dec_value (pad2 n) = n.
Proof. intro H. rewrite pad2_padn by exact H. apply padn_digits. change (10 ^ Z.of_nat 2) with 100. lia. Qed.
Lemma pad3_digits n : 0 <= n <= 999 -> forallb is_digit (pad3 n) = true /\ length (pad3 n) = 3%nat /\ dec_value (pad3 n) = n.
Proof. intro H. rewrite pad3_padn by exact H. apply padn_digits. change (10 ^ Z.of_nat 3) with 1000. lia. Qed.

Lemma clock_shape_bounds k : clock_shape k = true ->
  (2 <= k_hw k)%nat /\ 0 <= k_h k < 10 ^ Z.of_nat (k_hw k) /\ 0 <= k_m k <= 99 /\ 0 <= k_s k <= 99 /\ 0 <= k_ms k <= 999.
Proof.
  unfold clock_shape. intro H. repeat (apply andb_true_iff in H as [H ?]).
  apply Nat.leb_le in H. lia.
Qed.
Lemma wf_clock_shape k : wf_clock k = true -> clock_shape k = true /\ Z.of_nat (k_hw k) <= max_hour_digits.
Proof. unfold wf_clock. intro H. apply andb_true_iff in H as [A B]. split; [exact A|lia]. Qed.

Lemma print_clock_text k : print_clock k = clock_text (hours_text k) (pad2 (k_m k)) (pad2 (k_s k)) (pad3 (k_ms k)).
Proof. reflexivity. Qed.

Lemma hours_digits k : clock_shape k = true ->
  forallb is_digit (hours_text k) = true /\ length (hours_text k) = k_hw k /\ dec_value (hours_text k) = k_h k.
Proof. intro H. apply clock_shape_bounds in H. unfold hours_text. apply padn_digits. lia. Qed.

Lemma clock_fields k : clock_shape k = true ->
  clock_digits (hours_text k) (pad2 (k_m k)) (pad2 (k_s k)) (pad3 (k_ms k)) /\
  printed_seconds (hours_text k) (pad2 (k_m k)) (pad2 (k_s k)) (pad3 (k_ms k)) =
  Qplus (inject_Z (k_h k * 3600 + k_m k * 60 + k_s k)) (Qmake (k_ms k) 1000).
Proof.
  intro H. pose proof (hours_digits k H) as (a & b & vh). apply clock_shape_bounds in H.
  destruct (pad2_digits (k_m k)) as (a1 & b1 & vm); [lia|].
  destruct (pad2_digits (k_s k)) as (a2 & b2 & vs); [lia|].
  destruct (pad3_digits (k_ms k)) as (a3 & b3 & vms); [lia|].
  split; [constructor; auto; lia|]. unfold printed_seconds. rewrite vh, vm, vs, vms. reflexivity.
Qed.
Lemma clock_digits_shape k : clock_shape k = true ->
  clock_digits (hours_text k) (pad2 (k_m k)) (pad2 (k_s k)) (pad3 (k_ms k)).
Proof. intro H. apply (clock_fields k H). Qed.
Lemma clock_digits_print k : wf_clock k = true ->
  clock_digits (hours_text k) (pad2 (k_m k)) (pad2 (k_s k)) (pad3 (k_ms k)).
Proof. intro H. apply clock_digits_shape. apply wf_clock_shape in H. tauto. Qed.

(* the hour field of a clock of the grammar is one that int() converts: the generated limit of the interpreter is not
   below the grammar's (fails closed when the interpreter is configured with a lower limit) *)
Lemma max_hour_digits_converts : max_hour_digits <= int_max_str_digits.
Proof. vm_compute. discriminate. Qed.
Lemma hours_convert k : wf_clock k = true -> int_converts (hours_text k) = true.
Proof.
  intro H. apply wf_clock_shape in H as [S B]. pose proof (hours_digits k S) as (_ & L & _).
  unfold int_converts. rewrite L. pose proof max_hour_digits_converts. lia.
Qed.

Lemma clock_value_shape k : clock_shape k = true ->
  seconds_of (hours_text k) (pad2 (k_m k)) (pad2 (k_s k)) (pad3 (k_ms k)) = clock_seconds k.
Proof.
  intro H. rewrite seconds_of_value, (proj2 (clock_fields k H)). apply Qred_complete.
  unfold clock_seconds, Qeq, Qplus, inject_Z. cbn [Qnum Qden]. lia.
Qed.

Lemma clock_value k : wf_clock k = true ->
  seconds_of (hours_text k) (pad2 (k_m k)) (pad2 (k_s k)) (pad3 (k_ms k)) = clock_seconds k.
Proof. intro H. apply clock_value_shape. apply wf_clock_shape in H. tauto. Qed.

(* "conversion to frame-based outputs lands on the intended frame": the time read is the exact rational, so a time
   that is a whole number of frames at an integer or rational frame rate fn/fd multiplies out to exactly that number *)
Definition total_ms (k : clock) : Z := (k_h k * 3600 + k_m k * 60 + k_s k) * 1000 + k_ms k.
Theorem frames_exact k (fn : Z) (fd : positive) n : total_ms k * fn = n * 1000 * Zpos fd ->
  Qeq (Qmult (clock_seconds k) (Qmake fn fd)) (inject_Z n).
Proof.
  intro H. unfold clock_seconds. fold (total_ms k). rewrite Qred_correct.
  unfold Qeq, Qmult, inject_Z. cbn [Qnum Qden]. rewrite Pos2Z.inj_mul. lia.
Qed.
(* the whole path for one timing line: the digits printed for two clocks are read back as the clocks' values, for every
   clock that can be written - an hour field of ANY width from two digits on (no upper bound) holding any hour below
   10^width, minutes and seconds 00-99, milliseconds 000-999 *)
Theorem exact_time_grammar k1 k2 ws1 ws2 tail : clock_shape k1 = true -> clock_shape k2 = true ->
  ws1 <> [] -> forallb is_space ws1 = true -> ws2 <> [] -> forallb is_space ws2 = true ->
  exists g, search_tc (print_clock k1 ++ ws1 ++ [45;45;62] ++ ws2 ++ print_clock k2 ++ tail) = Some g /\
    seconds_of (g_bh g) (g_bm g) (g_bs g) (g_bms g) = clock_seconds k1 /\
    seconds_of (g_eh g) (g_em g) (g_es g) (g_ems g) = clock_seconds k2 /\
    Qeq (clock_seconds k1) (Qmake (total_ms k1) 1000) /\ Qeq (clock_seconds k2) (Qmake (total_ms k2) 1000).
Proof.
  intros W1 W2 N1 S1 N2 S2. rewrite !print_clock_text.
  eexists. split; [apply (search_tc_spec _ _ _ _ ws1 ws2 _ _ _ _ tail); auto using clock_digits_shape|].
  cbn [g_bh g_bm g_bs g_bms g_eh g_em g_es g_ems]. rewrite !clock_value_shape by auto.
  repeat split; unfold clock_seconds; apply Qred_correct.
Qed.
(* non-vacuity and reach: hour fields of two, four and twelve digits *)
Lemma clock_shape_examples :
  clock_shape (mkClock 7 2 0 0 0) = true /\ clock_shape (mkClock 1000 4 0 0 0) = true /\
  clock_shape (mkClock 123456789012 12 59 59 999) = true /\
  print_clock (mkClock 1000 4 0 0 0) = [49;48;48;48;58;48;48;58;48;48;44;48;48;48] /\
  clock_seconds (mkClock 1000 4 0 0 1) = Qmake 3600000001 1000.
Proof. vm_compute. repeat split. Qed.
