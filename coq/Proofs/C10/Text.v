(* C10, the text of one cue: the payload as lines, the strip of rewrite_text, replace where the pattern does not
   occur, data tokens as flattened items; and the induction principle over payload nodes. *)
From TT Require Import Base.Prelude Base.SrtTypes Gen.SrtTables Model.SrtReader Spec.SrtCueSpec Proofs.C10.Lines.
Local Open Scope Z_scope.

(* the replace chain of rewrite_text, after the strip *)
Definition rw (s : text) : text :=
  let s := replace [10;13] [10] s in
  let s := replace (brace false t_bold) (angle false t_bold) s in
  let s := replace (brace true t_bold) (angle true t_bold) s in
  let s := replace (brace false t_italic) (angle false t_italic) s in
  let s := replace (brace true t_italic) (angle true t_italic) s in
  let s := replace (brace false t_underline) (angle false t_underline) s in
  let s := replace (brace true t_underline) (angle true t_underline) s in
  let s := replace (brace false t_b) (angle false t_b) s in
  let s := replace (brace true t_b) (angle true t_b) s in
  let s := replace (brace false t_i) (angle false t_i) s in
  let s := replace (brace true t_i) (angle true t_i) s in
  let s := replace (brace false t_u) (angle false t_u) s in
  replace (brace true t_u) (angle true t_u) s.
Lemma rewrite_text_rw s : rewrite_text s = rw (strip_crlf s).
Proof. reflexivity. Qed.

(* what the property asks of the text of one cue: the paragraph's children flatten to the cue's items *)
Definition payload_good (p : list node) : Prop :=
  exists kids, parse_text (rw (print_nodes p)) = Ok kids /\ flat_list st0 kids = items_list st0 p.

Section NodeInd.
  Variable P : node -> Prop.
  Variable Q : list node -> Prop.
  Hypothesis Hc : forall c, P (NChar c).
  Hypothesis Hr : forall r, P (NRef r).
  Hypothesis Hb : P NBreak.
  Hypothesis Ht : forall k sy body, Q body -> P (NTag k sy body).
  Hypothesis Hf : forall c q body, Q body -> P (NFont c q body).
  Hypothesis Hs : forall k sy, P (NStray k sy).
  Hypothesis Hnil : Q [].
  Hypothesis Hcons : forall x l, P x -> Q l -> Q (x :: l).
  Fixpoint node_ind2 (n : node) : P n :=
    match n with
    | NChar c => Hc c
    | NRef r => Hr r
    | NBreak => Hb
    | NTag k sy body => Ht k sy body ((fix go (l : list node) : Q l := match l with [] => Hnil | x :: l' => Hcons x l' (node_ind2 x) (go l') end) body)
    | NFont c q body => Hf c q body ((fix go (l : list node) : Q l := match l with [] => Hnil | x :: l' => Hcons x l' (node_ind2 x) (go l') end) body)
    | NStray k sy => Hs k sy
    end.
  Definition nodes_ind2 (l : list node) : Q l :=
    (fix go (l : list node) : Q l := match l with [] => Hnil | x :: l' => Hcons x l' (node_ind2 x) (go l') end) l.
End NodeInd.

(* the nested fixes of the specification are the list versions *)
Lemma print_tag k sy body : print_node (NTag k sy body) = open_tag k sy ++ print_nodes body ++ close_tag k sy.
Proof. reflexivity. Qed.
Lemma print_font c q body : print_node (NFont c q body) = open_font c q ++ print_nodes body ++ close_font.
Proof. reflexivity. Qed.
Lemma items_tag s k sy body : items s (NTag k sy body) = items_list (with_tag k s) body.
Proof. cbn [items]. induction body as [|x l IH]; [reflexivity|]. cbn [items_list]. rewrite <- IH. reflexivity. Qed.
Lemma items_font s c q body : items s (NFont c q body) = items_list (with_color (colspec_rgba c) s) body.
Proof. cbn [items]. induction body as [|x l IH]; [reflexivity|]. cbn [items_list]. rewrite <- IH. reflexivity. Qed.
Lemma wf_tag k sy body : wf_node (NTag k sy body) = forallb wf_node body.
Proof. reflexivity. Qed.
Lemma wf_font c q body : wf_node (NFont c q body) = wf_colspec c && forallb wf_node body.
Proof. reflexivity. Qed.
Lemma stray_tag ctx k sy body : stray_ok ctx (NTag k sy body) = forallb (stray_ok (Some (k, sy))) body.
Proof. reflexivity. Qed.
Lemma stray_font ctx c q body : stray_ok ctx (NFont c q body) = forallb (stray_ok None) body.
Proof. reflexivity. Qed.

Lemma split_lf_nonempty s : split_lf s <> [].
Proof. destruct s as [|c s]; cbn [split_lf]; [discriminate|]. destruct (c =? 10); [discriminate|]. destruct (split_lf s); discriminate. Qed.

Lemma split_at_lf_acc s : forall cur,
  split_at_lf s cur = match split_lf s with l :: ls => (rev cur ++ l) :: ls | [] => [rev cur] end.
Proof.
  induction s as [|c s IH]; intro cur; cbn [split_at_lf split_lf].
  - rewrite app_nil_r. reflexivity.
  - pose proof (split_lf_nonempty s) as N. destruct (c =? 10); rewrite IH; destruct (split_lf s); try congruence.
    + rewrite app_nil_r. reflexivity.
    + cbn [rev]. rewrite <- app_assoc. reflexivity.
Qed.
Lemma split_at_lf_split s : split_at_lf s [] = split_lf s.
Proof. rewrite split_at_lf_acc. pose proof (split_lf_nonempty s). destruct (split_lf s); [congruence|reflexivity]. Qed.
Lemma payload_lines_split p : payload_lines p = split_lf (print_nodes p).
Proof. apply split_at_lf_split. Qed.

Lemma concat_split_lf s : concat (with_eol [10] (split_lf s)) = s ++ [10].
Proof.
  induction s as [|c s IH]; [reflexivity|]. cbn [split_lf]. pose proof (split_lf_nonempty s) as N.
  destruct (c =? 10) eqn:E.
  - cbn [with_eol map concat app]. fold (with_eol [10] (split_lf s)). rewrite IH. f_equal. lia.
  - destruct (split_lf s); [congruence|]. cbn [with_eol map concat app] in *. rewrite <- IH. reflexivity.
Qed.

Lemma split_lf_no_eol s : no_cr s -> Forall (fun l => no_eol l = true) (split_lf s).
Proof.
  induction s as [|c s IH]; cbn [split_lf]; intro H; [repeat constructor|].
  apply (lacks_cons 13) in H as [H1 H2]. specialize (IH H2). pose proof (split_lf_nonempty s) as N.
  destruct (c =? 10) eqn:E; [constructor; [reflexivity|exact IH]|].
  destruct (split_lf s); [congruence|]. inversion IH; subst. constructor; [|assumption].
  unfold no_eol in *. cbn [forallb]. rewrite E. replace (c =? 13) with false by lia. assumption.
Qed.

Lemma first_line_nonblank s : forallb (fun l => negb (all_ws l)) (split_lf s) = true ->
  exists a s', s = a :: s' /\ a <> 10.
Proof.
  destruct s as [|a s]; cbn [split_lf]; [discriminate|].
  destruct (a =? 10) eqn:E; [discriminate|]. intros _. exists a, s. split; auto. lia.
Qed.
Lemma split_lf_snoc_lf s : split_lf (s ++ [10]) = split_lf s ++ [[]].
Proof.
  induction s as [|c s IH]; [reflexivity|]. cbn [app split_lf]. rewrite IH.
  destruct (c =? 10); [reflexivity|]. pose proof (split_lf_nonempty s). destruct (split_lf s); [congruence|reflexivity].
Qed.
Lemma last_line_nonblank s : forallb (fun l => negb (all_ws l)) (split_lf s) = true ->
  exists s' z, s = s' ++ [z] /\ z <> 10.
Proof.
  intro H. destruct (exists_last (l := s)) as (s' & z & E).
  - intro E; subst. cbn in H. discriminate.
  - exists s', z. split; auto. intro Z; subst z. subst s. rewrite split_lf_snoc_lf in H.
    rewrite forallb_app in H. apply andb_true_iff in H as [_ H]. cbn in H. discriminate.
Qed.

(* the text accumulated by the line machine for a cue, stripped, is the printed payload: its first and its last
   character are no terminators, and only the line feed added after the last line is stripped *)
Lemma strip_lines t (final_lf : bool) : no_cr t -> forallb (fun l => negb (all_ws l)) (split_lf t) = true ->
  strip_crlf (t ++ (if final_lf then [10] else [])) = t.
Proof.
  intros Hcr Hl. pose proof (proj1 (lacks_in 13 t) Hcr) as Cr.
  destruct (first_line_nonblank t Hl) as (a & t1 & E1 & Ha).
  destruct (last_line_nonblank t Hl) as (t2 & z & E2 & Hz).
  assert (Ca : is_crlf a = false) by (specialize (Cr a); rewrite E1 in Cr; cbn [In] in Cr; unfold is_crlf; lia).
  assert (Cz : is_crlf z = false) by (specialize (Cr z); rewrite E2, in_app_iff in Cr; cbn [In] in Cr; unfold is_crlf; lia).
  unfold strip_crlf. rewrite E1 at 1. cbn [app]. rewrite lstrip_keep by exact Ca. rewrite app_comm_cons, <- E1, E2.
  rewrite rev_app_distr, rev_app_distr. cbn [rev app].
  destruct final_lf; cbn [rev app lstrip_crlf]; change (is_crlf 10) with true; cbn iota; rewrite Cz;
    cbn [rev]; rewrite rev_involutive; reflexivity.
Qed.

Fixpoint has_sub (p s : text) : bool :=
  prefixb p s || match s with [] => false | _ :: s' => has_sub p s' end.
Lemma has_sub_prefixb p s : has_sub p s = prefixb p s || match s with [] => false | _ :: s' => has_sub p s' end.
Proof. destruct s; reflexivity. Qed.

Lemma replace_id pat rep s : has_sub pat s = false -> replace pat rep s = s.
Proof.
  unfold replace. induction s as [|c s IH]; intro H; [reflexivity|].
  rewrite has_sub_prefixb in H. apply orb_false_iff in H as [H1 H2].
  cbn [replace_go]. rewrite H1. rewrite IH by auto. reflexivity.
Qed.

(* the "\n\r" of the replace chain (LF CR) does not occur in a text without CR *)
Lemma has_sub_lfcr s : no_cr s -> has_sub [10;13] s = false.
Proof.
  induction s as [|c s IH]; intro H; rewrite has_sub_prefixb; [reflexivity|].
  apply (lacks_cons 13) in H as [H1 H2]. rewrite IH by auto. rewrite orb_false_r.
  cbn [prefixb]. destruct s as [|d s]; [apply andb_false_r|].
  apply (lacks_cons 13) in H2 as [H3 _]. replace (13 =? d) with false by lia. cbn [andb]. apply andb_false_r.
Qed.

Lemma unescape_id s : lacks 38 s -> unescape s = s.
Proof.
  unfold unescape. induction s as [|c s IH]; intro H; [reflexivity|].
  apply lacks_cons in H as [H1 H2]. cbn [unesc_go].
  replace (c =? 38) with false by lia. rewrite IH by auto. reflexivity.
Qed.

Definition item_of_char (s : sstyle) (c : Z) : list item := if c =? 10 then [Brk] else [Ch c s].
Definition items_of_text (s : sstyle) (t : text) : list item := flat_map (item_of_char s) t.

Lemma items_of_text_app s a b : items_of_text s (a ++ b) = items_of_text s a ++ items_of_text s b.
Proof. apply flat_map_app. Qed.

Lemma flat_span inh s kids : flat inh (ESpan s kids) = flat_list (inherit inh s) kids.
Proof. cbn [flat]. induction kids as [|x l IH]; [reflexivity|]. cbn [flat_list]. rewrite <- IH. reflexivity. Qed.
Lemma flat_data_span inh l : flat inh (ESpan st0 [EText l]) = map (fun c => Ch c inh) l.
Proof.
  cbn [flat]. rewrite app_nil_r. destruct inh as [b i u c]. unfold inherit, st0. cbn [st_b st_i st_u st_c].
  rewrite !orb_false_r. reflexivity.
Qed.
Lemma flat_list_app inh a b : flat_list inh (a ++ b) = flat_list inh a ++ flat_list inh b.
Proof. induction a as [|x a IH]; [reflexivity|]. cbn [app flat_list]. rewrite IH, app_assoc. reflexivity. Qed.

Lemma flat_data_kids inh t : forall first,
  flat_list inh (data_kids first (split_lf t)) = (if first then [] else [Brk]) ++ items_of_text inh t.
Proof.
  induction t as [|c t IH]; intro first.
  - cbn [split_lf data_kids]. rewrite flat_list_app. cbn [flat_list]. rewrite flat_data_span. cbn.
    destruct first; reflexivity.
  - cbn [split_lf]. unfold items_of_text. cbn [flat_map]. fold (items_of_text inh t). unfold item_of_char at 1.
    destruct (c =? 10) eqn:E.
    + cbn [data_kids]. rewrite flat_list_app. cbn [flat_list]. rewrite flat_data_span. cbn [map app].
      rewrite IH. destruct first; reflexivity.
    + pose proof (split_lf_nonempty t). destruct (split_lf t) eqn:F; [congruence|].
      specialize (IH first). cbn [data_kids] in *. rewrite flat_list_app in *. cbn [flat_list] in *.
      rewrite flat_data_span in *. cbn [map].
      destruct first; cbn [flat_list flat app] in *.
      * rewrite <- IH. reflexivity.
      * injection IH as IH. rewrite <- IH. reflexivity.
Qed.
