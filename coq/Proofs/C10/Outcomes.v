(* C10, outcomes: a color attribute without a value is passed over and not handed to parse_color, so no path of
   the transcribed reader raises TypeError; the only exception is
   ValueError (parse_color on a value that is no colour; int() on an hour field longer than the interpreter converts).
   For every input text - no grammar is assumed. *)
From TT Require Import Base.Prelude Base.SrtTypes Gen.SrtTables Model.SrtReader Spec.SrtCueSpec Proofs.C10.Time.
From Coq Require Import QArith.
Local Open Scope Z_scope.

Definition value_error_only {A} (o : outcome A) : Prop := forall e, o = Raised e -> e = EValueError.

Lemma veo_ok {A} (a : A) : value_error_only (Ok a).
Proof. intros e H. discriminate. Qed.
Lemma veo_none {A} : value_error_only (@RetNone A).
Proof. intros e H. discriminate. Qed.
Lemma veo_unmodelled {A} : value_error_only (@Unmodelled A).
Proof. intros e H. discriminate. Qed.
Lemma veo_value {A} : value_error_only (@Raised A EValueError).
Proof. intros e H. congruence. Qed.
(* a call whose result is passed on: what is not a value propagates *)
Lemma veo_then {A B} (o : outcome A) (f : A -> outcome B) : value_error_only o -> (forall a, value_error_only (f a)) ->
  value_error_only (match o with Ok a => f a | RetNone => RetNone | Raised e => Raised e | Unmodelled => Unmodelled end).
Proof.
  intros H F. destruct o; [apply F|apply veo_none| |apply veo_unmodelled].
  intros e' E. injection E as <-. exact (H e eq_refl).
Qed.
Lemma veo_map {A B} (f : A -> B) o : value_error_only o -> value_error_only (outcome_map f o).
Proof. intro H. apply veo_then; [exact H|]. intro a. apply veo_ok. Qed.

Lemma rgba_of_veo r g b a : value_error_only (rgba_of r g b a).
Proof. destruct r, g, b, a; cbn [rgba_of]; first [apply veo_ok | apply veo_value]. Qed.
Lemma bind_some {A B} (o : option A) (f : A -> option B) y : bind o f = Some y -> exists x, o = Some x /\ f x = Some y.
Proof. destruct o; cbn [bind]; [eauto|discriminate]. Qed.

Definition bytes (c : rgba) : bool :=
  let '(r, g, b, a) := c in byte_ok r && byte_ok g && byte_ok b && byte_ok a.

Lemma assoc_in {B} k (l : list (text * B)) v : assoc k l = Some v -> exists k', In (k', v) l.
Proof.
  induction l as [|[k' v'] l IH]; cbn [assoc]; [discriminate|].
  destruct (text_eqb k k'); intro H.
  - injection H as <-. exists k'. left. reflexivity.
  - destruct (IH H) as (k2 & I). exists k2. right. exact I.
Qed.
Lemma named_bytes k c : assoc k named_colors = Some c -> bytes c = true.
Proof.
  intro H. destruct (assoc_in _ _ _ H) as (k' & I).
  assert (A : forallb (fun p => bytes (snd p)) named_colors = true) by (vm_compute; reflexivity).
  rewrite forallb_forall in A. apply (A (k', c) I).
Qed.

Lemma hex_val_bound c : is_hex c = true -> 0 <= hex_val c <= 15.
Proof. unfold is_hex, hex_val, is_digit. intro H. destruct ((48 <=? c) && (c <=? 57)) eqn:E; [lia|]. destruct (c <=? 70) eqn:F; lia. Qed.
Lemma hex_pair_byte a b : is_hex a = true -> is_hex b = true -> byte_ok (int_of_hex [a; b]) = true.
Proof.
  intros A B. apply hex_val_bound in A. apply hex_val_bound in B. unfold int_of_hex, byte_ok. cbn [fold_left]. lia.
Qed.

(* the same recogniser with the first character tested by =? (the pattern 35 of hex_color is a match on the binary digits) *)
Definition hex_color' (v : text) : option rgba :=
  match v with
  | [x; a; b; c; d; e; f] =>
      if (x =? 35) && (is_hex a && is_hex b && is_hex c && is_hex d && is_hex e && is_hex f) then
        Some (int_of_hex [a; b], int_of_hex [c; d], int_of_hex [e; f], 255)
      else None
  | [x; a; b; c; d; e; f; g; h] =>
      if (x =? 35) && (is_hex a && is_hex b && is_hex c && is_hex d && is_hex e && is_hex f && is_hex g && is_hex h) then
        Some (int_of_hex [a; b], int_of_hex [c; d], int_of_hex [e; f], int_of_hex [g; h])
      else None
  | _ => None
  end.
Lemma hex_color_alt v : hex_color v = hex_color' v.
Proof.
  destruct v as [|x v]; [reflexivity|].
  destruct (x =? 35) eqn:E.
  - apply Z.eqb_eq in E. subst x. unfold hex_color, hex_color'.
    repeat (destruct v as [|? v]; try reflexivity).
  - unfold hex_color'. 
    assert (N : forall r, hex_color (x :: r) = None).
    { intro r. unfold hex_color.
      destruct x as [|p|p]; try reflexivity.
      repeat (destruct p as [p|p|]; try reflexivity). discriminate. }
    rewrite N. repeat (destruct v as [|? v]; try reflexivity); rewrite E; reflexivity.
Qed.

Lemma hex_color_bytes v c : hex_color v = Some c -> bytes c = true.
Proof.
  rewrite hex_color_alt. unfold hex_color'.
  repeat (destruct v as [|? v]; try discriminate).
  - destruct (_ && _) eqn:E; [|discriminate]. intro H. injection H as <-.
    apply andb_true_iff in E as [_ E]. repeat (apply andb_true_iff in E as [E ?]). unfold bytes. rewrite !hex_pair_byte by auto. reflexivity.
  - destruct (_ && _) eqn:E; [|discriminate]. intro H. injection H as <-.
    apply andb_true_iff in E as [_ E]. repeat (apply andb_true_iff in E as [E ?]). unfold bytes. rewrite !hex_pair_byte by auto. reflexivity.
Qed.

Lemma int_of_digits_nonneg ds : forallb is_digit ds = true -> 0 <= int_of_digits ds.
Proof. intro H. rewrite int_of_digits_value. induction ds as [|d r IH]; cbn [dec_value]; [lia|].
  cbn [forallb] in H. apply andb_true_iff in H as [H1 H2]. unfold is_digit in H1.
  assert (0 <= 10 ^ Z.of_nat (length r)) by (apply Z.pow_nonneg; lia). specialize (IH H2). nia. Qed.
Lemma take_while_all f s : forallb f (fst (take_while f s)) = true.
Proof. induction s as [|c s IH]; cbn [take_while]; [reflexivity|]. destruct (f c) eqn:E; [|reflexivity].
  destruct (take_while f s) as [a r]. cbn [fst forallb] in *. rewrite E, IH. reflexivity. Qed.
Lemma digits1_byte s n r : digits1 s = Some (Some n, r) -> byte_ok n = true.
Proof.
  unfold digits1. pose proof (take_while_all is_digit s) as A. destruct (take_while is_digit s) as [ds r']. cbn [fst] in A.
  destruct ds as [|d ds]; [discriminate|]. destruct (int_converts (d :: ds)); [|discriminate].
  destruct (255 <? int_of_digits (d :: ds)) eqn:E; [discriminate|]. intro H. injection H as <- _.
  pose proof (int_of_digits_nonneg _ A). unfold byte_ok. lia.
Qed.

Lemma rgba_of_bytes r g b a c : rgba_of r g b a = Ok c ->
  (forall n, r = Some n -> byte_ok n = true) -> (forall n, g = Some n -> byte_ok n = true) ->
  (forall n, b = Some n -> byte_ok n = true) -> (forall n, a = Some n -> byte_ok n = true) -> bytes c = true.
Proof.
  destruct r as [r|], g as [g|], b as [b|], a as [a|]; cbn [rgba_of]; try discriminate.
  intros H R G B A. injection H as <-. unfold bytes. rewrite (R r), (G g), (B b), (A a) by reflexivity. reflexivity.
Qed.

(* what the two functional patterns return when they match: rgba_of of four components, each a byte when it is a number *)
Definition comp_ok (r : option Z) : Prop := forall n, r = Some n -> byte_ok n = true.
Definition components (o : outcome rgba) : Prop :=
  exists r g b a, comp_ok r /\ comp_ok g /\ comp_ok b /\ comp_ok a /\ o = rgba_of r g b a.
Lemma digits1_comp s r rest : digits1 s = Some (r, rest) -> comp_ok r.
Proof. intros H n ->. exact (digits1_byte _ _ _ H). Qed.
Lemma dec_color_components v o : dec_color v = Some o -> components o.
Proof.
  unfold dec_color. intro E.
  apply bind_some in E; destruct E as (s0 & _ & E).
  apply bind_some in E; destruct E as ([r s1] & D1 & E).
  apply bind_some in E; destruct E as (s2 & _ & E).
  apply bind_some in E; destruct E as ([g s3] & D2 & E).
  apply bind_some in E; destruct E as (s4 & _ & E).
  apply bind_some in E; destruct E as ([b s5] & D3 & E).
  apply bind_some in E; destruct E as (s6 & _ & E).
  apply bind_some in E; destruct E as (u & _ & E).
  injection E as <-. exists r, g, b, (Some 255). repeat split; eauto using digits1_comp. intros n H. injection H as <-. reflexivity.
Qed.
Lemma dec_colora_components v o : dec_colora v = Some o -> components o.
Proof.
  unfold dec_colora. intro E.
  apply bind_some in E; destruct E as (s0 & _ & E).
  apply bind_some in E; destruct E as ([r s1] & D1 & E).
  apply bind_some in E; destruct E as (s2 & _ & E).
  apply bind_some in E; destruct E as ([g s3] & D2 & E).
  apply bind_some in E; destruct E as (s4 & _ & E).
  apply bind_some in E; destruct E as ([b s5] & D3 & E).
  apply bind_some in E; destruct E as (s6 & _ & E).
  apply bind_some in E; destruct E as ([a s7] & D4 & E).
  apply bind_some in E; destruct E as (s8 & _ & E).
  apply bind_some in E; destruct E as (u & _ & E).
  injection E as <-. exists r, g, b, a. repeat split; eauto using digits1_comp.
Qed.
Lemma components_veo o : components o -> value_error_only o.
Proof. intros (r & g & b & a & _ & _ & _ & _ & ->). apply rgba_of_veo. Qed.
Lemma components_bytes o c : components o -> o = Ok c -> bytes c = true.
Proof. intros (r & g & b & a & R & G & B & A & ->) E. exact (rgba_of_bytes _ _ _ _ _ E R G B A). Qed.

Lemma parse_color_veo v : value_error_only (parse_color v).
Proof.
  unfold parse_color.
  destruct (match lower_key v with Some k => assoc k named_colors | None => None end); [apply veo_ok|].
  destruct (hex_color v); [apply veo_ok|].
  destruct (dec_color v) as [o|] eqn:E; [exact (components_veo _ (dec_color_components _ _ E))|].
  destruct (dec_colora v) as [o|] eqn:E'; [exact (components_veo _ (dec_colora_components _ _ E'))|apply veo_value].
Qed.

Lemma tag_style_veo tag attrs : value_error_only (tag_style tag attrs).
Proof.
  unfold tag_style.
  repeat match goal with |- value_error_only (if ?c then _ else _) => destruct c; [apply veo_ok|] end.
  destruct (text_eqb (lower tag) t_font); [|apply veo_ok].
  destruct (find_color attrs); [apply veo_map, parse_color_veo|apply veo_ok].
Qed.

(* a color attribute without a value does not count, wherever it stands among the attributes; the
   first color attribute that has a value decides *)
Lemma find_color_novalue attrs : find_color ((t_color, None) :: attrs) = find_color attrs.
Proof. cbn [find_color]. change (text_eqb t_color t_color) with true. reflexivity. Qed.
Lemma font_color_novalue_ignored attrs : tag_style t_font ((t_color, None) :: attrs) = tag_style t_font attrs.
Proof. unfold tag_style. rewrite find_color_novalue. reflexivity. Qed.
Lemma font_color_only_novalue : tag_style t_font [(t_color, None)] = Ok st0.
Proof. reflexivity. Qed.
Lemma find_color_first_value attrs v rest :
  forallb (fun a => match snd a with None => true | Some _ => negb (text_eqb (fst a) t_color) end) attrs = true ->
  find_color (attrs ++ (t_color, Some v) :: rest) = Some v.
Proof.
  induction attrs as [|[n x] attrs IH]; intro H.
  - cbn [app find_color]. change (text_eqb t_color t_color) with true. reflexivity.
  - cbn [forallb fst snd] in H. apply andb_true_iff in H as [H1 H2]. cbn [app find_color].
    destruct x as [x|].
    + apply negb_true_iff in H1. rewrite H1. auto.
    + destruct (text_eqb n t_color); auto.
Qed.

Lemma handle_start_veo tag attrs cur : value_error_only (handle_start tag attrs cur).
Proof.
  destruct cur as [frames pk]. apply veo_then; [apply tag_style_veo|]. intro st. apply veo_ok.
Qed.
Lemma handle_end_ok tag cur : exists c, handle_end tag cur = Ok c.
Proof.
  destruct cur as [[|[[n s] k] fs] pk]; cbn [handle_end]; [eexists; reflexivity|].
  destruct (text_eqb n tag); eexists; reflexivity.
Qed.

Lemma handle_veo ts : forall cur, value_error_only (handle ts cur).
Proof.
  induction ts as [|t ts IH]; intro cur; cbn [handle]; [apply veo_ok|].
  destruct t as [d|n a|n|].
  - destruct cur as [frames pk]. cbn [handle_data]. apply IH.
  - apply veo_then; [apply handle_start_veo|exact IH].
  - destruct (handle_end_ok n cur) as (c & E). rewrite E. apply IH.
  - apply veo_unmodelled.
Qed.

Lemma parse_text_veo t : value_error_only (parse_text t).
Proof.
  apply veo_then; [apply handle_veo|]. intros [frames pk]. apply veo_ok.
Qed.

Definition stop_veo (r : stepres) : Prop := match r with Continue _ => True | Stop o => value_error_only o end.

Lemma finish_cue_veo s : stop_veo (finish_cue s).
Proof.
  unfold finish_cue. pose proof (parse_text_veo (rewrite_text (m_text s))) as H.
  destruct (parse_text _); cbn [stop_veo]; auto; try (intros e1 E; discriminate).
  intros e1 E. inversion E; subst. apply H. reflexivity.
Qed.

Lemma step_veo s l : stop_veo (step s l).
Proof.
  unfold step. destruct (m_mode s).
  - destruct (is_blank l); [exact I|]. destruct (negb _); [apply veo_none|exact I].
  - destruct (search_tc l); [|apply veo_none]. destruct (negb _); [apply veo_value|exact I].
  - destruct (is_blank l); [apply finish_cue_veo|exact I].
  - destruct (is_blank l); [apply finish_cue_veo|exact I].
Qed.

Lemma at_eof_veo s : value_error_only (at_eof s).
Proof.
  unfold at_eof. destruct (m_mode s); try apply veo_ok;
  (pose proof (finish_cue_veo s) as H; destruct (finish_cue s); [apply veo_ok|exact H]).
Qed.

Lemma run_veo ls : forall s, value_error_only (run ls s).
Proof.
  induction ls as [|l ls IH]; intro s; cbn [run]; [apply at_eof_veo|].
  pose proof (step_veo s l) as H. destruct (step s l); [apply IH|exact H].
Qed.

(* C10_only_value_error *)
Theorem only_value_error content :
  value_error_only (to_model content) /\ value_error_only (to_model_file content) /\
  value_error_only (read_cues content) /\ value_error_only (read_cues_file content).
Proof.
  unfold read_cues, read_cues_file, to_model_file, to_model.
  repeat split; try apply veo_map; apply run_veo.
Qed.

(* a color attribute without a value gives a span without colour; the second attribute decides when the first has
   no value; an empty value is a ValueError *)
Lemma font_novalue_examples :
  parse_text [60;102;111;110;116;32;99;111;108;111;114;62; 120; 60;47;102;111;110;116;62]                (* <font color>x</font> *)
    = Ok [ESpan st0 [ESpan st0 [EText [120]]]] /\
  parse_text [60;102;111;110;116;32;99;111;108;111;114;32;99;111;108;111;114;61;114;101;100;62; 120]      (* <font color color=red>x *)
    = Ok [ESpan (mkSt false false false (Some (255, 0, 0, 255))) [ESpan st0 [EText [120]]]] /\
  parse_text [60;102;111;110;116;32;99;111;108;111;114;61;34;34;62; 120] = Raised EValueError.            (* <font color="">x *)
Proof. vm_compute. repeat split. Qed.

(* the bound on the hour width in the grammar (wf_clock) is tight: a timing line whose begin or end hour field is longer
   than the interpreter converts makes to_model raise ValueError, whatever else the file holds *)
Theorem long_hours_value_error k1 k2 ws1 ws2 tail d tm att tx : clock_shape k1 = true -> clock_shape k2 = true ->
  ws1 <> [] -> forallb is_space ws1 = true -> ws2 <> [] -> forallb is_space ws2 = true ->
  int_max_str_digits < Z.of_nat (k_hw k1) \/ int_max_str_digits < Z.of_nat (k_hw k2) ->
  step (mkM TC d tm att tx) (print_clock k1 ++ ws1 ++ [45;45;62] ++ ws2 ++ print_clock k2 ++ tail) = Stop (Raised EValueError).
Proof.
  intros W1 W2 N1 S1 N2 S2 L. unfold step. cbn [m_mode]. rewrite !print_clock_text.
  change (clock_text (hours_text k1) (pad2 (k_m k1)) (pad2 (k_s k1)) (pad3 (k_ms k1)) ++ ws1 ++ [45;45;62] ++ ws2 ++
          clock_text (hours_text k2) (pad2 (k_m k2)) (pad2 (k_s k2)) (pad3 (k_ms k2)) ++ tail)
    with (timing_text (hours_text k1) (pad2 (k_m k1)) (pad2 (k_s k1)) (pad3 (k_ms k1)) ws1 ws2
                      (hours_text k2) (pad2 (k_m k2)) (pad2 (k_s k2)) (pad3 (k_ms k2)) tail).
  rewrite search_tc_spec by auto using clock_digits_shape.
  cbn [g_bh g_eh]. unfold int_converts.
  pose proof (hours_digits k1 W1) as (_ & L1 & _). pose proof (hours_digits k2 W2) as (_ & L2 & _). rewrite L1, L2.
  replace (negb _) with true; [reflexivity|]. symmetry. apply negb_true_iff. apply andb_false_iff. lia.
Qed.

(* parse_color matches the whole value (fullmatch) and rejects components above 255: every colour that it returns - named,
   hexadecimal, rgb(), rgba() - has its four components in 0..255, for EVERY attribute value *)
Theorem parse_color_bytes v c : parse_color v = Ok c -> bytes c = true.
Proof.
  unfold parse_color.
  destruct (match lower_key v with Some k => assoc k named_colors | None => None end) as [c'|] eqn:N.
  - intro H. injection H as <-. destruct (lower_key v); [eapply named_bytes; eauto|discriminate].
  - destruct (hex_color v) eqn:Hx; [intro H; injection H as <-; eapply hex_color_bytes; eauto|].
    destruct (dec_color v) as [o|] eqn:D; [apply components_bytes, (dec_color_components _ _ D)|].
    destruct (dec_colora v) as [o|] eqn:D'; [apply components_bytes, (dec_colora_components _ _ D')|discriminate].
Qed.
(* rejected: trailing characters, a component above 255, digits outside ASCII *)
Lemma parse_color_rejects :
  parse_color [35;48;48;102;102;48;48;120] = Raised EValueError /\                  (* #00ff00x *)
  parse_color [114;103;98;40;49;44;50;44;51;41;32] = Raised EValueError /\           (* "rgb(1,2,3) " *)
  parse_color [114;103;98;40;50;53;54;44;48;44;48;41] = Raised EValueError /\        (* rgb(256,0,0) *)
  parse_color [114;103;98;40;1633;44;50;44;51;41] = Raised EValueError /\            (* rgb(U+0661,2,3) *)
  parse_color [114;103;98;40;50;53;53;44;32;48;44;48;41] = Ok (255, 0, 0, 255) /\    (* rgb(255, 0,0) *)
  parse_color [98;108;97;99;8490] = Ok (0, 0, 0, 255).                               (* blac + KELVIN SIGN: str.lower gives black *)
Proof. vm_compute. repeat split. Qed.

(* hence the colour that a start tag gives its span - the only place where the reader sets a colour *)
Theorem tag_style_bytes tag attrs st c : tag_style tag attrs = Ok st -> st_c st = Some c -> bytes c = true.
Proof.
  unfold tag_style.
  repeat match goal with |- (if ?b then _ else _) = _ -> _ => destruct b; [intro H; injection H as <-; discriminate|] end.
  destruct (text_eqb (lower tag) t_font); [|intro H; injection H as <-; discriminate].
  destruct (find_color attrs) as [v|]; [|intro H; injection H as <-; discriminate].
  destruct (parse_color v) as [c'| | |] eqn:P; cbn [outcome_map]; try discriminate.
  intro H. injection H as <-. cbn [st_c]. intro E. injection E as <-. eapply parse_color_bytes; eauto.
Qed.
