(* C10: tag-free files whose last line may lack its terminator - the round trip does not depend on it. *)
From TT Require Import Base.Prelude Base.SrtTypes Model.SrtReader Spec.SrtCueSpec Proofs.C10.Roundtrip.

Theorem roundtrip_plain_file_any f : wf_file f = true -> plain_file f = true ->
  read_cues_file (print_file f) = Ok (cues f).
Proof. intros W _. apply roundtrip_file_full, W. Qed.
Theorem roundtrip_plain_stream_any f : wf_file f = true -> plain_file f = true ->
  read_cues (print_file f) = Ok (cues f).
Proof. intros W _. apply roundtrip_stream_full, W. Qed.
