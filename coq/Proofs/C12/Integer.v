(* C12: a rate r counts as SMPTE ST 12-1 prescribes for F numbers per second of which D are dropped per minute
   when to_frames r numbers the counting sequence of the spec (zero label to 0, succ to +1) and from_frames r
   undoes it on valid labels.  Round trip, validity, successor and the n-th label then follow by induction along
   the sequence, for unbounded n.  The integer rates count this way with D = 0. *)
From TT Require Import Base.Prelude Model.TimeCode Spec.Smpte12M.

Definition counts (r : rate) (F D : Z) : Prop :=
  0 <= D < F /\ to_frames r (0, 0, 0, 0) = 0 /\
  forall l, valid F D l -> to_frames r (succ F D l) = to_frames r l + 1 /\ from_frames r (to_frames r l) = l.

Lemma succ_valid F D l : 0 <= D < F -> valid F D l -> valid F D (succ F D l).
Proof.
  destruct l as [[[h m] s] f]. unfold valid, succ. intros HD (Hh & Hm & Hs & Hf & Hd).
  destruct (f + 1 <? F) eqn:E1; [lia|]. destruct (s + 1 <? 60) eqn:E2; [lia|].
  destruct (m + 1 <? 60) eqn:E3; [|lia]. destruct ((m + 1) mod 10 =? 0) eqn:E4; lia.
Qed.

Lemma succ_lt F D l : 0 <= D < F -> valid F D l -> lt_label l (succ F D l).
Proof.
  destruct l as [[[h m] s] f]. unfold valid, succ, lt_label. intros HD (Hh & Hm & Hs & Hf & Hd).
  destruct (f + 1 <? F) eqn:E1; [lia|]. destruct (s + 1 <? 60) eqn:E2; [lia|].
  destruct (m + 1 <? 60) eqn:E3; lia.
Qed.

Lemma lt_label_trans a b c : lt_label a b -> lt_label b c -> lt_label a c.
Proof. destruct a as [[[h1 m1] s1] f1], b as [[[h2 m2] s2] f2], c as [[[h3 m3] s3] f3]. unfold lt_label. lia. Qed.

Lemma label_spec_valid F D n : 0 <= D < F -> valid F D (label_spec F D n).
Proof.
  intros HD. induction n as [|n IH]; [|apply succ_valid; assumption].
  unfold label_spec, valid. cbn [iter_n]. change (0 mod 10) with 0. lia.
Qed.

Lemma label_spec_lt F D n k : 0 <= D < F -> lt_label (label_spec F D n) (label_spec F D (n + S k)).
Proof.
  intros HD. induction k as [|k IH]; rewrite Nat.add_succ_r.
  - rewrite Nat.add_0_r. apply succ_lt, label_spec_valid; assumption.
  - eapply lt_label_trans; [exact IH|]. apply succ_lt, label_spec_valid; assumption.
Qed.

Section Counts.
  Context {r : rate} {F D : Z} (C : counts r F D).

  Lemma to_frames_spec (n : nat) : to_frames r (label_spec F D n) = Z.of_nat n.
  Proof.
    destruct C as (HD & H0 & HS). induction n as [|n IH]; [exact H0|].
    change (label_spec F D (S n)) with (succ F D (label_spec F D n)).
    rewrite (proj1 (HS _ (label_spec_valid F D n HD))). lia.
  Qed.

  Lemma spec_counts (n : nat) : from_frames r (Z.of_nat n) = label_spec F D n.
  Proof. rewrite <- to_frames_spec. apply C, label_spec_valid, C. Qed.

  Lemma from_frames_nat n : 0 <= n -> from_frames r n = label_spec F D (Z.to_nat n).
  Proof. intros Hn. rewrite <- spec_counts, Z2Nat.id by assumption. reflexivity. Qed.

  Lemma rt_counts n : 0 <= n -> to_frames r (from_frames r n) = n.
  Proof. intros Hn. rewrite from_frames_nat, to_frames_spec by assumption. apply Z2Nat.id, Hn. Qed.

  Lemma valid_counts n : 0 <= n -> valid F D (from_frames r n).
  Proof. intros Hn. rewrite from_frames_nat by assumption. apply label_spec_valid, C. Qed.

  Lemma succ_counts n : 0 <= n -> from_frames r (n + 1) = succ F D (from_frames r n).
  Proof.
    intros Hn. rewrite !from_frames_nat by lia.
    replace (Z.to_nat (n + 1)) with (S (Z.to_nat n)) by lia. reflexivity.
  Qed.

  (* strictly increasing in display order, for any two frame counts *)
  Lemma lt_counts n m : 0 <= n < m -> lt_label (from_frames r n) (from_frames r m).
  Proof.
    intros H. rewrite !from_frames_nat by lia.
    replace (Z.to_nat m) with (Z.to_nat n + S (Z.to_nat (m - n - 1)))%nat by lia. apply label_spec_lt, C.
  Qed.
End Counts.

(* the number a label stands for: F per second, less the D numbers dropped at the start of every minute
   that is not a multiple of 10 (to_frames of a drop-frame rate, and of an integer rate when D = 0) *)
Definition count (F D : Z) (l : label) : Z :=
  let '(h, m, s, f) := l in (h * 3600 + m * 60 + s) * F + f - (D * 9 * (h * 6 + m / 10) + D * (m mod 10)).

Lemma count_zero F D : count F D (0, 0, 0, 0) = 0.
Proof. unfold count. change (0 / 10) with 0. change (0 mod 10) with 0. ring. Qed.

Lemma count_succ F D l : 0 <= D < F -> valid F D l -> count F D (succ F D l) = count F D l + 1.
Proof.
  destruct l as [[[h m] s] f]. unfold valid, succ, count. intros HD (Hh & Hm & Hs & Hf & _).
  destruct (f + 1 <? F) eqn:E1; [lia|]. replace f with (F - 1) by lia.
  destruct (s + 1 <? 60) eqn:E2; [lia|]. replace s with 59 by lia.
  destruct (m + 1 <? 60) eqn:E3.
  - (* into the next minute: D numbers are skipped unless it is a multiple of 10 *)
    destruct ((m + 1) mod 10 =? 0) eqn:E4.
    + replace ((m + 1) / 10) with (m / 10 + 1) by lia.
      replace ((m + 1) mod 10) with 0 by lia. replace (m mod 10) with 9 by lia. lia.
    + replace ((m + 1) / 10) with (m / 10) by lia. replace ((m + 1) mod 10) with (m mod 10 + 1) by lia. lia.
  - replace m with 59 by lia. change (59 / 10) with 5. change (59 mod 10) with 9.
    change (0 / 10) with 0. change (0 mod 10) with 0. lia.
Qed.

Lemma div_mod_eq b q r : 0 <= r < b -> (b * q + r) / b = q /\ (b * q + r) mod b = r.
Proof.
  intros H. split; symmetry; [apply Z.div_unique with r|apply Z.mod_unique with q]; auto.
Qed.

Lemma label_of_secs F a : 0 < F ->
  label_of F a = (a / F / 3600, (a / F / 60) mod 60, (a / F) mod 60, a mod F).
Proof.
  intros HF. unfold label_of. rewrite !Z.div_div by lia.
  replace (60 * 60 * F) with (F * 3600) by ring. replace (60 * F) with (F * 60) by ring. reflexivity.
Qed.

Lemma label_of_count F D l : valid F D l -> label_of F (count F 0 l) = l.
Proof.
  destruct l as [[[h m] s] f]. intros (Hh & Hm & Hs & Hf & _). unfold count.
  replace (_ - _) with (F * (h * 3600 + m * 60 + s) + f) by ring.
  rewrite label_of_secs by lia. destruct (div_mod_eq F (h * 3600 + m * 60 + s) f Hf) as [-> ->].
  repeat f_equal; lia.
Qed.

Lemma counts_of_count r F D : 0 <= D < F -> (forall l, to_frames r l = count F D l) ->
  (forall l, valid F D l -> from_frames r (count F D l) = l) -> counts r F D.
Proof.
  intros HD T I. split; [assumption|]. split; [rewrite T; apply count_zero|].
  intros l Hl. rewrite !T. split; [apply count_succ|apply I]; assumption.
Qed.

Lemma counts_int F : 0 < F -> counts (mkRate F 1) F 0.
Proof.
  intros HF. apply counts_of_count; [lia| |].
  - intros [[[h m] s] f]. unfold to_frames, count. cbn [is_df rn rd Z.eqb Pos.eqb]. rewrite Z.div_1_r. ring.
  - intros l Hl. unfold from_frames, adjust, ndf, ceil_div. cbn [is_df rn rd Z.eqb Pos.eqb].
    rewrite Z.div_1_r, Z.opp_involutive. apply label_of_count with 0, Hl.
Qed.

Lemma counts24 : counts r24 24 0.  Proof. exact (counts_int 24 eq_refl). Qed.
Lemma counts25 : counts r25 25 0.  Proof. exact (counts_int 25 eq_refl). Qed.
Lemma counts30 : counts r30 30 0.  Proof. exact (counts_int 30 eq_refl). Qed.
Lemma counts50 : counts r50 50 0.  Proof. exact (counts_int 50 eq_refl). Qed.
Lemma counts60 : counts r60 60 0.  Proof. exact (counts_int 60 eq_refl). Qed.

Lemma rt24 n : 0 <= n -> to_frames r24 (from_frames r24 n) = n.  Proof. exact (rt_counts counts24 n). Qed.
Lemma rt25 n : 0 <= n -> to_frames r25 (from_frames r25 n) = n.  Proof. exact (rt_counts counts25 n). Qed.
Lemma rt30 n : 0 <= n -> to_frames r30 (from_frames r30 n) = n.  Proof. exact (rt_counts counts30 n). Qed.
Lemma rt50 n : 0 <= n -> to_frames r50 (from_frames r50 n) = n.  Proof. exact (rt_counts counts50 n). Qed.
