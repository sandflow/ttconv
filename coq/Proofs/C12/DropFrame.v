(* C12: the drop-frame rates 30000/1001 and 60000/1001 count as SMPTE ST 12-1 prescribes (Integer.v), for unbounded n.
   With M = 60 F numbers per minute of which D are dropped, a ten-minute block holds T = 10 M - 9 D frames: M in its
   first minute, O = M - D in each of the other nine.  A frame count written as T t + O k + r (block t, minute k of
   the block, r within the minute, D <= r unless k = 0) is adjusted to 10 M t + M k + r; to_frames of a valid label
   has that form. *)
From TT Require Import Base.Prelude Model.TimeCode Spec.Smpte12M Proofs.C12.Integer.

Lemma adjust_c_nf M D t k r : 0 <= D < M -> 0 <= k <= 9 -> 0 <= r < M -> (1 <= k -> D <= r) ->
  adjust_c (10 * M - 9 * D) (M - D) D ((10 * M - 9 * D) * t + ((M - D) * k + r)) = 10 * M * t + M * k + r.
Proof.
  intros HD Hk Hr Hkr. unfold adjust_c.
  destruct (div_mod_eq (10 * M - 9 * D) t ((M - D) * k + r)) as [-> ->]; [nia|].
  destruct (Z.eq_dec k 0) as [->|Hk0].
  - (* first minute of the block: nothing to add *)
    rewrite Z.mul_0_r, Z.add_0_l.
    assert (H : (r - D) / (M - D) < 1) by (apply Z.div_lt_upper_bound; lia).
    destruct ((r - D) / (M - D) <? 0) eqn:E; lia.
  - replace ((M - D) * k + r - D) with ((M - D) * k + (r - D)) by ring.
    destruct (div_mod_eq (M - D) k (r - D)) as [-> _]; [lia|].
    replace (k <? 0) with false by lia. ring.
Qed.

Lemma adjust_c_count F D l : 0 <= D < F -> valid F D l ->
  adjust_c (600 * F - 9 * D) (60 * F - D) D (count F D l) = count F 0 l.
Proof.
  destruct l as [[[h m] s] f]. intros HD (Hh & Hm & Hs & Hf & Hd). unfold count.
  pose proof (Z.div_mod m 10 ltac:(lia)) as Em. pose proof (Z.mod_pos_bound m 10 ltac:(lia)) as Hk.
  set (q := m / 10) in *. set (k := m mod 10) in *. clearbody q k. subst m.
  replace (600 * F) with (10 * (60 * F)) by ring.
  replace (_ - (D * 9 * _ + D * k))
    with ((10 * (60 * F) - 9 * D) * (h * 6 + q) + ((60 * F - D) * k + (s * F + f))) by ring.
  rewrite adjust_c_nf; [ring|lia|lia|nia|].
  intros Hk1. destruct (Z.eq_dec s 0) as [->|]; [lia|nia].
Qed.

Lemma counts_df r F D : is_df r = true -> ndf r = F -> drop_per_minute r = D ->
  ten_minutes r = 600 * F - 9 * D -> one_minute r = 60 * F - D -> 0 <= D < F -> counts r F D.
Proof.
  intros Hdf HF HDr HT HO HD. apply counts_of_count; [assumption| |].
  - intros [[[h m] s] f]. unfold to_frames. rewrite Hdf, HF, HDr. reflexivity.
  - intros l Hl. unfold from_frames, adjust. rewrite Hdf, HF, HDr, HT, HO, adjust_c_count by assumption.
    apply label_of_count with D, Hl.
Qed.

Lemma counts2997 : counts r2997 30 2.  Proof. apply counts_df; (reflexivity || lia). Qed.
Lemma counts5994 : counts r5994 60 4.  Proof. apply counts_df; (reflexivity || lia). Qed.

Lemma rt2997 n : 0 <= n -> to_frames r2997 (from_frames r2997 n) = n.  Proof. exact (rt_counts counts2997 n). Qed.

(* 24000/1001: the code's "drop-frame" treatment does not round-trip (recorded finding df-23976) *)
Lemma rt23976_refuted : exists n, 0 <= n /\ to_frames r23976 (from_frames r23976 n) <> n.
Proof. exists 15826. split; [lia|]. vm_compute. discriminate. Qed.
