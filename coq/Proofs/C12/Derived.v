(* C12: the counting sequence at each rate, and what holds at any rate: add_frames and offsets from the round trip, frame
   boundaries, parse of print, ClockTime's half-even millisecond rounding. *)
From TT Require Import Base.Prelude Model.TimeCode Spec.Smpte12M.
From TT Require Import Proofs.C12.Integer Proofs.C12.DropFrame.

Lemma spec24 n : from_frames r24 (Z.of_nat n) = label_spec 24 0 n.  Proof. exact (spec_counts counts24 n). Qed.
Lemma spec25 n : from_frames r25 (Z.of_nat n) = label_spec 25 0 n.  Proof. exact (spec_counts counts25 n). Qed.
Lemma spec30 n : from_frames r30 (Z.of_nat n) = label_spec 30 0 n.  Proof. exact (spec_counts counts30 n). Qed.
Lemma spec50 n : from_frames r50 (Z.of_nat n) = label_spec 50 0 n.  Proof. exact (spec_counts counts50 n). Qed.
Lemma spec60 n : from_frames r60 (Z.of_nat n) = label_spec 60 0 n.  Proof. exact (spec_counts counts60 n). Qed.
Lemma spec2997 n : from_frames r2997 (Z.of_nat n) = label_spec 30 2 n.  Proof. exact (spec_counts counts2997 n). Qed.

Section Add.
  Variable r : rate.
  Hypothesis Hrt : forall n, 0 <= n -> to_frames r (from_frames r n) = n.
  Lemma add_frames_iter_gen (k : nat) l : 0 <= to_frames r l ->
    iter_n k (add_frames r 1) l = (if (k =? 0)%nat then l else add_frames r (Z.of_nat k) l).
  Proof.
    intros H0. induction k as [|k IH]; [reflexivity|].
    cbn [iter_n]. rewrite IH. destruct k as [|k]; [reflexivity|].
    cbn [Nat.eqb]. unfold add_frames. rewrite Hrt by lia. f_equal. lia.
  Qed.
  Lemma offset_gen n : 0 <= n -> to_temporal_offset r (from_frames r n) = (n * rd r, rn r).
  Proof. intros H. unfold to_temporal_offset. rewrite Hrt by assumption. reflexivity. Qed.
End Add.

Lemma boundary_gen r k : 0 < rn r -> 0 < rd r -> from_seconds r (k * rd r) (rn r) = from_frames r k.
Proof.
  intros Hn Hd. unfold from_seconds. f_equal.
  replace (k * rd r * rn r) with (k * (rn r * rd r)) by ring.
  apply Z.div_mul. lia.
Qed.
(* more generally from_seconds is floor(seconds * fps) *)
Lemma from_seconds_floor r sn sd k : 0 < rn r -> 0 < rd r -> 0 < sd ->
  k * (sd * rd r) <= sn * rn r < (k + 1) * (sd * rd r) -> from_seconds r sn sd = from_frames r k.
Proof.
  intros Hn Hd Hs H. unfold from_seconds. f_equal.
  symmetry. apply Z.div_unique with (r := sn * rn r - k * (sd * rd r)); nia.
Qed.

(* one step of the printer, the fuel left abstract *)
Lemma digits_fuel_S k n acc :
  digits_fuel (S k) n acc = if n <? 10 then digit n :: acc else digits_fuel k (n / 10) (digit (n mod 10) :: acc).
Proof. reflexivity. Qed.

Lemma pad2_two n : 0 <= n < 100 -> pad2 n = [digit (n / 10); digit (n mod 10)].
Proof.
  intros H. unfold pad2. destruct (n <? 10) eqn:E.
  - replace (n / 10) with 0 by lia. replace (n mod 10) with n by lia. reflexivity.
  - rewrite digits_fuel_S, E, digits_fuel_S. replace (n / 10 <? 10) with true by lia. reflexivity.
Qed.
Lemma two_digits_digit a b : 0 <= a <= 9 -> 0 <= b <= 9 -> two_digits (digit a) (digit b) = Some (a * 10 + b).
Proof.
  intros Ha Hb. unfold two_digits, is_digit, digit.
  replace ((48 <=? 48 + a) && (48 + a <=? 57) && ((48 <=? 48 + b) && (48 + b <=? 57))) with true by lia.
  f_equal. lia.
Qed.
Lemma two_digits_pad n : 0 <= n < 100 -> two_digits (digit (n / 10)) (digit (n mod 10)) = Some n.
Proof. intros H. rewrite two_digits_digit by lia. f_equal. lia. Qed.

Lemma parse_print_gen r F D l :
  0 < rn r -> 0 < rd r -> valid F D l -> F <= 100 -> (let '(h, _, _, _) := l in h < 100) ->
  parse_tc (print_tc r l) r = Some (l, r).
Proof.
  destruct l as [[[h m] s] f]. intros Hn Hd (Hh & Hm & Hs & Hf & _) HF Hh'.
  unfold print_tc. rewrite !pad2_two by lia. cbn [app]. unfold parse_tc.
  destruct (is_df r) eqn:Edf.
  - (* ';' before the frames: the NDF pattern fails, the DF pattern matches, rate unchanged *)
    unfold match_tc at 1. change (colon =? colon) with true. change (semicolon =? colon) with false. cbn [andb].
    unfold is_df in Edf. rewrite Edf.
    unfold match_tc. change (negb (colon =? newline)) with true. change (negb (semicolon =? newline)) with true. cbn [andb].
    rewrite !two_digits_pad by lia. reflexivity.
  - unfold match_tc. change (colon =? colon) with true. cbn [andb].
    rewrite !two_digits_pad by lia. reflexivity.
Qed.

Lemma round_he_cases n d : 0 < d ->
  let m := round_he n d in
  (m = n / d \/ m = n / d + 1) /\ 2 * Z.abs (m * d - n) <= d /\ (2 * Z.abs (m * d - n) = d -> Z.even m = true).
Proof.
  intros Hd. cbv zeta. unfold round_he.
  pose proof (Z.div_mod n d ltac:(lia)) as E. pose proof (Z.mod_pos_bound n d Hd) as B.
  set (q := n / d) in *. set (r := n mod d) in *. clearbody q r.
  assert (E' : forall k, (q + k) * d - n = k * d - r) by (intros; rewrite E; ring).
  destruct (2 * r <? d) eqn:E1.
  - pose proof (E' 0) as H. rewrite Z.add_0_r in H. rewrite H, Z.mul_0_l. split; [auto|]. split; lia.
  - destruct (d <? 2 * r) eqn:E2.
    + rewrite (E' 1). rewrite Z.mul_1_l. split; [auto|]. split; lia.
    + destruct (Z.even q) eqn:E3.
      * pose proof (E' 0) as H. rewrite Z.add_0_r in H. rewrite H, Z.mul_0_l. split; [auto|]. split; [lia|auto].
      * rewrite (E' 1). rewrite Z.mul_1_l. split; [auto|]. split; [lia|].
        intros _. rewrite Z.even_add. rewrite E3. reflexivity.
Qed.

(* error at most half a millisecond:  |ms - 1000 * n/d| <= 1/2 *)
Lemma clock_nearest n d : 0 < d -> 2 * Z.abs (clock_ms n d * d - 1000 * n) <= d.
Proof. intros Hd. unfold clock_ms. apply (round_he_cases (1000 * n) d Hd). Qed.

Lemma clock_fields_range ms : 0 <= ms ->
  let '(h, m, s, f) := clock_fields ms in
  0 <= h /\ 0 <= m < 60 /\ 0 <= s < 60 /\ 0 <= f < 1000 /\ ((h * 60 + m) * 60 + s) * 1000 + f = ms.
Proof. intros H. unfold clock_fields. lia. Qed.

Lemma clock_ms_nonneg n d : 0 < d -> 0 <= n -> 0 <= clock_ms n d.
Proof.
  intros Hd Hn. unfold clock_ms. destruct (round_he_cases (1000 * n) d Hd) as [[H|H] _]; rewrite H.
  - apply Z.div_pos; lia.
  - assert (0 <= 1000 * n / d) by (apply Z.div_pos; lia). lia.
Qed.

Lemma clock_ms_exact k : clock_ms k 1000 = k.
Proof. unfold clock_ms, round_he. replace (1000 * k / 1000) with k by lia. replace ((1000 * k) mod 1000) with 0 by lia. reflexivity. Qed.

Lemma round_he_mono n1 d1 n2 d2 : 0 < d1 -> 0 < d2 -> n1 * d2 <= n2 * d1 -> round_he n1 d1 <= round_he n2 d2.
Proof.
  intros H1 H2 Hle.
  destruct (round_he_cases n1 d1 H1) as (_ & A1 & T1). destruct (round_he_cases n2 d2 H2) as (_ & A2 & T2).
  set (m1 := round_he n1 d1) in *. set (m2 := round_he n2 d2) in *. clearbody m1 m2.
  destruct (Z_le_gt_dec m1 m2) as [|Hgt]; [assumption|exfalso].
  assert (U1 : 2 * (m1 * d1 - n1) <= d1) by lia.
  assert (U2 : 2 * (n2 - m2 * d2) <= d2) by lia.
  assert (P : 0 < d1 * d2) by nia.
  assert (V1 : 2 * m1 * (d1 * d2) <= d1 * d2 + 2 * (n1 * d2)) by nia.
  assert (V2 : 2 * (n2 * d1) <= d1 * d2 + 2 * m2 * (d1 * d2)) by nia.
  assert (W : 2 * m1 * (d1 * d2) <= 2 * (m2 + 1) * (d1 * d2)) by nia.
  assert (Em : m1 = m2 + 1) by nia.
  subst m1.
  assert (X1 : 2 * ((m2 + 1) * d1 - n1) = d1) by nia.
  assert (X2 : 2 * (n2 - m2 * d2) = d2) by nia.
  assert (Ev1 : Z.even (m2 + 1) = true) by (apply T1; lia).
  assert (Ev2 : Z.even m2 = true) by (apply T2; lia).
  rewrite Z.even_add in Ev1. rewrite Ev2 in Ev1. discriminate.
Qed.

Lemma clock_monotone n1 d1 n2 d2 : 0 < d1 -> 0 < d2 -> n1 * d2 <= n2 * d1 -> clock_ms n1 d1 <= clock_ms n2 d2.
Proof. intros. unfold clock_ms. apply round_he_mono; try assumption. nia. Qed.
