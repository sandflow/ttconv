(* C06: the leaves of a snapshot OUTSIDE ruby annotations (`base_leaves`: what the writers carry) are exactly the leaves the per-leaf
   TTML specification of C01 selects whose chain of ancestors holds no rt / rtc / rp — i.e. the visible text `vis false` of
   Spec/CueSpec.v.  The development of Proofs/C01/Lwsp.v and Proofs/C01/Main.v (white-space handling is conservative, snapshot
   generation = per-leaf selection) at the selection that skips rt, rtc and rp. *)
From TT Require Import Model.Doc Gen.StyleTables Model.Isd Model.SigTimes Model.IsdFilters Spec.IsdSpec Spec.CueSpec.
From TT Require Import Model.TimeCode Gen.CueTables Model.CueWriter Model.CueTriggers.
From TT Require Import Proofs.Common.ElemInd Proofs.Common.StyleFrame Proofs.Common.Walk Proofs.C01.Leaves Proofs.C01.Display Proofs.C01.Lwsp Proofs.C01.Main.
From TT Require Import Proofs.C06.Filters Proofs.C06.Inline Proofs.C06.Strip Proofs.C06.Loop Proofs.C06.Text Proofs.C06.Shape Proofs.C06.SpecLink.

Definition base_spec (d : doc) (t : Q) (r : attrs) (sel : option text) : list leaf :=
  let riv := resolve root_interval (e_begin r) (e_end r) in
  if is_active t riv && displayed d t riv r then
    match d_body d with
    | None => []
    | Some b => flat_map (fun c => leaf_of (last c r))
                         (filter (fun c => chain_visible d t sel root_interval None c && negb (is_annotation c)) (chains b))
    end
  else [].
Theorem region_base d t sel r res :
  e_kind (eattrs r) = KRegion ->
  match d_body d with Some b => leaf_wf b = true | None => True end ->
  proc_region d t sel r = Ok res -> match res with Some x => base_leaves x | None => [] end = base_spec d t (eattrs r) sel.
Proof. exact (region_sel_leaves annot_kind base_leaves (sel_leaves_node annot_kind) (conj eq_refl eq_refl) eq_refl d t sel r res). Qed.
Theorem isd_base d t rs :
  Forall (fun r => e_kind (eattrs r) = KRegion) (d_regions d) ->
  match d_body d with Some b => leaf_wf b = true | None => True end ->
  isd d t = Ok rs ->
  flat_map base_leaves rs = flat_map (fun r => base_spec d t (eattrs r) (region_sel d r)) (doc_regions d).
Proof.
  intros Hk Hwf. apply isd_flat_map. intros r o Hr. exact (region_base d t _ r o (doc_regions_kind d Hk r Hr) Hwf).
Qed.

(* S to S: `vis false` holds exactly the non-blank characters of these leaves *)
Theorem vis_base d t :
  match d_body d with Some b => leaves_in_p b = true | None => True end ->
  tok_chars (vis false d t) = nb (flat_map leaf_chars (flat_map (fun r => base_spec d t (eattrs r) (region_sel d r)) (doc_regions d))).
Proof. exact (vis_spec false d t). Qed.

Lemma snapshot_vis_base d t regions :
  Forall (fun r => e_kind (eattrs r) = KRegion) (d_regions d) ->
  match d_body d with Some bd => leaf_wf bd = true /\ leaves_in_p bd = true | None => True end ->
  isd d t = Ok regions -> visc (flat_map base_text regions) = visc (tok_chars (vis false d t)).
Proof.
  intros Hk Hb Hi. destruct (body_wf_split d _ _ Hb) as [Hb1 Hb2].
  rewrite (vis_base d t Hb2), visc_nb, <- (isd_base d t regions Hk Hb1 Hi).
  unfold base_text, sel_text. rewrite <- (flat_map_flat_map (sel_leaves annot_kind) leaf_chars). reflexivity.
Qed.

(* C06, end to end for an (uncached) snapshot, ruby included: what the writers put into the cues of the snapshot at t is the visible
   text Spec/CueSpec.v prescribes for t under the reading "annotation text is not part of the payload" *)
Theorem srt_snapshot_base d t fmt b en n regions cs n' :
  Forall (fun r => e_kind (eattrs r) = KRegion) (d_regions d) ->
  match d_body d with Some bd => leaf_wf bd = true /\ leaves_in_p bd = true | None => True end ->
  isd d t = Ok regions -> snapshot_shape regions = true -> srt_sees_all (apply_filters srt_filters regions) = true ->
  srt_add_isd fmt b en (apply_filters srt_filters regions) n = (cs, n') ->
  visc (flat_map Model.CueTriggers.cue_chars cs) = visc (tok_chars (vis false d t)).
Proof.
  intros Hk Hb Hi Hs Hok Hc. rewrite (srt_snapshot_text _ _ _ _ _ _ _ Hc Hs Hok). exact (snapshot_vis_base d t regions Hk Hb Hi).
Qed.
Theorem vtt_snapshot_base d t cfg fs b en st regions cs st' :
  Forall (fun r => e_kind (eattrs r) = KRegion) (d_regions d) ->
  match d_body d with Some bd => leaf_wf bd = true /\ leaves_in_p bd = true | None => True end ->
  vtt_filters cfg = Some fs -> isd d t = Ok regions -> snapshot_shape regions = true -> vtt_sees_all (apply_filters fs regions) = true ->
  vtt_regions cfg b en (apply_filters fs regions) st = Ok (cs, st') ->
  visc (flat_map Model.CueTriggers.cue_chars cs) = visc (tok_chars (vis false d t)).
Proof.
  intros Hk Hb Hfs Hi Hs Hok Hc. rewrite <- (snapshot_vis_base d t regions Hk Hb Hi).
  refine (snapshot_text vtt_blank vtt_sees_all fs b en regions cs _ (Proofs.C06.Loop.vtt_add_isd_spec cfg b en _ st cs st' Hc) Hs Hok).
  destruct (vtt_filters_form cfg fs Hfs) as (c0 & d0 & E). eauto.
Qed.
