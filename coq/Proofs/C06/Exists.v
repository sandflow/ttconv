(* C06: which cues exist.  Every cue the writers write holds visible text; a snapshot that shows visible text gets a cue (nothing is
   dropped); a snapshot that shows none gets no cue (the blank test looks at the text without its tags). *)
From TT Require Import Model.Doc Gen.StyleTables Model.Isd Model.SigTimes Model.TimeCode Model.IsdFilters Gen.CueTables Model.CueWriter.
From TT Require Import Model.CueTriggers Spec.IsdSpec Proofs.C06.Filters Proofs.C06.Inline Proofs.C06.Strip Proofs.C06.Loop Proofs.C06.Text.

Lemma nonblank_visc c : nonblank c -> visc (cue_chars c) <> [].
Proof. unfold nonblank. intros H E. apply only_whitespace_visc in E. rewrite E in H. discriminate. Qed.

Theorem group_exists blank sees_all fs t next regions cs :
  group_ok blank sees_all fs t next regions cs -> snapshot_shape regions = true -> sees_all (apply_filters fs regions) = true ->
  (visc (flat_map base_text regions) <> [] -> cs <> []) /\
  (visc (flat_map base_text regions) = [] -> cs = []).
Proof.
  intros (_ & Hk & Ht) Hs Hok. specialize (Ht Hs Hok). split.
  - intros Hne ->. apply Hne. rewrite <- Ht. reflexivity.
  - intros He. rewrite He in Ht. destruct cs as [|c cs]; [reflexivity|]. exfalso.
    cbn [flat_map] in Ht. rewrite visc_app in Ht. apply app_eq_nil in Ht as [Hc _].
    inversion Hk as [|? ? [_ Kc] _]; subst. exact (nonblank_visc c Kc Hc).
Qed.

Theorem srt_cues_exist fmt seq cs : srt_cues fmt seq = Ok cs ->
  cue_groups (fun _ _ regions group =>
                snapshot_shape regions = true -> srt_sees_all (apply_filters srt_filters regions) = true ->
                (visc (flat_map base_text regions) <> [] -> group <> []) /\
                (visc (flat_map base_text regions) = [] -> group = [])) seq cs.
Proof.
  intros H. eapply cue_groups_impl; [|exact (srt_cues_groups fmt seq cs H)]. intros t n r x G Hs Hok. exact (group_exists _ _ _ _ _ _ _ G Hs Hok).
Qed.
Theorem vtt_cues_exist cfg fs seq cs css : vtt_filters cfg = Some fs -> vtt_cues cfg seq = Ok (cs, css) ->
  cue_groups (fun _ _ regions group =>
                snapshot_shape regions = true -> vtt_sees_all (apply_filters fs regions) = true ->
                (visc (flat_map base_text regions) <> [] -> group <> []) /\
                (visc (flat_map base_text regions) = [] -> group = [])) seq cs.
Proof.
  intros Hfs H. eapply cue_groups_impl; [|exact (vtt_cues_groups cfg fs seq cs css Hfs H)]. intros t n r x G Hs Hok. exact (group_exists _ _ _ _ _ _ _ G Hs Hok).
Qed.

(* every cue of the output holds a character that is not white space — for every snapshot sequence, no hypothesis *)
Lemma cue_groups_forall (P : cue -> Prop) (R : Q -> option Q -> list elem -> list cue -> Prop) : (forall t n r cs, R t n r cs -> Forall P cs) -> forall seq cs, cue_groups R seq cs -> Forall P cs.
Proof. intros H seq cs G. induction G; [constructor|]. apply Forall_app. split; [eapply H; eassumption | assumption]. Qed.
Lemma groups_nonblank blank sees_all fs seq cs :
  cue_groups (group_ok blank sees_all fs) seq cs -> Forall (fun c => visc (cue_chars c) <> []) cs.
Proof.
  apply cue_groups_forall. intros t n r x (_ & Hk & _). eapply Forall_impl; [|exact Hk]. intros c [_ K]. exact (nonblank_visc c K).
Qed.
Theorem srt_cues_nonblank fmt seq cs : srt_cues fmt seq = Ok cs -> Forall (fun c => visc (cue_chars c) <> []) cs.
Proof. intros H. exact (groups_nonblank _ _ _ seq cs (srt_cues_groups fmt seq cs H)). Qed.
Theorem vtt_cues_nonblank cfg seq cs css : vtt_cues cfg seq = Ok (cs, css) -> Forall (fun c => visc (cue_chars c) <> []) cs.
Proof.
  intros H. destruct (vtt_cues_filters _ _ _ H) as [fs Hfs]. exact (groups_nonblank _ _ _ seq cs (vtt_cues_groups cfg fs seq cs css Hfs H)).
Qed.
