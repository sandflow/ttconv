(* C06: the blank test of the writers (is_only_whitespace / is_only_whitespace_or_empty: the paragraph text WITHOUT its
   tags is empty or white space) decides exactly whether the characters of the paragraph are all white space:
     cue_blank strip esc c = only_whitespace (cue_chars c)
   for every cue whose tags are tags the writer emits — WebVTT: always (text is escaped, so every "<" of the payload opens a tag);
   SubRip: when no character of the text is "<" (SubRip has no escape mechanism: a "<" of the text may read as markup).
   Method: normalize_eol only deletes line terminators (`del`, Proofs/C06/Inline.v) and none inside a tag, the payload stays a flattened item list, and on
   such a list the transcribed regular expressions remove exactly the tag items. *)
From TT Require Import Model.Doc Gen.StyleTables Model.Isd Model.SigTimes Model.TimeCode Model.IsdFilters Gen.CueTables Model.CueWriter.
From TT Require Import Model.CueTriggers Spec.IsdSpec Proofs.Common.ElemInd Proofs.C01.Lwsp Proofs.C06.Filters Proofs.C06.Inline.

Definition no_eol (t : text) : Prop := forall x, In x t -> is_eol x = false.
Lemma del_prefix a : no_eol a -> forall b t', del (a ++ b) t' -> exists t'', t' = a ++ t'' /\ del b t''.
Proof.
  induction a as [|c a IH]; intros Ha b t' H; [exists t'; split; [reflexivity | exact H]|].
  cbn [app] in H. inversion H as [|? ? t1 H1|? ? ? Hc H1]; subst.
  - destruct (IH (fun x Hx => Ha x (or_intror Hx)) b t1 H1) as (t'' & -> & Hd). exists t''. split; [reflexivity | exact Hd].
  - rewrite (Ha c (or_introl eq_refl)) in Hc. discriminate.
Qed.

Inductive del_items : list item -> list item -> Prop :=
| di_nil : del_items [] []
| di_keep i l l' : del_items l l' -> del_items (i :: l) (i :: l')
| di_drop c l l' : is_eol c = true -> del_items l l' -> del_items (IChr c :: l) l'.

Definition items_ok (tag_ok : text -> Prop) (l : list item) : Prop :=
  Forall (fun i => match i with ITag t => tag_ok t | IChr _ => True end) l.
Lemma items_ok_app tag_ok a b : items_ok tag_ok a -> items_ok tag_ok b -> items_ok tag_ok (a ++ b).
Proof. intros Ha Hb. apply Forall_app. split; assumption. Qed.

Lemma items_ok_wraps tag_ok ps l : Forall (fun p => tag_ok (fst p) /\ tag_ok (snd p)) ps -> items_ok tag_ok l -> items_ok tag_ok (wraps ps l).
Proof.
  intros H Hl. induction H as [|p ps [Ho Hc] _ IH]; [rewrite wraps_nil; exact Hl|]. rewrite wraps_cons.
  constructor; [exact Ho | apply items_ok_app; [exact IH | constructor; [exact Hc | constructor]]].
Qed.
Lemma items_ok_impl (P Q : text -> Prop) l : (forall t, P t -> Q t) -> items_ok P l -> items_ok Q l.
Proof. intros H Hl. eapply Forall_impl; [|exact Hl]. intros [t|c] Hi; [apply H, Hi | exact I]. Qed.
Lemma inline_items_ok tag_ok inline pairs : (forall a cs, inline (Elem a cs) = inline_node pairs (flat_map inline cs) a) ->
  (forall a, Forall (fun p => tag_ok (fst p) /\ tag_ok (snd p)) (pairs a)) -> forall l, items_ok tag_ok (flat_map inline l).
Proof.
  intros Hw Hp. apply (inlines_shape _ _ Hw); [constructor | intros c; constructor; [exact I | constructor] | apply items_ok_app|].
  intros a l H. apply items_ok_wraps; [apply Hp | exact H].
Qed.

Lemma del_items_ok tag_ok l l' : del_items l l' -> items_ok tag_ok l -> items_ok tag_ok l'.
Proof.
  intros H. induction H as [|i l l' H IH|c l l' Hc H IH]; intros Hl; [exact Hl | |].
  - inversion Hl; subst. constructor; [assumption | apply IH; assumption].
  - inversion Hl; subst. apply IH. assumption.
Qed.
Lemma del_items_chars l l' : del_items l l' -> del (chars_of l) (chars_of l').
Proof.
  intros H. induction H as [|i l l' H IH|c l l' Hc H IH]; [constructor | |].
  - destruct i as [t|c]; [exact IH | change (del (c :: chars_of l) (c :: chars_of l')); constructor; exact IH].
  - change (del (c :: chars_of l) (chars_of l')). apply del_drop; assumption.
Qed.

(* the escape function: a line terminator is itself, nothing else gives one *)
Definition esc_eol (esc : Z -> text) : Prop := forall c, if is_eol c then esc c = [c] else no_eol (esc c).
Lemma esc_none_eol : esc_eol esc_none.
Proof. intros c. destruct (is_eol c) eqn:E; [reflexivity|]. intros x [<-|[]]. exact E. Qed.
Lemma esc_vtt_eol : esc_eol esc_vtt.
Proof.
  intros c. unfold esc_vtt. destruct (c =? 38) eqn:E1; [apply Z.eqb_eq in E1; subst c; cbn; intros x Hx; repeat (destruct Hx as [<-|Hx]; [reflexivity|]); destruct Hx|].
  destruct (c =? 60) eqn:E2; [apply Z.eqb_eq in E2; subst c; cbn; intros x Hx; repeat (destruct Hx as [<-|Hx]; [reflexivity|]); destruct Hx|].
  destruct (is_eol c) eqn:E; [reflexivity|]. intros x [<-|[]]. exact E.
Qed.

Section Lift.
  Variable esc : Z -> text.
  Variable tag_ok : text -> Prop.
  Hypothesis He : esc_eol esc.
  Hypothesis tag_no_eol : forall t, tag_ok t -> no_eol t.

  Lemma del_flat : forall l, items_ok tag_ok l -> forall t', del (flat esc l) t' -> exists l', del_items l l' /\ t' = flat esc l'.
  Proof.
    induction l as [|i l IH]; intros Hl t' H.
    - inversion H; subst. exists []. split; [constructor | reflexivity].
    - inversion Hl as [|? ? Hi Hl']; subst. destruct i as [t|c].
      + change (flat esc (ITag t :: l)) with (t ++ flat esc l) in H.
        destruct (del_prefix t (tag_no_eol t Hi) _ _ H) as (t'' & -> & Hd). destruct (IH Hl' t'' Hd) as (l' & Hl2 & ->).
        exists (ITag t :: l'). split; [constructor; exact Hl2 | reflexivity].
      + change (flat esc (IChr c :: l)) with (esc c ++ flat esc l) in H. pose proof (He c) as Hc. destruct (is_eol c) eqn:Ec.
        * rewrite Hc in H. cbn [app] in H. inversion H as [|? ? t1 H1|? ? ? _ H1]; subst.
          -- destruct (IH Hl' t1 H1) as (l' & Hl2 & ->). exists (IChr c :: l'). split; [constructor; exact Hl2|].
             change (flat esc (IChr c :: l')) with (esc c ++ flat esc l'). rewrite Hc. reflexivity.
          -- destruct (IH Hl' t' H1) as (l' & Hl2 & ->). exists l'. split; [apply di_drop; assumption | reflexivity].
        * destruct (del_prefix (esc c) Hc _ _ H) as (t'' & -> & Hd). destruct (IH Hl' t'' Hd) as (l' & Hl2 & ->).
          exists (IChr c :: l'). split; [constructor; exact Hl2 | reflexivity].
  Qed.

  (* the regular expression removes exactly the tag items *)
  Variable strip : text -> text.
  Variable chr_ok : Z -> Prop.
  Hypothesis strip_nil : strip [] = [].
  Hypothesis strip_tag : forall t rest, tag_ok t -> strip (t ++ rest) = strip rest.
  Hypothesis strip_chr : forall c rest, chr_ok c -> strip (esc c ++ rest) = esc c ++ strip rest.
  Hypothesis Hws : esc_ws esc.

  Lemma strip_flat : forall l, items_ok tag_ok l -> (forall c, In c (chars_of l) -> chr_ok c) ->
    strip (flat esc l) = flat_map esc (chars_of l).
  Proof.
    induction l as [|i l IH]; intros Hl Hc; [exact strip_nil|]. inversion Hl as [|? ? Hi Hl']; subst. destruct i as [t|c].
    - change (flat esc (ITag t :: l)) with (t ++ flat esc l). rewrite (strip_tag _ _ Hi). apply IH; [exact Hl' | exact Hc].
    - change (flat esc (IChr c :: l)) with (esc c ++ flat esc l). change (chars_of (IChr c :: l)) with (c :: chars_of l) in *.
      rewrite strip_chr by (apply Hc; left; reflexivity). cbn [flat_map]. f_equal. apply IH; [exact Hl'|].
      intros x Hx. apply Hc. right. exact Hx.
  Qed.

  Theorem blank_exact c : items_ok tag_ok (c_items c) -> (forall x, In x (cue_chars c) -> chr_ok x) ->
    cue_blank strip esc c = only_whitespace (cue_chars c).
  Proof.
    intros Hl Hc. unfold cue_blank, cue_text, cue_chars in *.
    destruct (del_flat _ Hl _ (del_normalize (flat esc (c_items c)))) as (l' & Hd & ->).
    rewrite (strip_flat l' (del_items_ok _ _ _ Hd Hl)).
    - rewrite (only_whitespace_esc esc Hws). apply del_ws, del_items_chars, Hd.
    - intros x Hx. apply Hc. exact (del_in _ _ (del_items_chars _ _ Hd) x Hx).
  Qed.
End Lift.

Lemma hex_digit_range d : 0 <= d < 16 -> 48 <= hex_digit d <= 102 /\ hex_digit d <> 60 /\ hex_digit d <> 62.
Proof. intros H. unfold hex_digit. destruct (d <? 10) eqn:E; lia. Qed.
Definition plain_char (x : Z) : Prop := x <> 34 /\ x <> 60 /\ x <> 62 /\ x <> 10 /\ x <> 13.
Lemma hex2_plain b : 0 <= b < 256 -> Forall plain_char (hex2 b).
Proof.
  intros H. unfold hex2. assert (H1 : 0 <= b / 16 < 16) by lia. assert (H2 : 0 <= b mod 16 < 16) by lia.
  pose proof (hex_digit_range _ H1). pose proof (hex_digit_range _ H2). repeat constructor; lia.
Qed.
Lemma hex8_plain c : Forall plain_char (hex8 c).
Proof.
  unfold hex8. repeat (apply Forall_app; split); apply hex2_plain; lia.
Qed.
Lemma hex8_shape c : exists h1 h2 h3 h4 h5 h6 h7 h8, hex8 c = [h1; h2; h3; h4; h5; h6; h7; h8].
Proof. unfold hex8, hex2. cbn [app]. repeat eexists. Qed.

Definition srt_tag_ok (t : text) : Prop :=
  t = srt_BOLD_TAG_IN \/ t = srt_BOLD_TAG_OUT \/ t = srt_ITALIC_TAG_IN \/ t = srt_ITALIC_TAG_OUT \/
  t = srt_UNDERLINE_TAG_IN \/ t = srt_UNDERLINE_TAG_OUT \/ t = srt_FONT_COLOR_TAG_OUT \/
  exists rgba, t = srt_FONT_COLOR_TAG_IN_pre ++ color_string rgba ++ srt_FONT_COLOR_TAG_IN_suf.

Lemma no_eol_forall t : Forall (fun x => is_eol x = false) t -> no_eol t.
Proof. intros H x Hx. rewrite Forall_forall in H. apply H, Hx. Qed.
Lemma plain_not_eol x : plain_char x -> is_eol x = false.
Proof. unfold plain_char, is_eol. intros H. apply orb_false_iff. split; apply Z.eqb_neq; lia. Qed.
Lemma srt_tag_no_eol t : srt_tag_ok t -> no_eol t.
Proof.
  intros H. apply no_eol_forall. unfold srt_tag_ok in H.
  repeat (destruct H as [->|H]; [repeat constructor|]). destruct H as [rgba ->].
  repeat (apply Forall_app; split); [repeat constructor | | repeat constructor].
  constructor; [reflexivity|]. exact (Forall_impl _ plain_not_eol (hex8_plain rgba)).
Qed.

Lemma strip_srt_skip : forall k a rest, length a = k -> strip_srt_go k (a ++ rest) = strip_srt_go O rest.
Proof.
  induction k as [|k IH]; intros a rest Ha; [destruct a; [reflexivity | discriminate]|].
  destruct a as [|c a]; [discriminate|]. cbn [app strip_srt_go]. apply IH. injection Ha as Ha. exact Ha.
Qed.
Lemma strip_srt_go_cons c t : strip_srt_go O (c :: t) = match srt_tag_len (c :: t) with Some (S k) => strip_srt_go k t | _ => c :: strip_srt_go O t end.
Proof. reflexivity. Qed.
Lemma take_until_app q : forall v rest, Forall (fun x => x <> q) v -> take_until q (v ++ q :: rest) = v.
Proof.
  induction v as [|c v IH]; intros rest H; cbn [app take_until]; [rewrite Z.eqb_refl; reflexivity|].
  inversion H; subst. replace (c =? q) with false by (symmetry; apply Z.eqb_neq; assumption). f_equal. apply IH. assumption.
Qed.
Lemma skipn_app_len {A} (a b : list A) : skipn (length a) (a ++ b) = b.
Proof. induction a; [reflexivity | exact IHa]. Qed.
Lemma srt_tag_len_font v rest : Forall (fun x => x <> 34) v ->
  srt_tag_len (srt_font_open ++ v ++ 34 :: 62 :: rest) = Some (13 + length v + 2)%nat.
Proof.
  intros Hv. unfold srt_tag_len, srt_font_open. cbn [app starts nth skipn Z.eqb Pos.eqb andb orb is_biu].
  rewrite (take_until_app 34 v (62 :: rest) Hv), skipn_app_len. reflexivity.
Qed.
Lemma strip_srt_tag t rest : srt_tag_ok t -> strip_srt (t ++ rest) = strip_srt rest.
Proof.
  intros H. unfold srt_tag_ok in H. unfold strip_srt.
  repeat (destruct H as [->|H]; [reflexivity|]).
  destruct H as [rgba ->]. unfold color_string.
  set (v := 35 :: hex8 rgba).
  assert (Hv : Forall (fun x => x <> 34) v) by (constructor; [discriminate | exact (Forall_impl _ (fun x Hx => proj1 Hx) (hex8_plain rgba))]).
  assert (Hl : length v = 9%nat) by (unfold v; destruct (hex8_shape rgba) as (? & ? & ? & ? & ? & ? & ? & ? & ->); reflexivity).
  change (srt_FONT_COLOR_TAG_IN_pre ++ v ++ srt_FONT_COLOR_TAG_IN_suf) with (srt_font_open ++ v ++ [34; 62]).
  rewrite <- !app_assoc. change (([34; 62] ++ rest)) with (34 :: 62 :: rest).
  pose proof (srt_tag_len_font v rest Hv) as L. rewrite Hl in L.
  change (srt_font_open ++ v ++ 34 :: 62 :: rest) with (60 :: (tl srt_font_open ++ v ++ [34; 62]) ++ rest) in *.
  rewrite strip_srt_go_cons, L. apply strip_srt_skip. rewrite !app_length, Hl. reflexivity.
Qed.
Lemma strip_srt_chr c rest : c <> 60 -> strip_srt (esc_none c ++ rest) = esc_none c ++ strip_srt rest.
Proof.
  intros Hc. unfold strip_srt, esc_none. cbn [app]. rewrite strip_srt_go_cons. unfold srt_tag_len. cbn [starts].
  replace (60 =? c) with false by (symmetry; apply Z.eqb_neq; lia). reflexivity.
Qed.

Theorem srt_blank_exact c : items_ok srt_tag_ok (c_items c) -> ~ In 60 (cue_chars c) -> srt_blank c = only_whitespace (cue_chars c).
Proof.
  intros Hl Hc. apply (blank_exact esc_none srt_tag_ok esc_none_eol srt_tag_no_eol strip_srt (fun x => x <> 60)); try assumption.
  - reflexivity.
  - intros t rest Ht. apply strip_srt_tag, Ht.
  - intros x rest Hx. apply strip_srt_chr, Hx.
  - exact esc_none_ws.
  - intros x Hx E. subst x. exact (Hc Hx).
Qed.
(* all white space: no "<" among the characters *)
Corollary srt_blank_complete c : items_ok srt_tag_ok (c_items c) -> only_whitespace (cue_chars c) = true -> srt_blank c = true.
Proof.
  intros Hl Hw. rewrite srt_blank_exact; [exact Hw | exact Hl|]. intros H. unfold only_whitespace in Hw. rewrite forallb_forall in Hw.
  specialize (Hw 60 H). discriminate.
Qed.

(* "<" body ">" with neither ">" nor a line terminator in the body *)
Definition vtt_tag_ok (t : text) : Prop := exists body, t = 60 :: body ++ [62] /\ (forall x, In x body -> x <> 62 /\ is_eol x = false).

Lemma vtt_tag_no_eol t : vtt_tag_ok t -> no_eol t.
Proof.
  intros (body & -> & Hb) x [<-|Hx]; [reflexivity|]. apply in_app_iff in Hx as [Hx|[<-|[]]]; [apply Hb, Hx | reflexivity].
Qed.
Lemma strip_vtt_body : forall body b rest, (forall x, In x body -> x <> 62) ->
  strip_vtt_go (Some b) (body ++ 62 :: rest) = strip_vtt_go None rest.
Proof.
  induction body as [|c body IH]; intros b rest Hb; [reflexivity|]. cbn [app strip_vtt_go].
  replace (c =? 62) with false by (symmetry; apply Z.eqb_neq, Hb; left; reflexivity). apply IH. intros x Hx. apply Hb. right. exact Hx.
Qed.
Lemma strip_vtt_tag t rest : vtt_tag_ok t -> strip_vtt (t ++ rest) = strip_vtt rest.
Proof.
  intros (body & -> & Hb). unfold strip_vtt. cbn [app strip_vtt_go Z.eqb Pos.eqb]. rewrite <- app_assoc. cbn [app].
  apply strip_vtt_body. intros x Hx. apply Hb, Hx.
Qed.
Lemma strip_vtt_plain : forall t rest, ~ In 60 t -> strip_vtt_go None (t ++ rest) = t ++ strip_vtt_go None rest.
Proof.
  induction t as [|c t IH]; intros rest H; [reflexivity|]. cbn [app strip_vtt_go].
  replace (c =? 60) with false by (symmetry; apply Z.eqb_neq; intros ->; apply H; left; reflexivity).
  f_equal. apply IH. intros Hx. apply H. right. exact Hx.
Qed.
Lemma esc_vtt_no_lt c : ~ In 60 (esc_vtt c).
Proof.
  unfold esc_vtt. destruct (c =? 38); [cbn; intuition discriminate|]. destruct (c =? 60) eqn:E; [cbn; intuition discriminate|].
  intros [H|[]]. subst c. discriminate.
Qed.

Theorem vtt_blank_exact c : items_ok vtt_tag_ok (c_items c) -> vtt_blank c = only_whitespace (cue_chars c).
Proof.
  intros Hl. apply (blank_exact esc_vtt vtt_tag_ok esc_vtt_eol vtt_tag_no_eol strip_vtt (fun _ => True)); try assumption.
  - reflexivity.
  - intros t rest Ht. apply strip_vtt_tag, Ht.
  - intros x rest _. apply strip_vtt_plain, esc_vtt_no_lt.
  - exact esc_vtt_ws.
  - intros x _. exact I.
Qed.

Theorem srt_inlines_items fmt l : items_ok srt_tag_ok (flat_map (srt_inline fmt) l).
Proof.
  apply (inline_items_ok _ _ _ (srt_inline_wraps fmt)). intros a.
  apply srt_span_pairs_forall; [intros c|..]; split; unfold srt_tag_ok; cbn [fst snd]; eauto 10.
Qed.

Lemma assoc_z_in {A} (l : list (Z * A)) k v : assoc_z l k = Some v -> In v (map snd l).
Proof.
  induction l as [|[k' v'] l IH]; [discriminate|]. cbn [assoc_z map snd]. destruct (k =? k'); [intros H; injection H as <-; left; reflexivity|].
  intros H. right. apply IH, H.
Qed.
(* a class name: not empty, no ".", no blank, no "<", ">", line terminator *)
Definition name_char_b (x : Z) : bool :=
  negb (x =? 46) && negb (x =? 32) && negb (x =? 9) && negb (x =? 60) && negb (x =? 62) && negb (x =? 10) && negb (x =? 13).
Definition name_ok (n : text) : Prop := n <> [] /\ forallb name_char_b n = true.
Lemma name_char_facts x : name_char_b x = true -> x <> 46 /\ x <> 32 /\ x <> 9 /\ x <> 60 /\ x <> 62 /\ x <> 10 /\ x <> 13.
Proof. unfold name_char_b. lia. Qed.
Lemma hex2_name b : 0 <= b < 256 -> forallb name_char_b (hex2 b) = true.
Proof.
  intros H. unfold hex2. assert (H1 : 0 <= b / 16 < 16) by lia. assert (H2 : 0 <= b mod 16 < 16) by lia.
  pose proof (hex_digit_range _ H1). pose proof (hex_digit_range _ H2). cbn [forallb]. unfold name_char_b. lia.
Qed.
Lemma hex8_name c : forallb name_char_b (hex8 c) = true.
Proof. unfold hex8. rewrite !forallb_app, !hex2_name by lia. reflexivity. Qed.
Lemma class_name_ok bg c : name_ok (class_name bg c).
Proof.
  unfold class_name. destruct (assoc_z _ c) as [n|] eqn:E.
  - apply assoc_z_in in E.
    assert (T : forallb (fun n => negb (match n with [] => true | _ => false end) && forallb name_char_b n)
                        (map snd (if bg then vtt_default_background_colors else vtt_default_text_colors)) = true) by (destruct bg; vm_compute; reflexivity).
    rewrite forallb_forall in T. specialize (T n E). apply andb_true_iff in T as [T1 T2]. split; [destruct n; [discriminate | discriminate]|exact T2].
  - split.
    + destruct bg; discriminate.
    + rewrite forallb_app, hex8_name, andb_true_r. destruct bg; vm_compute; reflexivity.
Qed.

(* a character allowed in a class name is a fortiori allowed between "<" and ">" *)
Lemma vtt_tag_of body : forallb name_char_b body = true -> vtt_tag_ok (60 :: body ++ [62]).
Proof.
  intros H. exists body. split; [reflexivity|]. intros x Hx. rewrite forallb_forall in H.
  destruct (name_char_facts x (H x Hx)) as (_ & _ & _ & _ & A & B & C). split; [exact A|]. unfold is_eol. lia.
Qed.
Lemma vtt_class_tag (bg : bool) c : vtt_tag_ok ((if bg then vtt_BG_COLOR_TAG_IN_pre else vtt_COLOR_TAG_IN_pre) ++ class_name bg c ++
                                       (if bg then vtt_BG_COLOR_TAG_IN_suf else vtt_COLOR_TAG_IN_suf)).
Proof.
  exists (99 :: 46 :: class_name bg c). split; [destruct bg; reflexivity|].
  intros x [<-|[<-|Hx]]; [split; [discriminate | reflexivity] | split; [discriminate | reflexivity]|].
  destruct (class_name_ok bg c) as [_ Hc]. rewrite forallb_forall in Hc.
  destruct (name_char_facts x (Hc x Hx)) as (_ & _ & _ & _ & A & B & C). split; [exact A|]. unfold is_eol. lia.
Qed.
Theorem vtt_inlines_items l s : items_ok vtt_tag_ok (fst (vtt_inlines l s)).
Proof.
  rewrite vtt_inlines_indep. apply (inline_items_ok _ _ _ vtt_items_wraps). intros a. apply vtt_span_pairs_forall; cbn [fst snd].
  - intros c. split; [apply (vtt_class_tag false) | exact (vtt_tag_of [47; 99] eq_refl)].
  - intros c. split; [apply (vtt_class_tag true) | exact (vtt_tag_of [47; 99] eq_refl)].
  - split; [exact (vtt_tag_of [98] eq_refl) | exact (vtt_tag_of [47; 98] eq_refl)].
  - split; [exact (vtt_tag_of [105] eq_refl) | exact (vtt_tag_of [47; 105] eq_refl)].
  - split; [exact (vtt_tag_of [117] eq_refl) | exact (vtt_tag_of [47; 117] eq_refl)].
Qed.
