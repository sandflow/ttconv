(* C06: the visible text of Spec/CueSpec.v (`vis annot`: per region, per paragraph, the tokens of the visible leaf chains, with or
   without those below ruby annotations) holds exactly the non-blank characters of the leaves the per-leaf specification selects
   (`ann_spec annot`; with annotations that is C01's `leaves_spec`) — so the text theorems of Proofs/C06/Text.v, stated over snapshot
   leaves, are statements about `vis`. *)
From TT Require Import Model.Doc Gen.StyleTables Model.Isd Model.SigTimes Model.IsdFilters Spec.IsdSpec Spec.CueSpec.
From TT Require Import Model.TimeCode Gen.CueTables Model.CueWriter Model.CueTriggers.
From TT Require Import Proofs.Common.ElemInd Proofs.C01.Main Proofs.C06.Filters Proofs.C06.Inline Proofs.C06.Loop Proofs.C06.Text.

Definition tok_chars (l : list tok) : text := flat_map (fun k => match k with TChr c => [c] | _ => [] end) l.
Lemma tok_chars_app a b : tok_chars (a ++ b) = tok_chars a ++ tok_chars b.
Proof. apply flat_map_app. Qed.

(* the characters that are not blank (white space in the wide sense of Spec/CueSpec.v) *)
Definition nb (l : text) : text := filter (fun c => negb (blank_char c)) l.
Lemma nb_app a b : nb (a ++ b) = nb a ++ nb b.
Proof. apply filter_app. Qed.
Lemma nb_flat_map {A} (f : A -> text) l : nb (flat_map f l) = flat_map (fun x => nb (f x)) l.
Proof. induction l as [|x l IH]; [reflexivity|]. cbn [flat_map]. rewrite nb_app, IH. reflexivity. Qed.
Lemma space_blank c : is_space c = true -> blank_char c = true.
Proof. unfold is_space. intros H. repeat (apply orb_true_iff in H as [H|H]); apply Z.eqb_eq in H; subst c; reflexivity. Qed.
Lemma nb_nonspace t : nb (nonspace t) = nb t.
Proof.
  induction t as [|c t IH]; [reflexivity|]. unfold nonspace, nb in *. cbn [filter]. destruct (is_space c) eqn:E; cbn [negb].
  - rewrite (space_blank c E). cbn [negb]. exact IH.
  - cbn [filter]. destruct (negb (blank_char c)); [f_equal|]; exact IH.
Qed.
(* blank and str.isspace are the same set of code points *)
Lemma py_isspace_blank c : py_isspace c = blank_char c.
Proof. reflexivity. Qed.
Lemma visc_nb l : visc (nb l) = visc l.
Proof.
  unfold visc, nb, visible. induction l as [|c l IH]; [reflexivity|]. cbn [filter]. rewrite <- py_isspace_blank.
  destruct (py_isspace c) eqn:E; cbn [negb]; [exact IH|]. cbn [filter]. rewrite E. cbn [negb]. f_equal. exact IH.
Qed.

Lemma tok_chars_text pre : forall t, tok_chars (map (char_tok pre) t) = nb t.
Proof.
  induction t as [|c t IH]; [reflexivity|]. cbn [map]. change (tok_chars (char_tok pre c :: map (char_tok pre) t))
    with ((match char_tok pre c with TChr x => [x] | _ => [] end) ++ tok_chars (map (char_tok pre) t)).
  rewrite IH. unfold nb. cbn [filter]. unfold char_tok. destruct (is_space c) eqn:E.
  - rewrite (space_blank c E). cbn [negb]. destruct (pre && ((c =? 10) || (c =? 13))); reflexivity.
  - destruct (blank_char c); reflexivity.
Qed.

Lemma chain_toks_leaf r c : c <> [] -> tok_chars (chain_toks c) = nb (flat_map leaf_chars (leaf_of (last c r))).
Proof.
  intros Hc. unfold chain_toks. destruct c as [|a0 c0] using rev_ind; [congruence|]. clear IHc0.
  rewrite rev_unit, last_last. unfold leaf_of. destruct (e_kind a0); try reflexivity.
  rewrite tok_chars_text. destruct (nonspace (e_text a0)) eqn:En.
  - rewrite <- nb_nonspace, En. reflexivity.
  - cbn [flat_map leaf_chars]. rewrite app_nil_r, <- En. symmetry. apply nb_nonspace.
Qed.

(* all Br/Text leaves sit inside paragraphs *)
Fixpoint leaves_in_p (e : elem) : bool :=
  match e with
  | Elem a cs =>
      match e_kind a with
      | KP => true
      | KBr | KText => false
      | _ => (fix go (l : list elem) : bool := match l with [] => true | c :: l' => leaves_in_p c && go l' end) cs
      end
  end.
Lemma concat_map_map {A B} (f : A -> B) (l : list (list A)) : concat (map (map f) l) = map f (concat l).
Proof. induction l as [|x l IH]; [reflexivity|]. cbn [map concat]. rewrite map_app, IH. reflexivity. Qed.
Lemma pgroups_chains : forall e, leaves_in_p e = true -> concat (pgroups e) = chains e.
Proof.
  induction e as [a cs IH] using elem_ind2. intros H. rewrite chains_node. cbn [pgroups leaves_in_p] in *.
  destruct (e_kind a) eqn:Ek; try discriminate.
  all: try (rewrite concat_map_map; f_equal;
            assert (G : (fix go (l : list elem) : list (list (list attrs)) := match l with [] => [] | c :: l' => pgroups c ++ go l' end) cs
                        = flat_map pgroups cs) by reflexivity;
            rewrite G; clear G; induction cs as [|c cs IHcs]; [reflexivity|];
            inversion IH as [|? ? Hc Hcs]; subst; apply andb_true_iff in H as [H1 H2];
            cbn [flat_map]; rewrite concat_app, (Hc H1), (IHcs Hcs H2); reflexivity).
  (* p *) cbn [concat]. rewrite app_nil_r, chains_node, Ek. reflexivity.
Qed.

Lemma filter_concat {A} (p : A -> bool) (l : list (list A)) : filter p (concat l) = concat (map (filter p) l).
Proof. induction l as [|x l IH]; [reflexivity|]. cbn [concat map]. rewrite filter_app, IH. reflexivity. Qed.

(* the leaves the per-leaf specification selects in region r at t, with (`ann`) or without those below ruby annotations *)
Definition ann_spec (ann : bool) (d : doc) (t : Q) (r : attrs) (sel : option text) : list leaf :=
  let riv := resolve root_interval (e_begin r) (e_end r) in
  if is_active t riv && displayed d t riv r then
    match d_body d with
    | None => []
    | Some b => flat_map (fun c => leaf_of (last c r))
                         (filter (fun c => chain_visible d t sel root_interval None c && (ann || negb (is_annotation c))) (chains b))
    end
  else [].
Lemma ann_spec_true d t r sel : ann_spec true d t r sel = leaves_spec d t r sel.
Proof.
  unfold ann_spec, leaves_spec. destruct (_ && _); [|reflexivity]. destruct (d_body d); [|reflexivity].
  f_equal. apply filter_ext. intros c. apply andb_true_r.
Qed.

(* whatever chains are selected: the tokens of the selection are the non-blank characters of its leaves *)
Lemma group_toks p r : forall g, (forall c, In c g -> c <> []) ->
  tok_chars (flat_map chain_toks (filter p g)) = nb (flat_map leaf_chars (flat_map (fun c => leaf_of (last c r)) (filter p g))).
Proof.
  induction g as [|c g IHg]; intros Hg; [reflexivity|]. specialize (IHg (fun c' Hc' => Hg c' (or_intror Hc'))). cbn [filter].
  destruct (p c); [|exact IHg]. cbn [flat_map].
  rewrite tok_chars_app, flat_map_app, nb_app, (chain_toks_leaf r c (Hg c (or_introl eq_refl))), IHg. reflexivity.
Qed.

Theorem region_toks_spec ann d t r sel :
  match d_body d with Some b => leaves_in_p b = true | None => True end ->
  tok_chars (region_toks ann d t r sel) = nb (flat_map leaf_chars (ann_spec ann d t r sel)).
Proof.
  intros Hb. unfold region_toks, ann_spec.
  destruct (is_active t (resolve root_interval (e_begin r) (e_end r)) && displayed d t (resolve root_interval (e_begin r) (e_end r)) r); [|reflexivity].
  destruct (d_body d) as [b|]; [|reflexivity].
  assert (Hcn : forall c, In c (concat (pgroups b)) -> c <> []) by (rewrite (pgroups_chains b Hb); apply chains_nonempty).
  rewrite <- (pgroups_chains b Hb), filter_concat. revert Hcn. generalize (pgroups b). intros G Hcn.
  assert (Hcn' : forall g c, In g G -> In c g -> c <> []) by (intros g c Hg Hc; apply Hcn, in_concat; exists g; split; assumption).
  clear Hcn. induction G as [|g G IH]; [reflexivity|]. cbn [flat_map map concat].
  rewrite !tok_chars_app, !flat_map_app, nb_app. cbn [tok_chars flat_map app]. rewrite app_nil_r.
  rewrite IH by (intros g' c Hg' Hc; apply (Hcn' g' c); [right; exact Hg' | exact Hc]). f_equal.
  apply group_toks. intros c Hc. apply (Hcn' g c); [left; reflexivity | exact Hc].
Qed.

(* the whole visible text of the specification at t = the leaves the per-leaf specification selects, region by region *)
Theorem vis_spec ann d t :
  match d_body d with Some b => leaves_in_p b = true | None => True end ->
  tok_chars (vis ann d t) = nb (flat_map leaf_chars (flat_map (fun r => ann_spec ann d t (eattrs r) (region_sel d r)) (doc_regions d))).
Proof.
  intros Hb. unfold vis, spec_regions, doc_regions, region_sel. destruct (d_regions d) as [|r0 l0].
  - cbn [flat_map]. rewrite !app_nil_r, tok_chars_app. cbn [tok_chars flat_map app]. rewrite app_nil_r.
    apply (region_toks_spec ann d t spec_default_region None Hb).
  - generalize (r0 :: l0). intros l. induction l as [|r l IH]; [reflexivity|]. cbn [map flat_map fst snd].
    rewrite !tok_chars_app, flat_map_app, nb_app, IH. cbn [tok_chars flat_map app]. rewrite app_nil_r. f_equal. apply (region_toks_spec ann d t (eattrs r) _ Hb).
Qed.
Theorem vis_leaves d t :
  match d_body d with Some b => leaves_in_p b = true | None => True end ->
  tok_chars (vis true d t) = nb (flat_map leaf_chars (flat_map (fun r => leaves_spec d t (eattrs r) (region_sel d r)) (doc_regions d))).
Proof.
  intros Hb. rewrite (vis_spec true d t Hb). do 2 f_equal. apply flat_map_ext_in. intros r _. apply ann_spec_true.
Qed.

(* the text the cues of one snapshot hold, whichever writer wrote them *)
Lemma snapshot_text blank sees fs b en regions cs : (exists m c d, fs = writer_filters m c d) ->
  snapshot_spec blank sees fs b en regions cs -> snapshot_shape regions = true -> sees (apply_filters fs regions) = true ->
  visc (flat_map cue_chars cs) = visc (flat_map base_text regions).
Proof. intros (m & c & d & ->) [_ H] Hs Hok. rewrite (H Hok), (filters_preserve_base m c d regions Hs). reflexivity. Qed.
Lemma srt_snapshot_text fmt b en n regions cs n' :
  srt_add_isd fmt b en (apply_filters srt_filters regions) n = (cs, n') -> snapshot_shape regions = true ->
  srt_sees_all (apply_filters srt_filters regions) = true -> visc (flat_map cue_chars cs) = visc (flat_map base_text regions).
Proof.
  intros Hc. refine (snapshot_text srt_blank srt_sees_all srt_filters b en regions cs _ _).
  - destruct srt_filters_form as (c & d & E). eauto.
  - exact (Proofs.C06.Loop.srt_add_isd_spec fmt b en _ n cs n' Hc).
Qed.
Lemma body_wf_split d (P Q : elem -> Prop) :
  match d_body d with Some bd => P bd /\ Q bd | None => True end ->
  match d_body d with Some bd => P bd | None => True end /\ match d_body d with Some bd => Q bd | None => True end.
Proof. destruct (d_body d); [exact (fun H => H) | split; exact I]. Qed.

(* C06, end to end for an (uncached) snapshot: what the SubRip writer puts into the cues of the snapshot at t is the visible text
   Spec/CueSpec.v prescribes for t — stated here for snapshots without annotation text (then `vis true` = `vis false`); the general
   case is Proofs/C06/BaseSpec.v *)
Theorem srt_snapshot_spec d t fmt b en n regions cs n' :
  Forall (fun r => e_kind (eattrs r) = KRegion) (d_regions d) ->
  match d_body d with Some bd => leaf_wf bd = true /\ leaves_in_p bd = true | None => True end ->
  isd d t = Ok regions -> snapshot_shape regions = true -> srt_sees_all (apply_filters srt_filters regions) = true ->
  flat_map base_text regions = flat_map leaves_text regions ->
  srt_add_isd fmt b en (apply_filters srt_filters regions) n = (cs, n') ->
  visc (flat_map Model.CueTriggers.cue_chars cs) = visc (tok_chars (vis true d t)).
Proof.
  intros Hk Hb Hi Hs Hok Hna Hc. destruct (body_wf_split d _ _ Hb) as [Hb1 Hb2].
  rewrite (srt_snapshot_text _ _ _ _ _ _ _ Hc Hs Hok), Hna, (vis_leaves d t Hb2), visc_nb, <- (isd_leaves d t regions Hk Hb1 Hi).
  unfold leaves_text. rewrite <- (flat_map_flat_map shown_leaves leaf_chars). reflexivity.
Qed.
