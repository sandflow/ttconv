(* C06: structure of the writers' loops.  Induction over the snapshot sequence, then over the tree: the cue list is the
   concatenation, snapshot by snapshot, of cues that all carry that snapshot's interval, all hold visible text, and together hold
   that snapshot's text (outside ruby annotations). *)
From TT Require Import Model.Doc Gen.StyleTables Model.Isd Model.SigTimes Model.TimeCode Model.IsdFilters Gen.CueTables Model.CueWriter.
From TT Require Import Model.CueTriggers Spec.IsdSpec Proofs.Common.ElemInd Proofs.C01.Lwsp Proofs.C06.Filters Proofs.C06.Inline Proofs.C06.Strip.

(* a cue the writer keeps: its blank test failed, and (hence) its characters are not all white space *)
Definition nonblank (c : cue) : Prop := only_whitespace (cue_chars c) = false.
Definition cues_at (blank : cue -> bool) (b : Z) (en : option Z) (cs : list cue) : Prop :=
  Forall (fun c => c_begin c = b /\ c_end c = en /\ blank c = false /\ nonblank c) cs.

(* what a walk over a piece of the snapshot holding the text `txt` has produced: cues over [b, en) that were kept and, when the
   dispatch loses nothing below that piece (`ok`), hold the visible characters of `txt` *)
Definition block_spec (blank : cue -> bool) (b : Z) (en : option Z) (ok : bool) (txt : text) (cs : list cue) : Prop :=
  cues_at blank b en cs /\ (ok = true -> visc (flat_map cue_chars cs) = visc txt).

Section BlockSpec.
  Variables (blank : cue -> bool) (b : Z) (en : option Z).
  Lemma block_spec_nil : block_spec blank b en true [] [].
  Proof. split; [constructor | reflexivity]. Qed.
  Lemma block_spec_app o1 o2 t1 t2 x y :
    block_spec blank b en o1 t1 x -> block_spec blank b en o2 t2 y -> block_spec blank b en (o1 && o2) (t1 ++ t2) (x ++ y).
  Proof.
    intros [A1 A2] [B1 B2]. split; [apply Forall_app; split; assumption|]. intros Hok. apply andb_true_iff in Hok as [O1 O2].
    rewrite flat_map_app, !visc_app, (A2 O1), (B2 O2). reflexivity.
  Qed.
  (* an element the dispatch has no case for *)
  Lemma block_spec_skip txt : block_spec blank b en (is_nil txt) txt [].
  Proof. split; [constructor|]. intros H. rewrite (is_nil_eq _ H). reflexivity. Qed.
  (* a paragraph: its cue goes if the blank test says so; the test never keeps white space, and is exact when `ok` *)
  Lemma block_spec_cue ok txt c : c_begin c = b -> c_end c = en ->
    (only_whitespace (cue_chars c) = true -> blank c = true) ->
    (ok = true -> blank c = only_whitespace (cue_chars c) /\ visc (cue_chars c) = visc txt) ->
    block_spec blank b en ok txt (if blank c then [] else [c]).
  Proof.
    intros Hb He Hws Hok. destruct (blank c) eqn:Ew.
    - split; [constructor|]. intros O. destruct (Hok O) as [E <-]. symmetry. apply only_whitespace_visc. rewrite <- E. reflexivity.
    - split.
      + constructor; [|constructor]. repeat split; try assumption.
        unfold nonblank. destruct (only_whitespace (cue_chars c)); [discriminate (Hws eq_refl) | reflexivity].
      + intros O. cbn [flat_map]. rewrite app_nil_r. apply Hok, O.
  Qed.
End BlockSpec.

(* SubRip only (lt = true): no "<" in the text of a paragraph — SubRip has no escape mechanism, and the blank test of the writer,
   which removes what reads as a tag, is exact only then (Proofs/C06/Strip.v) *)
Definition lt_free (cs : list elem) : bool := negb (existsb (Z.eqb 60) (flat_map base_text cs)).
Fixpoint wblock_ok (lt : bool) (e : elem) : bool :=
  match e with
  | Elem a cs =>
      match e_kind a with
      | KDiv => (fix go (l : list elem) : bool := match l with [] => true | c :: l' => wblock_ok lt c && go l' end) cs
      | KP => forallb inline_ok cs && (negb lt || lt_free cs)
      | _ => is_nil (base_text e)
      end
  end.
Lemma wblock_ok_node lt a cs :
  wblock_ok lt (Elem a cs) = match e_kind a with
                             | KDiv => forallb (wblock_ok lt) cs
                             | KP => forallb inline_ok cs && (negb lt || lt_free cs)
                             | _ => is_nil (base_text (Elem a cs))
                             end.
Proof. cbn [wblock_ok]. destruct (e_kind a); reflexivity. Qed.

(* what a block element must yield, whatever walks it: a division the text of its children, a paragraph that of its inline content,
   anything else nothing *)
Lemma wblock_spec blank b en lt a cs x :
  match e_kind a with
  | KDiv => block_spec blank b en (forallb (wblock_ok lt) cs) (flat_map base_text cs) x
  | KP => block_spec blank b en (forallb inline_ok cs && (negb lt || lt_free cs)) (flat_map base_text cs) x
  | _ => x = []
  end -> block_spec blank b en (wblock_ok lt (Elem a cs)) (base_text (Elem a cs)) x.
Proof.
  rewrite wblock_ok_node. destruct (e_kind a) eqn:Ek; try (intros ->; apply block_spec_skip); rewrite base_text_node, Ek; exact (fun H => H).
Qed.

(* A relation P between the state before, the cues written and the state after, indexed by a summary (in a monoid) of what was
   walked, that holds of nothing written and of concatenations.  What holds of each step holds of a list of steps, and what holds
   of paragraphs holds of the dispatch over block elements: a division hands its children on, a paragraph goes to `para`, anything
   else is ignored. *)
Section Walk.
  Context {St M : Type} (unit : M) (op : M -> M -> M).
  Variable P : M -> St -> list cue -> St -> Prop.
  Hypothesis P_nil : forall st, P unit st [] st.
  Hypothesis P_app : forall m1 m2 st x s1 y s2, P m1 st x s1 -> P m2 s1 y s2 -> P (op m1 m2) st (x ++ y) s2.

  Definition msum {A} (ix : A -> M) (l : list A) : M := fold_right (fun a => op (ix a)) unit l.

  (* `run` applies f along a list, threading the state and concatenating the cues (f sees the rest of the list: the end of an
     interval is the next snapshot's time) *)
  Lemma thread_P {A} (f : A -> list A -> St -> res (list cue * St)) (run : list A -> St -> res (list cue * St)) (ix : A -> M) :
    (forall st, run [] st = Ok ([], st)) ->
    (forall a l st, run (a :: l) st = bind (f a l st) (fun r1 => bind (run l (snd r1)) (fun r2 => Ok (fst r1 ++ fst r2, snd r2)))) ->
    forall l, (forall a, In a l -> forall tl st x s1, f a tl st = Ok (x, s1) -> P (ix a) st x s1) ->
    forall st x s1, run l st = Ok (x, s1) -> P (msum ix l) st x s1.
  Proof.
    intros R0 R1. induction l as [|a l IH]; intros Hf st x s1 H.
    - rewrite R0 in H. injection H as <- <-. apply P_nil.
    - rewrite R1 in H. destruct (f a l st) as [[x1 sa]|] eqn:E1; [|discriminate]. cbn [bind fst snd] in H.
      destruct (run l sa) as [[x2 sb]|] eqn:E2; [|discriminate]. cbn [bind fst snd] in H. injection H as <- <-.
      exact (P_app _ _ _ _ _ _ _ (Hf a (or_introl eq_refl) _ _ _ _ E1) (IH (fun a' Ha' => Hf a' (or_intror Ha')) _ _ _ E2)).
  Qed.

  Variables (para block : elem -> St -> res (list cue * St)) (blocks : list elem -> St -> res (list cue * St)).
  Hypothesis block_node : forall a cs st,
    block (Elem a cs) st = match e_kind a with KDiv => blocks cs st | KP => para (Elem a cs) st | _ => Ok ([], st) end.
  Hypothesis blocks_nil : forall st, blocks [] st = Ok ([], st).
  Hypothesis blocks_cons : forall e l st,
    blocks (e :: l) st = bind (block e st) (fun r1 => bind (blocks l (snd r1)) (fun r2 => Ok (fst r1 ++ fst r2, snd r2))).
  Variable ix : elem -> M.
  Hypothesis P_node : forall a cs st x s1,
    match e_kind a with
    | KDiv => P (msum ix cs) st x s1
    | KP => para (Elem a cs) st = Ok (x, s1)
    | _ => x = [] /\ s1 = st
    end -> P (ix (Elem a cs)) st x s1.

  Theorem block_P : forall e st x s1, block e st = Ok (x, s1) -> P (ix e) st x s1.
  Proof.
    induction e as [a cs IH] using elem_ind2. intros st x s1 H. rewrite block_node in H. apply P_node.
    destruct (e_kind a); try (injection H as <- <-; split; reflexivity); [|exact H].
    revert st x s1 H. apply (thread_P (fun e _ => block e) blocks ix blocks_nil blocks_cons).
    intros c Hc _. rewrite Forall_forall in IH. exact (IH c Hc).
  Qed.
  Corollary blocks_P l : forall st x s1, blocks l st = Ok (x, s1) -> P (msum ix l) st x s1.
  Proof. apply (thread_P (fun e _ => block e) blocks ix blocks_nil blocks_cons). intros c _ _. exact (block_P c). Qed.
End Walk.

(* the summary block_spec goes by: nothing lost below, and the text *)
Definition spec_op (m1 m2 : bool * text) : bool * text := (fst m1 && fst m2, snd m1 ++ snd m2).
Lemma msum_spec {A} (f : A -> bool) (g : A -> text) l : msum (true, []) spec_op (fun x => (f x, g x)) l = (forallb f l, flat_map g l).
Proof. unfold msum. induction l as [|x l IH]; [reflexivity|]. cbn [fold_right]. rewrite IH. reflexivity. Qed.

Lemma srt_block_node fmt b en a cs n :
  srt_block fmt b en (Elem a cs) n =
  match e_kind a with
  | KDiv => srt_blocks fmt b en cs n
  | KP => let c := mkCue (Some (n + 1)) b en (flat_map (srt_inline fmt) cs) None None in
          (if srt_blank c then [] else [c], n + 1)
  | _ => ([], n)
  end.
Proof.
  cbn [srt_block]. destruct (e_kind a); try reflexivity.
  revert n. induction cs as [|c cs IH]; intros n; [reflexivity|]. cbn [srt_blocks].
  destruct (srt_block fmt b en c n) as [x n1]. rewrite IH. reflexivity.
Qed.

(* the walk of the SubRip writer; the state is the cue counter *)
Section SrtWalk.
  Context {M : Type} (unit : M) (op : M -> M -> M).
  Variable P : M -> Z -> list cue -> Z -> Prop.
  Hypothesis P_nil : forall n, P unit n [] n.
  Hypothesis P_app : forall m1 m2 n x n1 y n2, P m1 n x n1 -> P m2 n1 y n2 -> P (op m1 m2) n (x ++ y) n2.
  Variables (fmt : bool) (b : Z) (en : option Z) (ix : elem -> M).
  Hypothesis P_node : forall a cs n x n',
    match e_kind a with
    | KDiv => P (msum unit op ix cs) n x n'
    | KP => let c := mkCue (Some (n + 1)) b en (flat_map (srt_inline fmt) cs) None None in
            x = (if srt_blank c then [] else [c]) /\ n' = n + 1
    | _ => x = [] /\ n' = n
    end -> P (ix (Elem a cs)) n x n'.

  Theorem srt_blocks_P l n cs n' : srt_blocks fmt b en l n = (cs, n') -> P (msum unit op ix l) n cs n'.
  Proof.
    intros H.
    apply (blocks_P unit op P P_nil P_app
             (fun p n => Ok (let c := mkCue (Some (n + 1)) b en (flat_map (srt_inline fmt) (echildren p)) None None in
                             (if srt_blank c then [] else [c], n + 1)))
             (fun e n => Ok (srt_block fmt b en e n)) (fun l n => Ok (srt_blocks fmt b en l n))); [| reflexivity | | | rewrite H; reflexivity].
    - intros a cs0 n0. rewrite srt_block_node. destruct (e_kind a); reflexivity.
    - intros e l0 n0. cbn [srt_blocks bind]. destruct (srt_block fmt b en e n0) as [x n1]. cbn [snd]. destruct (srt_blocks fmt b en l0 n1). reflexivity.
    - intros a cs0 n0 x n1 Hn. apply P_node. destruct (e_kind a); try exact Hn. injection Hn as <- <-. split; reflexivity.
  Qed.
End SrtWalk.

Lemma srt_p_lt_free fmt cs0 : lt_free cs0 = true -> ~ In 60 (chars_of (flat_map (srt_inline fmt) cs0)).
Proof.
  unfold lt_free. intros H Hin. apply negb_true_iff in H. rewrite chars_of_flat_map in Hin. apply in_flat_map in Hin as (c & Hc & Hin).
  apply (inline_sub _ _ (srt_inline_wraps fmt) 60 eq_refl) in Hin.
  enough (E : existsb (Z.eqb 60) (flat_map base_text cs0) = true) by (rewrite E in H; discriminate).
  apply existsb_exists. exists 60. split; [apply in_flat_map; exists c; split; assumption | reflexivity].
Qed.

Theorem srt_blocks_spec fmt b en l n cs n' :
  srt_blocks fmt b en l n = (cs, n') -> block_spec srt_blank b en (forallb (wblock_ok true) l) (flat_map base_text l) cs.
Proof.
  intros H. pose proof (fun N => srt_blocks_P (true, []) spec_op (fun m _ cs _ => block_spec srt_blank b en (fst m) (snd m) cs)
                                   (fun _ => block_spec_nil _ _ _) (fun _ _ _ _ _ _ _ => block_spec_app _ _ _ _ _ _ _ _ _)
                                   fmt b en (fun e => (wblock_ok true e, base_text e)) N l n cs n' H) as W.
  cbv beta in W. rewrite msum_spec in W. apply W. clear. intros a cs0 n x n1 Hn. apply wblock_spec.
  destruct (e_kind a); try exact (proj1 Hn); [rewrite msum_spec in Hn; exact Hn|].
  (* p *)
  cbv zeta in Hn. destruct Hn as [-> _]. set (c := mkCue (Some (n + 1)) b en (flat_map (srt_inline fmt) cs0) None None).
  pose proof (srt_inlines_items fmt cs0 : items_ok srt_tag_ok (c_items c)) as Hi.
  apply (block_spec_cue srt_blank b en _ _ c eq_refl eq_refl (srt_blank_complete c Hi)).
  intros Hok. apply andb_true_iff in Hok as [O1 O2]. split; [exact (srt_blank_exact c Hi (srt_p_lt_free fmt cs0 O2))|].
  exact (inlines_text _ _ (srt_inline_wraps fmt) cs0 O1).
Qed.

Definition body_children (regions : list elem) : list elem := flat_map (fun r => flat_map echildren (echildren r)) regions.
Lemma body_children_text rs : regions_shape rs = true -> flat_map base_text (body_children rs) = flat_map base_text rs.
Proof.
  intros H. unfold body_children. rewrite flat_map_flat_map. apply flat_map_ext_in. intros r Hr.
  unfold regions_shape in H. rewrite forallb_forall in H. specialize (H r Hr). apply andb_true_iff in H as [H1 H2].
  unfold base_text. rewrite (sel_text_container annot_kind (fun k Hk => Hk) r H1), flat_map_flat_map. apply flat_map_ext_in. intros b Hb.
  rewrite forallb_forall in H2. symmetry. apply (sel_text_container annot_kind (fun k Hk => Hk)), H2, Hb.
Qed.
(* the dispatch meets nothing it would drop (and, SubRip, no "<" in the text) *)
Definition sees_all (lt : bool) (regions : list elem) : bool := regions_shape regions && forallb (wblock_ok lt) (body_children regions).
Definition srt_sees_all : list elem -> bool := sees_all true.
Definition vtt_sees_all : list elem -> bool := sees_all false.

(* from the children of the bodies to the regions *)
Lemma sees_all_spec blank b en lt regions cs :
  block_spec blank b en (forallb (wblock_ok lt) (body_children regions)) (flat_map base_text (body_children regions)) cs ->
  block_spec blank b en (sees_all lt regions) (flat_map base_text regions) cs.
Proof.
  intros [A1 A2]. split; [exact A1|]. intros Hok. apply andb_true_iff in Hok as [O1 O2].
  rewrite (A2 O2). f_equal. apply body_children_text, O1.
Qed.

Theorem srt_add_isd_spec fmt b en regions n cs n' :
  srt_add_isd fmt b en regions n = (cs, n') -> block_spec srt_blank b en (srt_sees_all regions) (flat_map base_text regions) cs.
Proof.
  intros H. exact (sees_all_spec _ _ _ _ _ _ (srt_blocks_spec fmt b en _ n cs n' H)).
Qed.

Lemma vtt_process_p_spec cfg ra b en p st cs st' :
  vtt_process_p cfg ra b en p st = Ok (cs, st') -> block_spec vtt_blank b en (forallb inline_ok (echildren p)) (flat_map base_text (echildren p)) cs.
Proof.
  unfold vtt_process_p. intros H.
  destruct (if line_position cfg then bind (line_setting ra) (fun x => Ok (Some x)) else Ok None) as [line|]; [|discriminate].
  cbn [bind] in H. pose proof (vtt_inlines_items (echildren p) (v_css st)) as Hi. pose proof (vtt_inlines_text (echildren p) (v_css st)) as Hc.
  destruct (vtt_inlines (echildren p) (v_css st)) as [items css].
  set (c := mkCue (if cue_id cfg then Some (v_counter st + 1) else None) b en items line
                  (if text_align cfg then textalign_setting (eattrs p) else None)) in H.
  assert (E : cs = if vtt_blank c then [] else [c]) by (destruct (vtt_blank c); injection H as <- _; reflexivity). rewrite E.
  apply (block_spec_cue vtt_blank b en _ _ c eq_refl eq_refl).
  - intros Hw. rewrite (vtt_blank_exact c Hi). exact Hw.
  - intros Hok. split; [exact (vtt_blank_exact c Hi) | exact (Hc Hok)].
Qed.
Lemma vtt_block_node cfg ra b en a cs st :
  vtt_block cfg ra b en (Elem a cs) st =
  match e_kind a with
  | KDiv => vtt_blocks cfg ra b en cs st
  | KP => vtt_process_p cfg ra b en (Elem a cs) st
  | _ => Ok ([], st)
  end.
Proof.
  cbn [vtt_block]. destruct (e_kind a); try reflexivity.
  revert st. induction cs as [|c cs IH]; intros st; [reflexivity|]. cbn [vtt_blocks].
  destruct (vtt_block cfg ra b en c st) as [r1|]; [|reflexivity]. cbn [bind]. rewrite IH. reflexivity.
Qed.
Theorem vtt_blocks_spec cfg ra b en l st cs st' :
  vtt_blocks cfg ra b en l st = Ok (cs, st') -> block_spec vtt_blank b en (forallb (wblock_ok false) l) (flat_map base_text l) cs.
Proof.
  intros H. pose proof (fun N => blocks_P (true, []) spec_op (fun m _ cs _ => block_spec vtt_blank b en (fst m) (snd m) cs)
                                   (fun _ => block_spec_nil _ _ _) (fun _ _ _ _ _ _ _ => block_spec_app _ _ _ _ _ _ _ _ _)
                                   (vtt_process_p cfg ra b en) (vtt_block cfg ra b en) (vtt_blocks cfg ra b en) (vtt_block_node cfg ra b en)
                                   (fun _ => eq_refl) (fun _ _ _ => eq_refl) (fun e => (wblock_ok false e, base_text e)) N l st cs st' H) as W.
  cbv beta in W. rewrite msum_spec in W. apply W. clear. intros a cs0 st x s1 Hn. apply wblock_spec.
  destruct (e_kind a); try exact (proj1 Hn); [rewrite msum_spec in Hn; exact Hn|].
  cbn [negb orb]. rewrite andb_true_r. exact (vtt_process_p_spec _ _ _ _ _ _ _ _ Hn).
Qed.
Theorem vtt_regions_spec cfg b en : forall regions st cs st',
  vtt_regions cfg b en regions st = Ok (cs, st') ->
  block_spec vtt_blank b en (forallb (wblock_ok false) (body_children regions)) (flat_map base_text (body_children regions)) cs.
Proof.
  induction regions as [|r regions IH]; intros st cs st' H; cbn [vtt_regions] in H.
  - injection H as <- <-. apply block_spec_nil.
  - destruct (vtt_blocks cfg (eattrs r) b en (flat_map echildren (echildren r)) st) as [[x s1]|] eqn:Ep; [|discriminate].
    cbn [bind snd fst] in H. destruct (vtt_regions cfg b en regions s1) as [[y s2]|] eqn:Er; [|discriminate].
    cbn [bind snd fst] in H. injection H as <- <-. unfold body_children. cbn [flat_map]. rewrite forallb_app, flat_map_app.
    apply block_spec_app; [|exact (IH _ _ _ Er)].
    exact (vtt_blocks_spec _ _ _ _ _ _ _ _ Ep).
Qed.
Theorem vtt_add_isd_spec cfg b en regions st cs st' :
  vtt_regions cfg b en regions st = Ok (cs, st') -> block_spec vtt_blank b en (vtt_sees_all regions) (flat_map base_text regions) cs.
Proof. intros H. exact (sees_all_spec _ _ _ _ _ _ (vtt_regions_spec cfg b en regions st cs st' H)). Qed.

Definition next_time (seq : list (Q * list elem)) : option Q := match seq with (t', _) :: _ => Some t' | [] => None end.

(* cs is the concatenation of one group of cues per snapshot, each group satisfying P for that snapshot *)
Inductive by_snapshot (P : Z -> option Z -> list elem -> list cue -> Prop) : list (Q * list elem) -> list cue -> Prop :=
| bs_nil : by_snapshot P [] []
| bs_cons t regions seq b en cs rest :
    q_ms t = Ok b -> oq_ms (next_time seq) = Ok en -> P b en regions cs -> by_snapshot P seq rest ->
    by_snapshot P ((t, regions) :: seq) (cs ++ rest).

Lemma by_snapshot_impl (P Q' : Z -> option Z -> list elem -> list cue -> Prop) :
  (forall b en r cs, P b en r cs -> Q' b en r cs) -> forall seq cs, by_snapshot P seq cs -> by_snapshot Q' seq cs.
Proof. intros H seq cs B. induction B; econstructor; eauto. Qed.

Definition snapshot_spec (blank : cue -> bool) (ok : list elem -> bool) (fs : list isd_filter) (b : Z) (en : option Z) (regions : list elem) (cs : list cue) : Prop :=
  block_spec blank b en (ok (apply_filters fs regions)) (flat_map base_text (apply_filters fs regions)) cs.

Lemma by_snapshot_forall (Q : cue -> Prop) seq cs : by_snapshot (fun _ _ _ x => Forall Q x) seq cs -> Forall Q cs.
Proof. intros B. induction B; [constructor | apply Forall_app; split; assumption]. Qed.

(* what holds of every add_isd call holds snapshot by snapshot *)
Lemma srt_loop_by fmt (P : Z -> option Z -> list elem -> list cue -> Prop) :
  (forall b en regions n cs n', srt_add_isd fmt b en (apply_filters srt_filters regions) n = (cs, n') -> P b en regions cs) ->
  forall seq n cs, srt_loop fmt seq n = Ok cs -> by_snapshot P seq cs.
Proof.
  intros HP. induction seq as [|[t regions] seq IH]; intros n cs H; cbn [srt_loop] in H.
  - injection H as <-. constructor.
  - destruct (q_ms t) as [b|] eqn:Eb; [|discriminate]. cbn [bind] in H.
    fold (next_time seq) in H. destruct (oq_ms (next_time seq)) as [en|] eqn:Een; [|discriminate]. cbn [bind] in H.
    destruct (srt_add_isd fmt b en (apply_filters srt_filters regions) n) as [x n1] eqn:Ex.
    destruct (srt_loop fmt seq n1) as [rest|] eqn:Er; [|discriminate]. cbn [bind] in H. injection H as <-.
    econstructor; [exact Eb | exact Een | exact (HP _ _ _ _ _ _ Ex) | exact (IH _ _ Er)].
Qed.
Theorem srt_loop_spec fmt : forall seq n cs,
  srt_loop fmt seq n = Ok cs -> by_snapshot (snapshot_spec srt_blank srt_sees_all srt_filters) seq cs.
Proof. apply srt_loop_by. intros b en regions n cs n'. apply srt_add_isd_spec. Qed.
Theorem vtt_loop_spec cfg fs : forall seq st cs st',
  vtt_loop cfg fs seq st = Ok (cs, st') -> by_snapshot (snapshot_spec vtt_blank vtt_sees_all fs) seq cs.
Proof.
  induction seq as [|[t regions] seq IH]; intros st cs st' H; cbn [vtt_loop] in H.
  - injection H as <- <-. constructor.
  - destruct (q_ms t) as [b|] eqn:Eb; [|discriminate]. cbn [bind] in H.
    fold (next_time seq) in H. destruct (oq_ms (next_time seq)) as [en|] eqn:Een; [|discriminate]. cbn [bind] in H.
    destruct (vtt_regions cfg b en (apply_filters fs regions) st) as [[x s1]|] eqn:Ex; [|discriminate]. cbn [bind snd fst] in H.
    destruct (vtt_loop cfg fs seq s1) as [[rest s2]|] eqn:Er; [|discriminate]. cbn [bind snd fst] in H. injection H as <- <-.
    econstructor; [exact Eb | exact Een | | exact (IH _ _ _ Er)]. exact (vtt_add_isd_spec _ _ _ _ _ _ _ Ex).
Qed.
