(* C06: where the line breaks of a payload come from (before normalize_eol collapses runs of them and trims the ends):
   a br is a line feed, and the paragraphs that the merging filters put into one cue — all paragraphs of all regions, in region
   then document order — are separated by exactly one line feed each. *)
From TT Require Import Model.Doc Gen.StyleTables Model.Isd Model.SigTimes Model.TimeCode Model.IsdFilters Gen.CueTables Model.CueWriter.
From TT Require Import Model.CueTriggers Proofs.C06.Filters Proofs.C06.Inline.

Lemma br_is_line_feed fmt a cs : e_kind a = KBr -> chars_of (srt_inline fmt (Elem a cs)) = [10].
Proof. intros H. rewrite (inline_chars_node _ _ (srt_inline_wraps fmt)), H. reflexivity. Qed.

Definition para_chars (fmt : bool) (p : elem) : text := chars_of (flat_map (srt_inline fmt) (echildren p)).

Theorem join_paragraphs_chars fmt : forall ps,
  chars_of (flat_map (srt_inline fmt) (join_paragraphs ps)) = join_text [10] (map (para_chars fmt) ps).
Proof.
  induction ps as [|p ps IH]; [reflexivity|]. destruct ps as [|q ps'].
  - reflexivity.
  - change (join_paragraphs (p :: q :: ps')) with (echildren p ++ br_elem :: join_paragraphs (q :: ps')).
    rewrite flat_map_app, chars_of_app. cbn [flat_map]. rewrite chars_of_app, IH.
    change (chars_of (srt_inline fmt br_elem)) with [10]. reflexivity.
Qed.
(* the same for the WebVTT inline output (same characters) *)
Theorem join_paragraphs_chars_vtt ps s :
  chars_of (fst (vtt_inlines (join_paragraphs ps) s)) = join_text [10] (map (para_chars false) ps).
Proof.
  rewrite vtt_inlines_chars. apply join_paragraphs_chars.
Qed.
