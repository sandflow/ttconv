(* C06: the four ISD filters keep the Br/Text leaves of a snapshot (C01's `shown_leaves`): region merging and the two style
   filters keep them exactly; paragraph merging keeps every text leaf in order and only adds line breaks (the Br it
   puts between paragraphs).  The same is proved for the leaves outside ruby annotations (`base_leaves`, `base_text`: what the
   writers carry), through one development that is generic in the set of skipped kinds (`sel_leaves skip`). *)
From TT Require Import Model.Doc Gen.StyleTables Model.Isd Model.IsdFilters Spec.IsdSpec.
From TT Require Import Proofs.Common.ElemInd Proofs.C01.Lwsp.

(* the non-white-space characters a list of leaves shows, in order *)
Definition leaf_chars (l : leaf) : text := match l with LBr => [] | LText s => s end.
Definition leaves_text (e : elem) : text := flat_map leaf_chars (shown_leaves e).

(* ruby annotations and their delimiters: the writers carry ruby BASE text (below rb / rbc), not the text below rt / rtc / rp *)
Definition annot_kind (k : kind) : bool := match k with KRt | KRtc | KRp => true | _ => false end.
(* the Br/Text leaves of an element, in document order, outside the subtrees of the kinds `skip` names *)
Section SelDef.
  Variable skip : kind -> bool.
  Fixpoint sel_leaves (e : elem) : list leaf :=
    match e with
    | Elem a cs =>
        match e_kind a with
        | KBr | KText => leaf_of a
        | k => if skip k then [] else (fix go (l : list elem) : list leaf := match l with [] => [] | c :: l' => sel_leaves c ++ go l' end) cs
        end
    end.
  Definition sel_text (e : elem) : text := flat_map leaf_chars (sel_leaves e).
End SelDef.
Definition sk_none (_ : kind) : bool := false.
Definition base_leaves : elem -> list leaf := sel_leaves annot_kind.
Definition base_text : elem -> text := sel_text annot_kind.

(* neither a leaf nor a ruby annotation *)
Definition container (e : elem) : bool := match e_kind (eattrs e) with KBr | KText | KRt | KRtc | KRp => false | _ => true end.

Lemma flat_map_map {A B C} (f : A -> B) (g : B -> list C) l : flat_map g (map f l) = flat_map (fun x => g (f x)) l.
Proof. rewrite !flat_map_concat_map, map_map. reflexivity. Qed.
Lemma flat_map_nil {A B} (f : A -> list B) l : flat_map f l = [] <-> forall x, In x l -> f x = [].
Proof.
  induction l as [|y l IH]; cbn [flat_map]; [split; [intros _ x [] | reflexivity]|]. split.
  - intros H x [<-|Hx]; apply app_eq_nil in H as [H1 H2]; [exact H1 | exact (proj1 IH H2 x Hx)].
  - intros H. rewrite (H y (or_introl eq_refl)), (proj2 IH (fun x Hx => H x (or_intror Hx))). reflexivity.
Qed.

Lemma sel_leaves_node skip a cs :
  sel_leaves skip (Elem a cs) = match e_kind a with KBr | KText => leaf_of a | k => if skip k then [] else flat_map (sel_leaves skip) cs end.
Proof.
  assert (G : (fix go (l : list elem) : list leaf := match l with [] => [] | c :: l' => sel_leaves skip c ++ go l' end) cs
              = flat_map (sel_leaves skip) cs) by (induction cs as [|c cs IH]; [reflexivity | cbn [flat_map]; rewrite <- IH; reflexivity]).
  cbn [sel_leaves]. rewrite G. reflexivity.
Qed.
Lemma sel_text_node skip a cs :
  sel_text skip (Elem a cs) = match e_kind a with
                              | KBr => []
                              | KText => nonspace (e_text a)
                              | k => if skip k then [] else flat_map (sel_text skip) cs
                              end.
Proof.
  unfold sel_text at 1. rewrite sel_leaves_node. destruct (e_kind a) eqn:Ek;
    try (destruct (skip _); [reflexivity | apply flat_map_flat_map]); unfold leaf_of; rewrite Ek; [reflexivity|].
  destruct (nonspace (e_text a)); [reflexivity | apply app_nil_r].
Qed.

(* skipping nothing gives the leaves C01 speaks of *)
Lemma sk_none_annot k : sk_none k = true -> annot_kind k = true.
Proof. discriminate. Qed.
Lemma sel_leaves_none : forall e, sel_leaves sk_none e = shown_leaves e.
Proof.
  induction e as [a cs IH] using elem_ind2. rewrite sel_leaves_node, shown_leaves_node. rewrite Forall_forall in IH.
  destruct (e_kind a); try reflexivity; exact (flat_map_ext_in _ _ cs IH).
Qed.
Lemma shown_leaves_sel rs : flat_map shown_leaves rs = flat_map (sel_leaves sk_none) rs.
Proof. apply flat_map_ext_in. intros e _. symmetry. apply sel_leaves_none. Qed.
Lemma sel_text_none e : sel_text sk_none e = leaves_text e.
Proof. unfold sel_text, leaves_text. rewrite sel_leaves_none. reflexivity. Qed.
Lemma leaves_text_sel rs : flat_map leaves_text rs = flat_map (sel_text sk_none) rs.
Proof. apply flat_map_ext_in. intros e _. symmetry. apply sel_text_none. Qed.

Lemma sel_text_nil skip : forall e, leaves_text e = [] -> sel_text skip e = [].
Proof.
  induction e as [a cs IH] using elem_ind2. rewrite <- sel_text_none, !sel_text_node. rewrite Forall_forall in IH.
  assert (G : flat_map (sel_text sk_none) cs = [] -> (if skip (e_kind a) then [] else flat_map (sel_text skip) cs) = []).
  { intros H. destruct (skip _); [reflexivity|]. apply flat_map_nil. intros c Hc. apply (IH c Hc).
    rewrite <- sel_text_none. exact (proj1 (flat_map_nil _ _) H c Hc). }
  destruct (e_kind a); try exact G; exact (fun H => H).
Qed.

(* regions hold bodies, and neither is a br, a text or a ruby annotation *)
Definition regions_shape (rs : list elem) : bool :=
  forallb (fun r => container r && forallb container (echildren r)) rs.

Section Sel.
  Variable skip : kind -> bool.
  (* only ruby annotations are ever left out *)
  Hypothesis skip_annot : forall k, skip k = true -> annot_kind k = true.

  Lemma sel_leaves_container e : container e = true -> sel_leaves skip e = flat_map (sel_leaves skip) (echildren e).
  Proof.
    destruct e as [a cs]. unfold container. cbn [eattrs echildren]. rewrite sel_leaves_node. intros H.
    destruct (e_kind a) eqn:Ek; try discriminate; (destruct (skip _) eqn:Es; [apply skip_annot in Es; discriminate | reflexivity]).
  Qed.
  Lemma sel_text_container e : container e = true -> sel_text skip e = flat_map (sel_text skip) (echildren e).
  Proof. intros H. unfold sel_text at 1. rewrite (sel_leaves_container e H). apply flat_map_flat_map. Qed.

  (* RegionsMergingISDFilter *)
  Lemma merge_regions_sel rs :
    regions_shape rs = true -> flat_map (sel_leaves skip) (merge_regions rs) = flat_map (sel_leaves skip) rs.
  Proof.
    intros H. unfold merge_regions.
    destruct ((Z.of_nat (length rs) <=? 1) || (fold_left (fun n r => n + Z.of_nat (length (echildren r))) rs 0 <=? 1)); [reflexivity|].
    cbn [flat_map]. rewrite app_nil_r, sel_leaves_container by reflexivity. cbn [echildren flat_map]. rewrite app_nil_r.
    rewrite sel_leaves_container by reflexivity. cbn [echildren]. rewrite flat_map_flat_map. apply flat_map_ext_in. intros r Hr.
    unfold regions_shape in H. rewrite forallb_forall in H. specialize (H r Hr). apply andb_true_iff in H as [H1 H2].
    rewrite (sel_leaves_container r H1), flat_map_flat_map. apply flat_map_ext_in. intros b Hb.
    rewrite forallb_forall in H2. symmetry. apply sel_leaves_container, H2, Hb.
  Qed.
End Sel.

Theorem merge_regions_preserves_leaves : forall rs,
  regions_shape rs = true -> flat_map shown_leaves (merge_regions rs) = flat_map shown_leaves rs.
Proof. intros rs H. rewrite !shown_leaves_sel. exact (merge_regions_sel sk_none sk_none_annot rs H). Qed.
Theorem merge_regions_preserves_base : forall rs,
  regions_shape rs = true -> flat_map base_leaves (merge_regions rs) = flat_map base_leaves rs.
Proof. exact (merge_regions_sel annot_kind (fun k Hk => Hk)). Qed.

(* ParagraphsMergingISDFilter *)
Lemma get_paragraphs_node a cs :
  get_paragraphs (Elem a cs) =
  flat_map (fun c => match e_kind (eattrs c) with KDiv => get_paragraphs c | KP => [c] | _ => [] end) cs.
Proof.
  cbn [get_paragraphs]. induction cs as [|c cs IH]; [reflexivity|]. cbn [flat_map]. rewrite <- IH. reflexivity.
Qed.

(* all text below a block element sits in paragraphs reached through divisions *)
Fixpoint block_ok (e : elem) : bool :=
  match e with
  | Elem a cs =>
      (fix go (l : list elem) : bool :=
         match l with
         | [] => true
         | c :: l' => (match e_kind (eattrs c) with
                       | KDiv => block_ok c
                       | KP => true
                       | _ => match leaves_text c with [] => true | _ => false end
                       end) && go l'
         end) cs
  end.
Lemma block_ok_node a cs :
  block_ok (Elem a cs) =
  forallb (fun c => match e_kind (eattrs c) with
                    | KDiv => block_ok c
                    | KP => true
                    | _ => match leaves_text c with [] => true | _ => false end
                    end) cs.
Proof. cbn [block_ok]. induction cs as [|c cs IH]; [reflexivity|]. cbn [forallb]. rewrite <- IH. reflexivity. Qed.

Lemma get_paragraphs_kind : forall e p, In p (get_paragraphs e) -> e_kind (eattrs p) = KP.
Proof.
  induction e as [a cs IH] using elem_ind2. intros p Hp. rewrite get_paragraphs_node in Hp.
  apply in_flat_map in Hp as (c & Hc & Hp). rewrite Forall_forall in IH.
  destruct (e_kind (eattrs c)) eqn:Ek; try (destruct Hp; fail).
  - apply (IH c Hc p Hp).
  - destruct Hp as [<-|[]]. exact Ek.
Qed.

(* a body: neither it nor its children are br/text, and below each child all text sits in paragraphs reached through
   divisions (for a snapshot of a well-formed document: the children of a body are divisions holding divisions and paragraphs) *)
Definition body_ok (b : elem) : bool := container b && forallb (fun c => container c && block_ok c) (echildren b).
Definition paragraphs_shape (rs : list elem) : bool := forallb (fun r => container r && forallb body_ok (echildren r)) rs.

Section SelP.
  Variable skip : kind -> bool.
  Hypothesis skip_annot : forall k, skip k = true -> annot_kind k = true.
  Let stc := sel_text_container skip skip_annot.

  Lemma get_paragraphs_sel : forall e, block_ok e = true ->
    flat_map (sel_text skip) (get_paragraphs e) = flat_map (sel_text skip) (echildren e).
  Proof.
    induction e as [a cs IH] using elem_ind2. intros H. rewrite get_paragraphs_node. rewrite block_ok_node in H. cbn [echildren].
    rewrite flat_map_flat_map. apply flat_map_ext_in. intros c Hc.
    rewrite forallb_forall in H. specialize (H c Hc). rewrite Forall_forall in IH. specialize (IH c Hc).
    unfold container in stc. specialize (stc c).
    destruct (e_kind (eattrs c)) eqn:Ek.
    all: try (cbn [flat_map]; destruct (leaves_text c) eqn:El; [symmetry; apply sel_text_nil, El | discriminate]).
    - (* div *) rewrite (IH H). symmetry. apply stc. reflexivity.
    - (* p *) apply app_nil_r.
  Qed.

  (* the br between two paragraphs adds no text *)
  Lemma join_paragraphs_sel : forall ps,
    Forall (fun p => container p = true) ps -> flat_map (sel_text skip) (join_paragraphs ps) = flat_map (sel_text skip) ps.
  Proof.
    induction ps as [|p ps IH]; intros H; [reflexivity|]. inversion H as [|? ? Hp Hps]; subst.
    cbn [join_paragraphs flat_map]. rewrite (stc p Hp). destruct ps as [|q ps']; [symmetry; apply app_nil_r|].
    rewrite flat_map_app. cbn [flat_map]. rewrite (IH Hps). reflexivity.
  Qed.

  Lemma merge_paragraphs_body_sel b : body_ok b = true -> sel_text skip (merge_paragraphs_body b) = sel_text skip b.
  Proof.
    intros H. unfold merge_paragraphs_body.
    destruct (Z.of_nat (length (flat_map get_paragraphs (echildren b))) <=? 1); [reflexivity|].
    unfold body_ok in H. apply andb_true_iff in H as [Hb Hc]. rewrite forallb_forall in Hc.
    rewrite (stc b Hb), (stc (Elem (eattrs b) _) Hb). cbn [echildren flat_map]. rewrite app_nil_r.
    rewrite stc by reflexivity. cbn [echildren flat_map]. rewrite app_nil_r.
    rewrite stc by reflexivity. cbn [echildren].
    rewrite join_paragraphs_sel.
    2:{ apply Forall_forall. intros p Hp. apply in_flat_map in Hp as (c & _ & Hp). apply get_paragraphs_kind in Hp.
        unfold container. rewrite Hp. reflexivity. }
    rewrite flat_map_flat_map. apply flat_map_ext_in. intros c Hin. specialize (Hc c Hin). apply andb_true_iff in Hc as [Hc1 Hc2].
    rewrite (get_paragraphs_sel c Hc2). symmetry. apply stc, Hc1.
  Qed.

  (* every text leaf stays, in order; only line breaks are added *)
  Theorem merge_paragraphs_sel : forall rs,
    paragraphs_shape rs = true -> flat_map (sel_text skip) (merge_paragraphs rs) = flat_map (sel_text skip) rs.
  Proof.
    intros rs H. unfold merge_paragraphs. rewrite flat_map_map.
    apply flat_map_ext_in. intros r Hr. unfold paragraphs_shape in H. rewrite forallb_forall in H. specialize (H r Hr).
    apply andb_true_iff in H as [H1 H2]. rewrite forallb_forall in H2.
    rewrite (stc r H1), (stc (Elem (eattrs r) _) H1). cbn [echildren]. rewrite flat_map_map.
    apply flat_map_ext_in. intros b Hb. apply merge_paragraphs_body_sel, H2, Hb.
  Qed.
End SelP.

Lemma leaves_text_container e : container e = true -> leaves_text e = flat_map leaves_text (echildren e).
Proof. intros H. rewrite leaves_text_sel, <- sel_text_none. exact (sel_text_container sk_none sk_none_annot e H). Qed.
Theorem merge_paragraphs_preserves_leaves : forall rs,
  paragraphs_shape rs = true -> flat_map leaves_text (merge_paragraphs rs) = flat_map leaves_text rs.
Proof. intros rs H. rewrite !leaves_text_sel. exact (merge_paragraphs_sel sk_none sk_none_annot rs H). Qed.
Theorem merge_paragraphs_preserves_base : forall rs,
  paragraphs_shape rs = true -> flat_map base_text (merge_paragraphs rs) = flat_map base_text rs.
Proof. exact (merge_paragraphs_sel annot_kind (fun k Hk => Hk)). Qed.

Lemma filter_supported_node cfg a cs :
  filter_supported cfg (Elem a cs) = Elem (with_styles a (filter (is_supported cfg) (e_styles a))) (map (filter_supported cfg) cs).
Proof. reflexivity. Qed.
Lemma filter_defaults_node dfl par a cs :
  filter_defaults dfl par (Elem a cs) =
  let st := filter (fun kv => negb (default_removed dfl par kv)) (e_styles a) in
  Elem (with_styles a st) (map (filter_defaults dfl (Some st)) cs).
Proof. reflexivity. Qed.

(* A walk `f` that replaces the styles of every element, computing them from the element and from what its parent hands down
   (`p`), cannot be seen by a function `g` of the tree that does not read styles. *)
Section Restyle.
  Context {P X : Type} (f : P -> elem -> elem) (st : P -> attrs -> smap) (down : P -> attrs -> P) (g : elem -> X).
  Hypothesis f_node : forall p a cs, f p (Elem a cs) = Elem (with_styles a (st p a)) (map (f (down p a)) cs).
  Hypothesis g_styles : forall a s cs cs', map g cs' = map g cs -> g (Elem (with_styles a s) cs') = g (Elem a cs).
  Lemma restyle_unseen : forall e p, g (f p e) = g e.
  Proof.
    induction e as [a cs IH] using elem_ind2. intros p. rewrite f_node. apply g_styles.
    rewrite map_map. apply map_ext_in. intros c Hc. rewrite Forall_forall in IH. apply IH, Hc.
  Qed.
End Restyle.
Definition supported_unseen {X} (g : elem -> X) H cfg e : g (filter_supported cfg e) = g e :=
  restyle_unseen (fun c => filter_supported c) (fun c a => filter (is_supported c) (e_styles a)) (fun c _ => c) g
    (fun _ _ _ => eq_refl) H e cfg.
Definition defaults_unseen {X} (g : elem -> X) H dfl e up : g (filter_defaults dfl up e) = g e :=
  restyle_unseen (filter_defaults dfl) (fun p a => filter (fun kv => negb (default_removed dfl p kv)) (e_styles a))
    (fun p a => Some (filter (fun kv => negb (default_removed dfl p kv)) (e_styles a))) g (fun _ _ _ => eq_refl) H e up.

Lemma sel_leaves_styles skip a s cs cs' :
  map (sel_leaves skip) cs' = map (sel_leaves skip) cs -> sel_leaves skip (Elem (with_styles a s) cs') = sel_leaves skip (Elem a cs).
Proof. intros H. rewrite !sel_leaves_node, !flat_map_concat_map, H. reflexivity. Qed.

Theorem style_filters_preserve_sel skip f rs :
  match f with FSupported _ | FDefaults _ => True | _ => False end ->
  flat_map (sel_leaves skip) (apply_filter f rs) = flat_map (sel_leaves skip) rs.
Proof.
  intros Hf. destruct f as [| |cfg|dfl]; try contradiction; cbn [apply_filter]; rewrite flat_map_map; apply flat_map_ext_in; intros r _;
    [apply supported_unseen | apply defaults_unseen]; apply sel_leaves_styles.
Qed.
Theorem style_filters_preserve_leaves : forall f rs,
  match f with FSupported _ | FDefaults _ => True | _ => False end ->
  flat_map shown_leaves (apply_filter f rs) = flat_map shown_leaves rs.
Proof. intros f rs Hf. rewrite !shown_leaves_sel. exact (style_filters_preserve_sel sk_none f rs Hf). Qed.
