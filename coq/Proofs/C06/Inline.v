(* C06: what the writers put into a cue is the text of the snapshot leaves they walk over, outside ruby annotations (`base_text`:
   ruby base text is carried, the text below rt / rtc / rp is not) — nothing dropped, invented, repeated or reordered — as long as
   their dispatch (Div / P, then Span / Ruby / Rbc / Rb / Br / Text) meets no element that it has no case for and that holds
   text (the executable predicates `inline_ok`, `wblock_ok`; they hold for every snapshot of a document that follows the
   content model of model.py: Proofs/C06/Content.v).
   Characters are compared through `visc`: the characters that are not white space (str.isspace).
   The items a span contributes are its tags, as (opening, closing) pairs, around the items of its children (`wraps`); the inline
   functions of both writers satisfy one node equation (`inline_node`), and what is said of their items — here, in Strip.v and in
   Proofs/C07 — is proved from that equation (Section Inline). *)
From TT Require Import Model.Doc Gen.StyleTables Model.Isd Model.SigTimes Model.TimeCode Model.IsdFilters Gen.CueTables Model.CueWriter.
From TT Require Import Model.CueTriggers Spec.IsdSpec Proofs.Common.ElemInd Proofs.C01.Lwsp Proofs.C06.Filters.

Definition visible (c : Z) : bool := negb (py_isspace c).
Definition visc (t : text) : text := filter visible t.

Lemma visc_app a b : visc (a ++ b) = visc a ++ visc b.
Proof. apply filter_app. Qed.
Lemma visc_flat_map {A} (f : A -> text) l : visc (flat_map f l) = flat_map (fun x => visc (f x)) l.
Proof. induction l as [|x l IH]; [reflexivity|]. cbn [flat_map]. rewrite visc_app, IH. reflexivity. Qed.

Lemma space_is_pyspace c : is_space c = true -> py_isspace c = true.
Proof.
  unfold is_space. intros H. repeat (apply orb_true_iff in H as [H|H]); apply Z.eqb_eq in H; subst c; reflexivity.
Qed.
Lemma visc_nonspace t : visc (nonspace t) = visc t.
Proof.
  induction t as [|c t IH]; [reflexivity|]. unfold nonspace, visc in *. cbn [filter].
  destruct (is_space c) eqn:E; cbn [negb].
  - unfold visible at 2. rewrite (space_is_pyspace c E). cbn [negb]. exact IH.
  - cbn [filter]. destruct (visible c); [f_equal|]; exact IH.
Qed.

Lemma chars_of_app a b : chars_of (a ++ b) = chars_of a ++ chars_of b.
Proof. apply flat_map_app. Qed.
Lemma chars_of_chr t : chars_of (map IChr t) = t.
Proof. induction t as [|c t IH]; [reflexivity|]. cbn [map chars_of flat_map app]. unfold chars_of in IH. rewrite IH. reflexivity. Qed.
Lemma chars_of_flat_map {A} (f : A -> list item) l : chars_of (flat_map f l) = flat_map (fun x => chars_of (f x)) l.
Proof. induction l as [|x l IH]; [reflexivity|]. cbn [flat_map]. rewrite chars_of_app, IH. reflexivity. Qed.
Definition is_tag (i : item) : bool := match i with ITag _ => true | IChr _ => false end.

(* the tags of a span are (opening tag, closing tag) pairs, outermost first; its items are the opening tags, the items of its
   children, the closing tags in reverse order *)
Definition wraps (ps : list (text * text)) (l : list item) : list item :=
  map (fun p => ITag (fst p)) ps ++ l ++ map (fun p => ITag (snd p)) (rev ps).
Lemma wraps_nil l : wraps [] l = l.
Proof. apply app_nil_r. Qed.
Lemma wraps_cons p ps l : wraps (p :: ps) l = ITag (fst p) :: wraps ps l ++ [ITag (snd p)].
Proof. unfold wraps. cbn [map rev app]. rewrite map_app, <- !app_assoc. reflexivity. Qed.
Lemma chars_of_wraps ps l : chars_of (wraps ps l) = chars_of l.
Proof.
  induction ps as [|p ps IH]; [rewrite wraps_nil; reflexivity|]. rewrite wraps_cons.
  change (chars_of (ITag (fst p) :: wraps ps l ++ [ITag (snd p)])) with (chars_of (wraps ps l ++ [ITag (snd p)])).
  rewrite chars_of_app, IH. apply app_nil_r.
Qed.

Definition srt_span_pairs (fmt : bool) (a : attrs) : list (text * text) :=
  if fmt then
    (match get_color_of a p_Color with
     | Some c => [(srt_FONT_COLOR_TAG_IN_pre ++ color_string c ++ srt_FONT_COLOR_TAG_IN_suf, srt_FONT_COLOR_TAG_OUT)]
     | None => []
     end) ++
    (if is_element_bold a then [(srt_BOLD_TAG_IN, srt_BOLD_TAG_OUT)] else []) ++
    (if is_element_italic a then [(srt_ITALIC_TAG_IN, srt_ITALIC_TAG_OUT)] else []) ++
    (if is_element_underlined a then [(srt_UNDERLINE_TAG_IN, srt_UNDERLINE_TAG_OUT)] else [])
  else [].
(* the writer closes the colour class before the background class, the reverse of proper nesting; the two closing tags are the
   same string (vtt_out_tags_equal, Proofs/C07/Tags.v), so what it writes is the properly nested sequence all the same *)
Definition vtt_span_pairs (a : attrs) : list (text * text) :=
  (match get_color_of a p_Color with
   | Some c => [(vtt_COLOR_TAG_IN_pre ++ class_name false c ++ vtt_COLOR_TAG_IN_suf, vtt_COLOR_TAG_OUT)]
   | None => []
   end) ++
  (match get_color_of a p_BackgroundColor with
   | Some c => [(vtt_BG_COLOR_TAG_IN_pre ++ class_name true c ++ vtt_BG_COLOR_TAG_IN_suf, vtt_BG_COLOR_TAG_OUT)]
   | None => []
   end) ++
  (if is_element_bold a then [(vtt_BOLD_TAG_IN, vtt_BOLD_TAG_OUT)] else []) ++
  (if is_element_italic a then [(vtt_ITALIC_TAG_IN, vtt_ITALIC_TAG_OUT)] else []) ++
  (if is_element_underlined a then [(vtt_UNDERLINE_TAG_IN, vtt_UNDERLINE_TAG_OUT)] else []).

(* a fact about every tag pair a span can have, one optional pair at a time *)
Lemma Forall_opt {A} (R : A -> Prop) (b : bool) x : R x -> Forall R (if b then [x] else []).
Proof. intros H. destruct b; [constructor; [exact H|]|]; constructor. Qed.
Lemma srt_span_pairs_forall (R : text * text -> Prop) fmt a :
  (forall c, R (srt_FONT_COLOR_TAG_IN_pre ++ color_string c ++ srt_FONT_COLOR_TAG_IN_suf, srt_FONT_COLOR_TAG_OUT)) ->
  R (srt_BOLD_TAG_IN, srt_BOLD_TAG_OUT) -> R (srt_ITALIC_TAG_IN, srt_ITALIC_TAG_OUT) -> R (srt_UNDERLINE_TAG_IN, srt_UNDERLINE_TAG_OUT) ->
  Forall R (srt_span_pairs fmt a).
Proof.
  intros Hc Hb Hi Hu. unfold srt_span_pairs. destruct fmt; [|constructor].
  repeat (apply Forall_app; split); try (apply Forall_opt; assumption).
  destruct (get_color_of a p_Color) as [c|]; constructor; [apply Hc | constructor].
Qed.
Lemma vtt_span_pairs_forall (R : text * text -> Prop) a :
  (forall c, R (vtt_COLOR_TAG_IN_pre ++ class_name false c ++ vtt_COLOR_TAG_IN_suf, vtt_COLOR_TAG_OUT)) ->
  (forall c, R (vtt_BG_COLOR_TAG_IN_pre ++ class_name true c ++ vtt_BG_COLOR_TAG_IN_suf, vtt_BG_COLOR_TAG_OUT)) ->
  R (vtt_BOLD_TAG_IN, vtt_BOLD_TAG_OUT) -> R (vtt_ITALIC_TAG_IN, vtt_ITALIC_TAG_OUT) -> R (vtt_UNDERLINE_TAG_IN, vtt_UNDERLINE_TAG_OUT) ->
  Forall R (vtt_span_pairs a).
Proof.
  intros Hc Hg Hb Hi Hu. unfold vtt_span_pairs. repeat (apply Forall_app; split); try (apply Forall_opt; assumption).
  - destruct (get_color_of a p_Color) as [c|]; constructor; [apply Hc | constructor].
  - destruct (get_color_of a p_BackgroundColor) as [c|]; constructor; [apply Hg | constructor].
Qed.

Definition is_nil {A} (l : list A) : bool := match l with [] => true | _ => false end.
Lemma is_nil_eq {A} (l : list A) : is_nil l = true -> l = [].
Proof. destruct l; [reflexivity | discriminate]. Qed.

(* the inline dispatch of both writers: Span, Ruby, Rbc, Rb (recursively), Br, Text; the annotations Rt, Rtc, Rp are left out on
   purpose; anything else must hold no text *)
Definition descends (k : kind) : bool := match k with KSpan | KRuby | KRbc | KRb => true | _ => false end.
Fixpoint inline_ok (e : elem) : bool :=
  match e with
  | Elem a cs =>
      match e_kind a with
      | KSpan | KRuby | KRbc | KRb => (fix go (l : list elem) : bool := match l with [] => true | c :: l' => inline_ok c && go l' end) cs
      | KBr | KText | KRt | KRtc | KRp => true
      | _ => is_nil (base_text e)
      end
  end.
Lemma inline_ok_node a cs :
  inline_ok (Elem a cs) = match e_kind a with
                          | KSpan | KRuby | KRbc | KRb => forallb inline_ok cs
                          | KBr | KText | KRt | KRtc | KRp => true
                          | _ => is_nil (base_text (Elem a cs))
                          end.
Proof. cbn [inline_ok]. destruct (e_kind a); reflexivity. Qed.

Lemma base_text_node a cs :
  base_text (Elem a cs) = match e_kind a with
                          | KBr | KRt | KRtc | KRp => []
                          | KText => nonspace (e_text a)
                          | _ => flat_map base_text cs
                          end.
Proof. unfold base_text. rewrite sel_text_node. destruct (e_kind a); reflexivity. Qed.
Lemma leaves_text_node a cs :
  leaves_text (Elem a cs) = match e_kind a with
                            | KBr => []
                            | KText => nonspace (e_text a)
                            | _ => flat_map leaves_text cs
                            end.
Proof. rewrite <- (sel_text_none (Elem a cs)), sel_text_node, (leaves_text_sel cs). destruct (e_kind a); reflexivity. Qed.

(* what an inline element contributes, by kind (both writers) *)
Definition inline_node (pairs : attrs -> list (text * text)) (inner : list item) (a : attrs) : list item :=
  match e_kind a with
  | KSpan => wraps (pairs a) inner
  | KRuby | KRbc | KRb => inner
  | KBr => [IChr 10]
  | KText => map IChr (e_text a)
  | _ => []
  end.
Lemma chars_of_node pairs inner a :
  chars_of (inline_node pairs inner a) =
  match e_kind a with KSpan | KRuby | KRbc | KRb => chars_of inner | KBr => [10] | KText => e_text a | _ => [] end.
Proof. unfold inline_node. destruct (e_kind a); try reflexivity; [apply chars_of_wraps | apply chars_of_chr]. Qed.

Lemma srt_inline_wraps fmt a cs : srt_inline fmt (Elem a cs) = inline_node (srt_span_pairs fmt) (flat_map (srt_inline fmt) cs) a.
Proof.
  unfold inline_node. cbn [srt_inline]. destruct (e_kind a); try reflexivity.
  change ((fix go (l : list elem) : list item := match l with [] => [] | c :: l' => srt_inline fmt c ++ go l' end) cs)
    with (flat_map (srt_inline fmt) cs).
  generalize (flat_map (srt_inline fmt) cs). intros inner. unfold srt_span_pairs. destruct fmt; [|reflexivity].
  destruct (get_color_of a p_Color), (is_element_bold a), (is_element_italic a), (is_element_underlined a); reflexivity.
Qed.

(* WebVTT: the items do not depend on the registry of CSS classes that is threaded through *)
Lemma vtt_inline_go_eq cs : forall s,
  (fix go (l : list elem) (s : css_state) : list item * css_state :=
     match l with
     | [] => ([], s)
     | c :: l' => let '(x, sa) := vtt_inline c s in let '(y, sb) := go l' sa in (x ++ y, sb)
     end) cs s = vtt_inlines cs s.
Proof.
  induction cs as [|c cs IH]; intros s; [reflexivity|]. cbn [vtt_inlines]. destruct (vtt_inline c s) as [x sa]. rewrite IH. reflexivity.
Qed.
Lemma vtt_inline_wraps a cs s :
  fst (vtt_inline (Elem a cs) s) =
  inline_node vtt_span_pairs
    (fst (vtt_inlines cs (match e_kind a with
                          | KSpan => let s1 := match get_color_of a p_Color with Some c => css_add s false c | None => s end in
                                     match get_color_of a p_BackgroundColor with Some c => css_add s1 true c | None => s1 end
                          | _ => s
                          end))) a.
Proof.
  unfold inline_node. cbn [vtt_inline]. destruct (e_kind a); try reflexivity; try (rewrite vtt_inline_go_eq; reflexivity).
  cbv zeta. rewrite vtt_inline_go_eq.
  match goal with |- context [vtt_inlines cs ?s0] => destruct (vtt_inlines cs s0) as [inner s3] end. cbn [fst]. unfold vtt_span_pairs.
  destruct (get_color_of a p_Color), (get_color_of a p_BackgroundColor), (is_element_bold a), (is_element_italic a), (is_element_underlined a);
    reflexivity.
Qed.
Lemma vtt_inlines_from (f : elem -> list item) : forall l s,
  Forall (fun c => forall s, fst (vtt_inline c s) = f c) l -> fst (vtt_inlines l s) = flat_map f l.
Proof.
  induction l as [|c l IH]; intros s H; [reflexivity|]. inversion H as [|? ? Hc Hl]; subst. cbn [vtt_inlines flat_map].
  specialize (Hc s). specialize (IH (snd (vtt_inline c s)) Hl). destruct (vtt_inline c s) as [x sa].
  cbn [fst snd] in *. destruct (vtt_inlines l sa) as [y sb]. cbn [fst] in *. rewrite Hc, IH. reflexivity.
Qed.
Lemma vtt_inline_indep : forall e s, fst (vtt_inline e s) = fst (vtt_inline e []).
Proof.
  induction e as [a cs IH] using elem_ind2. intros s. rewrite !vtt_inline_wraps, !(vtt_inlines_from _ cs _ IH). reflexivity.
Qed.
Lemma vtt_inlines_indep l s : fst (vtt_inlines l s) = flat_map (fun e => fst (vtt_inline e [])) l.
Proof. apply vtt_inlines_from, Forall_forall. intros c _. apply vtt_inline_indep. Qed.
Lemma vtt_items_wraps a cs :
  fst (vtt_inline (Elem a cs) []) = inline_node vtt_span_pairs (flat_map (fun e => fst (vtt_inline e [])) cs) a.
Proof. rewrite vtt_inline_wraps, vtt_inlines_indep. reflexivity. Qed.

Section Inline.
  Variables (inline : elem -> list item) (pairs : attrs -> list (text * text)).
  Hypothesis inline_wraps : forall a cs, inline (Elem a cs) = inline_node pairs (flat_map inline cs) a.

  (* item lists are built from characters, concatenation and span tags around item lists: what holds of these holds of the items
     of every element *)
  Section Shape.
    Variable P : list item -> Prop.
    Hypothesis P_nil : P [].
    Hypothesis P_chr : forall c, P [IChr c].
    Hypothesis P_app : forall x y, P x -> P y -> P (x ++ y).
    Hypothesis P_span : forall a l, P l -> P (wraps (pairs a) l).

    Lemma shape_flat_map {A} (f : A -> list item) l : (forall x, In x l -> P (f x)) -> P (flat_map f l).
    Proof.
      induction l as [|x l IH]; intros H; [exact P_nil|]. cbn [flat_map]. apply P_app; [apply H; left; reflexivity|].
      apply IH. intros y Hy. apply H. right. exact Hy.
    Qed.
    Theorem inline_shape : forall e, P (inline e).
    Proof.
      induction e as [a cs IH] using elem_ind2. rewrite inline_wraps. rewrite Forall_forall in IH.
      pose proof (shape_flat_map inline cs IH) as G. unfold inline_node. destruct (e_kind a); try exact P_nil; try exact G.
      - apply P_span, G.
      - apply P_chr.
      - induction (e_text a) as [|c t IHt]; [exact P_nil | exact (P_app [IChr c] _ (P_chr c) IHt)].
    Qed.
    Corollary inlines_shape l : P (flat_map inline l).
    Proof. apply shape_flat_map. intros e _. apply inline_shape. Qed.
  End Shape.

  (* the characters of the inline output: those of the text nodes, a line feed for a br *)
  Lemma inline_chars_node a cs :
    chars_of (inline (Elem a cs)) =
    match e_kind a with
    | KSpan | KRuby | KRbc | KRb => flat_map (fun c => chars_of (inline c)) cs
    | KBr => [10]
    | KText => e_text a
    | _ => []
    end.
  Proof. rewrite inline_wraps, chars_of_node, chars_of_flat_map. reflexivity. Qed.

  Theorem inline_text : forall e, inline_ok e = true -> visc (chars_of (inline e)) = visc (base_text e).
  Proof.
    induction e as [a cs IH] using elem_ind2. intros H. rewrite inline_chars_node, base_text_node. rewrite inline_ok_node in H.
    assert (G : forallb inline_ok cs = true -> visc (flat_map (fun c => chars_of (inline c)) cs) = visc (flat_map base_text cs)).
    { intros Hc. rewrite !visc_flat_map. apply flat_map_ext_in. intros c Hin. rewrite Forall_forall in IH. apply IH; [exact Hin|].
      rewrite forallb_forall in Hc. apply Hc, Hin. }
    destruct (e_kind a) eqn:Ek.
    all: try (apply G, H).
    all: try reflexivity.
    all: try (rewrite base_text_node, Ek in H; rewrite (is_nil_eq _ H); reflexivity).
    (* text *) symmetry. apply visc_nonspace.
  Qed.
  Corollary inlines_text l : forallb inline_ok l = true -> visc (chars_of (flat_map inline l)) = visc (flat_map base_text l).
  Proof.
    intros H. rewrite chars_of_flat_map, !visc_flat_map. apply flat_map_ext_in. intros c Hc. apply inline_text.
    rewrite forallb_forall in H. apply H, Hc.
  Qed.
  (* ... and every visible character it writes is a character of the base text, whatever the element *)
  Lemma inline_sub x : visible x = true -> forall e, In x (chars_of (inline e)) -> In x (base_text e).
  Proof.
    intros Hx. induction e as [a cs IH] using elem_ind2. rewrite inline_chars_node, base_text_node.
    assert (G : In x (flat_map (fun c => chars_of (inline c)) cs) -> In x (flat_map base_text cs)).
    { intros H. apply in_flat_map in H as (c & Hc & H). apply in_flat_map. exists c. split; [exact Hc|].
      rewrite Forall_forall in IH. apply IH; assumption. }
    destruct (e_kind a); try exact G; try (intros []; fail).
    - (* br *) intros [<-|[]]. discriminate Hx.
    - (* text *) intros H. unfold nonspace. apply filter_In. split; [exact H|].
      destruct (is_space x) eqn:E; [|reflexivity]. unfold visible in Hx. rewrite (space_is_pyspace x E) in Hx. discriminate.
  Qed.
End Inline.

Corollary vtt_inlines_text l s : forallb inline_ok l = true -> visc (chars_of (fst (vtt_inlines l s))) = visc (flat_map base_text l).
Proof. rewrite vtt_inlines_indep. apply (inlines_text _ _ vtt_items_wraps). Qed.
Lemma vtt_inlines_chars l s : chars_of (fst (vtt_inlines l s)) = chars_of (flat_map (srt_inline false) l).
Proof.
  rewrite vtt_inlines_indep, !chars_of_flat_map. apply flat_map_ext. induction a as [a cs IH] using elem_ind2.
  rewrite (inline_chars_node _ _ vtt_items_wraps), (inline_chars_node _ _ (srt_inline_wraps false)).
  destruct (e_kind a); try reflexivity; apply flat_map_ext_in; rewrite Forall_forall in IH; exact IH.
Qed.

Lemma eol_is_pyspace c : is_eol c = true -> py_isspace c = true.
Proof. unfold is_eol. intros H. apply orb_true_iff in H as [H|H]; apply Z.eqb_eq in H; subst c; reflexivity. Qed.
(* normalize_eol only deletes line terminators *)
Inductive del : text -> text -> Prop :=
| del_nil : del [] []
| del_keep c t t' : del t t' -> del (c :: t) (c :: t')
| del_drop c t t' : is_eol c = true -> del t t' -> del (c :: t) t'.

Lemma del_refl t : del t t.
Proof. induction t; constructor; assumption. Qed.
Lemma del_app a a' b b' : del a a' -> del b b' -> del (a ++ b) (a' ++ b').
Proof. intros H. induction H; intros Hb; cbn [app]; [exact Hb | constructor; auto | apply del_drop; auto]. Qed.
Lemma del_trans a b : del a b -> forall c, del b c -> del a c.
Proof.
  intros H. induction H as [|x t t' H IH|x t t' Hx H IH]; intros c Hc.
  - exact Hc.
  - inversion Hc; subst; [constructor; apply IH; assumption | apply del_drop; [assumption | apply IH; assumption]].
  - apply del_drop; [exact Hx | apply IH, Hc].
Qed.
Lemma del_rev a b : del a b -> del (rev a) (rev b).
Proof.
  intros H. induction H as [|x t t' H IH|x t t' Hx H IH]; cbn [rev].
  - constructor.
  - apply del_app; [exact IH | apply del_refl].
  - rewrite <- (app_nil_r (rev t')). apply del_app; [exact IH | apply del_drop; [exact Hx | constructor]].
Qed.
Lemma del_collapse : forall t, del t (collapse_lf t).
Proof.
  induction t as [|c t IH]; [constructor|]. cbn [collapse_lf].
  destruct ((c =? 10) && match t with d :: _ => d =? 10 | [] => false end) eqn:E; [|constructor; exact IH].
  apply andb_true_iff in E as [E _]. apply Z.eqb_eq in E. subst c. apply del_drop; [reflexivity | exact IH].
Qed.
Lemma del_drop_while : forall t, del t (drop_while is_eol t).
Proof.
  induction t as [|c t IH]; [constructor|]. cbn [drop_while]. destruct (is_eol c) eqn:E; [apply del_drop; assumption | apply del_refl].
Qed.
Lemma del_normalize t : del t (normalize_eol t).
Proof.
  unfold normalize_eol, strip_eol. eapply del_trans; [apply del_collapse|].
  eapply del_trans; [apply del_drop_while|]. rewrite <- (rev_involutive (drop_while is_eol (collapse_lf t))) at 1.
  apply del_rev, del_drop_while.
Qed.
Lemma del_ws a b : del a b -> only_whitespace b = only_whitespace a.
Proof.
  intros H. induction H as [|x t t' H IH|x t t' Hx H IH]; [reflexivity | |]; unfold only_whitespace in *; cbn [forallb].
  - rewrite IH. reflexivity.
  - rewrite (eol_is_pyspace x Hx). exact IH.
Qed.
Lemma del_in a b : del a b -> forall x, In x b -> In x a.
Proof. intros H. induction H; intros y Hy; [exact Hy | destruct Hy as [<-|Hy]; [left; reflexivity | right; auto] | right; auto]. Qed.
Lemma normalize_eol_ws t : only_whitespace (normalize_eol t) = only_whitespace t.
Proof. exact (del_ws _ _ (del_normalize t)). Qed.

(* white space in, white space out: the escapes of WebVTT are not white space *)
Definition esc_ws (esc : Z -> text) : Prop := forall c, only_whitespace (esc c) = py_isspace c.
Lemma esc_none_ws : esc_ws esc_none.
Proof. intros c. unfold esc_none, only_whitespace. cbn [forallb]. apply andb_true_r. Qed.
Lemma esc_vtt_ws : esc_ws esc_vtt.
Proof.
  intros c. unfold esc_vtt. destruct (c =? 38) eqn:E1; [apply Z.eqb_eq in E1; subst c; reflexivity|].
  destruct (c =? 60) eqn:E2; [apply Z.eqb_eq in E2; subst c; reflexivity|]. unfold only_whitespace. cbn [forallb]. apply andb_true_r.
Qed.
Lemma only_whitespace_app a b : only_whitespace (a ++ b) = only_whitespace a && only_whitespace b.
Proof. apply forallb_app. Qed.
Lemma only_whitespace_esc esc : esc_ws esc -> forall t, only_whitespace (flat_map esc t) = only_whitespace t.
Proof.
  intros He. induction t as [|c t IH]; [reflexivity|]. cbn [flat_map]. rewrite only_whitespace_app, IH, He. reflexivity.
Qed.
Lemma only_whitespace_visc t : only_whitespace t = true <-> visc t = [].
Proof.
  unfold only_whitespace, visc. induction t as [|c t IH]; [split; reflexivity|]. cbn [forallb filter]. unfold visible at 1.
  destruct (py_isspace c); cbn [negb andb]; [exact IH | split; discriminate].
Qed.
