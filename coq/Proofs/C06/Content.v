(* C06: documents that follow the content model of model.py (the push_child / push_children guards: body holds div; div holds div
   and p; p holds span, br and ruby; span holds span, br and text; ruby holds rb, rt, rp, rbc, rtc; rbc holds rb; rtc holds rt and
   rp; rb, rt and rp hold span) have snapshots in which the dispatch of both writers reaches every Br/Text leaf outside ruby annotations:
   snapshot generation, the per-region clones of the cache and the four ISD filters keep kinds and only remove or regroup
   children.  Hence the text theorems of Proofs/C06/Text.v hold for every such document without any hypothesis on the snapshots. *)
From TT Require Import Model.Doc Gen.StyleTables Model.Isd Model.SigTimes Model.TimeCode Model.IsdFilters Gen.CueTables Model.CueWriter.
From TT Require Import Model.CueTriggers Spec.IsdSpec Spec.IsdShape Proofs.C13.Shape.
From TT Require Import Proofs.Common.ElemInd Proofs.Common.Walk Proofs.C01.Lwsp Proofs.C02.Complete Proofs.C06.Filters Proofs.C06.Inline Proofs.C06.Strip Proofs.C06.Loop Proofs.C06.Text Proofs.C06.Shape.

Definition child_ok (parent child : kind) : bool :=
  match parent, child with
  | KBody, KDiv => true
  | KDiv, KDiv | KDiv, KP => true
  | KP, KSpan | KP, KBr | KP, KRuby => true
  | KSpan, KSpan | KSpan, KBr | KSpan, KText => true
  | KRuby, KRb | KRuby, KRt | KRuby, KRp | KRuby, KRbc | KRuby, KRtc => true
  | KRbc, KRb => true
  | KRtc, KRt | KRtc, KRp => true
  | KRb, KSpan | KRt, KSpan | KRp, KSpan => true
  | _, _ => false
  end.
Definition ekind (e : elem) : kind := e_kind (eattrs e).
Fixpoint cm (e : elem) : bool :=
  match e with
  | Elem a cs => (fix go (l : list elem) : bool := match l with [] => true | c :: l' => child_ok (e_kind a) (ekind c) && cm c && go l' end) cs
  end.
Definition ck (k : kind) (l : list elem) : bool := forallb (fun c => child_ok k (ekind c) && cm c) l.
Lemma cm_node a cs : cm (Elem a cs) = ck (e_kind a) cs.
Proof. cbn [cm]. unfold ck. induction cs as [|c cs IH]; [reflexivity|]. cbn [forallb]. rewrite <- IH. reflexivity. Qed.
Definition doc_content_wf (d : doc) : bool :=
  forallb (is_kind KRegion) (d_regions d) && match d_body d with Some b => is_kind KBody b && cm b | None => true end.

(* white-space handling keeps kinds and only removes children: the content model is a predicate on the kinds of the children of
   every node that survives the removal of children (Proofs/C13/Shape.v, KindProp) *)
Definition kids_ok (k : kind) (ks : list kind) : bool := forallb (child_ok k) ks.
Lemma cm_allk : forall e, cm e = allk kids_ok e.
Proof.
  induction e as [a cs IH] using elem_ind2. rewrite cm_node, allk_node. unfold ck, kids_ok at 1, kinds.
  induction IH as [|c cs Hc _ IHcs]; [reflexivity|]. cbn [forallb map]. rewrite IHcs, Hc. unfold ekind, kind_of.
  destruct (child_ok _ _), (allk kids_ok c), (forallb (child_ok (e_kind a)) _), (forallb (allk kids_ok) cs); reflexivity.
Qed.
Lemma ck_allk k cs : ck k cs = kids_ok k (kinds cs) && forallb (allk kids_ok) cs.
Proof. pose proof (cm_allk (Elem (mkAttrs k None None None None [] [] false [] []) cs)) as H. rewrite cm_node, allk_node in H. exact H. Qed.
Lemma kids_ok_prune k cs : kids_ok k (kinds cs) = true -> kids_ok k (kinds (prune_list cs)) = true.
Proof.
  unfold kids_ok, kinds. rewrite !forallb_forall. intros H x Hx. apply in_map_iff in Hx as (y & <- & Hy).
  apply prune_list_in in Hy as (c & Hc & ->). apply H, in_map_iff. exists c. split; [destruct c; reflexivity | exact Hc].
Qed.

Lemma finish_element_cm a st children r :
  ck (e_kind a) children = true -> finish_element a st children = Ok (Some r) -> ekind r = e_kind a /\ cm r = true.
Proof.
  intros Hc H. apply finish_element_inv in H as (_ & -> & _). split; [reflexivity|]. unfold finished. rewrite cm_node. cbn [isd_attrs e_kind].
  rewrite ck_allk in *. apply andb_true_iff in Hc as [H1 H2].
  destruct (finish_children_allk kids_ok kids_ok_prune a st children H1 H2) as [G1 G2]. rewrite G1, G2. reflexivity.
Qed.

Theorem proc_cm d t sel : forall e inh par pb pe r, cm e = true -> proc d t sel inh par pb pe e = Ok (Some r) -> ekind r = ekind e /\ cm r = true.
Proof.
  induction e as [a cs IH] using elem_ind2. intros inh par pb pe r Hcm H. rewrite Forall_forall in IH. rewrite cm_node in Hcm.
  destruct (proc_unfold _ _ _ _ _ _ _ _ _ H) as (st & children & assoc & iv & Hsub & Hf). cbn [eattrs echildren] in *.
  apply (finish_element_cm a st children r); [|exact Hf]. refine (sub_results_forallb _ _ _ _ _ Hsub _ Hcm).
  intros c x Hc Hq Hx. apply andb_true_iff in Hq as [H1 H2]. destruct (IH c Hc _ _ _ _ _ H2 Hx) as [K1 K2]. rewrite K1, K2, H1. reflexivity.
Qed.

(* a region of the snapshot: a region holding at most the body, which follows the content model *)
Definition body_cm (b : elem) : bool := is_kind KBody b && cm b.
Definition region_cm (r : elem) : bool := is_kind KRegion r && forallb body_cm (echildren r).
Definition snap_cm (rs : list elem) : bool := forallb region_cm rs.
Lemma kind_eqb_refl k : kind_eqb k k = true.
Proof. destruct k; reflexivity. Qed.

Theorem isd_cm d t rs : doc_content_wf d = true -> isd d t = Ok rs -> snap_cm rs = true.
Proof.
  intros Hw H. apply forallb_forall, Forall_forall. revert H. apply isd_forall. intros r x Hr Hx.
  destruct (proc_region_inv d t _ r x (doc_wf_regions body_cm d Hw r Hr) Hx) as [Hk Hc]. unfold region_cm, is_kind. rewrite Hk.
  apply forallb_forall. intros y Hy. destruct (Hc y Hy) as (b & par & Eb & Ey). pose proof (doc_wf_body body_cm d Hw) as Hb. rewrite Eb in Hb.
  apply andb_true_iff in Hb as [Hb1 Hb2]. destruct (proc_cm _ _ _ _ _ _ _ _ _ Hb2 Ey) as [K1 K2]. unfold body_cm, is_kind, ekind in *.
  rewrite K1, Hb1, K2. reflexivity.
Qed.

Lemma restrict_cm sel : forall e inh r, cm e = true -> restrict sel inh e = Ok (Some r) -> ekind r = ekind e /\ cm r = true.
Proof.
  induction e as [a cs IH] using elem_ind2. intros inh r Hcm H. destruct (restrict_inv sel _ _ _ H) as [Ha (assoc & Hsub)].
  split; [unfold ekind; rewrite Ha; reflexivity|]. destruct r as [ar cr]. cbn [eattrs echildren] in *. subst ar. rewrite cm_node in *.
  rewrite Forall_forall in IH. refine (sub_results_forallb _ _ _ _ _ Hsub _ Hcm). intros c x Hc Hq Hx. apply andb_true_iff in Hq as [H1 H2].
  destruct (IH c Hc _ _ H2 Hx) as [K1 K2]. rewrite K1, K2, H1. reflexivity.
Qed.
Lemma restrict_body_cm sel b inh b' : body_cm b = true -> restrict sel inh b = Ok (Some b') -> body_cm b' = true.
Proof.
  intros Hb H. apply andb_true_iff in Hb as [Hb1 Hb2]. destruct (restrict_cm sel b inh b' Hb2 H) as [K1 K2].
  unfold body_cm, is_kind, ekind in *. rewrite K1, Hb1, K2. reflexivity.
Qed.

Theorem sequence_cm d seq : doc_content_wf d = true -> isd_sequence d = Ok seq -> forall x, In x seq -> snap_cm (snd x) = true.
Proof.
  exact (sequence_all (fun d => doc_content_wf d = true) snap_cm (cached_docs_with body_cm restrict_body_cm) isd_cm eq_refl
           (fun a b Ha Hb => eq_trans (forallb_app _ a b) (f_equal2 andb Ha Hb)) d seq).
Qed.

Lemma body_children_ck b c : body_cm b = true -> In c (echildren b) -> ekind c = KDiv /\ cm c = true.
Proof.
  intros H Hc. apply andb_true_iff in H as [H1 H2]. apply kind_eqb_eq in H1. destruct b as [ab cb]. cbn [eattrs echildren] in *.
  rewrite cm_node, H1 in H2. unfold ck in H2. rewrite forallb_forall in H2. specialize (H2 c Hc). apply andb_true_iff in H2 as [K1 K2].
  split; [destruct (ekind c); try discriminate; reflexivity | exact K2].
Qed.
Lemma snap_cm_children rs c : snap_cm rs = true -> In c (body_children rs) -> ekind c = KDiv /\ cm c = true.
Proof.
  intros H Hc. apply in_flat_map in Hc as (r & Hr & Hc). apply in_flat_map in Hc as (b & Hb & Hc).
  unfold snap_cm in H. rewrite forallb_forall in H. specialize (H r Hr). apply andb_true_iff in H as [_ H].
  rewrite forallb_forall in H. exact (body_children_ck b c (H b Hb) Hc).
Qed.
Lemma merge_regions_cm rs : snap_cm rs = true -> snap_cm (merge_regions rs) = true.
Proof.
  intros H. unfold merge_regions.
  destruct ((Z.of_nat (length rs) <=? 1) || (fold_left (fun n r => n + Z.of_nat (length (echildren r))) rs 0 <=? 1)); [exact H|].
  cbn [snap_cm forallb region_cm body_cm is_kind eattrs plain_attrs e_kind kind_eqb echildren andb]. rewrite !andb_true_r, cm_node.
  apply forallb_forall. intros c Hc. destruct (snap_cm_children rs c H Hc) as [K1 K2]. cbn [plain_attrs e_kind]. rewrite K1, K2. reflexivity.
Qed.

Lemma get_paragraphs_cm : forall e p, cm e = true -> In p (get_paragraphs e) -> ekind p = KP /\ cm p = true.
Proof.
  induction e as [a cs IH] using elem_ind2. intros p Hcm Hp. rewrite get_paragraphs_node in Hp. rewrite cm_node in Hcm.
  apply in_flat_map in Hp as (c & Hc & Hp). rewrite Forall_forall in IH. unfold ck in Hcm. rewrite forallb_forall in Hcm.
  specialize (Hcm c Hc). apply andb_true_iff in Hcm as [_ Hcm].
  destruct (e_kind (eattrs c)) eqn:Ek; try (destruct Hp; fail).
  - exact (IH c Hc p Hcm Hp).
  - destruct Hp as [<-|[]]. split; [exact Ek | exact Hcm].
Qed.
Lemma join_paragraphs_ck : forall ps, Forall (fun p => ekind p = KP /\ cm p = true) ps -> ck KP (join_paragraphs ps) = true.
Proof.
  induction ps as [|p ps IH]; intros H; [reflexivity|]. inversion H as [|? ? [Hk Hc] Hps]; subst.
  assert (Hp : ck KP (echildren p) = true) by (destruct p as [ap cp]; unfold ekind in Hk; cbn [eattrs echildren] in *; rewrite cm_node, Hk in Hc; exact Hc).
  cbn [join_paragraphs]. destruct ps as [|q ps']; [exact Hp|]. unfold ck. rewrite forallb_app. fold (ck KP (echildren p)). rewrite Hp.
  exact (IH Hps).
Qed.
Lemma merge_paragraphs_body_cm b : body_cm b = true -> body_cm (merge_paragraphs_body b) = true.
Proof.
  intros H. unfold merge_paragraphs_body. destruct (Z.of_nat (length (flat_map get_paragraphs (echildren b))) <=? 1); [exact H|].
  pose proof H as H0. apply andb_true_iff in H as [H1 _]. unfold body_cm, is_kind in *. cbn [eattrs]. rewrite H1, cm_node, (kind_eqb_eq _ _ H1).
  cbn [ck forallb ekind eattrs plain_attrs e_kind child_ok andb]. rewrite andb_true_r, cm_node.
  cbn [plain_attrs e_kind ck forallb ekind eattrs child_ok andb]. rewrite andb_true_r, cm_node.
  apply join_paragraphs_ck, Forall_forall. intros p Hp. apply in_flat_map in Hp as (c & Hc & Hp).
  exact (get_paragraphs_cm c p (proj2 (body_children_ck b c H0 Hc)) Hp).
Qed.
Lemma merge_paragraphs_cm rs : snap_cm rs = true -> snap_cm (merge_paragraphs rs) = true.
Proof.
  unfold snap_cm, merge_paragraphs. intros H. rewrite forallb_forall in H. apply forallb_forall. intros r' Hr'.
  apply in_map_iff in Hr' as (r & <- & Hr). specialize (H r Hr). unfold region_cm, is_kind in *. cbn [eattrs echildren].
  apply andb_true_iff in H as [H1 H2]. rewrite H1. rewrite forallb_forall in H2. apply forallb_forall. intros b' Hb'.
  apply in_map_iff in Hb' as (b & <- & Hb). exact (merge_paragraphs_body_cm b (H2 b Hb)).
Qed.

Lemma forallb_map {A B} (f : A -> B) (p : B -> bool) l : forallb p (map f l) = forallb (fun x => p (f x)) l.
Proof. induction l as [|x l IH]; [reflexivity|]. cbn [map forallb]. rewrite IH. reflexivity. Qed.
Lemma forallb_ext_in {A} (p q : A -> bool) l : (forall x, In x l -> p x = q x) -> forallb p l = forallb q l.
Proof.
  induction l as [|x l IH]; intros H; [reflexivity|]. cbn [forallb]. rewrite (H x (or_introl eq_refl)), IH; [reflexivity|].
  intros y Hy. apply H. right. exact Hy.
Qed.
(* kind and content model do not read styles *)
Definition kcm (e : elem) : kind * bool := (ekind e, cm e).
Lemma kcm_styles a s cs cs' : map kcm cs' = map kcm cs -> kcm (Elem (with_styles a s) cs') = kcm (Elem a cs).
Proof.
  intros H. unfold kcm. rewrite !cm_node. unfold ck. cbn [with_styles e_kind]. f_equal.
  pose (p := fun y : kind * bool => child_ok (e_kind a) (fst y) && snd y).
  exact (eq_trans (eq_sym (forallb_map kcm p cs')) (eq_trans (f_equal (forallb p) H) (forallb_map kcm p cs))).
Qed.
Lemma region_cm_map a a' (f : elem -> elem) cs : e_kind a' = e_kind a -> (forall e, kcm (f e) = kcm e) ->
  region_cm (Elem a' (map f cs)) = region_cm (Elem a cs).
Proof.
  intros Ha Hf. unfold region_cm, is_kind. cbn [eattrs echildren]. rewrite Ha, forallb_map. f_equal. apply forallb_ext_in.
  intros b _. specialize (Hf b). injection Hf as K1 K2. unfold body_cm, is_kind, ekind in *. rewrite K1, K2. reflexivity.
Qed.
Lemma apply_filter_cm f rs : snap_cm rs = true -> snap_cm (apply_filter f rs) = true.
Proof.
  destruct f as [| |c|d]; cbn [apply_filter]; [apply merge_regions_cm | apply merge_paragraphs_cm | |]; intros H;
    unfold snap_cm in *; rewrite forallb_map, <- H; apply forallb_ext_in; intros [a cs] _.
  - exact (region_cm_map a _ _ cs eq_refl (supported_unseen kcm kcm_styles c)).
  - exact (region_cm_map a _ _ cs eq_refl (fun e => defaults_unseen kcm kcm_styles d e _)).
Qed.
Theorem filters_cm : forall fs rs, snap_cm rs = true -> snap_cm (apply_filters fs rs) = true.
Proof. induction fs as [|f fs IH]; intros rs H; [exact H | exact (IH _ (apply_filter_cm f rs H))]. Qed.

Lemma child_ok_inline k c : child_ok k c = true ->
  match k with KP | KSpan | KRuby | KRbc | KRtc | KRb | KRt | KRp => match c with KSpan | KBr | KText | KRuby | KRb | KRt | KRp | KRbc | KRtc => True | _ => False end | _ => True end.
Proof. destruct k, c; cbn; intros H; try exact I; discriminate. Qed.
Definition inline_kind (k : kind) : bool := match k with KSpan | KBr | KText | KRuby | KRb | KRt | KRp | KRbc | KRtc => true | _ => false end.
Lemma cm_child a cs c : cm (Elem a cs) = true -> In c cs -> child_ok (e_kind a) (ekind c) = true /\ cm c = true.
Proof. rewrite cm_node. unfold ck. intros H Hc. rewrite forallb_forall in H. apply andb_true_iff, H, Hc. Qed.
Lemma cm_inline : forall e, inline_kind (ekind e) = true -> cm e = true -> inline_ok e = true.
Proof.
  induction e as [a cs IH] using elem_ind2. unfold ekind. cbn [eattrs]. intros Hk Hcm. rewrite inline_ok_node. rewrite Forall_forall in IH.
  assert (G : match e_kind a with KSpan | KRuby | KRbc | KRb => True | _ => False end -> forallb inline_ok cs = true).
  { intros Hk'. apply forallb_forall. intros c Hc. destruct (cm_child a cs c Hcm Hc) as [H1 H2]. apply IH; [exact Hc | | exact H2].
    destruct (e_kind a); try contradiction; destruct (ekind c); try discriminate; reflexivity. }
  destruct (e_kind a); try discriminate; try reflexivity; exact (G I).
Qed.
Lemma cm_wblock : forall e, cm e = true -> match ekind e with KDiv | KP => True | _ => False end -> wblock_ok false e = true.
Proof.
  induction e as [a cs IH] using elem_ind2. unfold ekind. cbn [eattrs]. intros Hcm Hk. rewrite wblock_ok_node. rewrite Forall_forall in IH.
  destruct (e_kind a) eqn:Ek; try contradiction; [|cbn [negb orb]; rewrite andb_true_r];
    apply forallb_forall; intros c Hc; destruct (cm_child a cs c Hcm Hc) as [H1 H2]; rewrite Ek in H1.
  - (* div *) apply IH; [exact Hc | exact H2|]. destruct (ekind c); try discriminate; exact I.
  - (* p *) apply cm_inline; [|exact H2]. destruct (ekind c); try discriminate; reflexivity.
Qed.
Lemma cm_src_block : forall e, cm e = true -> ekind e = KDiv -> src_block_ok e = true.
Proof.
  induction e as [a cs IH] using elem_ind2. unfold ekind. cbn [eattrs]. intros Hcm Hk. rewrite src_block_ok_node. rewrite Forall_forall in IH.
  apply forallb_forall. intros c Hc. destruct (cm_child a cs c Hcm Hc) as [H1 H2]. rewrite Hk in H1. unfold ekind in H1.
  destruct (e_kind (eattrs c)) eqn:Ekc; try discriminate; [|reflexivity]. exact (IH c Hc H2 Ekc).
Qed.
(* the whole content model implies its block level *)
Lemma content_block_wf d : doc_content_wf d = true -> doc_block_wf d = true.
Proof.
  unfold doc_content_wf, doc_block_wf. intros H. apply andb_true_iff in H as [-> H]. destruct (d_body d) as [b|]; [|reflexivity].
  unfold src_body_ok. fold (body_cm b) in H. rewrite (proj1 (proj1 (andb_true_iff _ _) H)). apply forallb_forall. intros c Hc.
  destruct (body_children_ck b c H Hc) as [K1 K2]. unfold is_kind. fold (ekind c). rewrite K1, (cm_src_block c K2 K1). reflexivity.
Qed.

Theorem snap_cm_sees rs : snap_cm rs = true -> vtt_sees_all rs = true.
Proof.
  intros H. apply andb_true_iff. split.
  - apply forallb_forall. intros r Hr. unfold snap_cm in H. rewrite forallb_forall in H. specialize (H r Hr). apply andb_true_iff in H as [H1 H2].
    rewrite (container_kind r KRegion (kind_eqb_eq _ _ H1) I). apply forallb_forall. intros b Hb. rewrite forallb_forall in H2.
    specialize (H2 b Hb). apply andb_true_iff in H2 as [H2 _]. exact (container_kind b KBody (kind_eqb_eq _ _ H2) I).
  - apply forallb_forall. intros c Hc. destruct (snap_cm_children rs c H Hc) as [K1 K2]. apply cm_wblock; [exact K2 | rewrite K1; exact I].
Qed.

(* SubRip: in addition, no paragraph's text holds "<" *)
Definition has_lt (t : text) : bool := existsb (Z.eqb 60) t.
Lemma has_lt_flat_map {A} (f : A -> text) l : has_lt (flat_map f l) = false -> forall x, In x l -> has_lt (f x) = false.
Proof.
  unfold has_lt. intros H x Hx. apply not_true_iff_false. intros E. apply existsb_exists in E as (c & Hc & E).
  rewrite (proj2 (existsb_exists _ _)) in H; [discriminate|]. exists c. split; [apply in_flat_map; exists x; split; assumption | exact E].
Qed.
Lemma wblock_lt : forall e, wblock_ok false e = true -> has_lt (base_text e) = false -> wblock_ok true e = true.
Proof.
  induction e as [a cs IH] using elem_ind2. rewrite !wblock_ok_node, base_text_node. intros H Hl.
  destruct (e_kind a) eqn:Ek; try exact H.
  - (* div *) apply forallb_forall. intros c Hc. rewrite forallb_forall in H. rewrite Forall_forall in IH.
    apply IH; [exact Hc | exact (H c Hc) | exact (has_lt_flat_map base_text cs Hl c Hc)].
  - (* p *) cbn [negb orb] in *. rewrite andb_true_r in H. rewrite H. unfold lt_free. fold (has_lt (flat_map base_text cs)). rewrite Hl. reflexivity.
Qed.
Theorem sees_all_lt rs : vtt_sees_all rs = true -> has_lt (flat_map base_text rs) = false -> srt_sees_all rs = true.
Proof.
  unfold vtt_sees_all, srt_sees_all, sees_all. intros H Hl. apply andb_true_iff in H as [H1 H2]. rewrite H1.
  rewrite <- (body_children_text rs H1) in Hl. apply forallb_forall. intros c Hc. rewrite forallb_forall in H2.
  apply wblock_lt; [exact (H2 c Hc) | exact (has_lt_flat_map base_text _ Hl c Hc)].
Qed.

Theorem content_sees_all d seq : doc_content_wf d = true -> isd_sequence d = Ok seq ->
  seq_shape seq = true /\
  (forall cfg, trig_lost_vtt cfg seq = false) /\
  (has_lt (seq_text seq) = false -> trig_lost_srt seq = false).
Proof.
  intros Hw Hs. pose proof (sequence_shape d seq (content_block_wf d Hw) Hs) as Hsh. split; [exact Hsh|].
  assert (Hok : forall fs x, In x seq -> vtt_sees_all (apply_filters fs (snd x)) = true)
    by (intros fs x Hx; exact (snap_cm_sees _ (filters_cm fs _ (sequence_cm d seq Hw Hs x Hx)))).
  split.
  - intros cfg. unfold trig_lost_vtt. destruct (vtt_filters cfg) as [fs|]; [|reflexivity].
    apply not_true_iff_false. intros E. apply existsb_exists in E as (x & Hx & E). rewrite (Hok fs x Hx) in E. discriminate.
  - intros Hl. unfold trig_lost_srt. apply not_true_iff_false. intros E.
    apply existsb_exists in E as (x & Hx & E). rewrite sees_all_lt in E; [discriminate | exact (Hok _ x Hx)|].
    destruct srt_filters_form as (c0 & d0 & ->).
    unfold seq_shape in Hsh. rewrite forallb_forall in Hsh. rewrite (filters_preserve_base true c0 d0 (snd x) (Hsh x Hx)).
    exact (has_lt_flat_map (fun y => flat_map base_text (snd y)) seq Hl x Hx).
Qed.

(* every visible character of every snapshot, outside ruby annotations, once, in order — for every document that follows the content model *)
Theorem vtt_text_content d cfg seq cs css :
  doc_content_wf d = true -> isd_sequence d = Ok seq -> vtt_cues cfg seq = Ok (cs, css) -> visc (flat_map cue_chars cs) = visc (seq_text seq).
Proof.
  intros Hw Hs Hc. destruct (content_sees_all d seq Hw Hs) as (S1 & S2 & _). exact (vtt_text_total cfg seq cs css S1 (S2 cfg) Hc).
Qed.
(* SubRip has no escape mechanism: the statement holds for text without "<" *)
Theorem srt_text_content d fmt seq cs :
  doc_content_wf d = true -> isd_sequence d = Ok seq -> has_lt (seq_text seq) = false -> srt_cues fmt seq = Ok cs ->
  visc (flat_map cue_chars cs) = visc (seq_text seq).
Proof.
  intros Hw Hs Hl Hc. destruct (content_sees_all d seq Hw Hs) as (S1 & _ & S3). exact (srt_text_total fmt seq cs S1 (S3 Hl) Hc).
Qed.
