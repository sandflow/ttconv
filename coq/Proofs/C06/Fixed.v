(* C06/C07: the witnesses of the findings recorded as fixed in the writers (harness/witnesses_c06.py, witnesses_c07.py), evaluated on
   the model: each lemma states, of the witness, the opposite of what the finding reported.  (The same documents are re-run against
   the implementation on every check.) *)
From TT Require Import Model.Doc Gen.StyleTables Model.Isd Model.SigTimes Model.TimeCode Model.IsdFilters Gen.CueTables Model.CueWriter.
From TT Require Import Model.CueTriggers Spec.IsdSpec Spec.CueSpec.
Open Scope Z_scope.

(* <p>pre<ruby><rb>BASE</rb><rt>anno</rt></ruby>post</p>, body 1 s .. 2 s *)
Definition w_ruby : doc := (mkDoc [(Elem (mkAttrs KRegion (Some [114;48]) None None None [] [] false [] []) [])] (Some (Elem (mkAttrs KBody None (Some (Qmake 1 1)) (Some (Qmake 2 1)) None [] [] false [] []) [(Elem (mkAttrs KDiv None None None (Some [114;48]) [] [] false [] []) [(Elem (mkAttrs KP None None None None [] [] false [] []) [(Elem (mkAttrs KSpan None None None None [] [] false [] []) [(Elem (mkAttrs KText None None None None [] [] false [] [112;114;101]) [])]); (Elem (mkAttrs KRuby None None None None [] [] false [] []) [(Elem (mkAttrs KRb None None None None [] [] false [] []) [(Elem (mkAttrs KSpan None None None None [] [] false [] []) [(Elem (mkAttrs KText None None None None [] [] false [] [66;65;83;69]) [])])]); (Elem (mkAttrs KRt None None None None [] [] false [] []) [(Elem (mkAttrs KSpan None None None None [] [] false [] []) [(Elem (mkAttrs KText None None None None [] [] false [] [97;110;110;111]) [])])])]); (Elem (mkAttrs KSpan None None None None [] [] false [] []) [(Elem (mkAttrs KText None None None None [] [] false [] [112;111;115;116]) [])])])])])) [] 15 32 1080 1920 None None []).

(* body/div/div/p "nested" *)
Definition w_nested : doc := (mkDoc [(Elem (mkAttrs KRegion (Some [114;48]) None None None [] [] false [] []) [])] (Some (Elem (mkAttrs KBody None (Some (Qmake 1 1)) (Some (Qmake 2 1)) None [] [] false [] []) [(Elem (mkAttrs KDiv None None None (Some [114;48]) [] [] false [] []) [(Elem (mkAttrs KDiv None None None None [] [] false [] []) [(Elem (mkAttrs KP None None None None [] [] false [] []) [(Elem (mkAttrs KSpan None None None None [] [] false [] []) [(Elem (mkAttrs KText None None None None [] [] false [] [110;101;115;116;101;100]) [])])])])])])) [] 15 32 1080 1920 None None []).

(* <p><span tts:color="red"><br/></span></p> *)
Definition w_tagsonly : doc := (mkDoc [(Elem (mkAttrs KRegion (Some [114;48]) None None None [] [] false [] []) [])] (Some (Elem (mkAttrs KBody None (Some (Qmake 1 1)) (Some (Qmake 2 1)) None [] [] false [] []) [(Elem (mkAttrs KDiv None None None (Some [114;48]) [] [] false [] []) [(Elem (mkAttrs KP None None None None [] [] false [] []) [(Elem (mkAttrs KSpan None None None None [(1, (VColor 4278190335))] [] false [] []) [(Elem (mkAttrs KBr None None None None [] [] false [] []) [])])])])])) [] 15 32 1080 1920 None None []).

(* two regions, each with a p, body begin="1s" and no end *)
Definition w_unbounded : doc := (mkDoc [(Elem (mkAttrs KRegion (Some [114;48]) None None None [] [] false [] []) []); (Elem (mkAttrs KRegion (Some [114;49]) None None None [] [] false [] []) [])] (Some (Elem (mkAttrs KBody None (Some (Qmake 1 1)) None None [] [] false [] []) [(Elem (mkAttrs KDiv None None None (Some [114;48]) [] [] false [] []) [(Elem (mkAttrs KP None None None None [] [] false [] []) [(Elem (mkAttrs KSpan None None None None [] [] false [] []) [(Elem (mkAttrs KText None None None None [] [] false [] [116;114;48]) [])])])]); (Elem (mkAttrs KDiv None None None (Some [114;49]) [] [] false [] []) [(Elem (mkAttrs KP None None None None [] [] false [] []) [(Elem (mkAttrs KSpan None None None None [] [] false [] []) [(Elem (mkAttrs KText None None None None [] [] false [] [116;114;49]) [])])])])])) [] 15 32 1080 1920 None None []).

(* region origin 10% 90%, extent 80% 20%, displayAlign after *)
Definition w_linerange : doc := (mkDoc [(Elem (mkAttrs KRegion (Some [114;48]) None None None [(17, (VCoord (mkLen (Qmake 10 1) Upct) (mkLen (Qmake 90 1) Upct))); (6, (VExtent (mkLen (Qmake 20 1) Upct) (mkLen (Qmake 80 1) Upct))); (5, (VEnum 2))] [] false [] []) [])] (Some (Elem (mkAttrs KBody None (Some (Qmake 1 1)) (Some (Qmake 2 1)) None [] [] false [] []) [(Elem (mkAttrs KDiv None None None (Some [114;48]) [] [] false [] []) [(Elem (mkAttrs KP None None None None [] [] false [] []) [(Elem (mkAttrs KSpan None None None None [] [] false [] []) [(Elem (mkAttrs KText None None None None [] [] false [] [108;111;119]) [])])])])])) [] 15 32 1080 1920 None None []).


Definition lp : vtt_config := mkVttConfig true false true.
Definition dflt : vtt_config := mkVttConfig false false true.
Definition payloads (out : res text) (parse : text -> option (list rcue)) : option (list text) :=
  match out with Ok t => option_map (map payload_text) (parse t) | Err _ => None end.

(* Both writers start from the snapshot sequence, which takes most of the evaluation: it is evaluated once per document, as a
   constant, and the writers run on that. *)
Definition snaps (d : doc) := match isd_sequence d with Ok seq => seq | Err _ => [] end.
Definition ruby_seq := Eval vm_compute in snaps w_ruby.
Lemma ruby_seq_eq : isd_sequence w_ruby = Ok ruby_seq.
Proof. vm_compute. reflexivity. Qed.
Definition nested_seq := Eval vm_compute in snaps w_nested.
Lemma nested_seq_eq : isd_sequence w_nested = Ok nested_seq.
Proof. vm_compute. reflexivity. Qed.
Definition tagsonly_seq := Eval vm_compute in snaps w_tagsonly.
Lemma tagsonly_seq_eq : isd_sequence w_tagsonly = Ok tagsonly_seq.
Proof. vm_compute. reflexivity. Qed.
Definition linerange_seq := Eval vm_compute in snaps w_linerange.
Lemma linerange_seq_eq : isd_sequence w_linerange = Ok linerange_seq.
Proof. vm_compute. reflexivity. Qed.

(* writers-skip-ruby (fixed): preBASEpost, in both formats; the annotation is not written *)
Lemma fixed_ruby :
  payloads (srt_from_model w_ruby true) srt_parse = Some [[112;114;101;66;65;83;69;112;111;115;116]] /\
  payloads (vtt_from_model w_ruby dflt) vtt_parse = Some [[112;114;101;66;65;83;69;112;111;115;116]].
Proof. unfold srt_from_model, vtt_from_model. rewrite ruby_seq_eq. split; vm_compute; reflexivity. Qed.
(* vtt-nested-div-lost (fixed): the WebVTT writer writes the paragraph below the nested division, as the SubRip writer does *)
Lemma fixed_nested_div :
  payloads (vtt_from_model w_nested dflt) vtt_parse = Some [[110;101;115;116;101;100]] /\
  payloads (srt_from_model w_nested true) srt_parse = Some [[110;101;115;116;101;100]].
Proof. unfold srt_from_model, vtt_from_model. rewrite nested_seq_eq. split; vm_compute; reflexivity. Qed.
(* tags-only-cue (fixed): no cue over an interval in which nothing but a line break is visible *)
Lemma fixed_tags_only :
  srt_from_model w_tagsonly true = Ok [] /\ payloads (vtt_from_model w_tagsonly dflt) vtt_parse = Some [].
Proof. unfold srt_from_model, vtt_from_model. rewrite tagsonly_seq_eq. split; vm_compute; reflexivity. Qed.
(* unbounded-interval-several-cues-valueerror (fixed): both cues of the unbounded last interval end 10 s after they begin *)
Lemma fixed_unbounded : exists out cs,
  vtt_from_model w_unbounded lp = Ok out /\ vtt_wf out = true /\ vtt_parse out = Some cs /\
  map (fun c => (r_begin c, r_end c)) cs = [(1000, 11000); (1000, 11000)].
Proof. eexists. eexists. split; [vm_compute; reflexivity|]. split; [vm_compute; reflexivity|]. split; vm_compute; reflexivity. Qed.
(* line-percentage-out-of-range (fixed): the region edge at 110% is written as line:100% *)
Lemma fixed_line_range : exists out cs,
  vtt_from_model w_linerange lp = Ok out /\ vtt_wf out = true /\ vtt_parse out = Some cs /\
  map r_settings cs = [[32;108;105;110;101;58;49;48;48;37;44;101;110;100]].
Proof. unfold vtt_from_model. rewrite linerange_seq_eq. eexists. eexists. split; [vm_compute; reflexivity|]. split; [vm_compute; reflexivity|]. split; vm_compute; reflexivity. Qed.
