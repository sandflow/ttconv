(* C06: the snapshots of a document whose body follows the content model of model.py (body > div > (div | p)*; regions are
   regions) have the shape the filter and writer theorems assume (`snapshot_shape`): snapshot generation keeps the kind of
   every element and only removes children, and so do the per-region clones of the significant-times cache. *)
From TT Require Import Model.Doc Gen.StyleTables Model.Isd Model.SigTimes Model.IsdFilters Spec.IsdSpec.
From TT Require Import Proofs.Common.ElemInd Proofs.Common.Walk Proofs.C01.Lwsp Proofs.C02.Complete Proofs.C06.Filters Proofs.C06.Inline Proofs.C06.Loop Proofs.C06.Text.

Definition is_kind (k : kind) (e : elem) : bool := kind_eqb (e_kind (eattrs e)) k.
(* the children of a division are divisions and paragraphs *)
Fixpoint src_block_ok (e : elem) : bool :=
  match e with
  | Elem a cs =>
      (fix go (l : list elem) : bool :=
         match l with
         | [] => true
         | c :: l' => (match e_kind (eattrs c) with KDiv => src_block_ok c | KP => true | _ => false end) && go l'
         end) cs
  end.
Lemma src_block_ok_node a cs :
  src_block_ok (Elem a cs) = forallb (fun c => match e_kind (eattrs c) with KDiv => src_block_ok c | KP => true | _ => false end) cs.
Proof. reflexivity. Qed.
Definition src_body_ok (b : elem) : bool := is_kind KBody b && forallb (fun c => is_kind KDiv c && src_block_ok c) (echildren b).
Definition doc_block_wf (d : doc) : bool :=
  forallb (is_kind KRegion) (d_regions d) && match d_body d with Some b => src_body_ok b | None => true end.

Lemma finish_element_kind a st children r : finish_element a st children = Ok (Some r) ->
  e_kind (eattrs r) = e_kind a /\
  (match e_kind a with KP | KRt | KRtc | KRp => True | _ => echildren r = children end).
Proof.
  intros H. apply finish_element_inv in H as (_ & -> & _). split; [reflexivity|]. unfold finished, finish_children. cbn [echildren].
  destruct (e_kind a); try exact I; reflexivity.
Qed.

(* the children of the result are results of children of the source, in order *)
Inductive sub_results (R : elem -> elem -> Prop) : list elem -> list elem -> Prop :=
| sr_nil : sub_results R [] []
| sr_skip c cs rs : sub_results R cs rs -> sub_results R (c :: cs) rs
| sr_keep c r cs rs : R c r -> sub_results R cs rs -> sub_results R (c :: cs) (r :: rs).

(* what holds of the source children (`q`) carries over to the result children (`q'`) when each result inherits it from its source *)
Lemma sub_results_forallb R (q q' : elem -> bool) cs rs : sub_results R cs rs ->
  (forall c x, In c cs -> q c = true -> R c x -> q' x = true) -> forallb q cs = true -> forallb q' rs = true.
Proof.
  intros Hsub. induction Hsub as [|c cs rs _ IH|c x cs rs Hx _ IH]; intros H Hq; [reflexivity | |];
    cbn [forallb] in Hq; apply andb_true_iff in Hq as [Hq1 Hq2];
    specialize (IH (fun c' x' Hc' => H c' x' (or_intror Hc')) Hq2); [exact IH|].
  cbn [forallb]. rewrite (H c x (or_introl eq_refl) Hq1 Hx), IH. reflexivity.
Qed.

Lemma collect_sub_results (f : elem -> res (option elem)) cs rs :
  collect_regions (map f cs) = Ok rs -> sub_results (fun c x => f c = Ok (Some x)) cs rs.
Proof.
  intros H. apply collect_map_ok in H as (outs & HF & ->). induction HF as [|c [x|] cs outs Ho _ IH]; [constructor | |].
  - apply sr_keep; assumption.
  - apply sr_skip, IH.
Qed.

(* an element that stays: its styles, then its children, then finish_element *)
Lemma proc_unfold d t sel e inh par pb pe r : proc d t sel inh par pb pe e = Ok (Some r) ->
  exists st children assoc iv,
    sub_results (fun c x => proc d t sel assoc (Some (e_kind (eattrs e), st)) (Some (fst iv)) (snd iv) c = Ok (Some x)) (echildren e) children /\
    finish_element (eattrs e) st children = Ok (Some r).
Proof.
  destruct e as [a cs]. intros H. apply proc_kept in H as (st & children & _ & _ & Hl & Hf).
  exists st, children. eexists. eexists. split; [exact (collect_sub_results _ _ _ Hl) | exact Hf].
Qed.
Lemma proc_inv d t sel e inh par pb pe r : proc d t sel inh par pb pe e = Ok (Some r) ->
  e_kind (eattrs r) = e_kind (eattrs e) /\
  (match e_kind (eattrs e) with
   | KP | KRt | KRtc | KRp => True
   | _ => exists assoc par' pb' pe', sub_results (fun c x => proc d t sel assoc par' pb' pe' c = Ok (Some x)) (echildren e) (echildren r)
   end).
Proof.
  intros H. destruct (proc_unfold _ _ _ _ _ _ _ _ _ H) as (st & children & assoc & iv & Hsub & Hf).
  destruct (finish_element_kind _ _ _ _ Hf) as [Hk Hc]. split; [exact Hk|].
  destruct (e_kind (eattrs e)); try exact I; rewrite Hc; eexists; eexists; eexists; eexists; exact Hsub.
Qed.

Lemma container_kind e k : e_kind (eattrs e) = k -> match k with KBr | KText | KRt | KRtc | KRp => False | _ => True end -> container e = true.
Proof. intros <- H. unfold container. destruct (e_kind (eattrs e)); try reflexivity; contradiction. Qed.

Lemma proc_block d t sel : forall e inh par pb pe r,
  e_kind (eattrs e) = KDiv -> src_block_ok e = true -> proc d t sel inh par pb pe e = Ok (Some r) ->
  e_kind (eattrs r) = KDiv /\ block_ok r = true.
Proof.
  induction e as [a cs IH] using elem_ind2. intros inh par pb pe r Hk Hs H. rewrite Forall_forall in IH.
  destruct (proc_inv _ _ _ _ _ _ _ _ _ H) as [Hkr Hc]. cbn [eattrs echildren] in *. rewrite Hk in *. split; [exact Hkr|].
  destruct Hc as (assoc & par' & pb' & pe' & Hsub). destruct r as [ar cr]. rewrite block_ok_node.
  refine (sub_results_forallb _ _ _ _ _ Hsub _ Hs). intros c x Hc Hq Hx. cbv beta in Hx.
  rewrite (proj1 (proc_inv _ _ _ _ _ _ _ _ _ Hx)). destruct (e_kind (eattrs c)) eqn:Ekc; try discriminate; [|reflexivity].
  exact (proj2 (IH c Hc _ _ _ _ _ Ekc Hq Hx)).
Qed.

Lemma proc_body d t sel b inh par pb pe r :
  src_body_ok b = true -> proc d t sel inh par pb pe b = Ok (Some r) -> body_ok r = true.
Proof.
  unfold src_body_ok, is_kind. intros Hs H. apply andb_true_iff in Hs as [Hk Hs]. apply kind_eqb_eq in Hk.
  destruct (proc_inv _ _ _ _ _ _ _ _ _ H) as [Hkr Hc]. rewrite Hk in *. destruct Hc as (assoc & par' & pb' & pe' & Hsub).
  unfold body_ok. rewrite (container_kind r KBody Hkr I). refine (sub_results_forallb _ _ _ _ _ Hsub _ Hs).
  intros c x _ Hq Hx. apply andb_true_iff in Hq as [Hk1 Hb1].
  destruct (proc_block d t sel c _ _ _ _ x (kind_eqb_eq _ _ Hk1) Hb1 Hx) as [Hkx Hbx]. rewrite (container_kind x KDiv Hkx I), Hbx. reflexivity.
Qed.

Lemma proc_region_inv d t sel r res : e_kind (eattrs r) = KRegion -> proc_region d t sel r = Ok (Some res) ->
  e_kind (eattrs res) = KRegion /\
  forall x, In x (echildren res) -> exists b par, d_body d = Some b /\ proc d t sel None par None None b = Ok (Some x).
Proof.
  intros Hk H. apply proc_region_kept in H as (st & children & _ & _ & Hch & H).
  destruct (finish_element_kind _ _ _ _ H) as [Hkr Hc]. rewrite Hk in *. split; [exact Hkr|]. rewrite Hc.
  destruct Hch as [->|(b & y & Eb0 & Eb & ->)]; [intros x []|]. intros x [<-|[]]. eexists. eexists. split; [exact Eb0 | exact Eb].
Qed.

Lemma paragraphs_regions_shape rs : paragraphs_shape rs = true -> regions_shape rs = true.
Proof.
  unfold paragraphs_shape, regions_shape. intros H. apply forallb_forall. intros r Hr. rewrite forallb_forall in H. specialize (H r Hr).
  apply andb_true_iff in H as [H1 H2]. rewrite H1. apply forallb_forall. intros b Hb. rewrite forallb_forall in H2.
  specialize (H2 b Hb). apply andb_true_iff in H2 as [H2 _]. exact H2.
Qed.
Lemma snapshot_shape_forall rs : snapshot_shape rs = forallb (fun r => container r && forallb body_ok (echildren r)) rs.
Proof.
  unfold snapshot_shape. fold (paragraphs_shape rs).
  destruct (paragraphs_shape rs) eqn:E; [rewrite (paragraphs_regions_shape rs E); reflexivity | apply andb_false_r].
Qed.
Lemma snapshot_shape_app a b : snapshot_shape a = true -> snapshot_shape b = true -> snapshot_shape (a ++ b) = true.
Proof. rewrite !snapshot_shape_forall, forallb_app. intros -> ->. reflexivity. Qed.

(* documents whose regions are regions and whose body satisfies B *)
Definition doc_wf_with (B : elem -> bool) (d : doc) : bool :=
  forallb (is_kind KRegion) (d_regions d) && match d_body d with Some b => B b | None => true end.
Lemma doc_wf_regions B d : doc_wf_with B d = true -> forall r, In r (doc_regions d) -> e_kind (eattrs r) = KRegion.
Proof.
  intros H. apply andb_true_iff in H as [H _]. apply doc_regions_kind, Forall_forall. intros r Hr.
  rewrite forallb_forall in H. exact (kind_eqb_eq _ _ (H r Hr)).
Qed.
Lemma doc_wf_body B d : doc_wf_with B d = true -> match d_body d with Some b => B b = true | None => True end.
Proof. intros H. apply andb_true_iff in H as [_ H]. destruct (d_body d); [exact H | exact I]. Qed.

Theorem isd_shape d t rs : doc_block_wf d = true -> isd d t = Ok rs -> snapshot_shape rs = true.
Proof.
  intros Hw H. rewrite snapshot_shape_forall. apply forallb_forall, Forall_forall. revert H. apply isd_forall. intros r x Hr Hx.
  destruct (proc_region_inv d t _ r x (doc_wf_regions _ d Hw r Hr) Hx) as [Hk Hc]. rewrite (container_kind x KRegion Hk I).
  apply forallb_forall. intros y Hy. destruct (Hc y Hy) as (b & par & Eb & Ey). pose proof (doc_wf_body _ d Hw) as Hb. rewrite Eb in Hb.
  exact (proc_body _ _ _ _ _ _ _ _ _ Hb Ey).
Qed.

Lemma restrict_inv sel : forall e inh r, restrict sel inh e = Ok (Some r) ->
  eattrs r = eattrs e /\ exists assoc, sub_results (fun c x => restrict sel assoc c = Ok (Some x)) (echildren e) (echildren r).
Proof.
  intros [a cs] inh r H. rewrite restrict_node in H. cbv zeta in H. destruct (IsdCache.region_test _ _ _); [discriminate|].
  destruct (collect_regions _) as [cs'|] eqn:Eg; [|discriminate]. cbn [bind] in H.
  destruct (is_nonempty_l cs' && negb (push_children_ok (e_kind a) cs')); [discriminate|]. injection H as <-.
  split; [reflexivity|]. eexists. exact (collect_sub_results _ _ _ Eg).
Qed.
Lemma restrict_block sel : forall e inh r, src_block_ok e = true -> restrict sel inh e = Ok (Some r) -> src_block_ok r = true.
Proof.
  induction e as [a cs IH] using elem_ind2. intros inh r Hs H. destruct (restrict_inv sel _ _ _ H) as [_ (assoc & Hsub)].
  destruct r as [ar cr]. rewrite Forall_forall in IH. refine (sub_results_forallb _ _ _ _ _ Hsub _ Hs). intros c x Hc Hq Hx.
  rewrite (proj1 (restrict_inv sel _ _ _ Hx)). destruct (e_kind (eattrs c)); try discriminate; [|reflexivity]. exact (IH c Hc _ _ Hq Hx).
Qed.
Lemma restrict_body sel b inh r : src_body_ok b = true -> restrict sel inh b = Ok (Some r) -> src_body_ok r = true.
Proof.
  unfold src_body_ok, is_kind. intros Hs H. apply andb_true_iff in Hs as [Hk Hs].
  destruct (restrict_inv sel _ _ _ H) as [Ha (assoc & Hsub)]. rewrite Ha, Hk. refine (sub_results_forallb _ _ _ _ _ Hsub _ Hs).
  intros c x _ Hq Hx. apply andb_true_iff in Hq as [Hk1 Hb1].
  rewrite (proj1 (restrict_inv sel _ _ _ Hx)), Hk1. exact (restrict_block sel c _ x Hb1 Hx).
Qed.

(* what restriction to a region keeps of the body, the documents of the cache keep *)
Lemma cached_docs_with (B : elem -> bool) :
  (forall sel b inh b', B b = true -> restrict sel inh b = Ok (Some b') -> B b' = true) ->
  forall d ds, doc_wf_with B d = true -> cached_docs d = Ok ds -> Forall (fun c => doc_wf_with B c = true) ds.
Proof.
  intros HB d ds Hw H. unfold cached_docs in H. pose proof Hw as Hw0. apply andb_true_iff in Hw0 as [Hr Hb]. rewrite forallb_forall in Hr.
  destruct (d_regions d) as [|r1 [|r2 rest]]; [injection H as <-; constructor; [exact Hw | constructor] ..|].
  apply clones_forall in H. apply Forall_forall. intros c Hc. destruct (Forall2_In_r _ _ _ _ H Hc) as (r & Hr0 & Ec).
  apply clone_one_region_inv in Ec as (rid & b' & _ & Eb & ->). unfold doc_wf_with. cbn [d_regions d_body forallb]. rewrite (Hr r Hr0).
  destruct b' as [b'|]; [|reflexivity]. destruct (d_body d) as [b|]; [|discriminate]. exact (HB _ _ _ _ Hb Eb).
Qed.
Lemma cached_docs_wf d ds : doc_block_wf d = true -> cached_docs d = Ok ds -> Forall (fun c => doc_block_wf c = true) ds.
Proof. exact (cached_docs_with src_body_ok restrict_body d ds). Qed.

(* what every uncached snapshot of every document of a class W that the cache stays in satisfies, so does every snapshot of the sequence *)
Section Cached.
  Variables (W : doc -> Prop) (S : list elem -> bool).
  Hypothesis W_cached : forall d ds, W d -> cached_docs d = Ok ds -> Forall W ds.
  Hypothesis S_isd : forall d t rs, W d -> isd d t = Ok rs -> S rs = true.
  Hypothesis S_nil : S [] = true.
  Hypothesis S_app : forall a b, S a = true -> S b = true -> S (a ++ b) = true.

  Lemma isd_cached_all d t rs : W d -> isd_cached d t = Ok rs -> S rs = true.
  Proof.
    intros Hw H. unfold isd_cached in H. destruct (cached_docs d) as [ds|] eqn:Ed; [|discriminate]. cbn [bind] in H.
    pose proof (W_cached d ds Hw Ed) as Hds. clear Ed. revert rs H. induction Hds as [|c ds Hc _ IH]; intros rs H; cbn [isd_cached_docs] in H.
    - injection H as <-. exact S_nil.
    - destruct (skip_cached t (content_interval c)); [exact (IH rs H)|].
      destruct (isd c t) as [r1|] eqn:E1; [|discriminate]. cbn [bind] in H.
      destruct (isd_cached_docs t ds) as [r2|]; [|discriminate]. injection H as <-. exact (S_app _ _ (S_isd c t r1 Hc E1) (IH r2 eq_refl)).
  Qed.
  Lemma sequence_all d seq : W d -> isd_sequence d = Ok seq -> forall x, In x seq -> S (snd x) = true.
  Proof.
    intros Hw H x Hx. destruct (sequence_spec d seq H) as (l & _ & _ & Hf). rewrite Forall_forall in Hf.
    exact (isd_cached_all d (fst x) (snd x) Hw (Hf x Hx)).
  Qed.
End Cached.

Theorem sequence_shape d seq : doc_block_wf d = true -> isd_sequence d = Ok seq -> seq_shape seq = true.
Proof.
  intros Hw H. apply forallb_forall.
  exact (sequence_all (fun d => doc_block_wf d = true) snapshot_shape cached_docs_wf isd_shape eq_refl snapshot_shape_app d seq Hw H).
Qed.

(* document level: no shape hypothesis left *)
Theorem srt_text_document d fmt seq cs :
  doc_block_wf d = true -> isd_sequence d = Ok seq -> trig_lost_srt seq = false -> Model.CueWriter.srt_cues fmt seq = Ok cs ->
  visc (flat_map Model.CueTriggers.cue_chars cs) = visc (seq_text seq).
Proof. intros Hw Hs Ht Hc. exact (srt_text_total fmt seq cs (sequence_shape d seq Hw Hs) Ht Hc). Qed.
Theorem vtt_text_document d cfg seq cs css :
  doc_block_wf d = true -> isd_sequence d = Ok seq -> trig_lost_vtt cfg seq = false -> Model.CueWriter.vtt_cues cfg seq = Ok (cs, css) ->
  visc (flat_map Model.CueTriggers.cue_chars cs) = visc (seq_text seq).
Proof. intros Hw Hs Ht Hc. exact (vtt_text_total cfg seq cs css (sequence_shape d seq Hw Hs) Ht Hc). Qed.
