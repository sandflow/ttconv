(* C01: the leaves of a snapshot are exactly the leaves the per-leaf TTML2 specification selects. *)
From TT Require Import Model.Doc Gen.StyleTables Model.Isd Spec.IsdSpec Proofs.Common.ElemInd Proofs.Common.StyleFrame Proofs.Common.Walk.
From TT Require Import Proofs.C01.Leaves Proofs.C01.Display Proofs.C01.Lwsp.

Definition pint (pb pe : option Q) : interval := (match pb with Some x => x | None => 0%Q end, pe).
Lemma make_absolute_pint b e pb pe : make_absolute b e pb pe = resolve (pint pb pe) b e.
Proof. apply make_absolute_parent. Qed.
Lemma pint_iv (iv : interval) : pint (Some (fst iv)) (snd iv) = iv.
Proof. destruct iv; reflexivity. Qed.
Lemma oid_otext a b : oid_eqb a b = otext_eqb a b.
Proof. reflexivity. Qed.

(* the specification, per element: the visible leaves below e given the parent's interval and inherited region *)
Definition spec_rec (d : doc) (t : Q) (sel : option text) (dflt : attrs) (parent : interval) (inh : option text) (e : elem) : list leaf :=
  flat_map (fun c => leaf_of (last c dflt)) (filter (chain_visible d t sel parent inh) (chains e)).

Definition head_ok (d : doc) (t : Q) (sel : option text) (iv : interval) (assoc : option text) (a : attrs) (leaf : bool) : bool :=
  is_active t iv && (otext_eqb assoc sel || (negb leaf && match assoc with None => true | Some _ => false end)) && displayed d t iv a.

Lemma filter_cons_chains d t sel parent inh a (X : list (list attrs)) :
  (forall x, In x X -> x <> []) ->
  let iv := resolve parent (e_begin a) (e_end a) in
  let assoc := match e_region a with Some r => Some r | None => inh end in
  filter (chain_visible d t sel parent inh) (map (cons a) X) =
  if head_ok d t sel iv assoc a false then map (cons a) (filter (chain_visible d t sel iv assoc) X) else [].
Proof.
  intros Hne iv assoc. induction X as [|x X IH]; [destruct (head_ok _ _ _ _ _ _ _); reflexivity|].
  cbn [map filter]. rewrite IH by (intros y Hy; apply Hne; right; exact Hy).
  assert (x <> []) as Hx by (apply Hne; left; reflexivity).
  cbn [chain_visible]. fold iv assoc. destruct x as [|a' x']; [congruence|].
  unfold head_ok. cbn [negb andb].
  destruct (is_active t iv && (otext_eqb assoc sel || match assoc with None => true | Some _ => false end) && displayed d t iv a) eqn:E.
  - cbn [andb]. destruct (chain_visible d t sel iv assoc (a' :: x')); reflexivity.
  - cbn [andb]. reflexivity.
Qed.

Lemma last_cons_nonempty {A} (a : A) x d : x <> [] -> last (a :: x) d = last x d.
Proof. destruct x; [congruence | reflexivity]. Qed.

Lemma filter_andb {A} (f g : A -> bool) l : filter (fun x => f x && g x) l = filter g (filter f l).
Proof. induction l as [|x l IH]; [reflexivity|]. cbn [filter]. destruct (f x); cbn [andb filter]; [destruct (g x); rewrite IH; reflexivity | exact IH]. Qed.
Lemma filter_map_cons (g : list attrs -> bool) a X : filter g (map (cons a) X) = map (cons a) (filter (fun x => g (a :: x)) X).
Proof. induction X as [|x X IH]; [reflexivity|]. cbn [map filter]. destruct (g (a :: x)); cbn [map]; rewrite IH; reflexivity. Qed.
Lemma filter_flat_map {A B} (p : B -> bool) (f : A -> list B) l : filter p (flat_map f l) = flat_map (fun x => filter p (f x)) l.
Proof. induction l as [|x l IH]; [reflexivity|]. cbn [flat_map]. rewrite filter_app, IH. reflexivity. Qed.
Lemma leaf_last_cons dflt a Z : (forall x, In x Z -> x <> []) ->
  flat_map (fun c => leaf_of (last c dflt)) (map (cons a) Z) = flat_map (fun c => leaf_of (last c dflt)) Z.
Proof.
  intros HZ. induction Z as [|x Z IH]; [reflexivity|]. cbn [map flat_map]. rewrite last_cons_nonempty by (apply HZ; left; reflexivity).
  rewrite IH; [reflexivity|]. intros y Hy. apply HZ. right. exact Hy.
Qed.

Lemma leaf_of_isd a st : leaf_of (isd_attrs a st) = leaf_of a.
Proof. reflexivity. Qed.
Lemma leaf_wf_node a cs :
  leaf_wf (Elem a cs) = (match e_kind a with KBr | KText => match cs with [] => true | _ => false end | _ => true end && forallb leaf_wf cs).
Proof. reflexivity. Qed.
Lemma sel_bool (oeq : bool) (assoc : option text) :
  negb oeq && (negb true || match assoc with Some _ => true | None => false end) = false ->
  (oeq || match assoc with Some _ => false | None => true end) = true.
Proof. destruct oeq, assoc; cbn; congruence. Qed.

(* Snapshot generation against the per-leaf specification, for the leaves outside the subtrees of the kinds `skip` names
   (none: all leaves, below; rt, rtc, rp: the leaves outside ruby annotations, Proofs/C06/BaseSpec.v). *)
Section Sel.
  Variables (skip : kind -> bool) (L : elem -> list leaf).
  Hypothesis L_node : forall a cs,
    L (Elem a cs) = match e_kind a with KBr | KText => leaf_of a | k => if skip k then [] else flat_map L cs end.
  Hypothesis skip_leaf : skip KBr = false /\ skip KText = false.

  (* once the kind of the element is known the goal tests `skip` at that kind only *)
  Local Ltac case_skip := match goal with |- context [if skip ?k then _ else _] => destruct (skip k) end.

  Definition skipped (c : list attrs) : bool := existsb (fun a => skip (e_kind a)) c.
  Definition spec_sel (d : doc) (t : Q) (sel : option text) (dflt : attrs) (parent : interval) (inh : option text) (e : elem) : list leaf :=
    flat_map (fun c => leaf_of (last c dflt)) (filter (fun c => chain_visible d t sel parent inh c && negb (skipped c)) (chains e)).

  Lemma filter_not_skipped a Y :
    filter (fun x => negb (skipped (a :: x))) Y = if skip (e_kind a) then [] else filter (fun x => negb (skipped x)) Y.
  Proof.
    unfold skipped. cbn [existsb]. destruct (skip (e_kind a)); [|reflexivity]. induction Y as [|x Y IH]; [reflexivity | exact IH].
  Qed.

  Lemma spec_sel_node d t sel dflt parent inh a cs :
    let iv := resolve parent (e_begin a) (e_end a) in
    let assoc := match e_region a with Some r => Some r | None => inh end in
    spec_sel d t sel dflt parent inh (Elem a cs) =
    match e_kind a with
    | KBr | KText => if head_ok d t sel iv assoc a true then leaf_of a else []
    | k => if skip k then [] else if head_ok d t sel iv assoc a false then flat_map (spec_sel d t sel dflt iv assoc) cs else []
    end.
  Proof.
    intros iv assoc. unfold spec_sel at 1. rewrite chains_node.
    assert (Hleaf : skip (e_kind a) = false ->
                    flat_map (fun c => leaf_of (last c dflt)) (filter (fun c => chain_visible d t sel parent inh c && negb (skipped c)) [[a]]) =
                    if head_ok d t sel iv assoc a true then leaf_of a else []).
    { intros Hk. cbn [filter chain_visible]. fold iv assoc. unfold head_ok, skipped. cbn [negb andb existsb]. rewrite orb_false_r, andb_true_r, Hk.
      cbn [orb negb]. rewrite andb_true_r.
      destruct (is_active t iv && otext_eqb assoc sel && displayed d t iv a); [cbn; apply app_nil_r | reflexivity]. }
    assert (Hne : forall x, In x (flat_map chains cs) -> x <> []) by (intros x Hx; apply in_flat_map in Hx as (c & _ & Hc); eapply chains_nonempty; exact Hc).
    assert (Hnode : flat_map (fun c => leaf_of (last c dflt))
                      (filter (fun c => chain_visible d t sel parent inh c && negb (skipped c)) (map (cons a) (flat_map chains cs))) =
                    if skip (e_kind a) then []
                    else if head_ok d t sel iv assoc a false then flat_map (spec_sel d t sel dflt iv assoc) cs else []).
    { rewrite filter_andb, (filter_cons_chains d t sel parent inh a _ Hne). fold iv assoc.
      destruct (head_ok d t sel iv assoc a false); [|destruct (skip (e_kind a)); reflexivity].
      rewrite filter_map_cons, filter_not_skipped. destruct (skip (e_kind a)); [reflexivity|].
      rewrite leaf_last_cons, <- filter_andb, filter_flat_map, flat_map_flat_map; [reflexivity|].
      intros x Hx. apply filter_In in Hx as [Hx _]. apply filter_In in Hx as [Hx _]. exact (Hne x Hx). }
    destruct skip_leaf as [S1 S2]. destruct (e_kind a) eqn:Ek; first [exact (Hleaf S1) | exact (Hleaf S2) | exact Hnode].
  Qed.

  Definition sel_opt (r : option elem) : list leaf := match r with Some e => L e | None => [] end.

  Lemma finish_element_sel a st children r :
    finish_element a st children = Ok r ->
    sel_opt r = match e_kind a with KBr | KText => leaf_of a | k => if skip k then [] else flat_map L children end.
  Proof.
    intros H. apply finish_element_inv in H as (_ & H).
    assert (Hc : flat_map L (finish_children a st children) = flat_map L children).
    { unfold finish_children. destruct (lwsp_kind (e_kind a)); [|reflexivity].
      destruct children; [reflexivity | apply (lwsp_children_sel skip L L_node)]. }
    destruct r as [x|]; cbn [sel_opt].
    - destruct H as [-> _]. unfold finished. rewrite L_node. cbn [isd_attrs e_kind]. rewrite leaf_of_isd, Hc. reflexivity.
    - (* dropped: not a br or text, and nothing below it *)
      destruct H as [Hk H]. rewrite H in Hc. rewrite <- Hc. destruct (e_kind a); try discriminate Hk; case_skip; reflexivity.
  Qed.

  Theorem proc_sel d t sel dflt : forall e inh par pb pe r, leaf_wf e = true ->
    proc d t sel inh par pb pe e = Ok r -> sel_opt r = spec_sel d t sel dflt (pint pb pe) inh e.
  Proof.
    induction e as [a cs IH] using elem_ind2. intros inh par pb pe r Hwf H.
    rewrite leaf_wf_node in Hwf. apply andb_true_iff in Hwf as [Hwf1 Hwf2]. rewrite forallb_forall in Hwf2.
    rewrite spec_sel_node. cbn [proc] in H. rewrite make_absolute_pint in H.
    set (iv := resolve (pint pb pe) (e_begin a) (e_end a)) in *.
    set (assoc := match e_region a with Some r => Some r | None => inh end) in *.
    rewrite active_at_is_active in H. unfold head_ok.
    destruct (is_active t iv) eqn:Eact; cbn [negb andb] in *.
    2:{ injection H as <-. destruct (e_kind a); try reflexivity; case_skip; reflexivity. }
    rewrite oid_otext in H.
    destruct (negb (otext_eqb assoc sel) && (negb (match cs with [] => false | _ => true end) || match assoc with Some _ => true | None => false end)) eqn:Epr.
    - (* pruned by region selection *)
      injection H as <-. cbn [sel_opt].
      apply andb_true_iff in Epr as [E1 E2]. apply negb_true_iff in E1. rewrite E1. cbn [orb].
      destruct (e_kind a); try reflexivity; (case_skip; [reflexivity|]);
        (destruct assoc; [reflexivity|]; cbn [orb] in E2; rewrite orb_false_r in E2; apply negb_true_iff in E2;
         destruct cs; [cbn; destruct (displayed d t iv a); reflexivity | discriminate]).
    - destruct (style_phase d t a par iv) as [st|] eqn:Est; [|discriminate]. cbn [bind] in H.
      rewrite (style_phase_display d t a par iv st Est) in H.
      destruct (displayed d t iv a) eqn:Edisp; cbn [negb] in H.
      2:{ injection H as <-. rewrite !andb_false_r. destruct (e_kind a); try reflexivity; case_skip; reflexivity. }
      match type of H with bind ?g _ = _ => destruct g as [children|] eqn:Eg end; [|discriminate]. cbn [bind] in H.
      apply finish_element_sel in H. rewrite H. rewrite !andb_true_r.
      assert (Hch : flat_map L children = flat_map (spec_sel d t sel dflt iv assoc) cs).
      { rewrite kids_loop in Eg. rewrite Forall_forall in IH. refine (collect_map_flat _ _ _ cs children _ Eg). intros c o Hc Ho.
        rewrite <- (pint_iv iv). rewrite <- (IH c Hc _ _ _ _ _ (Hwf2 c Hc) Ho). destruct o; [apply app_nil_r | reflexivity]. }
      destruct (e_kind a) eqn:Ek.
      all: try (case_skip; [reflexivity|]; rewrite Hch; destruct cs as [|c0 cs0];
                [ cbn [flat_map]; match goal with |- _ = (if ?b then _ else _) => destruct b end; reflexivity
                | rewrite (sel_bool _ _ Epr); reflexivity ]).
      all: (destruct cs; [|discriminate Hwf1]; cbn [negb orb andb] in Epr; rewrite andb_true_r in Epr; apply negb_false_iff in Epr;
            rewrite Epr; reflexivity).
  Qed.

  Definition region_spec_sel (d : doc) (t : Q) (r : attrs) (sel : option text) : list leaf :=
    let riv := resolve root_interval (e_begin r) (e_end r) in
    if is_active t riv && displayed d t riv r then
      match d_body d with None => [] | Some b => spec_sel d t sel r root_interval None b end
    else [].
  Hypothesis skip_region : skip KRegion = false.

  Theorem region_sel_leaves d t sel r res :
    e_kind (eattrs r) = KRegion ->
    match d_body d with Some b => leaf_wf b = true | None => True end ->
    proc_region d t sel r = Ok res -> sel_opt res = region_spec_sel d t (eattrs r) sel.
  Proof.
    intros Hk Hwf H. unfold proc_region in H. rewrite make_absolute_pint in H. unfold region_spec_sel.
    change (pint None None) with root_interval in H.
    set (a := eattrs r) in *. set (iv := resolve root_interval (e_begin a) (e_end a)) in *.
    rewrite active_at_is_active in H. destruct (is_active t iv); cbn [negb andb] in *; [|injection H as <-; reflexivity].
    destruct (style_phase d t a None iv) as [st|] eqn:Est; [|discriminate]. cbn [bind] in H.
    rewrite (style_phase_display d t a None iv st Est) in H.
    destruct (displayed d t iv a); cbn [negb] in H; [|injection H as <-; reflexivity].
    destruct (d_body d) as [b|].
    - destruct (proc d t sel None (Some (KRegion, st)) None None b) as [rb|] eqn:Eb; [|discriminate]. cbn [bind] in H.
      apply finish_element_sel in H. rewrite H, Hk, skip_region.
      pose proof (proc_sel d t sel a b None _ None None rb Hwf Eb) as Hb. change (pint None None) with root_interval in Hb. rewrite <- Hb.
      destruct rb; cbn [flat_map sel_opt]; rewrite ?app_nil_r; reflexivity.
    - cbn [bind] in H. apply finish_element_sel in H. rewrite H, Hk, skip_region. reflexivity.
  Qed.
End Sel.

Definition leaves_opt (r : option elem) : list leaf := match r with Some e => shown_leaves e | None => [] end.

Lemma spec_rec_sel d t sel dflt parent inh e : spec_sel (fun _ => false) d t sel dflt parent inh e = spec_rec d t sel dflt parent inh e.
Proof.
  unfold spec_sel, spec_rec. f_equal. apply filter_ext. intros c. replace (skipped (fun _ => false) c) with false; [apply andb_true_r|].
  induction c as [|x c IH]; [reflexivity | exact IH].
Qed.

Theorem proc_leaves d t sel dflt : forall e inh par pb pe r, leaf_wf e = true ->
  proc d t sel inh par pb pe e = Ok r -> leaves_opt r = spec_rec d t sel dflt (pint pb pe) inh e.
Proof.
  intros e inh par pb pe r Hwf H. rewrite <- spec_rec_sel.
  exact (proc_sel (fun _ => false) shown_leaves shown_leaves_node (conj eq_refl eq_refl) d t sel dflt e inh par pb pe r Hwf H).
Qed.

Theorem region_leaves d t sel r res :
  e_kind (eattrs r) = KRegion ->
  match d_body d with Some b => leaf_wf b = true | None => True end ->
  proc_region d t sel r = Ok res -> leaves_opt res = leaves_spec d t (eattrs r) sel.
Proof.
  intros Hk Hwf H. change (leaves_opt res) with (sel_opt shown_leaves res).
  rewrite (region_sel_leaves (fun _ => false) shown_leaves shown_leaves_node (conj eq_refl eq_refl) eq_refl d t sel r res Hk Hwf H).
  unfold region_spec_sel, leaves_spec. destruct (_ && _); [|reflexivity]. destruct (d_body d); [apply spec_rec_sel | reflexivity].
Qed.

From TT Require Import Spec.DocWf.

Lemma cm_ok_node a cs :
  cm_ok (Elem a cs) = forallb (fun c => child_ok (e_kind a) (e_kind (eattrs c))) cs && forallb cm_ok cs.
Proof. reflexivity. Qed.

(* the content model of the model API makes br and text leaves *)
Lemma cm_ok_leaf_wf : forall e, cm_ok e = true -> leaf_wf e = true.
Proof.
  induction e as [a cs IH] using elem_ind2. intros H. rewrite leaf_wf_node.
  rewrite cm_ok_node in H. apply andb_true_iff in H as [Hk Hcs]. apply andb_true_iff. split.
  - destruct (e_kind a); try reflexivity; (destruct cs as [|c cs']; [reflexivity | cbn in Hk; discriminate]).
  - apply forallb_forall. intros c Hc. rewrite Forall_forall in IH. rewrite forallb_forall in Hcs. apply (IH c Hc), (Hcs c Hc).
Qed.
Lemma doc_wf_body_leaf d : doc_wf d = true -> match d_body d with Some b => leaf_wf b = true | None => True end.
Proof.
  unfold doc_wf. intros H. apply andb_true_iff in H as [_ H]. destruct (d_body d) as [b|]; [|exact I].
  unfold body_ok in H. apply andb_true_iff in H as [_ H]. apply cm_ok_leaf_wf, H.
Qed.
Lemma doc_wf_region_kind d r : doc_wf d = true -> In r (d_regions d) -> e_kind (eattrs r) = KRegion.
Proof.
  unfold doc_wf. intros H Hr. apply andb_true_iff in H as [H _]. rewrite forallb_forall in H. specialize (H r Hr).
  unfold region_ok in H. apply andb_true_iff in H as [H _]. apply andb_true_iff in H as [H _].
  destruct (e_kind (eattrs r)); try discriminate; reflexivity.
Qed.

(* the regions a snapshot is made from, each with the region identity used for selection: the document's regions in
   put_region order, or the default region (selected by "no region") when the document declares none *)
Definition snapshot_sources (d : doc) : list (elem * option text) :=
  match d_regions d with [] => [(default_region, None)] | rs => map (fun r => (r, e_id (eattrs r))) rs end.

(* a region of the snapshot carries the id of the region it was made from: nothing moves to another region *)
Lemma proc_region_id d t sel r x : proc_region d t sel r = Ok (Some x) ->
  e_id (eattrs x) = e_id (eattrs r) /\ e_kind (eattrs x) = e_kind (eattrs r).
Proof.
  intros H. apply proc_region_kept in H as (st & children & _ & _ & _ & H). apply (finish_element_attrs _ _ _ _ H).
Qed.

(* C01: the snapshot of a well-formed document at t follows the source regions one by one and in their order: each
   source region either appears — under its own id, showing exactly the leaves `leaves_spec` prescribes (chain active,
   region-selected, displayed; once each, in document order) — or is absent, and then the specification prescribes no
   leaf for it *)
Definition region_matches (d : doc) (t : Q) (src : elem * option text) (o : option elem) : Prop :=
  leaves_opt o = leaves_spec d t (eattrs (fst src)) (snd src) /\
  match o with Some x => e_id (eattrs x) = e_id (eattrs (fst src)) /\ e_kind (eattrs x) = KRegion | None => True end.

Theorem snapshot_spec d t rs : doc_wf d = true -> isd d t = Ok rs ->
  exists outs, Forall2 (region_matches d t) (snapshot_sources d) outs /\
               rs = flat_map (fun o => match o with Some e => [e] | None => [] end) outs.
Proof.
  intros Hwf Hi. pose proof (doc_wf_body_leaf d Hwf) as Hleaf.
  assert (Hone : forall r sel o, e_kind (eattrs r) = KRegion -> proc_region d t sel r = Ok o -> region_matches d t (r, sel) o).
  { intros r sel o Hk Ho. split; cbn [fst snd].
    - apply (region_leaves d t sel r o Hk Hleaf Ho).
    - destruct o as [x|]; [|exact I]. destruct (proc_region_id d t sel r x Ho) as [H1 H2]. split; [exact H1 | rewrite H2; exact Hk]. }
  unfold isd in Hi. unfold snapshot_sources. destruct (d_regions d) as [|r0 rest] eqn:Er.
  - apply collect_regions_spec in Hi as (outs & HF & ->). exists outs. split; [|reflexivity].
    inversion HF as [|? o ? outs' Ho HF']; subst. inversion HF'; subst. constructor; [|constructor].
    apply (Hone default_region None o eq_refl Ho).
  - apply collect_regions_spec in Hi as (outs & HF & ->). exists outs. split; [|reflexivity].
    apply Forall2_map_l in HF.
    assert (Hin : forall r, In r (r0 :: rest) -> e_kind (eattrs r) = KRegion) by (intros r Hr; apply (doc_wf_region_kind d r Hwf); rewrite Er; exact Hr).
    clear Er. revert outs HF. induction (r0 :: rest) as [|r l IH]; intros outs HF; inversion HF as [|? o ? outs' Ho HF']; subst; [constructor|].
    cbn [map]. constructor.
    + apply (Hone r (e_id (eattrs r)) o (Hin r (or_introl eq_refl)) Ho).
    + apply IH; [intros x Hx; apply Hin; right; exact Hx | exact HF'].
Qed.

(* the hypothesis is satisfiable and the statement is not vacuous: a two-region document whose snapshot at t = 1 shows
   the text "x" in region r1 only *)
Definition c01_ex_doc : doc :=
  mkDoc [Elem (mkAttrs KRegion (Some [114%Z; 49%Z]) None None None [] [] false [] []) [];
         Elem (mkAttrs KRegion (Some [114%Z; 50%Z]) None None None [] [] false [] []) []]
        (Some (Elem (mkAttrs KBody None None None None [] [] false [] [])
           [Elem (mkAttrs KDiv None None None (Some [114%Z; 49%Z]) [] [] false [] [])
              [Elem (mkAttrs KP None (Some (Qmake 1 1)) (Some (Qmake 2 1)) None [] [] false [] [])
                 [Elem (mkAttrs KSpan None None None None [] [] false [] []) [Elem (mkAttrs KText None None None None [] [] false [] [120%Z]) []]]]]))
        [] 15%Z 32%Z 1080%Z 1920%Z None None [].
Lemma snapshot_spec_example :
  doc_wf c01_ex_doc = true /\
  (exists rs, isd c01_ex_doc (Qmake 1 1) = Ok rs /\ map (fun r => leaves_opt (Some r)) rs = [[LText [120%Z]]; []]) /\
  (exists rs, isd c01_ex_doc (Qmake 2 1) = Ok rs /\ map (fun r => leaves_opt (Some r)) rs = [[]; []]).
Proof.
  split; [vm_compute; reflexivity|]. split; apply res_ok_ex; vm_compute; reflexivity.
Qed.
