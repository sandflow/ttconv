(* C01: the display value M computes for an element is the TTML cascade of S: last active set step, else the
   specified value, else the document's initial value, else auto (display is not inherited). *)
From TT Require Import Model.Doc Gen.StyleTables Model.Isd Spec.IsdSpec Proofs.Common.StyleFrame Proofs.C01.Leaves.

Fixpoint nodupb (l : list Z) : bool :=
  match l with [] => true | x :: l' => negb (existsb (Z.eqb x) l') && nodupb l' end.
Lemma nodupb_NoDup l : nodupb l = true -> NoDup l.
Proof.
  induction l as [|x l IH]; intros H; [constructor|]. cbn [nodupb] in H. apply andb_true_iff in H as [H1 H2].
  constructor; [|apply IH, H2]. intros Hin. apply negb_true_iff in H1.
  assert (existsb (Z.eqb x) l = true) as Hx by (apply existsb_exists; exists x; split; [exact Hin | apply Z.eqb_refl]).
  congruence.
Qed.
Lemma all_props_nodup : NoDup all_props.
Proof. apply nodupb_NoDup. vm_compute. reflexivity. Qed.

Lemma last_active_display_eq t iv : forall l acc, last_active t iv p_Display l acc = last_active_display t iv l acc.
Proof.
  destruct iv as [b e]. induction l as [|s l IH]; intros acc; [reflexivity|]. cbn [last_active last_active_display fst snd].
  rewrite make_absolute_resolve, active_at_is_active. destruct ((a_prop s =? p_Display) && is_active t _); apply IH.
Qed.

Lemma display_facts :
  p_Display <> p_FontSize /\ p_Display <> p_TextDecoration /\ is_inherited p_Display = false /\
  p_Display <> p_Origin /\ p_Display <> p_Direction /\ p_Display <> p_Position /\ ~ In p_Display ordered_style_props /\
  existsb (Z.eqb p_Display) all_props = true /\
  sget initial_values p_Display = Some (VEnum e_DisplayType_auto) /\ e_DisplayType_auto <> e_DisplayType_none.
Proof.
  repeat split; try discriminate; try reflexivity.
  intros H. cbn in H. repeat (destruct H as [H|H]; [discriminate|]). exact H.
Qed.

Lemma style_phase_display d t a par iv st :
  style_phase d t a par iv = Ok st -> display_none st = negb (displayed d t iv a).
Proof.
  destruct display_facts as (F1 & F2 & F3 & F4 & F5 & F6 & F7 & F8 & F9 & F10).
  unfold style_phase. intros H.
  destruct (apply_anims t iv (e_anims a) [] []) as [st0 todo0] eqn:E0.
  destruct (apply_specified (e_styles a) st0 todo0) as [st1 todo1] eqn:E1.
  assert (G0 : sget st0 p_Display = last_active_display t iv (e_anims a) None).
  { rewrite <- last_active_display_eq. pose proof (apply_anims_get t iv p_Display (e_anims a) [] []) as G. rewrite E0 in G. exact G. }
  assert (G1 : sget st1 p_Display = match sget st0 p_Display with Some v => Some v | None => sget (e_styles a) p_Display end).
  { pose proof (apply_specified_get p_Display (e_styles a) st0 todo0) as G. rewrite E1 in G. exact G. }
  (* the direction special case, inheritance, initial values and computation leave Display alone, except that
     initial values fill it in when absent *)
  match type of H with (let '(st, todo) := ?X in _) = _ => change X with (dir_pass a st1 todo1) in H end.
  destruct (dir_pass a st1 todo1) as [st2 todo2] eqn:E2.
  assert (G2 : sget st2 p_Display = sget st1 p_Display).
  { pose proof (proj1 (dir_pass_spec a st1 todo1 p_Display)) as G. rewrite E2 in G. cbn [fst] in G. rewrite G. unfold fired.
    destruct (p_Display =? p_Direction) eqn:E; [apply Z.eqb_eq in E; congruence|]. rewrite andb_false_r. reflexivity. }
  set (st3 := match e_kind a, par with
              | KBr, _ | KText, _ | KRegion, _ => st2
              | _, Some (pk, pst) => apply_inherit (e_kind a) pk pst (skeys pst) st2
              | _, None => st2
              end) in H.
  assert (G3 : sget st3 p_Display = sget st2 p_Display).
  { unfold st3. destruct (e_kind a), par as [[pk pst]|]; try reflexivity;
      rewrite apply_inherit_key, inh_step_generic, F3 by (first [assumption | discriminate]); destruct (mem _ _); reflexivity. }
  match type of H with (let '(st, todo) := ?X in _) = _ => destruct X as [st4 todo4] eqn:E4 end.
  assert (G4 : sget st4 p_Display = match sget st3 p_Display with
                                    | Some v => Some v
                                    | None => if is_leaf_kind (e_kind a) then None
                                              else match sget (d_initials d) p_Display with Some v => Some v | None => Some (VEnum e_DisplayType_auto) end
                                    end).
  { destruct (is_leaf_kind (e_kind a)).
    - injection E4 as <- <-. destruct (sget st3 p_Display); reflexivity.
    - pose proof (apply_initial_get d p_Display all_props st3 todo2 all_props_nodup) as G. rewrite E4 in G. cbn [fst] in G.
      rewrite G, F8. destruct (sget st3 p_Display); [reflexivity|]. destruct (sget (d_initials d) p_Display); [reflexivity|].
      destruct (p_Display =? p_Position) eqn:E; [apply Z.eqb_eq in E; congruence|]. exact F9. }
  assert (G5 : sget st p_Display = sget st4 p_Display) by (apply (compute_styles_frame d par todo4 p_Display _ _ _ H F7 (fun _ => F4))).
  unfold display_none, displayed. rewrite G5, G4, G3, G2, G1, G0.
  assert (Hneg : forall v, match v with VEnum x => x =? e_DisplayType_none | _ => false end =
                           negb match v with VEnum x => negb (x =? e_DisplayType_none) | _ => true end)
    by (intros v; destruct v; rewrite ?negb_involutive; reflexivity).
  destruct (last_active_display t iv (e_anims a) None) as [v|]; [apply Hneg|].
  destruct (sget (e_styles a) p_Display) as [v|]; [apply Hneg|].
  replace (match e_kind a with KBr | KText => None | _ => sget (d_initials d) p_Display end)
    with (if is_leaf_kind (e_kind a) then None else sget (d_initials d) p_Display) by (destruct (e_kind a); reflexivity).
  destruct (is_leaf_kind (e_kind a)); [reflexivity|]. destruct (sget (d_initials d) p_Display) as [v|]; [apply Hneg|].
  cbn. destruct (e_DisplayType_auto =? e_DisplayType_none) eqn:E; [apply Z.eqb_eq in E; congruence | reflexivity].
Qed.
