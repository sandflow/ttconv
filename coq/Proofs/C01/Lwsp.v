(* C01: white-space handling (_construct_text_list, _process_lwsp, _prune_empty_spans) is conservative: it never
   adds, drops, duplicates or reorders a line break or a non-white-space character. *)
From TT Require Import Model.Doc Gen.StyleTables Model.Isd Spec.IsdSpec Proofs.Common.ElemInd.

Lemma shown_leaves_node a cs :
  shown_leaves (Elem a cs) = match e_kind a with KBr | KText => leaf_of a | _ => flat_map shown_leaves cs end.
Proof. reflexivity. Qed.

Lemma is_ws_space c : is_ws c = is_space c.
Proof. unfold is_ws, is_space. destruct (c =? 9), (c =? 13), (c =? 10), (c =? 32); reflexivity. Qed.
Lemma nonspace_collapse : forall t b, nonspace (collapse b t) = nonspace t.
Proof.
  induction t as [|c t IH]; intros b; [reflexivity|]. cbn [collapse]. unfold nonspace in *. cbn [filter].
  rewrite <- is_ws_space. destruct (is_ws c) eqn:E.
  - cbn [negb]. destruct b; [apply IH|]. cbn [filter]. change (is_space 32) with true. cbn [negb]. apply IH.
  - cbn [filter]. rewrite <- is_ws_space, E. cbn [negb]. f_equal. apply IH.
Qed.
Lemma nonspace_app a b : nonspace (a ++ b) = nonspace a ++ nonspace b.
Proof. apply filter_app. Qed.
Lemma nonspace_removelast_space t : last_is (Z.eqb 32) t = true -> nonspace (removelast t) = nonspace t.
Proof.
  intros H. destruct t as [|c t] using rev_ind; [reflexivity|].
  rewrite removelast_last. unfold last_is in H. rewrite rev_unit in H. cbn beta iota in H. apply Z.eqb_eq in H. subst c.
  rewrite nonspace_app. change (nonspace [32]) with (@nil Z). rewrite app_nil_r. reflexivity.
Qed.

Definition keeps (x : titem) (t : text) : Prop := nonspace t = nonspace (ti_text x).

Lemma pass1_keeps : forall l prev,
  Forall2 (fun x y => nonspace (ti_text (fst y)) = nonspace (ti_text x)) l (lwsp_pass1 prev l).
Proof.
  induction l as [|x l IH]; intros prev; [constructor|]. cbn [lwsp_pass1].
  destruct (ti_br x || ti_pre x); [constructor; [reflexivity | apply IH]|].
  set (t0 := collapse false (ti_text x)).
  set (t := match t0 with 32 :: t' => if match prev with None => true | Some p => prev_char_lwsp p end then t' else t0 | _ => t0 end).
  assert (Ht : nonspace t = nonspace (ti_text x)).
  { rewrite <- (nonspace_collapse (ti_text x) false). fold t0. unfold t. destruct t0 as [|c t']; [reflexivity|].
    destruct c as [|p|p]; try reflexivity.
    repeat (match goal with |- context [match ?q with xI _ => _ | xO _ => _ | xH => _ end] => is_var q; destruct q end);
      try reflexivity.
    destruct (match prev with None => true | Some p => prev_char_lwsp p end); reflexivity. }
  destruct (is_nonempty t); (constructor; [exact Ht | apply IH]).
Qed.

Lemma pass2_keeps : forall l, Forall2 (fun y t => nonspace t = nonspace (ti_text (fst y))) l (fst (lwsp_pass2 l)).
Proof.
  induction l as [|[x kept] l IH]; [constructor|]. cbn [lwsp_pass2].
  destruct (lwsp_pass2 l) as [rest next] eqn:E. cbn [fst] in IH.
  destruct (negb kept); [cbn [fst]; constructor; [reflexivity | exact IH]|].
  destruct (ti_br x || ti_pre x); [cbn [fst]; constructor; [reflexivity | exact IH]|].
  cbn [fst]. constructor; [|exact IH]. cbn [fst].
  destruct (last_is (Z.eqb 32) (ti_text x)) eqn:El; cbn [andb]; [|reflexivity].
  destruct (match next with None => true | Some n => next_char_lwsp n end); [|reflexivity].
  apply nonspace_removelast_space, El.
Qed.

Lemma Forall2_trans {A B C} (P : A -> B -> Prop) (Q : B -> C -> Prop) (R : A -> C -> Prop) :
  (forall a b c, P a b -> Q b c -> R a c) -> forall l1 l2 l3, Forall2 P l1 l2 -> Forall2 Q l2 l3 -> Forall2 R l1 l3.
Proof.
  intros H l1 l2 l3 H1. revert l3. induction H1 as [|a b l1 l2 Hab H1 IH]; intros l3 H2; inversion H2; subst; constructor.
  - eapply H; eassumption.
  - apply IH. assumption.
Qed.

Lemma process_lwsp_keeps l : Forall2 keeps l (process_lwsp l).
Proof.
  unfold process_lwsp. eapply Forall2_trans; [|apply pass1_keeps|apply pass2_keeps].
  intros a b c H1 H2. unfold keeps. cbn beta in *. rewrite H2. exact H1.
Qed.

Lemma leaf_of_text a t : e_kind a = KText -> nonspace t = nonspace (e_text a) ->
  leaf_of (mkAttrs (e_kind a) (e_id a) (e_begin a) (e_end a) (e_region a) (e_styles a) (e_anims a) (e_preserve a) (e_lang a) t) = leaf_of a.
Proof. intros Hk Hn. unfold leaf_of. cbn [e_kind e_text]. rewrite Hk, Hn. reflexivity. Qed.

Lemma collect_node pre a cs :
  collect_texts pre (Elem a cs) =
  match e_kind a with
  | KBr => [mkT true pre []]
  | KText => if is_nonempty (e_text a) then [mkT false pre (e_text a)] else []
  | k => if skips_text_list k then [] else flat_map (collect_texts (e_preserve a)) cs
  end.
Proof. reflexivity. Qed.

Fixpoint assign_list (cs : list elem) (ts : list text) : list elem * list text :=
  match cs with
  | [] => ([], ts)
  | c :: l' => let '(c', ts1) := assign_texts c ts in let '(l'', ts2) := assign_list l' ts1 in (c' :: l'', ts2)
  end.
Lemma assign_node a cs ts :
  assign_texts (Elem a cs) ts =
  match e_kind a with
  | KBr => (Elem a cs, tl ts)
  | KText => if is_nonempty (e_text a)
             then (Elem (mkAttrs (e_kind a) (e_id a) (e_begin a) (e_end a) (e_region a) (e_styles a) (e_anims a)
                                 (e_preserve a) (e_lang a) (hd [] ts)) cs, tl ts)
             else (Elem a cs, ts)
  | k => if skips_text_list k then (Elem a cs, ts) else let '(cs', ts') := assign_list cs ts in (Elem a cs', ts')
  end.
Proof. reflexivity. Qed.

Lemma assign_children_list : forall cs ts, assign_children cs ts = fst (assign_list cs ts).
Proof.
  induction cs as [|c cs IH]; intros ts; [reflexivity|]. cbn [assign_children assign_list].
  destruct (assign_texts c ts) as [c' ts']. rewrite IH. destruct (assign_list cs ts'). reflexivity.
Qed.

Definition prune_list (l : list elem) : list elem := echildren (prune_empty (Elem (mkAttrs KDiv None None None None [] [] false [] []) l)).
Lemma prune_empty_node a cs : prune_empty (Elem a cs) = Elem a (prune_list cs).
Proof. reflexivity. Qed.
Lemma prune_list_cons c l :
  prune_list (c :: l) =
  let c' := prune_empty c in
  let drop := match e_kind (eattrs c') with
              | KText => negb (is_nonempty (e_text (eattrs c')))
              | KSpan => match echildren c' with [] => true | _ => false end
              | _ => false
              end in
  if drop then prune_list l else c' :: prune_list l.
Proof. reflexivity. Qed.

(* L is a selection of leaves: the Br/Text leaves of a tree outside the subtrees of the kinds `skip` names.  The
   white-space pass keeps every such selection. *)
Section Sel.
  Variables (skip : kind -> bool) (L : elem -> list leaf).
  Hypothesis L_node : forall a cs,
    L (Elem a cs) = match e_kind a with KBr | KText => leaf_of a | k => if skip k then [] else flat_map L cs end.

  (* a list of elements takes back exactly the texts collected from it, as soon as each element does *)
  Definition takes_back (c : elem) : Prop := forall pre ts rest, Forall2 keeps (collect_texts pre c) ts ->
    L (fst (assign_texts c (ts ++ rest))) = L c /\ snd (assign_texts c (ts ++ rest)) = rest.
  Lemma assign_list_sel pre : forall cs, Forall takes_back cs ->
    forall ts rest, Forall2 keeps (flat_map (collect_texts pre) cs) ts ->
    flat_map L (fst (assign_list cs (ts ++ rest))) = flat_map L cs /\ snd (assign_list cs (ts ++ rest)) = rest.
  Proof.
    induction 1 as [|c cs Hc _ IHcs]; intros ts rest H.
    - inversion H; subst. split; reflexivity.
    - cbn [flat_map] in H. apply Forall2_app_inv_l in H as (ts1 & ts2 & H1 & H2 & ->).
      rewrite <- app_assoc. destruct (Hc pre ts1 (ts2 ++ rest) H1) as [Hs Hr].
      cbn [assign_list]. destruct (assign_texts c (ts1 ++ ts2 ++ rest)) as [c' tsr]. cbn [fst snd] in Hs, Hr. subst tsr.
      destruct (IHcs ts2 rest H2) as [Hs2 Hr2]. destruct (assign_list cs (ts2 ++ rest)) as [l'' ts2']. cbn [fst snd] in *.
      subst ts2'. cbn [flat_map]. split; [rewrite Hs, Hs2; reflexivity | reflexivity].
  Qed.

  Lemma assign_texts_sel : forall e, takes_back e.
  Proof.
    induction e as [a cs IH] using elem_ind2. intros pre ts rest H.
    rewrite collect_node in H. rewrite assign_node.
    pose proof (assign_list_sel (e_preserve a) cs IH) as Hlist.
    destruct (e_kind a) eqn:Ek; cbn [skips_text_list] in *.
    all: try (inversion H; subst; cbn [app fst snd]; split; reflexivity).
    all: try (destruct (Hlist ts rest H) as [G1 G2]; destruct (assign_list cs (ts ++ rest)) as [cs' ts']; cbn [fst snd] in *; subst ts';
              split; [rewrite !L_node, Ek, G1; reflexivity | reflexivity]).
    - (* br *) inversion H as [|x y l l' Hxy Hrest]; subst. inversion Hrest; subst. cbn [app tl fst snd]. split; reflexivity.
    - (* text *) destruct (is_nonempty (e_text a)).
      + inversion H as [|x y l l' Hxy Hrest]; subst. inversion Hrest; subst. cbn [app hd tl fst snd]. split; [|reflexivity].
        rewrite !L_node. cbn [e_kind]. rewrite Ek. rewrite <- Ek at 1. apply leaf_of_text; [exact Ek | exact Hxy].
      + inversion H; subst. cbn [app fst snd]. split; reflexivity.
  Qed.

  (* _prune_empty_spans drops only what shows no leaf *)
  Lemma prune_list_step cs : Forall (fun c => L (prune_empty c) = L c) cs -> flat_map L (prune_list cs) = flat_map L cs.
  Proof.
    induction 1 as [|c cs Hc _ IHcs]; [reflexivity|].
    rewrite prune_list_cons. cbv zeta. cbn [flat_map]. rewrite <- Hc, <- IHcs.
    destruct (prune_empty c) as [a' cs'] eqn:Ep. cbn [eattrs echildren].
    destruct (e_kind a') eqn:Ek; try reflexivity.
    - (* span *) destruct cs'; [|reflexivity]. rewrite L_node, Ek. destruct (skip KSpan); reflexivity.
    - (* text *) destruct (is_nonempty (e_text a')) eqn:En; cbn [negb]; [reflexivity|].
      rewrite L_node, Ek. unfold leaf_of. rewrite Ek. destruct (e_text a'); [reflexivity | discriminate].
  Qed.
  Lemma prune_sel : forall e, L (prune_empty e) = L e.
  Proof. induction e as [a cs IH] using elem_ind2. rewrite prune_empty_node, !L_node, (prune_list_step cs IH). reflexivity. Qed.

  Theorem lwsp_children_sel a cs : flat_map L (lwsp_children a cs) = flat_map L cs.
  Proof.
    unfold lwsp_children. rewrite prune_empty_node. cbn [echildren].
    rewrite (prune_list_step _ (proj2 (Forall_forall _ _) (fun c _ => prune_sel c))), assign_children_list.
    pose proof (process_lwsp_keeps (collect_children a cs)) as H. rewrite <- (app_nil_r (process_lwsp _)).
    apply (assign_list_sel (e_preserve a) cs); [|exact H]. apply Forall_forall. intros c _. apply assign_texts_sel.
  Qed.
End Sel.

Theorem lwsp_children_keeps a cs : flat_map shown_leaves (lwsp_children a cs) = flat_map shown_leaves cs.
Proof. exact (lwsp_children_sel (fun _ => false) shown_leaves shown_leaves_node a cs). Qed.
