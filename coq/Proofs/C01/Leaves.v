(* C01, time containment: the interval M (Model/Isd.v) computes is the TTML2 resolution of begin/end against the
   parent as S (Spec/IsdSpec.v) writes it (a missing parent begin counts as 0), and M's activity test is S's. *)
From TT Require Import Model.Doc Gen.StyleTables Model.Isd Spec.IsdSpec.

Lemma make_absolute_parent b e pb pe :
  make_absolute b e pb pe = resolve (match pb with Some x => x | None => 0%Q end, pe) b e.
Proof. unfold make_absolute, resolve. cbn [fst snd]. destruct e as [x|], pe as [y|]; reflexivity. Qed.
Lemma make_absolute_resolve b e pb pe : make_absolute b e (Some pb) pe = resolve (pb, pe) b e.
Proof. apply make_absolute_parent. Qed.
Lemma make_absolute_root b e : make_absolute b e None None = resolve root_interval b e.
Proof. apply make_absolute_parent. Qed.

Lemma active_at_is_active t iv : active_at t iv = is_active t iv.
Proof.
  unfold active_at, is_active, Qltb. rewrite negb_involutive. destruct (snd iv); reflexivity.
Qed.
