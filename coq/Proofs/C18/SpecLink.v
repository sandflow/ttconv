(* C18 — the guard models' outcome type read as an observation of Spec/RobustSpec.v *)
From TT Require Import Base.Prelude Model.Outcome Spec.RobustSpec Proofs.C18.Guard.

Definition obs_of_outcome (o : outcome) : reader_obs :=
  match o with
  | OkDoc => RDoc
  | OkNone => RNone
  | FormatError XmlParseErr => RRaised XXmlParse
  | FormatError ValueErr => RRaised XValue
  | FormatError StructErr => RRaised XStruct
  | FormatError UnicodeDecodeErr => RRaised XUnicodeDecode
  | Internal AttributeErr => RRaised XAttribute
  | Internal TypeErr => RRaised XType
  | Internal IndexErr => RRaised XIndex
  | Internal KeyErr => RRaised XKey
  | Internal UnboundLocalErr => RRaised XUnboundLocal
  | Internal AssertionErr => RRaised XAssertion
  | Internal RecursionErr => RRaised XRecursion
  | Internal _ => RRaised XOther
  end.

Lemma reader_ok_obs o : reader_ok (obs_of_outcome o) = negb (is_internal o).
Proof. destruct o as [| |[]|[]]; reflexivity. Qed.

Lemma not_internal_ok o : is_internal o = false -> reader_ok (obs_of_outcome o) = true.
Proof. intro H. rewrite reader_ok_obs, H. reflexivity. Qed.

Lemma internal_from_ok oracle o :
  internal_from oracle o -> (forall r, In r oracle -> sub_is_internal r = false) -> reader_ok (obs_of_outcome o) = true.
Proof. intros F C. apply not_internal_ok, (internal_from_clean oracle o F C). Qed.

Lemma internal_not_ok o k : o = Internal k -> reader_ok (obs_of_outcome o) = false.
Proof. intro; subst. destruct k; reflexivity. Qed.
