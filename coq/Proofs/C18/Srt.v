(* C18 — totality of the SRT reader's line machine and of the _TextParser cursor (guard models of Model/ReaderGuards.v) *)
From TT Require Import Base.Prelude Model.Outcome Gen.GuardTables Model.ReaderGuards Proofs.C18.Guard.

(* which variables are bound in which state *)
Definition srt_inv (v : srt_vars) : Prop :=
  s_text_bound v = true /\
  match s_state v with
  | S_TEXT => s_p v = Some false
  | S_TEXT_MORE => s_p v = Some true
  | _ => True
  end.

(* what one iteration on [item] does to the variables [v]: the machine goes on with its variables bound as the new state needs them,
   or it ends — with an exception only if that is the cue-text parser's answer, or the ValueError of int() on a time-code line
   whose hour field is too long *)
Definition srt_post (v : srt_vars) (item : option srt_view) (r : srt_vars + outcome) : Prop :=
  match r with
  | inl v' => srt_inv v' /\ incl (s_oracle v') (s_oracle v)
  | inr o => answered (s_oracle v) o \/ o = FormatError ValueErr /\ exists l, item = Some l /\ sv_tc_long l = true
  end.

Lemma flush_spec v item a : s_text_bound v = true -> s_p v = Some a -> srt_post v item (flush S_COUNTER v).
Proof.
  intros Hb Hp. unfold flush. rewrite Hb, Hp. cbn [negb].
  pose proof (next_sub_spec (s_oracle v)) as N. destruct (next_sub (s_oracle v)) as [r rest]. destruct N as [Inc A].
  destruct (outcome_of_sub r); [left; exact A|]. split; [split; [reflexivity|exact I]|exact Inc].
Qed.

Lemma srt_step_spec v item : srt_inv v -> srt_post v item (srt_step v item).
Proof.
  intros [Hb Hs]. unfold srt_step. revert Hs. destruct (s_state v) eqn:St; intro Hs.
  - destruct item as [l|]; [|left; exact I].
    destruct (sv_blank l); [split; [split; [exact Hb|rewrite St; exact I]|apply incl_refl]|].
    destruct (sv_counter l); [|left; exact I]. split; [split; [exact Hb|exact I]|apply incl_refl].
  - destruct item as [l|]; [|left; exact I]. destruct (sv_tc l); [|left; exact I].
    destruct (sv_tc_long l) eqn:L; [right; eauto|]. split; [split; [exact Hb|reflexivity]|apply incl_refl].
  - destruct item as [l|]; [destruct (sv_blank l)|]; try exact (flush_spec v _ _ Hb Hs).
    unfold text_line. rewrite Hs. split; [split; reflexivity|apply incl_refl].
  - destruct item as [l|]; [destruct (sv_blank l)|]; try exact (flush_spec v _ _ Hb Hs).
    unfold text_line. rewrite Hb. split; [split; [reflexivity|exact Hs]|apply incl_refl].
Qed.

Lemma srt_views_spec oracle items :
  let o := srt_views true oracle items in
  answered oracle o \/ o = FormatError ValueErr /\ existsb sv_tc_long items = true.
Proof.
  refine (loop_invariant (fun v l => srt_step v (Some l)) (fun v ls => match srt_loop v ls with inr o => o | inl _ => OkDoc end)
            s_oracle srt_inv (fun orc o => answered orc o \/ o = FormatError ValueErr /\ existsb sv_tc_long items = true)
            _ _ _ items _ (srt_init true oracle) (conj eq_refl I)).
  - intros v l rest. cbn [srt_loop]. destruct (srt_step v (Some l)); reflexivity.
  - intros v Hv. cbn [srt_loop]. pose proof (srt_step_spec v None Hv) as S.
    destruct (srt_step v None); [left; exact I|]. destruct S as [A|[_ [l [E _]]]]; [left; exact A|discriminate].
  - intros a b o Inc [A|B]; [left; exact (answered_incl _ _ _ Inc A)|right; exact B].
  - intros v l Hl Hv. pose proof (srt_step_spec v (Some l) Hv) as S. destruct (srt_step v (Some l)); [exact S|].
    destruct S as [A|[E [l' [[= <-] L]]]]; [left; exact A|right]. split; [exact E|]. apply existsb_exists. eauto.
Qed.

Lemma srt_views_internal oracle items k :
  srt_views true oracle items = Internal k -> In (SubInternal k) oracle.
Proof. intro E. destruct (srt_views_spec oracle items) as [A|[B _]]; rewrite E in *; [exact A|discriminate]. Qed.

Lemma srt_run_internal oracle content k :
  srt_run oracle content = Internal k -> In (SubInternal k) oracle.
Proof. apply srt_views_internal. Qed.

(* where a format error of the line machine comes from: the cue-text parser (a colour parse_color rejects), or int() of an
   hour field with more digits than the interpreter converts (_TIMECODE_RE matches hour fields of any width) *)
Lemma existsb_map {A B} (f : A -> B) (p : B -> bool) l : existsb p (map f l) = existsb (fun x => p (f x)) l.
Proof. induction l as [|x r IH]; simpl; [reflexivity|rewrite IH; reflexivity]. Qed.

Lemma srt_run_format oracle content k :
  srt_run oracle content = FormatError k ->
  In (SubFormat k) oracle \/ (k = ValueErr /\ existsb (fun l => sv_tc_long (srt_classify l)) (readlines content) = true).
Proof.
  intro E. destruct (srt_views_spec oracle (map srt_classify (readlines content))) as [A|[B L]];
    fold (srt_run oracle content) in *; rewrite E in *; [left; exact A|right].
  injection B as ->. rewrite existsb_map in L. split; [reflexivity|exact L].
Qed.

(* a time-code line can only be "too long for int()" when it is longer than the digit limit: the hour fields are part of it, and
   no piece of the pattern hands on more text than it was given *)
Definition within (n : nat) (o : option text) : Prop := forall s, o = Some s -> (length s <= n)%nat.

Lemma within_bind f n o : (forall s, within (length s) (f s)) -> within n o -> within n (o >>= f).
Proof. intros F O r H. destruct o as [s|]; [|discriminate]. specialize (O s eq_refl). apply F in H. lia. Qed.

Lemma eat_within c s : within (length s) (eat c s).
Proof. destruct s as [|x s']; [discriminate|]. cbn [eat]. destruct (x =? c); [|discriminate]. intros r [= <-]. cbn [length]. lia. Qed.
Lemma eat_d2_within s : within (length s) (eat_d2 s).
Proof.
  destruct s as [|a [|b s']]; try discriminate. cbn [eat_d2]. destruct (ascii_digit a && ascii_digit b); [|discriminate].
  intros r [= <-]. cbn [length]. lia.
Qed.
Lemma eat_d3_within s : within (length s) (eat_d3 s).
Proof.
  destruct s as [|a [|b [|c s']]]; try discriminate. cbn [eat_d3]. destruct (ascii_digit a && ascii_digit b && ascii_digit c); [|discriminate].
  intros r [= <-]. cbn [length]. lia.
Qed.
Lemma drop_while_len f s : (length (drop_while f s) <= length s)%nat.
Proof. induction s as [|c r IH]; simpl; [lia|]. destruct (f c); simpl; lia. Qed.
Lemma eat_spaces1_within s : within (length s) (eat_spaces1 s).
Proof.
  destruct s as [|c s']; [discriminate|]. cbn [eat_spaces1]. destruct (re_space c); [|discriminate]. intros r [= <-].
  pose proof (drop_while_len re_space s'). cbn [length]. lia.
Qed.
Lemma eat_arrow_within s : within (length s) (eat_arrow s).
Proof. unfold eat_arrow. auto using within_bind, eat_within. Qed.

Lemma span_digits_len s : forall n, fst (span_digits n s) <= n + Z.of_nat (length s) /\ (length (snd (span_digits n s)) <= length s)%nat.
Proof.
  induction s as [|c r IH]; intro n; simpl; [lia|].
  destruct (ascii_digit c); [specialize (IH (n + 1)); lia|simpl; lia].
Qed.

Lemma srt_ts_len s n r : srt_ts s = Some (n, r) -> n <= Z.of_nat (length s) /\ (length r <= length s)%nat.
Proof.
  unfold srt_ts, eat_d2p. pose proof (span_digits_len s 0) as [B R].
  destruct (span_digits 0 s) as [m r0]; cbn [fst snd] in B, R. destruct (2 <=? m); [|discriminate].
  destruct (eat 58 r0 >>= eat_d2 >>= eat 58 >>= eat_d2 >>= eat 44 >>= eat_d3) as [r'|] eqn:E; [|discriminate].
  intros [= <- <-]. split; [lia|].
  assert (W : within (length r0) (eat 58 r0 >>= eat_d2 >>= eat 58 >>= eat_d2 >>= eat 44 >>= eat_d3))
    by auto 7 using within_bind, eat_within, eat_d2_within, eat_d3_within.
  specialize (W _ E). lia.
Qed.

Lemma srt_tc_at_len s nb ne : srt_tc_at s = Some (nb, ne) -> nb <= Z.of_nat (length s) /\ ne <= Z.of_nat (length s).
Proof.
  unfold srt_tc_at. destruct (srt_ts s) as [[n r]|] eqn:T; [|discriminate]. apply srt_ts_len in T as [Tn Tr].
  destruct (eat_spaces1 r >>= eat_arrow >>= eat_spaces1) as [r'|] eqn:E; [|discriminate].
  assert (W : within (length r) (eat_spaces1 r >>= eat_arrow >>= eat_spaces1)) by auto using within_bind, eat_spaces1_within, eat_arrow_within.
  specialize (W _ E).
  destruct (srt_ts r') as [[n' r'']|] eqn:T'; [|discriminate]. apply srt_ts_len in T' as [Tn' _].
  intros [= <- <-]. lia.
Qed.

Lemma srt_tc_search_len s : forall nb ne, srt_tc_search s = Some (nb, ne) -> nb <= Z.of_nat (length s) /\ ne <= Z.of_nat (length s).
Proof.
  induction s as [|c r IH]; intros nb ne H.
  - discriminate.
  - cbn [srt_tc_search] in H. destruct (srt_tc_at (c :: r)) as [[a b]|] eqn:E.
    + injection H as <- <-. exact (srt_tc_at_len _ _ _ E).
    + apply IH in H. cbn [length]. lia.
Qed.

Lemma srt_short_line_not_long l : Z.of_nat (length l) <= int_max_str_digits -> sv_tc_long (srt_classify l) = false.
Proof.
  intro H. unfold srt_classify. cbn [sv_tc_long]. destruct (srt_tc_search l) as [[nb ne]|] eqn:E; [|reflexivity].
  apply srt_tc_search_len in E. unfold srt_hours_too_long. cbn [fst snd]. lia.
Qed.

Lemma srt_run_format_short oracle content k :
  (forall l, In l (readlines content) -> Z.of_nat (length l) <= int_max_str_digits) ->
  srt_run oracle content = FormatError k -> In (SubFormat k) oracle.
Proof.
  intros Hs H. apply srt_run_format in H as [A|[_ B]]; [exact A|].
  apply existsb_exists in B as [l [Hl Bl]]. rewrite (srt_short_line_not_long l (Hs l Hl)) in Bl. discriminate.
Qed.

(* every hour field of two or more ASCII digits is accepted (the writer prints as many as the hours need): "H..H:MM:SS,mmm" *)
Lemma span_digits_all ds : forall n rest,
  forallb ascii_digit ds = true -> (match rest with c :: _ => ascii_digit c = false | [] => True end) ->
  span_digits n (ds ++ rest) = (n + Z.of_nat (length ds), rest).
Proof.
  induction ds as [|d r IH]; intros n rest Hd Hr.
  - simpl. replace (n + 0) with n by lia. destruct rest as [|c rest']; [reflexivity|]. simpl. rewrite Hr. reflexivity.
  - simpl in Hd. apply andb_true_iff in Hd as [Hd1 Hd2]. simpl app. cbn [span_digits]. rewrite Hd1. rewrite IH; auto.
    f_equal. simpl length. lia.
Qed.
Lemma srt_ts_any_hours hh m1 m2 s1 s2 f1 f2 f3 rest :
  forallb ascii_digit hh = true -> (2 <= length hh)%nat -> forallb ascii_digit [m1; m2; s1; s2; f1; f2; f3] = true ->
  srt_ts (hh ++ 58 :: m1 :: m2 :: 58 :: s1 :: s2 :: 44 :: f1 :: f2 :: f3 :: rest) = Some (Z.of_nat (length hh), rest).
Proof.
  intros Hh Hl Hd. unfold srt_ts, eat_d2p. rewrite span_digits_all; [|assumption|reflexivity].
  replace (2 <=? 0 + Z.of_nat (length hh)) with true by lia.
  cbn [forallb] in Hd. rewrite !andb_true_iff in Hd. destruct Hd as (A1 & A2 & A3 & A4 & A5 & A6 & A7 & _).
  cbn [eat eat_d2 eat_d3 obind]. rewrite Z.eqb_refl. cbn [obind eat_d2]. rewrite A1, A2. cbn [andb obind eat]. rewrite Z.eqb_refl.
  cbn [obind eat_d2]. rewrite A3, A4. cbn [andb obind eat]. rewrite Z.eqb_refl. cbn [obind eat_d3]. rewrite A5, A6, A7. reflexivity.
Qed.

Lemma srt_tc_at_hours hh m1 m2 s1 s2 f1 f2 f3 rest :
  forallb ascii_digit hh = true -> (2 <= length hh)%nat -> forallb ascii_digit [m1; m2; s1; s2; f1; f2; f3] = true ->
  srt_tc_at (hh ++ 58 :: m1 :: m2 :: 58 :: s1 :: s2 :: 44 :: f1 :: f2 :: f3 :: rest) =
  match eat_spaces1 rest >>= eat_arrow >>= eat_spaces1 with
  | None => None
  | Some r => match srt_ts r with Some (ne, _) => Some (Z.of_nat (length hh), ne) | None => None end
  end.
Proof. intros. unfold srt_tc_at. rewrite srt_ts_any_hours by assumption. reflexivity. Qed.

Lemma srt_classify_tc l m :
  srt_tc_at l = Some m -> sv_tc (srt_classify l) = true /\ sv_tc_long (srt_classify l) = srt_hours_too_long m.
Proof.
  intro H. assert (S : srt_tc_search l = Some m) by (destruct l; cbn [srt_tc_search]; rewrite H; reflexivity).
  unfold srt_classify. cbn [sv_tc sv_tc_long]. rewrite S. split; reflexivity.
Qed.

Lemma srt_views_one_cue c t x :
  sv_blank c = false -> sv_counter c = true -> sv_tc t = true -> sv_blank x = false ->
  srt_views true [] [c; t; x] = if sv_tc_long t then FormatError ValueErr else OkDoc.
Proof.
  intros Bc Cc Tt Bx. unfold srt_views, srt_init. cbn [srt_loop]. unfold srt_step at 1. cbn [s_state]. rewrite Bc, Cc. cbn [negb].
  unfold srt_step at 1. cbn [s_state set_state]. rewrite Tt. cbn [negb]. destruct (sv_tc_long t); [reflexivity|].
  unfold srt_step at 1. cbn [s_state]. rewrite Bx. reflexivity.
Qed.

Lemma readlines_aux_line b : forall cur rest,
  ~ In 10 b -> readlines_aux cur (b ++ 10 :: rest) = (rev cur ++ b ++ [10]) :: readlines rest.
Proof.
  induction b as [|c b IH]; intros cur rest H; cbn [app readlines_aux]; [reflexivity|].
  destruct (Z.eqb_spec c 10) as [->|_]; [elim H; now left|].
  rewrite IH by (intro; apply H; now right). cbn [rev]. rewrite <- app_assoc. reflexivity.
Qed.
Lemma readlines_line b rest : ~ In 10 b -> readlines (b ++ 10 :: rest) = (b ++ [10]) :: readlines rest.
Proof. apply readlines_aux_line. Qed.

(* "1\nH..H:00:00,000 --> 12345:00:01,000\nx\n": the reader refuses the cue exactly when the hour field H..H has more digits than
   int() converts.  hh stays a variable throughout, so an instance with thousands of digits is decided from the length of its
   field; evaluating the guard on it would try the pattern at every position of the line *)
Lemma srt_run_hour_width hh :
  forallb ascii_digit hh = true -> (2 <= length hh)%nat ->
  srt_run [] ([49;10] ++ (hh ++ [58;48;48;58;48;48;44;48;48;48;32;45;45;62;32;49;50;51;52;53;58;48;48;58;48;49;44;48;48;48;10]) ++ [120;10])
  = if int_max_str_digits <? Z.of_nat (length hh) then FormatError ValueErr else OkDoc.
Proof.
  intros Hd Hl.
  set (tl := hh ++ [58;48;48;58;48;48;44;48;48;48;32;45;45;62;32;49;50;51;52;53;58;48;48;58;48;49;44;48;48;48]).
  assert (Ht : ~ In 10 tl).
  { intro H. apply in_app_or in H as [H|H].
    - apply (proj1 (forallb_forall _ _) Hd) in H. discriminate.
    - cbn [In] in H. repeat (destruct H as [H|H]; [discriminate|]). exact H. }
  replace (_ ++ _) with ([49] ++ 10 :: tl ++ 10 :: [120] ++ 10 :: []) by (unfold tl; rewrite <- !app_assoc; reflexivity).
  unfold srt_run. rewrite 3 readlines_line; [|intros [H|[]]; discriminate|exact Ht|intros [H|[]]; discriminate].
  cbn [map readlines readlines_aux].
  destruct (srt_classify_tc (tl ++ [10]) (Z.of_nat (length hh), 5)) as [T L].
  { unfold tl. rewrite <- app_assoc. cbn [app]. rewrite srt_tc_at_hours by (assumption || reflexivity). reflexivity. }
  rewrite srt_views_one_cue by (assumption || reflexivity). rewrite L.
  unfold srt_hours_too_long. cbn [fst snd]. rewrite orb_false_r. reflexivity.
Qed.

Lemma forallb_repeat {A} (f : A -> bool) x n : f x = true -> forallb f (repeat x n) = true.
Proof. intro H. induction n; cbn [repeat forallb]; [reflexivity|]. rewrite H. exact IHn. Qed.

(* the _TextParser cursor: an end tag moves it only when it matches the innermost open tag, so the cursor is
   always the paragraph or one of the spans below it, as many levels down as there are open tags *)
Definition cursor_of (open : nat) : srt_cursor := match open with O => CP | S d => CSpan d end.
Definition srt_cur_inv (c : srt_cur) : Prop := sc_parent c = cursor_of (length (sc_open c)).

Lemma srt_cursor_step_inv attached c e :
  srt_cur_inv c ->
  match srt_cursor_step attached c e with
  | inl c' => srt_cur_inv c'
  | inr o => is_internal o = false
  end.
Proof.
  unfold srt_cur_inv. intro I. destruct c as [p open]; simpl in I; subst p.
  destruct e as [tag f|tag|]; simpl.
  - assert (A : accepts_inline (cursor_of (length open)) = None) by (destruct open; reflexivity). rewrite A.
    assert (C : (match cursor_of (length open) with CSpan d => CSpan (S d) | _ => CSpan O end) = cursor_of (S (length open)))
      by (destruct open; reflexivity).
    rewrite C. destruct f as [[| | |]|]; simpl; auto.
  - destruct open as [|top rest]; [reflexivity|].
    destruct (top =? tag); [|reflexivity]. destruct rest; reflexivity.
  - assert (A : accepts_inline (cursor_of (length open)) = None) by (destruct open; reflexivity). rewrite A. reflexivity.
Qed.

(* every callback sequence: unmatched, mismatched and surplus end tags, <font> with any kind of color attribute *)
Lemma srt_cursor_total attached es : is_internal (srt_cursor_run attached es) = false.
Proof.
  refine (loop_invariant (srt_cursor_step attached) (srt_cursor_loop attached) (fun _ => []) srt_cur_inv (fun _ o => is_internal o = false)
            (fun _ _ _ => eq_refl) (fun _ _ => eq_refl) (fun _ _ _ _ H => H) es _ {| sc_parent := CP; sc_open := [] |} eq_refl).
  intros c e _ Hc. pose proof (srt_cursor_step_inv attached c e Hc) as S. destruct (srt_cursor_step attached c e); [|exact S].
  split; [exact S|apply incl_refl].
Qed.

(* the cursor is never above the paragraph: after any prefix of callbacks that does not end the parse it is the paragraph or a
   span below it, exactly as deep as there are open tags *)
Fixpoint srt_cursor_state (attached : bool) (c : srt_cur) (es : list srt_event) : option srt_cur :=
  match es with
  | [] => Some c
  | e :: rest => match srt_cursor_step attached c e with inr _ => None | inl c' => srt_cursor_state attached c' rest end
  end.

Lemma srt_cursor_below_p attached es : forall c c',
  srt_cur_inv c -> srt_cursor_state attached c es = Some c' -> srt_cur_inv c'.
Proof.
  induction es as [|e rest IH]; intros c c' I H; simpl in H; [inversion H; subst; assumption|].
  pose proof (srt_cursor_step_inv attached c e I) as S.
  destruct (srt_cursor_step attached c e) as [c1|o]; [eapply IH; eauto|discriminate].
Qed.

(* line machine and cursor together: the oracle answer of one _TextParser invocation whose html.parser callbacks are [es] *)
Definition sub_of_outcome (o : outcome) : sub_result :=
  match o with Internal k => SubInternal k | FormatError k => SubFormat k | _ => SubOk end.
Definition srt_cue_oracle (cues : list (bool * list srt_event)) : list sub_result :=
  map (fun c => sub_of_outcome (srt_cursor_run (fst c) (snd c))) cues.

Lemma sub_of_outcome_internal o : sub_is_internal (sub_of_outcome o) = is_internal o.
Proof. destruct o; reflexivity. Qed.

Lemma srt_cue_oracle_clean cues r : In r (srt_cue_oracle cues) -> sub_is_internal r = false.
Proof. intro H. apply in_map_iff in H as [[a es] [<- _]]. rewrite sub_of_outcome_internal. apply srt_cursor_total. Qed.
