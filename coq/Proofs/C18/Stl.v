(* C18 — the EBU STL reader's GSI / TTI guards: on every byte list under every configuration the only failures are struct.error
   and whatever tf.to_model (the oracle) raises *)
From TT Require Import Base.Prelude Model.Outcome Model.ReaderGuards Proofs.C18.Guard.

(* what DataFile.__init__ establishes (a row count below 1 is replaced by the default), and what every block preserves *)
Definition stl_inv (v : stl_vars) : Prop := exists rows, t_rows v = Some rows /\ rows <> 0.

Lemma stl_block_step v b :
  stl_inv v ->
  match stl_block v b with
  | inl v' => stl_inv v' /\ incl (t_oracle v') (t_oracle v)
  | inr o => internal_from (t_oracle v) o
  end.
Proof.
  intros [rows [R Rz]]. unfold stl_block.
  destruct (Z.of_nat (length b) =? 128); cbn [negb]; [|intros k [=]].
  destruct (block_effective (t_fps v) (t_offset v) b) eqn:Eff; cbn [negb].
  - (* the block reaches the paragraph code *)
    cbv zeta.
    set (sn := nth 1 b 0 + 256 * nth 2 b 0). set (cs := nth 4 b 0). set (vp := Z.max (nth 13 b 0) 1).
    set (same := match t_last_sn v with Some l => l =? sn | None => false end).
    set (fresh := negb same && cs_starts cs || negb (t_have_p v)).
    assert (G : (if fresh
                 then match t_rows v with
                      | None => Some (Internal AttributeErr)
                      | Some rows0 => if vp <? rows0 / 2 then None else if rows0 =? 0 then Some (Internal ZeroDivisionErr) else None
                      end
                 else None) = None).
    { destruct fresh; [|reflexivity]. rewrite R.
      destruct (vp <? rows / 2); [reflexivity|]. destruct (rows =? 0) eqn:Z0; [apply Z.eqb_eq in Z0; contradiction|reflexivity]. }
    rewrite G.
    assert (H : t_have_p v || fresh = true) by (unfold fresh; destruct (t_have_p v); [reflexivity|apply orb_true_r]).
    rewrite H. cbn [negb].
    pose proof (next_sub_spec (t_oracle v)) as N. destruct (next_sub (t_oracle v)) as [r rest]. destruct N as [Inc A].
    destruct (outcome_of_sub r); [exact (answered_internal_from _ _ A)|].
    split; [exists rows; split; [exact R|exact Rz]|exact Inc].
  - (* the block returns early *)
    split; [exists rows; split; [exact R|exact Rz]|apply incl_refl].
Qed.

(* DataFile.__init__ raises nothing but struct.error, and that exactly when the GSI block is not 1024 bytes long; otherwise it leaves a
   row count of at least 1 whatever the GSI block and the configuration say *)
Lemma stl_header_spec cfg gsi :
  match stl_header cfg gsi with
  | inl h => Z.of_nat (length gsi) = 1024 /\ exists rows, h_rows h = Some rows /\ rows <> 0
  | inr o => o = FormatError StructErr /\ Z.of_nat (length gsi) <> 1024
  end.
Proof.
  unfold stl_header. case (Z.eqb_spec (Z.of_nat (length gsi)) 1024); intro L; cbn [negb]; [|split; [reflexivity|exact L]].
  (* program_start_tc: every branch yields an offset *)
  match goal with |- match (match ?st with inl _ => _ | inr _ => _ end) with _ => _ end => assert (S : exists off, st = inl off) end.
  { destruct (cfg_start cfg); [|destruct (gsi_tcp_ints gsi) as [[[[h m] s] f]|]|]; eauto. }
  destruct S as [off ->].
  (* max_row_count: every branch yields a number, which is then replaced by the default if below 1 *)
  match goal with |- match (let '(_, _) := ?ro in _) with _ => _ end => assert (R : exists n off', ro = (Some n, off')) end.
  { destruct (cfg_rows cfg); [|destruct (gsi_teletext gsi); [|destruct (bytes_int (slice 253 2 gsi))]|destruct (gsi_teletext gsi)]; eauto. }
  destruct R as (n & off' & ->). cbn [h_rows]. split; [exact L|].
  destruct (n <? 1) eqn:N; [exists 23|exists n]; split; (reflexivity || lia).
Qed.

Lemma stl_run_internal cfg oracle file k :
  stl_run cfg oracle file = Internal k -> In (SubInternal k) oracle.
Proof.
  (* the fact about the header goes into the goal and `case` does the analysis: `destruct` with that fact in the context is slow here *)
  revert k. unfold stl_run, stl_init. generalize (stl_header_spec cfg (firstn 1024 file)).
  case (stl_header cfg (firstn 1024 file)); [intros h H|intros o [-> _] k [=]].
  exact (loop_invariant stl_block stl_loop t_oracle stl_inv internal_from (fun _ _ _ => eq_refl) (fun v _ => not_internal_from (t_oracle v) OkDoc eq_refl)
           internal_from_incl _ (fun v b _ => stl_block_step v b) (stl_vars_of h oracle) (proj2 H)).
Qed.

Lemma stl_short_header cfg oracle file :
  (length file < 1024)%nat -> stl_run cfg oracle file = FormatError StructErr.
Proof.
  intro L. unfold stl_run, stl_init. generalize (stl_header_spec cfg (firstn 1024 file)).
  case (stl_header cfg (firstn 1024 file)); [intros h [E _]|intros o [-> _]; reflexivity].
  rewrite firstn_length in E. lia.
Qed.
