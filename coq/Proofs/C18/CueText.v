(* C18 — the predicate that decides finding vtt-ruby-structure (Model/GuardCueCases.v cue_class, evaluated by the check on every cue
   text of a run) takes three values only: the cue-text parser returns, raises TypeError, or raises RuntimeError.  This is C11's theorem
   C11_cue_text_exceptions (Proofs/C11/Outcome.v) restated in C18's outcome codes: on the model of _parse_cue_text, tokenizer
   included, an AttributeError (ruby_rbc / ruby_rtc unset, the cursor above the paragraph), UnboundLocalError or ValueError is impossible for
   EVERY cue text, so the check is entitled to report any of them — and any TypeError / RuntimeError the model does not compute for the
   same text — as a violation. *)
From Coq Require Import QArith.
From TT Require Import Base.Prelude Model.VttTokenizer Model.VttReader Model.GuardCueCases Proofs.C11.Outcome.
Local Open Scope Z_scope.

Lemma cue_class_values txt : cue_class txt = 0 \/ cue_class txt = 21 \/ cue_class txt = 29.
Proof.
  unfold cue_class. destruct (parse_cue_text 0 txt) as [t|e] eqn:E; [left; reflexivity|].
  destruct (cue_text_exceptions _ _ _ E) as [H|H]; subst; simpl; auto.
Qed.

(* the two recorded classes are reached: <b><ruby> is a TypeError, <ruby><b> a RuntimeError; and the shape the parser must accept — a ruby
   whose annotation holds formatting nested two deep, followed by more base text and another annotation — returns:
   "<ruby>a<rt><c><i>x</i></c></rt>b<rt>y</rt></ruby>" *)
Lemma cue_class_examples :
  cue_class [60;98;62;60;114;117;98;121;62] = 21
  /\ cue_class [60;114;117;98;121;62;60;98;62] = 29
  /\ cue_class [60;114;117;98;121;62;97;60;114;116;62;60;99;62;60;105;62;120;60;47;105;62;60;47;99;62;60;47;114;116;62;98;60;114;116;62;121;60;47;114;116;62;60;47;114;117;98;121;62] = 0.
Proof. repeat split; vm_compute; reflexivity. Qed.
