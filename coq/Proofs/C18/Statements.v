(* C18 — the statements of Properties/C18.v in the vocabulary of the specification (reader_ok of Spec/RobustSpec.v), derived
   from the lemmas of Srt.v / Vtt.v / Scc.v / Stl.v about internal errors through SpecLink.v *)
From TT Require Import Base.Prelude Model.Outcome Model.ReaderGuards Spec.RobustSpec.
From TT Require Import Proofs.C18.SpecLink Proofs.C18.Srt Proofs.C18.Vtt Proofs.C18.Scc Proofs.C18.Stl.

Lemma srt_total_ok oracle content :
  (forall r, In r oracle -> sub_is_internal r = false) -> reader_ok (obs_of_outcome (srt_run oracle content)) = true.
Proof. exact (internal_from_ok _ _ (srt_run_internal oracle content)). Qed.

Lemma srt_cursor_total_ok attached events : reader_ok (obs_of_outcome (srt_cursor_run attached events)) = true.
Proof. apply not_internal_ok, srt_cursor_total. Qed.

Lemma srt_cursor_below_paragraph attached events c :
  srt_cursor_state attached {| sc_parent := CP; sc_open := [] |} events = Some c ->
  sc_parent c = match length (sc_open c) with O => CP | S d => CSpan d end.
Proof. apply srt_cursor_below_p. reflexivity. Qed.

Lemma srt_composed_total_ok cues content : reader_ok (obs_of_outcome (srt_run (srt_cue_oracle cues) content)) = true.
Proof. exact (srt_total_ok _ content (srt_cue_oracle_clean cues)). Qed.

Lemma vtt_total_ok oracle content :
  (forall r, In r oracle -> sub_is_internal r = false) -> reader_ok (obs_of_outcome (vtt_run oracle content)) = true.
Proof. exact (internal_from_ok _ _ (vtt_run_internal oracle content)). Qed.

Lemma vtt_cursor_partial_ok attached events :
  vtt_has_ruby events = false -> reader_ok (obs_of_outcome (vtt_cursor_run attached events)) = true.
Proof. intro H. apply not_internal_ok, vtt_cursor_partial, H. Qed.

Lemma vtt_composed_partial_ok cues content :
  (forall c, In c cues -> vtt_has_ruby (snd c) = false) ->
  reader_ok (obs_of_outcome (vtt_run (vtt_cue_oracle cues) content)) = true.
Proof. intro H. exact (vtt_total_ok _ content (fun r => vtt_cue_oracle_clean cues r H)). Qed.

Lemma scc_total_ok oracle content :
  (forall r, In r oracle -> sub_is_internal r = false) -> reader_ok (obs_of_outcome (scc_run oracle content)) = true.
Proof. exact (internal_from_ok _ _ (scc_run_internal oracle content)). Qed.

Lemma stl_total_ok cfg oracle file :
  (forall r, In r oracle -> sub_is_internal r = false) -> reader_ok (obs_of_outcome (stl_run cfg oracle file)) = true.
Proof. exact (internal_from_ok _ _ (stl_run_internal cfg oracle file)). Qed.
