(* C18 — the WebVTT reader's line machine and the _TextCueParser cursor: totality outside the recorded triggers *)
From TT Require Import Base.Prelude Model.Outcome Model.ReaderGuards Proofs.C18.Guard Proofs.C18.Srt.

(* which variables are bound in which state (subtitle_text is assigned when a cue's paragraph is created) *)
Definition vtt_inv (v : vtt_vars) : Prop :=
  match v_state v with
  | V_TEXT => v_p v = Some false /\ v_text_bound v = true
  | V_TEXT_MORE => v_p v = Some true /\ v_text_bound v = true
  | _ => True
  end.

Lemma vtt_flush_spec v a :
  v_p v = Some a -> v_text_bound v = true ->
  match vtt_flush v with
  | inl v' => vtt_inv v' /\ incl (v_oracle v') (v_oracle v)
  | inr o => answered (v_oracle v) o
  end.
Proof.
  intros Hp Hb. unfold vtt_flush. rewrite Hb, Hp. cbn [negb].
  pose proof (next_sub_spec (v_oracle v)) as N. destruct (next_sub (v_oracle v)) as [r rest]. destruct N as [Inc A].
  destruct (outcome_of_sub r); [exact A|]. split; [exact I|exact Inc].
Qed.

(* outside a cue's text nothing needs to be bound *)
Lemma vtt_idle v v' :
  v_state v' <> V_TEXT -> v_state v' <> V_TEXT_MORE -> v_oracle v' = v_oracle v -> vtt_inv v' /\ incl (v_oracle v') (v_oracle v).
Proof. intros A B ->. split; [unfold vtt_inv; destruct (v_state v'); congruence || exact I|apply incl_refl]. Qed.

(* one iteration: the machine goes on with its variables bound as the new state needs them, or it ends — with an exception only
   if that is the cue-text parser's answer *)
Lemma vtt_step_spec v item :
  vtt_inv v ->
  match vtt_step v item with
  | inl v' => vtt_inv v' /\ incl (v_oracle v') (v_oracle v)
  | inr o => answered (v_oracle v) o
  end.
Proof.
  unfold vtt_inv at 1, vtt_step. intro Hv. destruct (v_state v) eqn:St.
  - destruct item; [apply vtt_idle; cbn; congruence|exact I].
  - destruct item as [l|]; [|exact I]. unfold vtt_looking.
    destruct (vv_blank l); [|destruct (vv_note l); [|destruct (vv_style l); [|destruct (vv_arrow l); [destruct (vv_cue l)|]]]];
      try (apply vtt_idle; cbn; congruence).
    split; [split; reflexivity|apply incl_refl].
  - destruct item as [l|]; [destruct (vv_blank l); apply vtt_idle; cbn; congruence|exact I].
  - destruct item as [l|]; [destruct (vv_blank l); apply vtt_idle; cbn; congruence|exact I].
  - destruct Hv as [Hp Hb]. destruct item as [l|]; [destruct (vv_blank l)|]; try exact (vtt_flush_spec v _ Hp Hb).
    unfold vtt_text_line. rewrite Hp. split; [split; reflexivity|apply incl_refl].
  - destruct Hv as [Hp Hb]. destruct item as [l|]; [destruct (vv_blank l)|]; try exact (vtt_flush_spec v _ Hp Hb).
    unfold vtt_text_line. rewrite Hb. split; [split; assumption|apply incl_refl].
Qed.

(* every sequence of classified lines — in particular every file, the empty one included, with any cue settings *)
Lemma vtt_views_answered oracle items : answered oracle (vtt_views oracle items).
Proof.
  refine (loop_invariant (fun v l => vtt_step v (Some l)) (fun v ls => match vtt_loop v ls with inr o => o | inl _ => OkDoc end)
            v_oracle vtt_inv answered _ _ answered_incl items _ (vtt_init oracle) I).
  - intros v l rest. cbn [vtt_loop]. destruct (vtt_step v (Some l)); reflexivity.
  - intros v Hv. cbn [vtt_loop]. pose proof (vtt_step_spec v None Hv) as S. destruct (vtt_step v None); [exact I|exact S].
  - intros v l _ Hv. apply vtt_step_spec, Hv.
Qed.

Lemma vtt_views_internal oracle items k :
  vtt_views oracle items = Internal k -> In (SubInternal k) oracle.
Proof. apply (answered_internal_from _ _ (vtt_views_answered oracle items)). Qed.

Lemma vtt_run_internal oracle content k :
  vtt_run oracle content = Internal k -> In (SubInternal k) oracle.
Proof. apply vtt_views_internal. Qed.

(* a path whose innermost element accepts spans and line breaks: a span or the paragraph *)
Definition inline (p : list vkind) : Prop := exists r, p = KSpan :: r \/ p = KP :: r.

Lemma data_lines_inline path n : forall i, inline path -> data_lines path false i n = None.
Proof.
  induction n as [|n IH]; intros i [r [E|E]]; subst; simpl; auto.
  - destruct (Nat.eqb i 0); apply IH; unfold inline; eauto.
  - destruct (Nat.eqb i 0); apply IH; unfold inline; eauto.
Qed.

(* without a <ruby> tag: no ruby is open, the cursor and every element an end tag can return to is a span or the paragraph *)
Definition vcur_inv (c : vcur) : Prop :=
  c_ruby c = None /\ inline (c_path c) /\ Forall (fun p => inline (snd p)) (c_open c).

Lemma inline_push p : inline p -> push_result p ChSpan = None.
Proof. intros [r [E|E]]; subst; reflexivity. Qed.
Lemma inline_not_rt p : inline p -> is_rt_path p = false.
Proof. intros [r [E|E]]; subst; reflexivity. Qed.
Lemma inline_not_ruby p : inline p -> is_ruby_path p = false.
Proof. intros [r [E|E]]; subst; reflexivity. Qed.

Lemma vtt_cursor_step_inv c e :
  vcur_inv c -> (match e with TStartRuby _ => False | _ => True end) ->
  match vtt_cursor_step c e with
  | inl c' => vcur_inv c'
  | inr o => is_internal o = false
  end.
Proof.
  intros [R [P O]] He. destruct c as [path ruby open]; simpl in R, P, O; subst ruby.
  assert (Span : forall tag, vcur_inv {| c_path := KSpan :: path; c_ruby := None; c_open := (tag, path) :: open |}).
  { intro tag. repeat split; simpl; [unfold inline; eauto|constructor; [exact P|exact O]]. }
  destruct e as [tag|tag|tag| |tag|breaks]; try contradiction; unfold vtt_cursor_step; cbn [c_path c_ruby c_open].
  - rewrite (inline_push _ P). apply Span.
  - rewrite (inline_push _ P). apply Span.
  - repeat split; assumption.
  - destruct open as [|[top saved] rest]; [repeat split; assumption|].
    inversion O as [|x l Hs Hr]; subst. simpl in Hs.
    assert (Close : vcur_inv (vtt_close {| c_path := path; c_ruby := None; c_open := (top, saved) :: rest |})).
    { unfold vtt_close; cbn [c_path c_ruby c_open]. rewrite (inline_not_ruby _ P). repeat split; assumption. }
    destruct (top =? tag); [exact Close|].
    destruct rest as [|[second saved2] rest2]; [repeat split; assumption|].
    rewrite (inline_not_rt _ P), andb_false_r. cbn [andb]. repeat split; assumption.
  - pose proof (data_lines_inline path (S breaks) 0 P) as D. rewrite D. repeat split; assumption.
Qed.

(* every token sequence without a <ruby> start tag: unmatched, mismatched and surplus end tags, <rt> anywhere, timestamp tags *)
Lemma vtt_cursor_partial attached es :
  vtt_has_ruby es = false -> is_internal (vtt_cursor_run attached es) = false.
Proof.
  intro Hr.
  refine (loop_invariant vtt_cursor_step vtt_cursor_loop (fun _ => []) vcur_inv (fun _ o => is_internal o = false)
            (fun _ _ _ => eq_refl) (fun _ _ => eq_refl) (fun _ _ _ _ H => H) es _ _ _).
  - intros c e He Hc. pose proof (vtt_cursor_step_inv c e Hc) as S.
    assert (Ok : match e with TStartRuby _ => False | _ => True end).
    { destruct e; try exact I. enough (vtt_has_ruby es = true) by congruence. apply existsb_exists. eexists. split; [exact He|reflexivity]. }
    specialize (S Ok). destruct (vtt_cursor_step c e); [split; [exact S|apply incl_refl]|exact S].
  - repeat split; simpl; [unfold inline; eauto|constructor].
Qed.

(* with ruby: whatever the tokens, the cursor never leaves the paragraph — an end tag returns to an element that was the cursor
   before, so a stray end tag cannot take it above the paragraph *)
Definition below_p (tail p : list vkind) : Prop := exists pre, p = pre ++ KP :: tail.
Definition vcur_below (tail : list vkind) (c : vcur) : Prop :=
  below_p tail (c_path c) /\ Forall (fun p => below_p tail (snd p)) (c_open c)
  /\ match c_ruby c with Some rp => below_p tail rp | None => True end.

Lemma below_cons tail k p : below_p tail p -> below_p tail (k :: p).
Proof. intros [pre E]; subst. exists (k :: pre). reflexivity. Qed.

Lemma vtt_close_below tail c : vcur_below tail c -> vcur_below tail (vtt_close c).
Proof.
  intros [P [O R]]. unfold vtt_close. destruct (c_open c) as [|[t saved] rest] eqn:E; [repeat split; auto; rewrite E; auto|].
  inversion O; subst. repeat split; cbn [c_path c_open c_ruby]; auto.
  destruct (is_ruby_path (c_path c)); [exact I|exact R].
Qed.

Lemma vtt_cursor_step_below tail c e c' :
  vcur_below tail c -> vtt_cursor_step c e = inl c' -> vcur_below tail c'.
Proof.
  intros B H. pose proof B as [P [O R]].
  assert (Opened : forall tag, Forall (fun p => below_p tail (snd p)) ((tag, c_path c) :: c_open c)) by (intro; constructor; assumption).
  destruct e as [tag|tag|tag| |tag|breaks]; unfold vtt_cursor_step in H.
  - destruct (c_ruby c); [discriminate|]. destruct (c_path c) as [|k p] eqn:Ep; [discriminate|].
    destruct (push_result (k :: p) ChRuby); [discriminate|]. inversion H; subst.
    split; [|split]; cbn [c_path c_open c_ruby]; try (apply below_cons; assumption). apply Opened.
  - destruct (c_ruby c) as [rp|] eqn:Er.
    + destruct (c_path c) eqn:Ep; [discriminate|]. inversion H; subst.
      split; [|split]; cbn [c_path c_open c_ruby]; [apply below_cons; exact R|apply Opened|exact R].
    + destruct (push_result (c_path c) ChSpan); [discriminate|]. inversion H; subst.
      split; [|split]; cbn [c_path c_open c_ruby]; [apply below_cons; assumption|apply Opened|exact I].
  - destruct (push_result (c_path c) ChSpan); [discriminate|]. inversion H; subst.
    split; [|split]; cbn [c_path c_open c_ruby]; [apply below_cons; assumption|apply Opened|exact R].
  - inversion H; subst. exact B.
  - destruct (c_open c) as [|[top saved] rest] eqn:Eo; [inversion H; subst; exact B|].
    destruct (top =? tag); [inversion H; subst; apply vtt_close_below; exact B|].
    destruct rest as [|[second s2] rest2]; [inversion H; subst; exact B|].
    destruct ((second =? tag) && is_rt_path (c_path c) && is_ruby_path saved); inversion H; subst;
      [apply vtt_close_below; apply vtt_close_below; exact B|exact B].
  - destruct (data_lines _ _ _ _); [discriminate|]. inversion H; subst. exact B.
Qed.

Fixpoint vtt_cursor_state (c : vcur) (es : list vtt_event) : option vcur :=
  match es with
  | [] => Some c
  | e :: rest => match vtt_cursor_step c e with inr _ => None | inl c' => vtt_cursor_state c' rest end
  end.

Lemma vtt_cursor_below tail es : forall c c',
  vcur_below tail c -> vtt_cursor_state c es = Some c' -> vcur_below tail c'.
Proof.
  induction es as [|e rest IH]; intros c c' B H; simpl in H; [inversion H; subst; exact B|].
  destruct (vtt_cursor_step c e) as [c1|o] eqn:E; [|discriminate].
  eapply IH; [eapply vtt_cursor_step_below; eauto|exact H].
Qed.

(* from the paragraph handed to the parser: after any tokens (ruby included) that do not end the parse the cursor is the
   paragraph or below it — in particular it is not None, the div or the body *)
Lemma vtt_cursor_never_above_p (attached : bool) es c' :
  let tail : list vkind := if attached then [KDiv; KBody] else [] in
  vtt_cursor_state {| c_path := KP :: tail; c_ruby := None; c_open := [] |} es = Some c' ->
  exists pre, c_path c' = pre ++ KP :: tail.
Proof.
  intros tail H.
  assert (B : vcur_below tail {| c_path := KP :: tail; c_ruby := None; c_open := [] |}).
  { split; [exists []; reflexivity|split; [constructor|exact I]]. }
  destruct (vtt_cursor_below tail es _ _ B H) as [P _]. exact P.
Qed.

Definition vtt_cue_oracle (cues : list (bool * list vtt_event)) : list sub_result :=
  map (fun c => sub_of_outcome (vtt_cursor_run (fst c) (snd c))) cues.

Lemma vtt_cue_oracle_clean cues r :
  (forall c, In c cues -> vtt_has_ruby (snd c) = false) -> In r (vtt_cue_oracle cues) -> sub_is_internal r = false.
Proof.
  intros Hc H. apply in_map_iff in H as [[a es] [<- Hin]]. rewrite sub_of_outcome_internal. apply vtt_cursor_partial, (Hc _ Hin).
Qed.
