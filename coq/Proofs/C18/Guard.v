(* C18 — what the guard models of Model/ReaderGuards.v have in common.  Each is a loop that threads a state through a step
   function, item by item, until a step returns or raises; where a sub-parser is called the step takes the next answer of an
   oracle list.  One induction (loop_invariant) serves them all: a property of the final outcome relative to the oracle that
   every leaving step establishes, under an invariant of the state that every continuing step preserves *)
From TT Require Import Base.Prelude Model.Outcome.

Definition answered (oracle : list sub_result) (o : outcome) : Prop :=
  match o with
  | Internal k => In (SubInternal k) oracle
  | FormatError k => In (SubFormat k) oracle
  | _ => True
  end.

(* the shape of the statements C18_*_internal_origin: an internal error is one the oracle answered *)
Definition internal_from (oracle : list sub_result) (o : outcome) : Prop :=
  forall k, o = Internal k -> In (SubInternal k) oracle.

Lemma answered_incl a b o : incl a b -> answered a o -> answered b o.
Proof. intro H. destruct o; cbn; auto. Qed.

Lemma internal_from_incl a b o : incl a b -> internal_from a o -> internal_from b o.
Proof. intros H F k E. apply H, F, E. Qed.

Lemma answered_internal_from oracle o : answered oracle o -> internal_from oracle o.
Proof. intros A k ->. exact A. Qed.

Lemma not_internal_from oracle o : is_internal o = false -> internal_from oracle o.
Proof. intros H k ->. discriminate. Qed.

Lemma internal_from_clean oracle o :
  internal_from oracle o -> (forall r, In r oracle -> sub_is_internal r = false) -> is_internal o = false.
Proof. intros F C. destruct o as [| | |k]; try reflexivity. discriminate (C _ (F k eq_refl)). Qed.

(* one call of the sub-parser: what is left of the oracle was in it, and an exception is its answer *)
Lemma next_sub_spec oracle :
  let (r, rest) := next_sub oracle in
  incl rest oracle /\ match outcome_of_sub r with Some o => answered oracle o | None => True end.
Proof. destruct oracle as [|[|k|k] rest]; cbn; auto using incl_refl, incl_tl. Qed.

Section Loop.
  Context {V I : Type} (step : V -> I -> V + outcome) (loop : V -> list I -> outcome).
  Context (oracle : V -> list sub_result) (inv : V -> Prop) (P : list sub_result -> outcome -> Prop).
  Hypothesis loop_cons : forall v i rest, loop v (i :: rest) = match step v i with inl v' => loop v' rest | inr o => o end.
  Hypothesis loop_nil : forall v, inv v -> P (oracle v) (loop v []).
  Hypothesis P_incl : forall a b o, incl a b -> P a o -> P b o.

  (* the step hypothesis is asked for the items of the list only, so that a restriction on the input (no <ruby> tag, no line
     break inside a line) can be used in it *)
  Lemma loop_invariant items :
    (forall v i, In i items -> inv v ->
       match step v i with inl v' => inv v' /\ incl (oracle v') (oracle v) | inr o => P (oracle v) o end) ->
    forall v, inv v -> P (oracle v) (loop v items).
  Proof.
    induction items as [|i rest IH]; intros S v Hv; [apply loop_nil, Hv|].
    rewrite loop_cons. specialize (S v i (or_introl eq_refl) Hv) as Si. destruct (step v i) as [v'|o]; [|exact Si].
    destruct Si as [Hv' Inc]. apply (P_incl _ _ _ Inc), IH; [|exact Hv']. intros w j Hj. apply S. now right.
  Qed.
End Loop.
