(* C18 — SccLine.from_str / SccWord.from_str: the only failure is ValueError, on every text.
   The word-level function alone can raise IndexError (Findings/C18.v); the reader cannot reach that, because the words it
   passes come out of splitlines / split('\t') / split(' ') and so contain none of the characters bytes.fromhex skips. *)
From TT Require Import Base.Prelude Model.Outcome Model.ReaderGuards Gen.GuardTables Proofs.C18.Guard.

Lemma split_aux_chars sep s : forall cur p,
  In p (split_aux sep cur s) -> forall c, In c p -> In c cur \/ (In c s /\ sep c = false).
Proof.
  induction s as [|x s IH]; intros cur p Hp c Hc; simpl in Hp.
  - destruct Hp as [E|[]]. subst. left. now apply in_rev.
  - destruct (sep x) eqn:Sx.
    + destruct Hp as [E|Hp].
      * subst. left. now apply in_rev.
      * destruct (IH [] p Hp c Hc) as [[]|[H1 H2]]. right. split; [now right|assumption].
    + destruct (IH (x :: cur) p Hp c Hc) as [[E|H]|[H1 H2]].
      * subst. right. split; [now left|assumption].
      * now left.
      * right. split; [now right|assumption].
Qed.

Lemma split_on_chars sep s p c : In p (split_on sep s) -> In c p -> In c s /\ sep c = false.
Proof. intros Hp Hc. destruct (split_aux_chars sep s [] p Hp c Hc) as [[]|H]. exact H. Qed.

Lemma split_aux_nonempty sep s : forall cur, split_aux sep cur s <> [].
Proof. induction s as [|x s IH]; intro cur; simpl; [discriminate|]. destruct (sep x); [discriminate|apply IH]. Qed.

Lemma split_aux_two sep s : forall cur, existsb sep s = true -> exists a b r, split_aux sep cur s = a :: b :: r.
Proof.
  induction s as [|x s IH]; intros cur H; simpl in H; [discriminate|]. simpl.
  destruct (sep x) eqn:Sx.
  - destruct (split_aux sep [] s) as [|b r] eqn:E; [exfalso; eapply split_aux_nonempty; eauto|]. eauto.
  - simpl in H. apply IH. exact H.
Qed.

Definition clean_char (c : Z) : Prop := (c =? 32) = false /\ (c =? 9) = false /\ line_break c = false.

(* depends on the generated tables: every character bytes.fromhex skips is a space, a tab or a line boundary *)
Lemma clean_no_skip c : clean_char c -> mem_z c fromhex_skip_set = false.
Proof.
  intros (C1 & C2 & C3). destruct (mem_z c fromhex_skip_set) eqn:E; [|reflexivity].
  apply existsb_exists in E as [x [Hx E]]. apply Z.eqb_eq in E. subst x.
  cbn [fromhex_skip_set In] in Hx. repeat (destruct Hx as [<-|Hx]; [discriminate|]). elim Hx.
Qed.

Lemma word_not_internal w : (forall c, In c w -> clean_char c) -> is_internal (scc_word_from_str w) = false.
Proof.
  intro H. unfold scc_word_from_str.
  destruct (Z.of_nat (length w) =? 4) eqn:L; simpl; [|reflexivity].
  destruct (int16_ok w); simpl; [|reflexivity].
  apply Z.eqb_eq in L.
  destruct w as [|a [|b [|c [|d [|e w]]]]]; simpl in L; try lia.
  assert (Sa : mem_z a fromhex_skip_set = false) by (apply clean_no_skip, H; simpl; auto).
  assert (Sc : mem_z c fromhex_skip_set = false) by (apply clean_no_skip, H; simpl; auto).
  unfold fromhex_len. rewrite Sa.
  destruct (ascii_hex a && ascii_hex b); [|reflexivity].
  rewrite Sc. destruct (ascii_hex c && ascii_hex d); reflexivity.
Qed.

Lemma scc_words_not_internal ws : forall n,
  (forall w, In w ws -> forall c, In c w -> clean_char c) ->
  match scc_words ws n with LineErr o => is_internal o = false | _ => True end.
Proof.
  induction ws as [|w r IH]; intros n H; simpl; [exact I|].
  pose proof (word_not_internal w (H w (or_introl eq_refl))) as W.
  destruct (scc_word_from_str w) eqn:E; try exact W; try (simpl; reflexivity).
  apply IH. intros w' Hw'. apply H. now right.
Qed.

Lemma matches_has_tab l : scc_line_matches l = true -> existsb (Z.eqb 9) l = true.
Proof.
  unfold scc_line_matches.
  destruct l as [|a [|b [|x [|c [|d [|y [|e [|f [|z [|g [|h [|t r]]]]]]]]]]]]; try discriminate.
  intro H. repeat (apply andb_prop in H; destruct H as [H ?]).
  simpl. match goal with T : (t =? 9) = true |- _ => apply Z.eqb_eq in T; subst end.
  repeat (rewrite ?orb_true_r; simpl). reflexivity.
Qed.

Lemma line_not_internal l :
  (forall c, In c l -> line_break c = false) ->
  match scc_line_from_str l with LineErr o => is_internal o = false | _ => True end.
Proof.
  intro H. unfold scc_line_from_str. destruct l as [|c0 l0] eqn:El; [exact I|]. rewrite <- El in *.
  destruct (scc_line_matches l) eqn:M; simpl; [|exact I].
  apply matches_has_tab in M.
  destruct (split_aux_two (Z.eqb 9) l [] M) as [a [p1 [r E]]]. unfold split_on. rewrite E.
  apply scc_words_not_internal. intros w Hw c Hc.
  apply filter_In in Hw as [Hw _].
  destruct (split_on_chars (Z.eqb 32) p1 w c Hw Hc) as [Hc1 N32].
  assert (Hp1 : In p1 (split_on (Z.eqb 9) l)) by (unfold split_on; rewrite E; simpl; auto).
  destruct (split_on_chars (Z.eqb 9) l p1 c Hp1 Hc1) as [Hcl N9].
  repeat split.
  - rewrite Z.eqb_sym. exact N32.
  - rewrite Z.eqb_sym. exact N9.
  - apply H. exact Hcl.
Qed.

Lemma scc_loop_internal ls : forall oracle k,
  (forall l, In l ls -> forall c, In c l -> line_break c = false) ->
  scc_loop oracle ls = Internal k -> In (SubInternal k) oracle.
Proof.
  induction ls as [|l rest IH]; intros oracle k H E; simpl in E; [discriminate|].
  pose proof (line_not_internal l (H l (or_introl eq_refl))) as L.
  assert (IH' : forall o', scc_loop o' rest = Internal k -> In (SubInternal k) o') by (intros o'; apply IH; intros l' Hl'; apply H; now right).
  destruct (scc_line_from_str l) eqn:F.
  - apply IH', E.
  - subst. discriminate.
  - pose proof (next_sub_spec oracle) as N. destruct (next_sub oracle) as [r o']. destruct N as [Inc A].
    destruct (outcome_of_sub r); [subst; exact A|apply Inc, IH', E].
Qed.

Lemma scc_run_internal oracle content k : scc_run oracle content = Internal k -> In (SubInternal k) oracle.
Proof.
  unfold scc_run, splitlines. apply scc_loop_internal.
  intros l Hl c Hc. apply filter_In in Hl as [Hl _].
  destruct (split_on_chars line_break content l c Hl Hc) as [_ N]. exact N.
Qed.
