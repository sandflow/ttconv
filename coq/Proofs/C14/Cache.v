(* C14: significant_times clones the document per region only when there are at least two regions. *)
From TT Require Import Model.Doc Gen.StyleTables Model.Isd Model.SigTimes Spec.RenderSpec Proofs.Common.ElemInd.

Lemma cached_docs_small d : (length (d_regions d) <= 1)%nat -> cached_docs d = Ok [d].
Proof. unfold cached_docs. destruct (d_regions d) as [|r [|r2 rs]]; cbn [length]; intros H; try reflexivity. exfalso. apply (Nat.nle_succ_0 _ (le_S_n _ _ H)). Qed.
