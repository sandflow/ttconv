(* C14: the per-region clone of the significant-times cache gives the same region snapshot as the document. *)
From TT Require Import Model.Doc Gen.StyleTables Model.Isd Model.SigTimes Model.IsdCache Proofs.Common.ElemInd Proofs.Common.Walk Proofs.C14.Cache.

(* snapshot generation reads the document only through its initial values and its cell/pixel resolution *)
Definition same_params (d d' : doc) : Prop :=
  d_initials d = d_initials d' /\ d_rows d = d_rows d' /\ d_cols d = d_cols d' /\ d_pxh d = d_pxh d' /\ d_pxw d = d_pxw d'.

Section Params.
  Variables d d' : doc.
  Hypothesis Hp : same_params d d'.

  Lemma refs_ext : c_h d = c_h d' /\ c_w d = c_w d' /\ px_h d = px_h d' /\ px_w d = px_w d'.
  Proof. destruct Hp as (_ & H1 & H2 & H3 & H4). unfold c_h, c_w, px_h, px_w. rewrite H1, H2, H3, H4. repeat split. Qed.

  Lemma font_relative_ext st l : font_relative d st l = font_relative d' st l.
  Proof. destruct refs_ext as (H1 & _ & H3 & _). unfold font_relative. rewrite H1, H3. reflexivity. Qed.

  Lemma compute_shadows_ext st : forall ss, compute_shadows d st ss = compute_shadows d' st ss.
  Proof.
    induction ss as [|[[[x y] blur] col] ss IH]; [reflexivity|]. cbn [compute_shadows].
    rewrite !font_relative_ext, IH. destruct blur as [b|]; [rewrite font_relative_ext|]; reflexivity.
  Qed.

  Lemma compute_prop_ext par st p : compute_prop d par st p = compute_prop d' par st p.
  Proof.
    (* the document is read through the four reference lengths, and by the shadow loop of the tts:textShadow branch *)
    assert (E : match sget st p with
                | Some (VSpecial s) => Ok st
                | Some (VShadow ss) => bind (compute_shadows d st ss) (fun ss' => Ok (sset st p (VShadow ss')))
                | _ => Err errCompute
                end =
                match sget st p with
                | Some (VSpecial s) => Ok st
                | Some (VShadow ss) => bind (compute_shadows d' st ss) (fun ss' => Ok (sset st p (VShadow ss')))
                | _ => Err errCompute
                end).
    { destruct (sget st p) as [[]|]; try reflexivity. rewrite compute_shadows_ext. reflexivity. }
    destruct refs_ext as (H1 & H2 & H3 & H4). unfold compute_prop, font_relative. rewrite H1, H2, H3, H4, E. reflexivity.
  Qed.

  Lemma compute_styles_ext par todo : forall order st, compute_styles d par todo order st = compute_styles d' par todo order st.
  Proof.
    induction order as [|p order IH]; intros st; [reflexivity|]. cbn [compute_styles].
    destruct (existsb (Z.eqb p) todo); [|apply IH]. rewrite compute_prop_ext.
    destruct (compute_prop d' par st p); [cbn [bind]; apply IH | reflexivity].
  Qed.

  Lemma apply_initial_ext : forall props st todo, apply_initial d props st todo = apply_initial d' props st todo.
  Proof.
    destruct Hp as (Hi & _). induction props as [|p props IH]; intros st todo; [reflexivity|]. cbn [apply_initial].
    rewrite Hi. destruct (shas st p); [apply IH|]. destruct (sget (d_initials d') p); [apply IH|].
    destruct (p =? p_Position); [apply IH|]. destruct (sget initial_values p); apply IH.
  Qed.

  Lemma style_phase_ext t a par iv : style_phase d t a par iv = style_phase d' t a par iv.
  Proof.
    unfold style_phase.
    destruct (apply_anims t iv (e_anims a) [] []) as [st0 todo0].
    destruct (apply_specified (e_styles a) st0 todo0) as [st1 todo1].
    match goal with |- (let '(st, todo) := ?X in _) = _ => destruct X as [st2 todo2] end.
    rewrite apply_initial_ext.
    match goal with |- (let '(st, todo) := ?X in _) = _ => destruct X as [st4 todo4] end.
    apply compute_styles_ext.
  Qed.

  Lemma proc_ext t sel : forall e inh par pb pe, proc d t sel inh par pb pe e = proc d' t sel inh par pb pe e.
  Proof.
    induction e as [a cs IH] using elem_ind2. intros inh par pb pe. rewrite !proc_node. cbv zeta.
    rewrite style_phase_ext. destruct (negb _); [reflexivity|]. destruct (region_test _ _ _); [reflexivity|].
    destruct (style_phase d' t a par _) as [st|]; [|reflexivity]. cbn [bind]. destruct (display_none st); [reflexivity|].
    do 2 f_equal. apply map_ext_in. intros c Hc. rewrite Forall_forall in IH. apply (IH c Hc).
  Qed.
End Params.

(* clone_prunes is the clone's pruning test; clone_empties is the trigger of the finding recorded in Findings/C14.v *)
From TT Require Import Model.CloneTrigger.

Lemma clone_empties_node sel inh a cs :
  clone_empties sel inh (Elem a cs) =
  let assoc := assoc_region a inh in
  if region_test (Some sel) assoc (is_nonempty_l cs) then false
  else existsb (clone_empties sel assoc) cs ||
       (kept_childless (e_kind a) && is_nonempty_l cs && negb (oid_eqb assoc (Some sel)) && forallb (clone_prunes sel assoc) cs).
Proof. reflexivity. Qed.

Lemma restrict_none sel inh e : restrict sel inh e = Ok None -> clone_prunes sel inh e = true.
Proof.
  destruct e as [a cs]. rewrite restrict_node. cbv zeta. fold (clone_prunes sel inh (Elem a cs)).
  change (region_test (Some sel) (assoc_region a inh) (is_nonempty_l cs)) with (clone_prunes sel inh (Elem a cs)).
  destruct (clone_prunes sel inh (Elem a cs)); [reflexivity|].
  destruct (collect_regions _) as [cs'|]; cbn [bind]; [|discriminate]. destruct (is_nonempty_l cs' && _); discriminate.
Qed.

Lemma restrict_all_gone rid assoc cs :
  collect_regions (map (restrict rid assoc) cs) = Ok [] -> forallb (clone_prunes rid assoc) cs = true.
Proof.
  intros H. apply collect_map_ok in H as (outs & HF & Hnil). apply forallb_forall. intros c Hc.
  destruct (Forall2_In_l _ _ _ c HF Hc) as ([x|] & Ho & Hr); [exfalso | apply restrict_none, Hr].
  assert (Hx : In x []) by (rewrite Hnil; apply in_flat_map; exists (Some x); split; [exact Ho | left; reflexivity]). exact Hx.
Qed.

(* the children of the restricted element give what the children of the element give, as soon as each of them does:
   those the restriction removes contribute nothing *)
Lemma restrict_children (P : elem -> res (option elem)) rid assoc : forall cs cs' children,
  Forall (fun c => forall oc rc, restrict rid assoc c = Ok oc -> P c = Ok rc ->
                   match oc with Some x => P x = Ok rc | None => rc = None end) cs ->
  collect_regions (map (restrict rid assoc) cs) = Ok cs' -> collect_regions (map P cs) = Ok children ->
  collect_regions (map P cs') = Ok children.
Proof.
  induction cs as [|c cs IH]; intros cs' children HF HR HP.
  - injection HR as <-. exact HP.
  - inversion HF as [|? ? Hc Hcs]; subst.
    apply collect_cons_ok in HR as (oc & os & Hoc & HR & ->). apply collect_cons_ok in HP as (rc & rs & Hrc & HP & ->).
    specialize (Hc oc rc Hoc Hrc). specialize (IH os rs Hcs HR HP).
    destruct oc as [x|]; cbn [opt_list app map collect_regions]; [|subst rc; exact IH].
    rewrite Hc, IH. destruct rc; reflexivity.
Qed.

Lemma finish_nil_dropped a st r : finish_element a st [] = Ok r -> kept_childless (e_kind a) = false -> r = None.
Proof.
  unfold finish_element, kept_childless. cbn [is_nonempty_l]. rewrite andb_false_r. intros H Hk.
  apply orb_false_iff in Hk as [Hka Hreg]. rewrite Hka in H.
  destruct (e_kind a); try discriminate Hreg; injection H as <-; reflexivity.
Qed.

(* restricting the body to what can appear in region rid does not change the region's snapshot — for EVERY element
   tree (ruby included, no content-model hypothesis) on which the trigger of the recorded finding does not fire *)
Lemma restrict_proc d t rid : forall e inh par pb pe r e',
  clone_empties rid inh e = false -> restrict rid inh e = Ok e' ->
  proc d t (Some rid) inh par pb pe e = Ok r ->
  match e' with Some x => proc d t (Some rid) inh par pb pe x = Ok r | None => r = None end.
Proof.
  induction e as [a cs IH] using elem_ind2. intros inh par pb pe r e' Htr Hres Hproc.
  rewrite clone_empties_node in Htr. rewrite restrict_node in Hres. rewrite proc_node in Hproc. cbv zeta in *.
  set (assoc := assoc_region a inh) in *. set (iv := make_absolute (e_begin a) (e_end a) pb pe) in *.
  destruct (region_test (Some rid) assoc (is_nonempty_l cs)) eqn:Epr.
  - injection Hres as <-. destruct (negb (active_at t iv)); injection Hproc as <-; reflexivity.
  - apply orb_false_iff in Htr as [Htrcs Htrself].
    destruct (collect_regions (map (restrict rid assoc) cs)) as [cs'|] eqn:Eg; [|discriminate]. cbn [bind] in Hres.
    destruct (is_nonempty_l cs' && _); [discriminate|]. injection Hres as <-.
    rewrite proc_node. cbv zeta. fold assoc iv.
    destruct (negb (active_at t iv)); [exact Hproc|].
    destruct (style_phase d t a par iv) as [st|] eqn:Est; [|destruct (region_test _ _ _); discriminate]. cbn [bind] in *.
    assert (Hch : forall children, collect_regions (map (proc d t (Some rid) assoc (Some (e_kind a, st)) (Some (fst iv)) (snd iv)) cs) = Ok children ->
                  collect_regions (map (proc d t (Some rid) assoc (Some (e_kind a, st)) (Some (fst iv)) (snd iv)) cs') = Ok children).
    { intros children. apply (restrict_children _ rid assoc cs cs' children); [|exact Eg]. apply Forall_forall. intros c Hc oc rc Hoc Hrc.
      rewrite Forall_forall in IH. apply (IH c Hc assoc _ _ _ rc oc); [|exact Hoc | exact Hrc].
      destruct (clone_empties rid assoc c) eqn:E; [|reflexivity]. rewrite <- Htrcs. symmetry. apply existsb_exists. exists c. split; assumption. }
    destruct (region_test (Some rid) assoc (is_nonempty_l cs')) eqn:Epr'.
    + (* pruned in the clone only: there, region selection sees a childless element.  The restriction removed every
         child, so the document's own run finds no child either and drops the element, which is not of a kind kept
         childless *)
      unfold region_test in Epr, Epr'. apply andb_true_iff in Epr' as [E1 E2]. rewrite E1 in Epr, Htrself. cbn [andb] in Epr.
      apply orb_false_iff in Epr as [E3 E4]. rewrite E4, orb_false_r in E2. apply negb_false_iff in E3.
      destruct cs' as [|x xs]; [|discriminate E2]. rewrite E3, (restrict_all_gone rid assoc cs Eg), !andb_true_r in Htrself.
      destruct (display_none st); [exact Hproc|].
      match type of Hproc with bind ?g _ = _ => destruct g as [children|] eqn:Ego end; [|discriminate]. cbn [bind] in Hproc.
      specialize (Hch children eq_refl). injection Hch as <-. f_equal. symmetry. apply (finish_nil_dropped a st r Hproc Htrself).
    + destruct (display_none st); [exact Hproc|].
      match type of Hproc with bind ?g _ = _ => destruct g as [children|] eqn:Ego end; [|discriminate].
      rewrite (Hch children eq_refl). exact Hproc.
Qed.

From TT Require Import Spec.RenderSpec.

Lemma clone_params d r c : clone_one_region d r = Ok c -> same_params d c.
Proof. intros H. apply clone_one_region_inv in H as (rid & b' & _ & _ & ->). repeat split. Qed.

Definition clone_keeps (d : doc) (rid : text) : Prop :=
  match d_body d with Some b => clone_empties rid None b = false | None => True end.

Lemma clone_region_same d r c t rid o :
  clone_keeps d rid -> e_id (eattrs r) = Some rid -> clone_one_region d r = Ok c ->
  proc_region d t (Some rid) r = Ok o -> isd c t = Ok (match o with Some x => [x] | None => [] end).
Proof.
  intros Hwf Hid Hc Hp. pose proof (clone_params _ _ _ Hc) as Hpar.
  apply clone_one_region_inv in Hc as (rid' & b' & Hid' & Eb & Hc). rewrite Hid in Hid'. injection Hid' as <-.
  assert (Hpr : proc_region c t (Some rid) r = Ok o).
  { unfold proc_region in *. destruct (negb (active_at t _)); [exact Hp|].
    rewrite <- (style_phase_ext d c Hpar). destruct (style_phase d t (eattrs r) None _) as [st|]; [|discriminate].
    cbn [bind] in *. destruct (display_none st); [exact Hp|].
    rewrite Hc. cbn [d_body]. unfold clone_keeps in Hwf. destruct (d_body d) as [b|]; [|injection Eb as <-; exact Hp].
    destruct (proc d t (Some rid) None (Some (KRegion, st)) None None b) as [rb|] eqn:Epb; [|discriminate].
    pose proof (restrict_proc d t rid b None (Some (KRegion, st)) None None rb b' Hwf Eb Epb) as Hr.
    destruct b' as [x|]; [rewrite <- Hc, <- (proc_ext d c Hpar), Hr | subst rb]; exact Hp. }
  unfold isd. rewrite Hc at 1. cbn [d_regions map collect_regions]. rewrite Hid, Hpr. destruct o; reflexivity.
Qed.

Lemma omits_refl l : omits_regions l l.
Proof. induction l; constructor; assumption. Qed.
Lemma omits_app a b c e : omits_regions a b -> omits_regions c e -> omits_regions (a ++ c) (b ++ e).
Proof. intros H Hc. induction H; cbn [app]; [exact Hc | constructor; exact IHomits_regions | constructor; exact IHomits_regions]. Qed.
Lemma omits_all l : omits_regions [] l.
Proof. induction l; constructor; assumption. Qed.

(* omissions restricted to regions satisfying P; P := "paints nothing" gives render equality (omits_only_render) *)
Lemma omits_only_weaken (P : elem -> Prop) a b : omits_only P a b -> omits_regions a b.
Proof. induction 1; constructor; assumption. Qed.
Lemma omits_only_refl (P : elem -> Prop) l : omits_only P l l.
Proof. induction l; constructor; assumption. Qed.
Lemma omits_only_app (P : elem -> Prop) a b c e : omits_only P a b -> omits_only P c e -> omits_only P (a ++ c) (b ++ e).
Proof. intros H Hc. induction H; cbn [app]; [exact Hc | constructor; assumption | constructor; assumption]. Qed.
Lemma omits_only_all (P : elem -> Prop) l : Forall P l -> omits_only P [] l.
Proof. induction 1; constructor; assumption. Qed.
Lemma omits_only_render a b : omits_only (fun r => paints r = false) a b -> render a = render b.
Proof.
  induction 1 as [|r a b Hr H IH|r a b H IH]; [reflexivity| |]; unfold render in *; cbn [filter].
  - rewrite Hr. exact IH.
  - rewrite IH. reflexivity.
Qed.

Definition clones_keep (d : doc) (regs : list elem) : Prop :=
  Forall (fun r => exists rid, e_id (eattrs r) = Some rid /\ clone_keeps d rid) regs.

(* what a skipped clone would have contributed satisfies P *)
Definition skip_sound_clones (P : elem -> Prop) (d : doc) (t : Q) : Prop :=
  forall r c rs, In r (d_regions d) -> clone_one_region d r = Ok c ->
    skip_cached t (content_interval c) = true -> isd c t = Ok rs -> Forall P rs.
(* a document with at most one region is its own cache entry *)
Definition skip_sound_self (P : elem -> Prop) (d : doc) (t : Q) : Prop :=
  forall rs, (length (d_regions d) <= 1)%nat ->
    skip_cached t (content_interval d) = true -> isd d t = Ok rs -> Forall P rs.

Lemma cached_clones (P : elem -> Prop) d t (Hskip : skip_sound_clones P d t) : forall regs outs ds,
  incl regs (d_regions d) -> clones_keep d regs ->
  Forall2 (fun r o => proc_region d t (e_id (eattrs r)) r = Ok o) regs outs -> clones d regs = Ok ds ->
  exists rs', isd_cached_docs t ds = Ok rs' /\ omits_only P rs' (flat_map opt_list outs).
Proof.
  intros regs outs ds Hincl Hids HF Hc. apply clones_forall in Hc. revert outs HF Hincl Hids.
  induction Hc as [|r c regs ds Ecl _ IH]; intros outs HF Hincl Hids; inversion HF as [|? o ? outs' Ho HF']; subst.
  - exists []. split; [reflexivity | constructor].
  - inversion Hids as [|? ? (rid & Hrid & Hkeep) Hids']; subst.
    destruct (IH outs' HF' (fun x Hx => Hincl x (or_intror Hx)) Hids') as (rs' & Hrs' & Hom).
    rewrite Hrid in Ho. pose proof (clone_region_same d r c t rid o Hkeep Hrid Ecl Ho) as Hisd.
    cbn [isd_cached_docs flat_map]. destruct (skip_cached t (content_interval c)) eqn:Esk.
    + exists rs'. split; [exact Hrs'|].
      pose proof (Hskip r c _ (Hincl r (or_introl eq_refl)) Ecl Esk Hisd) as HP.
      destruct o as [x|]; [|exact Hom]. inversion HP; subst. constructor; assumption.
    + rewrite Hisd, Hrs'. eexists. split; [reflexivity|]. apply omits_only_app; [apply omits_only_refl | exact Hom].
Qed.

Theorem cached_omits_only (P : elem -> Prop) d t ds rs :
  skip_sound_clones P d t -> skip_sound_self P d t ->
  ((2 <= length (d_regions d))%nat -> clones_keep d (d_regions d)) -> cached_docs d = Ok ds -> isd d t = Ok rs ->
  exists rs', isd_cached d t = Ok rs' /\ omits_only P rs' rs.
Proof.
  intros Hskip Hself Hids Hc Hi. unfold isd_cached. rewrite Hc. cbn [bind].
  destruct (le_lt_dec (length (d_regions d)) 1) as [Hlen|Hlen].
  - (* nothing is cloned: the document is its own cache entry *)
    rewrite (cached_docs_small d Hlen) in Hc. injection Hc as <-. cbn [isd_cached_docs].
    destruct (skip_cached t (content_interval d)) eqn:Esk.
    + exists []. split; [reflexivity|]. apply omits_only_all, (Hself rs Hlen Esk Hi).
    + rewrite Hi. cbn [bind]. rewrite app_nil_r. exists rs. split; [reflexivity | apply omits_only_refl].
  - unfold isd in Hi. unfold cached_docs in Hc. destruct (d_regions d) as [|r1 [|r2 rest]] eqn:Er; [inversion Hlen | apply Nat.lt_irrefl in Hlen; destruct Hlen|].
    apply collect_map_ok in Hi as (outs & HF & ->).
    apply (cached_clones P d t Hskip (r1 :: r2 :: rest) outs ds); [rewrite Er; apply incl_refl | exact (Hids Hlen) | exact HF | exact Hc].
Qed.

(* the cached snapshot is the uncached one with whole regions left out — every document, ruby included, on which the
   trigger of the recorded finding does not fire *)
Theorem cached_omits_regions d t ds rs :
  ((2 <= length (d_regions d))%nat -> clones_keep d (d_regions d)) -> cached_docs d = Ok ds -> isd d t = Ok rs ->
  exists rs', isd_cached d t = Ok rs' /\ omits_regions rs' rs.
Proof.
  intros Hk Hc Hi.
  destruct (cached_omits_only (fun _ => True) d t ds rs) as (rs' & H1 & H2); try assumption.
  - intros ? ? ? ? ? ? ?. apply Forall_forall. intros; exact I.
  - intros ? ? ? ?. apply Forall_forall. intros; exact I.
  - exists rs'. split; [exact H1 | apply (omits_only_weaken _ _ _ H2)].
Qed.

(* the executable form of the hypothesis *)
Lemma clones_keep_of_trigger d :
  Forall (fun r => exists rid, e_id (eattrs r) = Some rid) (d_regions d) ->
  clone_empties_doc d = false -> (2 <= length (d_regions d))%nat -> clones_keep d (d_regions d).
Proof.
  intros Hids Htr Hlen. unfold clone_empties_doc in Htr.
  destruct (d_regions d) as [|r1 [|r2 rest]]; [inversion Hlen | apply le_S_n in Hlen; inversion Hlen|].
  apply Forall_forall. intros r Hr. rewrite Forall_forall in Hids. destruct (Hids r Hr) as [rid Hrid].
  exists rid. split; [exact Hrid|]. unfold clone_keeps. destruct (d_body d) as [b|]; [|exact I].
  destruct (clone_empties rid None b) eqn:E; [|reflexivity].
  rewrite <- Htr. symmetry. apply existsb_exists. exists r. split; [exact Hr | rewrite Hrid; exact E].
Qed.
