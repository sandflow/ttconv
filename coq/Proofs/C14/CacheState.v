(* C14: the interval and activity caches never change a result.  Model/IsdCache.v threads the two dictionaries of
   ISD._process_element through the snapshot computation; here: a state is SOUND when every interval entry is the
   element's absolute interval and every activity entry is its activity at the time of the current call.  From a sound
   state every call returns what the cache-free transcription (Model/Isd.v, Model/SigTimes.v) returns, and leaves a sound
   state — so the answers of any sequence of calls on one SignificantTimes object are those of fresh computations. *)
From TT Require Import Model.Doc Gen.StyleTables Model.Isd Model.SigTimes Model.IsdCache Proofs.Common.ElemInd Proofs.Common.Walk.

Definition act_ok (ot : option Q) (iv : ivl) (b : bool) : Prop :=
  match ot with Some t => b = active_at t iv | None => True end.

Fixpoint cn_sound (ot : option Q) (pb pe : option Q) (e : elem) (cn : cnode) : Prop :=
  match e, cn with
  | Elem a cs, CN civ cact kids =>
      let iv := make_absolute (e_begin a) (e_end a) pb pe in
      (forall x, civ = Some x -> x = iv) /\ (forall b, cact = Some b -> act_ok ot iv b) /\
      (fix go (l : list elem) (ks : list cnode) : Prop :=
         match l, ks with c :: l', k :: ks' => cn_sound ot (Some (fst iv)) (snd iv) c k /\ go l' ks' | _, _ => True end) cs kids
  end.
Fixpoint kids_sound (ot : option Q) (pb pe : option Q) (l : list elem) (ks : list cnode) : Prop :=
  match l, ks with c :: l', k :: ks' => cn_sound ot pb pe c k /\ kids_sound ot pb pe l' ks' | _, _ => True end.
Lemma cn_sound_node ot pb pe a cs civ cact kids :
  cn_sound ot pb pe (Elem a cs) (CN civ cact kids) <->
  let iv := make_absolute (e_begin a) (e_end a) pb pe in
  (forall x, civ = Some x -> x = iv) /\ (forall b, cact = Some b -> act_ok ot iv b) /\ kids_sound ot (Some (fst iv)) (snd iv) cs kids.
Proof.
  cbn [cn_sound]. cbv zeta.
  assert (E : forall pb' pe' l ks,
             (fix go (l : list elem) (ks : list cnode) : Prop :=
                match l, ks with c :: l', k :: ks' => cn_sound ot pb' pe' c k /\ go l' ks' | _, _ => True end) l ks
             <-> kids_sound ot pb' pe' l ks).
  { intros pb' pe'. induction l as [|c l IH]; intros ks; [destruct ks; reflexivity|].
    destruct ks as [|k ks]; [reflexivity|]. cbn [kids_sound]. rewrite IH. reflexivity. }
  rewrite E. reflexivity.
Qed.
Lemma cn_sound_empty ot pb pe e : cn_sound ot pb pe e cn_empty.
Proof. destruct e as [a cs]. apply cn_sound_node. cbv zeta. repeat split; try discriminate. destruct cs; exact I. Qed.
Lemma kids_sound_tl ot pb pe c l ks : kids_sound ot pb pe (c :: l) ks -> cn_sound ot pb pe c (kid_hd ks) /\ kids_sound ot pb pe l (tl ks).
Proof.
  destruct ks as [|k ks]; cbn [kids_sound kid_hd tl].
  - intros _. split; [apply cn_sound_empty | destruct l; exact I].
  - tauto.
Qed.

Lemma kids_st_sound ot pb pe (f : elem -> cnode -> res (option elem) * cnode) (g : elem -> res (option elem)) :
  forall l, (forall e, In e l -> forall cn, cn_sound ot pb pe e cn -> fst (f e cn) = g e /\ cn_sound ot pb pe e (snd (f e cn))) ->
  forall ks, kids_sound ot pb pe l ks ->
  fst (kids_st f l ks) = collect_regions (map g l) /\ kids_sound ot pb pe l (snd (kids_st f l ks)).
Proof.
  induction l as [|c l IHl]; intros HF ks Hk; [split; [reflexivity | exact I]|].
  apply kids_sound_tl in Hk as [Hk1 Hk2]. cbn [kids_st map collect_regions]. fold (kids_st f).
  destruct (HF c (or_introl eq_refl) (kid_hd ks) Hk1) as [E1 S1].
  destruct (f c (kid_hd ks)) as [r k']. cbn [fst snd] in E1, S1. rewrite <- E1.
  destruct r as [o|code]; cbn [bind].
  - destruct (IHl (fun e He => HF e (or_intror He)) (tl ks) Hk2) as [E2 S2].
    destruct (kids_st f l (tl ks)) as [rs ks']. cbn [fst snd] in E2, S2 |- *.
    rewrite <- E2. split; [destruct rs; reflexivity | split; assumption].
  - cbn [fst snd]. split; [reflexivity | split; assumption].
Qed.

(* The entry of the element is consulted first.  A recorded activity is the activity at t and a recorded interval is the
   element's interval, so the three ways through the protocol (hit active, hit inactive, miss) do what the cache-free
   code does on `active_at t iv0`; the two ways that go on into the element do so with the same entry. *)
Lemma proc_st_sound d t sel : forall e inh par pb pe cn, cn_sound (Some t) pb pe e cn ->
  fst (proc_st d t sel inh par pb pe e cn) = proc d t sel inh par pb pe e /\
  cn_sound (Some t) pb pe e (snd (proc_st d t sel inh par pb pe e cn)).
Proof.
  induction e as [a cs IH] using elem_ind2. intros inh par pb pe [civ cact kids] Hs.
  apply cn_sound_node in Hs. cbv zeta in Hs. destruct Hs as (Hiv & Hact & Hkids).
  rewrite proc_node. cbv zeta. cbn [proc_st]. fold (assoc_region a inh).
  set (iv0 := make_absolute (e_begin a) (e_end a) pb pe) in *.
  replace (match civ with Some x => x | None => iv0 end) with iv0 by (destruct civ as [x|]; [symmetry; apply Hiv|]; reflexivity).
  assert (Hnode : forall b kids', act_ok (Some t) iv0 b -> kids_sound (Some t) (Some (fst iv0)) (snd iv0) cs kids' ->
                  cn_sound (Some t) pb pe (Elem a cs) (CN (Some iv0) (Some b) kids')).
  { intros b kids' Hb Hk. apply cn_sound_node. cbv zeta. fold iv0.
    split; [intros x Hx; injection Hx as <-; reflexivity|]. split; [intros b' Hb'; injection Hb' as <-; exact Hb | exact Hk]. }
  destruct cact as [[|]|];
    [pose proof (eq_sym (Hact true eq_refl)) as Ea; cbn [act_ok] in Ea | rewrite <- (Hact false eq_refl) | destruct (active_at t iv0) eqn:Ea];
    rewrite ?Ea; cbn [negb fst snd].
  1, 3: (* the element is active: on into it, with the entry (iv0, true) *)
    destruct (region_test sel _ _); [split; [reflexivity | apply Hnode; [exact (eq_sym Ea) | exact Hkids]]|];
    destruct (style_phase d t a par iv0) as [st|code]; [|split; [reflexivity | apply Hnode; [exact (eq_sym Ea) | exact Hkids]]]; cbn [bind];
    destruct (display_none st); [split; [reflexivity | apply Hnode; [exact (eq_sym Ea) | exact Hkids]]|];
    destruct (kids_st_sound (Some t) (Some (fst iv0)) (snd iv0) _
                (proc d t sel (assoc_region a inh) (Some (e_kind a, st)) (Some (fst iv0)) (snd iv0)) cs
                (fun c Hc => proj1 (Forall_forall _ _) IH c Hc _ _ _ _) kids Hkids) as [E S];
    destruct (kids_st _ cs kids) as [rch kids']; cbn [fst snd] in E, S |- *; rewrite <- E;
    (split; [reflexivity | apply Hnode; [exact (eq_sym Ea) | exact S]]).
  - split; [reflexivity|]. apply cn_sound_node. cbv zeta. repeat split; assumption.
  - split; [reflexivity|]. apply Hnode; [exact (eq_sym Ea) | exact Hkids].
Qed.

Definition lab_sound (ot : option Q) (r : elem) (lb : lab) : Prop :=
  let iv := make_absolute (e_begin (eattrs r)) (e_end (eattrs r)) None None in
  (forall x, fst lb = Some x -> x = iv) /\ (forall b, snd lb = Some b -> act_ok ot iv b).
Definition body_sound (ot : option Q) (c : doc) (bc : cnode) : Prop :=
  match d_body c with Some b => cn_sound ot None None b bc | None => True end.
Fixpoint labs_sound (ot : option Q) (rs : list elem) (labs : list lab) : Prop :=
  match rs, labs with r :: rs', l :: labs' => lab_sound ot r l /\ labs_sound ot rs' labs' | _, _ => True end.
Definition dsound (ot : option Q) (c : doc) (dc : dcache) : Prop :=
  labs_sound ot (d_regions c) (dc_regions dc) /\ body_sound ot c (dc_body dc).

Lemma lab_sound_empty ot r : lab_sound ot r lab_empty.
Proof. split; intros ? H; discriminate H. Qed.
Lemma labs_sound_tl ot r rs labs : labs_sound ot (r :: rs) labs -> lab_sound ot r (lab_hd labs) /\ labs_sound ot rs (tl labs).
Proof.
  destruct labs as [|l labs]; cbn [labs_sound lab_hd tl]; [|tauto].
  intros _. split; [apply lab_sound_empty | destruct rs; exact I].
Qed.

Lemma proc_region_st_sound d t sel r lb bc :
  lab_sound (Some t) r lb -> body_sound (Some t) d bc ->
  fst (proc_region_st d t sel r lb bc) = proc_region d t sel r /\
  lab_sound (Some t) r (fst (snd (proc_region_st d t sel r lb bc))) /\
  body_sound (Some t) d (snd (snd (proc_region_st d t sel r lb bc))).
Proof.
  intros [Hiv Hact] Hb. unfold proc_region_st, proc_region.
  set (a := eattrs r) in *. set (iv0 := make_absolute (e_begin a) (e_end a) None None) in *.
  destruct lb as [liv lact]. cbn [fst snd] in *.
  replace (match liv with Some x => x | None => iv0 end) with iv0 by (destruct liv as [x|]; [symmetry; apply Hiv|]; reflexivity).
  assert (Hlab : forall b, act_ok (Some t) iv0 b -> lab_sound (Some t) r (Some iv0, Some b)).
  { intros b H. split; cbn [fst snd]; [intros x Hx; injection Hx as <-; reflexivity | intros b' Hb'; injection Hb' as <-; exact H]. }
  destruct lact as [[|]|];
    [pose proof (eq_sym (Hact true eq_refl)) as Ea; cbn [act_ok] in Ea | rewrite <- (Hact false eq_refl) | destruct (active_at t iv0) eqn:Ea];
    rewrite ?Ea; cbn [negb fst snd].
  1, 3: (* the region is active: the protocol of proc_st_sound, with the body below *)
    destruct (style_phase d t a None iv0) as [st|code]; cbn [bind fst snd]; [|split; [reflexivity | split; [apply Hlab, (eq_sym Ea) | exact Hb]]];
    destruct (display_none st); [split; [reflexivity | split; [apply Hlab, (eq_sym Ea) | exact Hb]]|];
    unfold body_sound in *; destruct (d_body d) as [b|]; [|split; [reflexivity | split; [apply Hlab, (eq_sym Ea) | exact I]]];
    destruct (proc_st_sound d t sel b None (Some (KRegion, st)) None None bc Hb) as [E S];
    destruct (proc_st d t sel None (Some (KRegion, st)) None None b bc) as [rb bc']; cbn [fst snd] in E, S |- *;
    rewrite <- E; (split; [destruct rb; reflexivity | split; [apply Hlab, (eq_sym Ea) | exact S]]).
  - split; [reflexivity|]. split; [split; assumption | exact Hb].
  - split; [reflexivity|]. split; [apply Hlab, (eq_sym Ea) | exact Hb].
Qed.

Lemma regions_st_sound c t : forall rs labs bc,
  labs_sound (Some t) rs labs -> body_sound (Some t) c bc ->
  fst (regions_st c t rs labs bc) = collect_regions (map (fun r => proc_region c t (e_id (eattrs r)) r) rs) /\
  labs_sound (Some t) rs (fst (snd (regions_st c t rs labs bc))) /\ body_sound (Some t) c (snd (snd (regions_st c t rs labs bc))).
Proof.
  induction rs as [|r rs IH]; intros labs bc Hl Hb; [cbn [regions_st map collect_regions fst snd]; split; [reflexivity | split; [destruct labs; exact I | exact Hb]]|].
  apply labs_sound_tl in Hl as [Hl1 Hl2]. cbn [regions_st map collect_regions].
  destruct (proc_region_st_sound c t (e_id (eattrs r)) r (lab_hd labs) bc Hl1 Hb) as (E & S1 & S2).
  destruct (proc_region_st c t (e_id (eattrs r)) r (lab_hd labs) bc) as [o [lb' bc']]. cbn [fst snd] in E, S1, S2. rewrite <- E.
  destruct o as [x|code]; cbn [bind].
  - destruct (IH (tl labs) bc' Hl2 S2) as (E2 & S3 & S4).
    destruct (regions_st c t rs (tl labs) bc') as [rest [labs' bc'']]. cbn [fst snd] in E2, S3, S4 |- *. rewrite <- E2.
    split; [destruct rest; reflexivity|]. split; [split; assumption | exact S4].
  - cbn [fst snd]. split; [reflexivity|]. split; [split; assumption | exact S2].
Qed.

Theorem isd_st_sound c t dc : dsound (Some t) c dc -> fst (isd_st c t dc) = isd c t /\ dsound (Some t) c (snd (isd_st c t dc)).
Proof.
  intros [Hl Hb]. unfold isd_st, isd, dsound. destruct (d_regions c) as [|r0 rest] eqn:Er.
  - destruct (proc_region_st_sound c t None default_region lab_empty (dc_body dc) (lab_sound_empty _ _) Hb) as (E & _ & S2).
    destruct (proc_region_st c t None default_region lab_empty (dc_body dc)) as [o [lb' bc']]. cbn [fst snd] in E, S2 |- *.
    rewrite <- E. cbn [collect_regions]. split; [destruct o as [[x|]|]; reflexivity|]. split; [destruct (dc_regions dc); exact I | exact S2].
  - destruct (regions_st_sound c t (r0 :: rest) (dc_regions dc) (dc_body dc) Hl Hb) as (E & S1 & S2).
    destruct (regions_st c t (r0 :: rest) (dc_regions dc) (dc_body dc)) as [o [labs bc]]. cbn [fst snd] in E, S1, S2 |- *.
    split; [exact E | split; assumption].
Qed.

(* a call without sig_times starts from empty dictionaries: it is the cache-free transcription *)
Theorem from_model_plain_eq d t : from_model_plain d t = isd d t.
Proof.
  unfold from_model_plain. apply isd_st_sound. split; cbn [dc_empty dc_regions dc_body].
  - destruct (d_regions d); exact I.
  - unfold body_sound. destruct (d_body d); [apply cn_sound_empty | exact I].
Qed.

(* Between calls the state is sound at `ot = None`: nothing is claimed of the activity entries, which every call drops
   (dc_reset: activity_cache = {} per cached document per call), and the interval entries stay. *)
Lemma kids_sound_map ot ot' (f : cnode -> cnode) : forall cs,
  Forall (fun c => forall pb pe cn, cn_sound ot pb pe c cn -> cn_sound ot' pb pe c (f cn)) cs ->
  forall pb pe ks, kids_sound ot pb pe cs ks -> kids_sound ot' pb pe cs (map f ks).
Proof.
  induction 1 as [|c cs Hc _ IH]; intros pb pe [|k ks] H; try exact I. destruct H as [H1 H2]. split; [apply Hc, H1 | apply IH, H2].
Qed.

Lemma cn_sound_weaken ot : forall e pb pe cn, cn_sound ot pb pe e cn -> cn_sound None pb pe e cn.
Proof.
  induction e as [a cs IH] using elem_ind2. intros pb pe [civ cact kids] H. apply cn_sound_node in H. apply cn_sound_node.
  cbv zeta in *. destruct H as (H1 & _ & H3). split; [exact H1|]. split; [intros; exact I|].
  rewrite <- (map_id kids). apply (kids_sound_map ot None (fun k => k) cs IH), H3.
Qed.
Lemma reset_node civ cact kids : reset_act (CN civ cact kids) = CN civ None (map reset_act kids).
Proof. reflexivity. Qed.
Lemma cn_sound_reset ot : forall e pb pe cn, cn_sound None pb pe e cn -> cn_sound ot pb pe e (reset_act cn).
Proof.
  induction e as [a cs IH] using elem_ind2. intros pb pe [civ cact kids] H. rewrite reset_node. apply cn_sound_node in H. apply cn_sound_node.
  cbv zeta in *. destruct H as (H1 & _ & H3). split; [exact H1|]. split; [intros b Hb; discriminate Hb|].
  apply (kids_sound_map None ot reset_act cs IH), H3.
Qed.

Lemma labs_sound_map ot ot' (f : lab -> lab) : (forall r l, lab_sound ot r l -> lab_sound ot' r (f l)) ->
  forall rs labs, labs_sound ot rs labs -> labs_sound ot' rs (map f labs).
Proof.
  intros Hf. induction rs as [|r rs IH]; intros [|l labs] H; try exact I. destruct H as [H1 H2]. split; [apply Hf, H1 | apply IH, H2].
Qed.

Lemma dsound_weaken ot c dc : dsound ot c dc -> dsound None c dc.
Proof.
  intros [Hl Hb]. split.
  - rewrite <- (map_id (dc_regions dc)). apply (labs_sound_map ot); [|exact Hl]. intros r l [H1 _]. split; [exact H1 | intros; exact I].
  - unfold body_sound in *. destruct (d_body c); [apply (cn_sound_weaken ot), Hb | exact I].
Qed.
Lemma dsound_reset ot c dc : dsound None c dc -> dsound ot c (dc_reset dc).
Proof.
  intros [Hl Hb]. split; cbn [dc_reset dc_regions dc_body].
  - apply (labs_sound_map None); [|exact Hl]. intros r l [H1 _]. split; [exact H1 | intros b Hb'; discriminate Hb'].
  - unfold body_sound in *. destruct (d_body c); [apply cn_sound_reset, Hb | exact I].
Qed.

Definition state_sound (s : sig_state) : Prop := Forall (fun cd => dsound None (fst cd) (snd cd)) s.

Theorem from_model_st_sound t : forall s, state_sound s ->
  fst (from_model_st t s) = isd_cached_docs t (map fst s) /\ state_sound (snd (from_model_st t s)) /\
  map fst (snd (from_model_st t s)) = map fst s.
Proof.
  induction s as [|[c dc] s IH]; intros Hs; [cbn; repeat split; constructor|].
  inversion Hs as [|? ? Hc Hs']; subst. cbn [fst snd] in Hc. cbn [from_model_st map fst isd_cached_docs].
  destruct (IH Hs') as (E & S & M).
  destruct (skip_cached t (content_interval c)).
  - destruct (from_model_st t s) as [r s'']. cbn [fst snd] in *. split; [exact E|]. split; [constructor; assumption | cbn [map fst]; rewrite M; reflexivity].
  - destruct (isd_st_sound c t (dc_reset dc) (dsound_reset (Some t) c dc Hc)) as [E1 S1].
    destruct (isd_st c t (dc_reset dc)) as [r dc']. cbn [fst snd] in E1, S1. rewrite <- E1.
    destruct r as [rs|code]; cbn [bind].
    + destruct (from_model_st t s) as [r' s'']. cbn [fst snd] in *. rewrite <- E.
      split; [destruct r'; reflexivity|]. split; [constructor; [apply (dsound_weaken (Some t)), S1 | exact S] | cbn [map fst]; rewrite M; reflexivity].
    + cbn [fst snd]. split; [reflexivity|]. split; [constructor; [apply (dsound_weaken (Some t)), S1 | exact Hs'] | reflexivity].
Qed.

(* (iv) any list of query times, in any order, on one object: each answer is the cache-free answer for that time *)
Theorem history_sound : forall ts s, state_sound s ->
  fst (run_history ts s) = map (fun t => isd_cached_docs t (map fst s)) ts.
Proof.
  induction ts as [|t ts IH]; intros s Hs; [reflexivity|]. cbn [run_history map].
  destruct (from_model_st_sound t s Hs) as (E & S & M). destruct (from_model_st t s) as [r s']. cbn [fst snd] in E, S, M.
  specialize (IH s' S). destruct (run_history ts s') as [rs s'']. cbn [fst] in *. rewrite E, IH, M. reflexivity.
Qed.

(* what compute_sig_times stores is sound *)
Lemma built_cn_sound : forall e pb pe, cn_sound None pb pe e (built_cn pb pe e).
Proof.
  induction e as [a cs IH] using elem_ind2. intros pb pe.
  assert (E : built_cn pb pe (Elem a cs) =
              let iv := make_absolute (e_begin a) (e_end a) pb pe in CN (Some iv) None (map (built_cn (Some (fst iv)) (snd iv)) cs)) by reflexivity.
  rewrite E. clear E. cbv zeta. apply cn_sound_node. cbv zeta. split; [intros x Hx; injection Hx as <-; reflexivity|]. split; [intros b Hb; discriminate Hb|].
  generalize (Some (fst (make_absolute (e_begin a) (e_end a) pb pe))), (snd (make_absolute (e_begin a) (e_end a) pb pe)). intros pb' pe'.
  induction cs as [|c cs IHcs]; [exact I|]. inversion IH as [|? ? Hc Hcs]; subst. cbn [map kids_sound]. split; [apply Hc | apply (IHcs Hcs)].
Qed.
Theorem built_state_sound ds : state_sound (built_state ds).
Proof.
  unfold state_sound, built_state. apply Forall_forall. intros cd Hcd. apply in_map_iff in Hcd as (c & <- & _). cbn [fst snd].
  split; cbn [built_dc dc_regions dc_body].
  - induction (d_regions c) as [|r rs IH]; [exact I|]. cbn [map labs_sound]. split; [|exact IH].
    split; cbn [fst snd]; [intros x Hx; injection Hx as <-; reflexivity | intros b Hb; discriminate Hb].
  - unfold body_sound. destruct (d_body c); [apply built_cn_sound | exact I].
Qed.

(* ... so: build the object once, ask any list of times — the answers are those of ISD.from_model(doc, t, fresh object) *)
Theorem history_built d ds : cached_docs d = Ok ds -> forall ts,
  fst (run_history ts (built_state ds)) = map (fun t => isd_cached d t) ts.
Proof.
  intros Hc ts. rewrite (history_sound ts _ (built_state_sound ds)).
  assert (E : map fst (built_state ds) = ds) by (unfold built_state; rewrite map_map; cbn [fst]; apply map_id).
  rewrite E. apply map_ext. intros t. unfold isd_cached. rewrite Hc. reflexivity.
Qed.
