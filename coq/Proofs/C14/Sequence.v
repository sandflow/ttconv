(* C14: generate_isd_sequence and repeated use of one significant-times object. *)
From TT Require Import Model.Doc Gen.StyleTables Model.Isd Model.SigTimes Model.CloneTrigger Spec.RenderSpec Spec.DocWf.
From TT Require Import Proofs.Common.Walk Proofs.C02.Stable Proofs.C02.Sig Proofs.C02.Complete Proofs.C14.Restrict Proofs.C14.Sound.

Lemma sig_cached d l : sig d = Ok l -> exists ds, cached_docs d = Ok ds.
Proof. unfold sig, sig_gen. destruct (cached_docs d) as [ds|]; [exists ds; reflexivity | discriminate]. Qed.

(* (iii) every entry of the generated sequence is the cached snapshot at its significant time, and it renders like
   the snapshot computed without the cache at that time *)
Theorem sequence_render d s :
  doc_wf d = true -> clone_empties_doc d = false -> isd_sequence d = Ok s ->
  exists l, sig d = Ok l /\ map fst s = l /\
            Forall (fun p => isd_cached d (fst p) = Ok (snd p) /\
                             forall rs, isd d (fst p) = Ok rs -> omits_only (fun r => paints r = false) (snd p) rs /\ render (snd p) = render rs) s.
Proof.
  intros Hwf Htr Hs. destruct (sequence_spec d s Hs) as (l & Hl & Hm & HF). exists l. split; [exact Hl|]. split; [exact Hm|].
  destruct (sig_cached d l Hl) as [ds Hds].
  apply Forall_forall. intros p Hp. rewrite Forall_forall in HF. specialize (HF p Hp). split; [exact HF|].
  intros rs Hrs. destruct (cached_render_equiv d (fst p) ds rs Hwf Htr Hds Hrs) as (rs' & H1 & H2 & H3).
  rewrite HF in H1. injection H1 as <-. split; assumption.
Qed.

(* (iv) one significant-times object, built once, then used for any list of query times in any order: each answer is
   the answer a freshly built object gives for that time alone (M is a function of the document and the time; the
   interval cache the object carries is treated in Proofs/C14/CacheState.v) *)
Theorem cache_reuse d ds : cached_docs d = Ok ds ->
  forall ts, map (fun t => isd_cached_docs t ds) ts = map (fun t => isd_cached d t) ts.
Proof. intros Hc ts. apply map_ext. intros t. unfold isd_cached. rewrite Hc. reflexivity. Qed.

(* ... hence, for a well-formed document outside the trigger, every one of those answers renders like the uncached
   snapshot at its time, whatever was asked before *)
Theorem cache_reuse_render d ds : doc_wf d = true -> clone_empties_doc d = false -> cached_docs d = Ok ds ->
  forall ts, Forall (fun t => forall rs, isd d t = Ok rs -> exists rs', isd_cached_docs t ds = Ok rs' /\ render rs' = render rs) ts.
Proof.
  intros Hwf Htr Hc ts. apply Forall_forall. intros t _ rs Hrs.
  destruct (cached_render_equiv d t ds rs Hwf Htr Hc Hrs) as (rs' & H1 & _ & H3).
  exists rs'. split; [|exact H3]. unfold isd_cached in H1. rewrite Hc in H1. exact H1.
Qed.

(* outcomes: with the cache a call raises only if the call without it raises (the converse is not claimed: the clones
   drop more before a style computation or Ruby.push_children can fail) *)
Theorem cached_raises_only_if_uncached d t ds c :
  doc_wf d = true -> clone_empties_doc d = false -> cached_docs d = Ok ds -> isd_cached d t = Err c -> exists c', isd d t = Err c'.
Proof.
  intros Hwf Htr Hc He. destruct (isd d t) as [rs|c'] eqn:Ei; [|exists c'; reflexivity].
  destruct (cached_render_equiv d t ds rs Hwf Htr Hc Ei) as (rs' & H1 & _). rewrite He in H1. discriminate.
Qed.

(* the hypotheses of the theorems are satisfiable: a two-region document with ruby whose spans name regions *)
Definition ex_at (k : kind) (reg : option text) : attrs := mkAttrs k None None None reg [] [] false [] [].
Definition ex_span (reg : option text) (b e : option Q) : elem :=
  Elem (mkAttrs KSpan None b e reg [] [] false [] []) [Elem (mkAttrs KText None None None None [] [] false [] [120%Z]) []].
Definition ex_region (rid : text) : elem := Elem (mkAttrs KRegion (Some rid) None None None [(p_BackgroundColor, VColor 0%Z)] [] false [] []) [].
Definition ex_doc : doc :=
  mkDoc [ex_region [114%Z; 49%Z]; ex_region [114%Z; 50%Z]]
        (Some (Elem (ex_at KBody None)
           [Elem (ex_at KDiv (Some [114%Z; 49%Z]))
              [Elem (ex_at KP None) [Elem (ex_at KRuby None) [Elem (ex_at KRb None) [ex_span None None None]; Elem (ex_at KRt None) [ex_span None None None]]]];
            Elem (ex_at KDiv None) [Elem (ex_at KP None) [ex_span (Some [114%Z; 50%Z]) (Some (Qmake 2 1)) (Some (Qmake 4 1))]]]))
        [] 15%Z 32%Z 1080%Z 1920%Z None None [].
(* the significant times of ex_doc; the snapshots of the sequence are evaluated only as far as their outcome *)
Lemma ex_doc_sequence : exists s, isd_sequence ex_doc = Ok s /\ map fst s = [0%Q; Qmake 2 1; Qmake 4 1].
Proof. apply res_ok_ex. vm_compute. reflexivity. Qed.

Lemma hypotheses_satisfiable :
  doc_wf ex_doc = true /\ clone_empties_doc ex_doc = false /\ (exists ds, cached_docs ex_doc = Ok ds) /\
  (exists s, isd_sequence ex_doc = Ok s) /\ (exists rs, isd ex_doc (Qmake 3 1) = Ok rs /\ render rs <> []) /\
  (exists rs rs', isd ex_doc (Qmake 5 1) = Ok rs /\ isd_cached ex_doc (Qmake 5 1) = Ok rs' /\ length rs' = 1%nat /\ length rs = 2%nat).
Proof.
  split; [vm_compute; reflexivity|]. split; [vm_compute; reflexivity|].
  destruct ex_doc_sequence as (s & Hs & _).
  split; [apply (sig_cached ex_doc (map fst s)); destruct (sequence_spec _ _ Hs) as (l & Hl & <- & _); exact Hl|].
  split; [exists s; exact Hs|].
  destruct (res_ok_ex (fun rs => is_nonempty_l (render rs) = true) (isd ex_doc (Qmake 3 1))) as (rs3 & E3 & H3); [vm_compute; reflexivity|].
  split; [exists rs3; split; [exact E3 | intros Hn; rewrite Hn in H3; discriminate H3]|].
  destruct (res_ok_ex (fun rs => length rs = 2%nat) (isd ex_doc (Qmake 5 1))) as (rs & E & H); [vm_compute; reflexivity|].
  destruct (res_ok_ex (fun rs => length rs = 1%nat) (isd_cached ex_doc (Qmake 5 1))) as (rs' & E' & H'); [vm_compute; reflexivity|].
  exists rs, rs'. exact (conj E (conj E' (conj H' H))).
Qed.
