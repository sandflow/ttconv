(* C14: soundness of the content interval — a region (or document) that the cache skips at t paints nothing at t. *)
From TT Require Import Model.Doc Gen.StyleTables Model.Isd Model.SigTimes Model.IsdCache Model.CloneTrigger Spec.IsdSpec Spec.StyleSpec Spec.RenderSpec Spec.DocWf.
From TT Require Import Proofs.Common.ElemInd Proofs.Common.StyleFrame Proofs.Common.Walk Proofs.C01.Leaves Proofs.C01.Lwsp Proofs.C01.Display Proofs.C01.Main.
From TT Require Import Proofs.C13.Shape Proofs.C13.Styles Proofs.C03.Values Proofs.C03.Cascade Proofs.C14.Cache Proofs.C14.Restrict.

Definition covers (ci : option Q * option Q) (t : Q) : Prop :=
  match fst ci with
  | None => False
  | Some c0 => Qle c0 t /\ match snd ci with None => True | Some c1 => Qlt t c1 end
  end.

Lemma active_at_bounds t iv : active_at t iv = true ->
  Qle (fst iv) t /\ match snd iv with Some e => Qlt t e | None => True end.
Proof.
  unfold active_at, Qltb. rewrite negb_involutive. intros H. apply andb_true_iff in H as [H1 H2].
  apply Qle_bool_iff in H1. split; [exact H1|]. destruct (snd iv) as [e|]; [|exact I].
  apply negb_true_iff in H2. destruct (Qlt_le_dec t e) as [Hl|Hg]; [exact Hl|]. apply Qle_bool_iff in Hg. congruence.
Qed.

Lemma widen_covers ci iv t : covers ci t \/ active_at t iv = true -> covers (widen ci iv) t.
Proof.
  destruct ci as [[c0|] c1]; destruct iv as [b e]; unfold covers, widen; cbn [fst snd]; intros [H|H].
  - destruct H as [H0 H1]. split.
    + apply Qle_trans with c0; [apply Q.le_min_r | exact H0].
    + destruct e as [e|]; [|exact I]. destruct c1 as [c1|]; [|exact I].
      apply Qlt_le_trans with c1; [exact H1 | apply Q.le_max_r].
  - apply active_at_bounds in H as [Hb He]. cbn [fst snd] in Hb, He. split.
    + apply Qle_trans with b; [apply Q.le_min_l | exact Hb].
    + destruct e as [e|]; [|exact I]. destruct c1 as [c1|]; [|exact I].
      apply Qlt_le_trans with e; [exact He | apply Q.le_max_l].
  - destruct H.
  - apply active_at_bounds in H as [Hb He]. cbn [fst snd] in Hb, He. split; [exact Hb|].
    destruct e as [e|]; [|exact I]. destruct c1 as [c1|]; [|exact I].
    apply Qlt_le_trans with e; [exact He | apply Q.le_max_l].
Qed.

(* the loop over the children of content_elem (and over the regions, in content_interval) is a fold *)
Lemma content_elem_node pb pe a cs ci :
  content_elem pb pe (Elem a cs) ci =
  let iv := make_absolute (e_begin a) (e_end a) pb pe in
  fold_left (fun ci c => content_elem (Some (fst iv)) (snd iv) c ci) cs
    (match e_kind a with
     | KBr | KSpan => widen ci iv
     | KRegion => if region_always_has_background a then widen ci iv else ci
     | _ => ci
     end).
Proof. reflexivity. Qed.

Lemma fold_content_mono t pb pe l :
  Forall (fun e => forall ci, covers ci t -> covers (content_elem pb pe e ci) t) l ->
  forall ci, covers ci t -> covers (fold_left (fun ci c => content_elem pb pe c ci) l ci) t.
Proof. induction 1 as [|c l Hc _ IH]; intros ci H; [exact H | apply IH, Hc, H]. Qed.

Lemma content_elem_mono t : forall e pb pe ci, covers ci t -> covers (content_elem pb pe e ci) t.
Proof.
  induction e as [a cs IH] using elem_ind2. intros pb pe ci H. rewrite content_elem_node. cbv zeta.
  apply fold_content_mono; [rewrite Forall_forall in *; intros e He; apply (IH e He)|].
  destruct (e_kind a); try exact H; try (apply widen_covers; left; exact H).
  destruct (region_always_has_background a); [apply widen_covers; left; exact H | exact H].
Qed.

Lemma content_children_mono t pb pe l ci : covers ci t -> covers (fold_left (fun ci c => content_elem pb pe c ci) l ci) t.
Proof. apply fold_content_mono, Forall_forall. intros e _. apply content_elem_mono. Qed.

Lemma content_children_hit t pb pe c : forall l ci, In c l -> (forall ci, covers (content_elem pb pe c ci) t) ->
  covers (fold_left (fun ci c => content_elem pb pe c ci) l ci) t.
Proof.
  induction l as [|c0 l IH]; intros ci Hin H; [destruct Hin|]. cbn [fold_left].
  destruct Hin as [->|Hin]; [apply content_children_mono, H | apply IH; assumption].
Qed.

(* kinds whose presence in a snapshot implies an active span or br below (or at) them, under the content model of
   Spec/DocWf.v *)
Definition content_kind (k : kind) : bool := match k with KText | KRb | KRbc | KRegion => false | _ => true end.

Lemma child_ok_content pk ck : child_ok pk ck = true -> pk <> KRuby -> pk <> KSpan -> pk <> KRbc -> content_kind ck = true.
Proof. destruct ck; try reflexivity; destruct pk; cbn; congruence. Qed.

Lemma proc_kind d t sel : forall e inh par pb pe r, proc d t sel inh par pb pe e = Ok (Some r) -> e_kind (eattrs r) = e_kind (eattrs e).
Proof.
  intros [a cs] inh par pb pe r H. apply proc_kept in H as (st & children & _ & _ & _ & H). apply (finish_element_attrs a st children r H).
Qed.

Lemma finish_some_children a st children r :
  finish_element a st children = Ok (Some r) -> keep_always (e_kind a) = false -> e_kind a <> KRegion ->
  children <> [] /\ push_children_ok (e_kind a) children = true.
Proof.
  intros H Hk Hr. apply finish_element_inv in H as (Hpush & -> & [Hka|[Hne|[Hreg _]]]); [congruence| |contradiction].
  assert (children <> []) as Hc by (intros ->; apply Hne, finish_children_nil).
  split; [exact Hc | destruct Hpush; [contradiction | assumption]].
Qed.

Lemma kinds_eqb_eq : forall a b, kinds_eqb a b = true -> a = b.
Proof.
  induction a as [|x a IH]; intros [|y b] H; cbn [kinds_eqb] in H; try discriminate; [reflexivity|].
  apply andb_true_iff in H as [H1 H2]. rewrite (IH b H2). destruct x, y; try discriminate; reflexivity.
Qed.
Lemma ruby_has_text cs : ruby_children_ok cs = true ->
  exists x, In x cs /\ (e_kind (eattrs x) = KRt \/ e_kind (eattrs x) = KRtc).
Proof.
  unfold ruby_children_ok. intros H.
  assert (Hin : In KRt (kinds_of cs) \/ In KRtc (kinds_of cs)).
  { repeat (apply orb_true_iff in H as [H|H]); apply kinds_eqb_eq in H; rewrite H; cbn; tauto. }
  unfold kinds_of in Hin. destruct Hin as [Hin|Hin]; apply in_map_iff in Hin as (x & Hk & Hx); exists x; tauto.
Qed.

(* a surviving element of any kind other than text, ruby base (container) and region lies in the content interval: an
   active span or br is at or below it *)
Lemma proc_covered d t sel : forall e inh par pb pe r ci,
  cm_ok e = true -> content_kind (e_kind (eattrs e)) = true ->
  proc d t sel inh par pb pe e = Ok (Some r) -> covers (content_elem pb pe e ci) t.
Proof.
  induction e as [a cs IH] using elem_ind2. intros inh par pb pe r ci Hwf Hck H.
  rewrite cm_ok_node in Hwf. apply andb_true_iff in Hwf as [Hk Hwfcs]. rewrite forallb_forall in Hk, Hwfcs.
  cbn [eattrs] in Hck. rewrite proc_node in H. rewrite content_elem_node. cbv zeta in *.
  set (iv := make_absolute (e_begin a) (e_end a) pb pe) in *.
  destruct (active_at t iv) eqn:Eact; cbn [negb] in H; [|discriminate].
  destruct (region_test _ _ _); [discriminate|].
  destruct (style_phase d t a par iv) as [st|]; [|discriminate]. cbn [bind] in H.
  destruct (display_none st); [discriminate|].
  destruct (collect_regions _) as [children|] eqn:Eg; [|discriminate]. cbn [bind] in H.
  (* a container: it is enough that some child of a content kind survives *)
  assert (Hhit : forall x, In x children -> (forall c, In c cs -> e_kind (eattrs c) = e_kind (eattrs x) -> content_kind (e_kind (eattrs c)) = true) ->
                 forall ci', covers (fold_left (fun ci c => content_elem (Some (fst iv)) (snd iv) c ci) cs ci') t).
  { intros x Hx Hkind ci'. destruct (collect_map_in _ _ _ x Eg Hx) as (c & Hin & Hpc).
    apply (content_children_hit t _ _ c cs ci' Hin). intros ci0. rewrite Forall_forall in IH.
    eapply (IH c Hin); [apply Hwfcs, Hin | | exact Hpc]. apply (Hkind c Hin), eq_sym, (proc_kind _ _ _ _ _ _ _ _ _ Hpc). }
  assert (Hcontainer : keep_always (e_kind a) = false -> e_kind a <> KRegion -> e_kind a <> KRuby -> e_kind a <> KSpan -> e_kind a <> KRbc ->
            forall ci', covers (fold_left (fun ci c => content_elem (Some (fst iv)) (snd iv) c ci) cs ci') t).
  { intros Hka Hnr H1 H2 H3. destruct (finish_some_children a st children r H Hka Hnr) as [Hne _].
    destruct children as [|x xs]; [congruence|].
    apply (Hhit x (or_introl eq_refl)). intros c Hin _. apply (child_ok_content _ _ (Hk c Hin) H1 H2 H3). }
  destruct (e_kind a) eqn:Ek; try discriminate Hck; try (apply Hcontainer; try reflexivity; discriminate).
  - apply content_children_mono, widen_covers. right. exact Eact.
  - apply content_children_mono, widen_covers. right. exact Eact.
  - (* ruby: the admissible child sequences all contain rt or rtc *)
    assert (Hka : keep_always (e_kind a) = false) by (rewrite Ek; reflexivity).
    assert (Hnr : e_kind a <> KRegion) by (rewrite Ek; discriminate).
    destruct (finish_some_children a st children r H Hka Hnr) as [_ Hpush]. rewrite Ek in Hpush.
    destruct (ruby_has_text children Hpush) as (x & Hx & Hkx).
    apply (Hhit x Hx). intros c _ ->. destruct Hkx as [-> | ->]; reflexivity.
Qed.

Lemma region_facts :
  plain_prop p_Opacity = true /\ plain_prop p_Visibility = true /\ plain_prop p_ShowBackground = true /\ plain_prop p_BackgroundColor = true /\
  In p_Opacity all_props /\ In p_Visibility all_props /\ In p_ShowBackground all_props /\ In p_BackgroundColor all_props /\
  applicable KRegion p_Opacity = true /\ applicable KRegion p_Visibility = true /\ applicable KRegion p_ShowBackground = true /\
  applicable KRegion p_BackgroundColor = true /\
  sget initial_values p_BackgroundColor = Some (VColor 0) /\ e_ShowBackgroundType_whenActive <> e_ShowBackgroundType_always.
Proof. repeat split; try (vm_compute; reflexivity); try (cbn; tauto); discriminate. Qed.

Lemma region_plain d t a iv st p :
  e_kind a = KRegion -> e_anims a = [] -> plain_prop p = true -> In p all_props ->
  style_phase d t a None iv = Ok st ->
  sget st p = match sget (e_styles a) p with Some v => Some v | None => default_of d p end.
Proof.
  intros Hk Han Hp Hin H.
  assert (Hl : is_leaf_kind (e_kind a) = false) by (rewrite Hk; reflexivity).
  assert (Hpar : forall pk pst, @None (kind * smap) = Some (pk, pst) -> shas pst p = true) by (intros; discriminate).
  rewrite (style_phase_plain d t a None iv st p Hl Hp Hin Hpar H).
  unfold specified. cbn [fst snd]. rewrite Han. reflexivity.
Qed.

Lemma finish_region a st children x :
  e_kind a = KRegion -> finish_element a st children = Ok (Some x) ->
  x = Elem (isd_attrs a (strip_inapplicable KRegion st)) children.
Proof.
  intros Hk H. apply finish_element_inv in H as (_ & -> & _). unfold finished, finish_children. rewrite Hk. reflexivity.
Qed.

(* a childless region paints exactly when its computed style shows a background: shown always, not transparent, not
   of opacity 0, not hidden *)
Definition shows_background (st : smap) : bool :=
  match sget st p_ShowBackground with Some (VEnum x) => x =? e_ShowBackgroundType_always | _ => false end &&
  match sget st p_BackgroundColor with Some (VColor c) => negb (c mod 256 =? 0) | _ => false end &&
  match sget st p_Opacity with Some (VNum q) => negb (Qeq_bool q 0) | _ => true end &&
  match sget st p_Visibility with Some (VEnum x) => negb (x =? e_VisibilityType_hidden) | _ => true end.
Lemma paints_childless a st : paints (Elem (isd_attrs a (strip_inapplicable KRegion st)) []) = shows_background st.
Proof.
  destruct region_facts as (_ & _ & _ & _ & _ & _ & _ & _ & A1 & A2 & A3 & A4 & _).
  unfold paints, shows_background. cbn [echildren eattrs isd_attrs e_styles]. rewrite !sget_strip, A1, A2, A3, A4. reflexivity.
Qed.

(* _region_always_has_background is a sound test: a region element without animation steps for which it answers
   False never shows a background (its specified styles win over initial values) *)
Lemma rahb_sound d t a iv st :
  e_kind a = KRegion -> style_phase d t a None iv = Ok st -> display_none st = false ->
  region_always_has_background a = false -> shows_background st = false.
Proof.
  destruct region_facts as (P1 & P2 & P3 & P4 & I1 & I2 & I3 & I4 & _ & _ & _ & _ & _ & Hwa).
  intros Hk Hst Hdn Hr. unfold region_always_has_background in Hr.
  destruct (e_anims a) as [|s l] eqn:Han; [|discriminate]. cbn [is_nonempty_l] in Hr.
  pose proof (region_plain d t a iv st p_Opacity Hk Han P1 I1 Hst) as GO.
  pose proof (region_plain d t a iv st p_Visibility Hk Han P2 I2 Hst) as GV.
  pose proof (region_plain d t a iv st p_ShowBackground Hk Han P3 I3 Hst) as GS.
  pose proof (region_plain d t a iv st p_BackgroundColor Hk Han P4 I4 Hst) as GB.
  set (bop := match sget (e_styles a) p_Opacity with Some (VNum q) => Qeq_bool q 0 | _ => false end) in Hr.
  set (bdisp := match sget (e_styles a) p_Display with Some (VEnum x) => x =? e_DisplayType_none | _ => false end) in Hr.
  set (bvis := match sget (e_styles a) p_Visibility with Some (VEnum x) => x =? e_VisibilityType_hidden | _ => false end) in Hr.
  set (bsb := match sget (e_styles a) p_ShowBackground with Some (VEnum x) => x =? e_ShowBackgroundType_whenActive | _ => false end) in Hr.
  set (bbg := match sget (e_styles a) p_BackgroundColor with Some (VColor c) => c mod 256 =? 0 | _ => false end) in Hr.
  assert (Hcases : bop = true \/ bdisp = true \/ bvis = true \/ bsb = true \/ bbg = true).
  { destruct bop; [tauto|]. destruct bdisp; [tauto|]. destruct bvis; [tauto|]. destruct bsb; [tauto|]. destruct bbg; [tauto|]. discriminate Hr. }
  clear Hr. unfold shows_background.
  destruct Hcases as [Hc|[Hc|[Hc|[Hc|Hc]]]].
  - unfold bop in Hc. destruct (sget (e_styles a) p_Opacity) as [v|]; [|discriminate]. destruct v; try discriminate.
    rewrite GO, Hc. cbn [negb]. rewrite !andb_false_r. reflexivity.
  - (* specified display none: the region is not in the snapshot at all *)
    exfalso. unfold bdisp in Hc. rewrite (style_phase_display d t a None iv st Hst) in Hdn. apply negb_false_iff in Hdn.
    unfold displayed in Hdn. rewrite Han in Hdn. cbn [last_active_display] in Hdn.
    destruct (sget (e_styles a) p_Display) as [v|]; [|discriminate]. destruct v; try discriminate. rewrite Hc in Hdn. discriminate.
  - unfold bvis in Hc. destruct (sget (e_styles a) p_Visibility) as [v|]; [|discriminate]. destruct v; try discriminate.
    rewrite GV, Hc. cbn [negb]. rewrite !andb_false_r. reflexivity.
  - unfold bsb in Hc. destruct (sget (e_styles a) p_ShowBackground) as [v|]; [|discriminate]. destruct v; try discriminate.
    rewrite GS. apply Z.eqb_eq in Hc. subst tag.
    destruct (e_ShowBackgroundType_whenActive =? e_ShowBackgroundType_always) eqn:E2; [apply Z.eqb_eq in E2; congruence | reflexivity].
  - unfold bbg in Hc. destruct (sget (e_styles a) p_BackgroundColor) as [v|]; [|discriminate]. destruct v; try discriminate.
    rewrite GB, Hc. cbn [negb]. rewrite !andb_false_r. reflexivity.
Qed.

Definition body_wf (d : doc) : Prop := match d_body d with Some b => body_ok b = true | None => True end.

Lemma proc_region_paints d t sel r x :
  body_wf d -> e_kind (eattrs r) = KRegion -> proc_region d t sel r = Ok (Some x) -> paints x = true ->
  (exists b, d_body d = Some b /\ forall ci, covers (content_elem None None b ci) t) \/
  (active_at t (make_absolute (e_begin (eattrs r)) (e_end (eattrs r)) None None) = true /\
   exists st, style_phase d t (eattrs r) None (make_absolute (e_begin (eattrs r)) (e_end (eattrs r)) None None) = Ok st /\
              display_none st = false /\ shows_background st = true).
Proof.
  intros Hwf Hk H Hp. unfold proc_region in H.
  set (a := eattrs r) in *. set (iv := make_absolute (e_begin a) (e_end a) None None) in *.
  destruct (active_at t iv) eqn:Eact; cbn [negb] in H; [|discriminate].
  destruct (style_phase d t a None iv) as [st|] eqn:Est; [|discriminate]. cbn [bind] in H.
  destruct (display_none st) eqn:Edn; [discriminate|].
  match type of H with bind ?g _ = _ => destruct g as [children|] eqn:Eg end; [|discriminate]. cbn [bind] in H.
  apply (finish_region a st children x Hk) in H. subst x.
  destruct children as [|c cs].
  - right. split; [reflexivity|]. exists st. rewrite paints_childless in Hp. repeat split; assumption.
  - left. unfold body_wf in Hwf. destruct (d_body d) as [b|]; [|discriminate].
    exists b. split; [reflexivity|]. intros ci.
    destruct (proc d t sel None (Some (KRegion, st)) None None b) as [[xb|]|] eqn:Eb; cbn [bind] in Eg; try discriminate.
    unfold body_ok in Hwf. apply andb_true_iff in Hwf as [Hkb Hcm].
    apply (proc_covered d t sel b None (Some (KRegion, st)) None None xb ci Hcm); [|exact Eb].
    destruct (e_kind (eattrs b)); try discriminate Hkb. reflexivity.
Qed.

Lemma region_ok_shape r : region_ok r = true -> e_kind (eattrs r) = KRegion /\ echildren r = [] /\ exists rid, e_id (eattrs r) = Some rid.
Proof.
  unfold region_ok. intros H. apply andb_true_iff in H as [H H3]. apply andb_true_iff in H as [H1 H2].
  split; [destruct (e_kind (eattrs r)); try discriminate; reflexivity|].
  split; [destruct (echildren r); [reflexivity | discriminate]|].
  destruct (e_id (eattrs r)) as [rid|]; [exists rid; reflexivity | discriminate].
Qed.

(* a region that is in the snapshot and paints is inside the content interval: through its own background
   (_region_always_has_background answered True) or through the content of the body *)
Lemma region_covered d t sel r x :
  body_wf d -> region_ok r = true -> proc_region d t sel r = Ok (Some x) -> paints x = true ->
  (forall ci, covers (content_elem None None r ci) t) \/
  (exists b, d_body d = Some b /\ forall ci, covers (content_elem None None b ci) t).
Proof.
  intros Hwf Hr H Hp. destruct (region_ok_shape r Hr) as (Hk & Hcs & _).
  destruct (proc_region_paints d t sel r x Hwf Hk H Hp) as [Hb|(Hact & st & Hst & Hdn & Hsb)]; [right; exact Hb|].
  left. intros ci. destruct r as [a cs]. cbn [echildren eattrs] in *. subst cs. rewrite content_elem_node. cbv zeta.
  cbn [fold_left]. rewrite Hk.
  destruct (region_always_has_background a) eqn:Er.
  - apply widen_covers. right. exact Hact.
  - rewrite (rahb_sound d t a _ st Hk Hst Hdn Er) in Hsb. discriminate.
Qed.

Lemma covers_not_skipped ci t : covers ci t -> skip_cached t (match fst ci with None => None | Some c0 => Some (c0, snd ci) end) = false.
Proof.
  unfold covers. destruct (fst ci) as [c0|]; [|intros []]. intros [H0 H1]. unfold skip_cached, Qltb, Qleb.
  apply Qle_bool_iff in H0. rewrite H0. cbn [negb orb].
  destruct (snd ci) as [c1|]; [|reflexivity].
  destruct (Qle_bool c1 t) eqn:E; [|reflexivity]. apply Qle_bool_iff in E. exfalso. apply (Qlt_not_le _ _ H1 E).
Qed.

Lemma default_region_background d t st :
  style_phase d t (eattrs default_region) None (make_absolute None None None None) = Ok st ->
  shas (d_initials d) p_BackgroundColor = false -> shows_background st = false.
Proof.
  destruct region_facts as (_ & _ & _ & P4 & _ & _ & _ & I4 & _ & _ & _ & _ & Hinit & _).
  intros Hst Hi.
  pose proof (region_plain d t (eattrs default_region) _ st p_BackgroundColor eq_refl eq_refl P4 I4 Hst) as GB.
  cbn [default_region eattrs e_styles sget] in GB. unfold default_of in GB. unfold shas in Hi.
  destruct (sget (d_initials d) p_BackgroundColor); [discriminate|]. rewrite Hinit in GB.
  unfold shows_background. rewrite GB. cbn. rewrite andb_false_r. reflexivity.
Qed.

(* MAIN (i): whatever the cache skips paints nothing.  c is a cached document: the document itself, or a clone. *)
Theorem skipped_paints_nothing c t rs :
  doc_wf c = true -> skip_cached t (content_interval c) = true -> isd c t = Ok rs -> Forall (fun r => paints r = false) rs.
Proof.
  intros Hwf Hskip Hi. apply Forall_forall. intros x Hx. destruct (paints x) eqn:Hp; [exfalso|reflexivity].
  unfold doc_wf in Hwf. apply andb_true_iff in Hwf as [Hregs Hbody]. rewrite forallb_forall in Hregs.
  assert (Hbw : body_wf c) by (unfold body_wf; destruct (d_body c); [exact Hbody | exact I]).
  unfold content_interval in Hskip. unfold isd in Hi.
  destruct (d_regions c) as [|r0 rest] eqn:Er.
  - (* no region: the default region *)
    apply collect_cons_ok in Hi as (o & os & Ho & Hos & ->). injection Hos as <-.
    destruct o as [y|]; [|destruct Hx]. destruct Hx as [<-|[]].
    cbn [fold_left] in Hskip.
    destruct (shas (d_initials c) p_BackgroundColor) eqn:Ebg; [cbn in Hskip; discriminate|].
    destruct (proc_region_paints c t None default_region y Hbw eq_refl Ho Hp) as [(b & Eb & Hcov)|(_ & st & Hst & _ & Hsb)].
    + rewrite Eb in Hskip. rewrite (covers_not_skipped _ t (Hcov _)) in Hskip. discriminate.
    + rewrite (default_region_background c t st Hst Ebg) in Hsb. discriminate.
  - apply collect_map_ok in Hi as (outs & HF & ->).
    apply in_flat_map in Hx as (o & Ho & Hxo). destruct o as [y|]; [|destruct Hxo]. destruct Hxo as [<-|[]].
    destruct (Forall2_In_r _ _ _ _ HF Ho) as (r & Hr & Hpr).
    assert (Hcov : covers (match d_body c with
                           | Some b => content_elem None None b (fold_left (fun ci r => content_elem None None r ci) (r0 :: rest) (None, Some 0%Q))
                           | None => fold_left (fun ci r => content_elem None None r ci) (r0 :: rest) (None, Some 0%Q)
                           end) t).
    { destruct (region_covered c t _ r y Hbw (Hregs r Hr) Hpr Hp) as [Hc|(b & Eb & Hc)].
      - pose proof (content_children_hit t None None r (r0 :: rest) (None, Some 0%Q) Hr Hc) as Hf.
        destruct (d_body c); [apply content_elem_mono; exact Hf | exact Hf].
      - rewrite Eb. apply Hc. }
    rewrite (covers_not_skipped _ t Hcov) in Hskip. discriminate.
Qed.

Lemma restrict_cm rid : forall e inh e', cm_ok e = true -> restrict rid inh e = Ok (Some e') ->
  cm_ok e' = true /\ e_kind (eattrs e') = e_kind (eattrs e).
Proof.
  induction e as [a cs IH] using elem_ind2. intros inh e' Hwf H.
  rewrite cm_ok_node in Hwf. apply andb_true_iff in Hwf as [Hk Hwfcs]. rewrite forallb_forall in Hk, Hwfcs.
  rewrite restrict_node in H. cbv zeta in H. destruct (region_test _ _ _); [discriminate|].
  destruct (collect_regions _) as [cs'|] eqn:Eg; [|discriminate]. cbn [bind] in H.
  destruct (is_nonempty_l cs' && _); [discriminate|]. injection H as <-.
  split; [|reflexivity]. rewrite cm_ok_node. apply andb_true_iff. rewrite Forall_forall in IH.
  split; apply forallb_forall; intros x Hx; destruct (collect_map_in _ _ _ x Eg Hx) as (c & Hc & Hrc);
    destruct (IH c Hc _ x (Hwfcs c Hc) Hrc) as [H1 H2].
  - cbn [eattrs]. rewrite H2. apply Hk, Hc.
  - exact H1.
Qed.

Lemma clone_wf d r c : doc_wf d = true -> In r (d_regions d) -> clone_one_region d r = Ok c -> doc_wf c = true.
Proof.
  unfold doc_wf. intros Hwf Hr Hc. apply andb_true_iff in Hwf as [Hregs Hbody]. rewrite forallb_forall in Hregs.
  apply clone_one_region_inv in Hc as (rid & b' & _ & Eb & ->). cbn [d_regions d_body forallb]. rewrite (Hregs r Hr). cbn [andb].
  destruct b' as [x|]; [|reflexivity]. destruct (d_body d) as [b|]; [|discriminate].
  unfold body_ok in *. apply andb_true_iff in Hbody as [H1 H2].
  destruct (restrict_cm rid b None x H2 Eb) as [G1 G2]. rewrite G2, H1, G1. reflexivity.
Qed.

Lemma doc_wf_ids d : doc_wf d = true -> Forall (fun r => exists rid, e_id (eattrs r) = Some rid) (d_regions d).
Proof.
  unfold doc_wf. intros H. apply andb_true_iff in H as [H _]. rewrite forallb_forall in H.
  apply Forall_forall. intros r Hr. destruct (region_ok_shape r (H r Hr)) as (_ & _ & Hid). exact Hid.
Qed.

(* MAIN: the cached snapshot renders like the uncached one — it is the uncached snapshot minus regions that paint
   nothing — for every well-formed document (ruby included) and every time, outside the recorded trigger *)
Theorem cached_render_equiv d t ds rs :
  doc_wf d = true -> clone_empties_doc d = false -> cached_docs d = Ok ds -> isd d t = Ok rs ->
  exists rs', isd_cached d t = Ok rs' /\ omits_only (fun r => paints r = false) rs' rs /\ render rs' = render rs.
Proof.
  intros Hwf Htr Hc Hi.
  destruct (cached_omits_only (fun r => paints r = false) d t ds rs) as (rs' & H1 & H2); try assumption.
  - intros r c rs0 Hr Hcl Hsk Hic. apply (skipped_paints_nothing c t rs0 (clone_wf d r c Hwf Hr Hcl) Hsk Hic).
  - intros rs0 _ Hsk Hic. apply (skipped_paints_nothing d t rs0 Hwf Hsk Hic).
  - intros Hlen. apply clones_keep_of_trigger; [apply doc_wf_ids, Hwf | exact Htr | exact Hlen].
  - exists rs'. split; [exact H1|]. split; [exact H2 | apply omits_only_render, H2].
Qed.

(* with at most one region nothing is cloned: no trigger, and the statement holds for every well-formed document *)
Lemma small_no_trigger d : (length (d_regions d) <= 1)%nat -> clone_empties_doc d = false.
Proof. unfold clone_empties_doc. destruct (d_regions d) as [|r1 [|r2 rs]]; cbn [length]; intros H; try reflexivity. lia. Qed.

Theorem render_equiv_small d t rs :
  doc_wf d = true -> (length (d_regions d) <= 1)%nat -> isd d t = Ok rs ->
  exists rs', isd_cached d t = Ok rs' /\ omits_only (fun r => paints r = false) rs' rs /\ render rs' = render rs.
Proof.
  intros Hwf Hlen Hi. apply (cached_render_equiv d t [d] rs Hwf (small_no_trigger d Hlen) (cached_docs_small d Hlen) Hi).
Qed.
