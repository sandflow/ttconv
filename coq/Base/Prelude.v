(* Common imports, list helpers and arithmetic set-up shared by the whole development. *)
From Coq Require Export ZArith List Bool Lia ZifyBool.
Export ListNotations.

Ltac Zify.zify_post_hook ::= Z.to_euclidean_division_equations.

Open Scope Z_scope.

(* text = list of Unicode code points *)
Definition text := list Z.

Fixpoint text_eqb (a b : text) : bool :=
  match a, b with
  | [], [] => true
  | x :: a', y :: b' => (x =? y) && text_eqb a' b'
  | _, _ => false
  end.

Lemma text_eqb_eq a b : text_eqb a b = true <-> a = b.
Proof.
  revert b; induction a as [|x a IH]; intros [|y b]; simpl; split; intro H; try congruence; try discriminate.
  - apply andb_true_iff in H as [H1 H2]. apply Z.eqb_eq in H1. apply IH in H2. congruence.
  - inversion H; subst. rewrite Z.eqb_refl. simpl. apply IH. reflexivity.
Qed.
Lemma text_eqb_refl a : text_eqb a a = true.
Proof. apply text_eqb_eq. reflexivity. Qed.
Lemma text_eqb_neq a b : a <> b -> text_eqb a b = false.
Proof. intro H. destruct (text_eqb a b) eqn:E; [|reflexivity]. apply text_eqb_eq in E. contradiction. Qed.
Lemma text_eqb_sym a b : text_eqb a b = text_eqb b a.
Proof.
  destruct (text_eqb b a) eqn:E; [apply text_eqb_eq in E; subst; apply text_eqb_refl|].
  apply text_eqb_neq. intros ->. rewrite text_eqb_refl in E. discriminate.
Qed.

Fixpoint assoc_z {A} (l : list (Z * A)) (k : Z) : option A :=
  match l with
  | [] => None
  | (x, r) :: l' => if k =? x then Some r else assoc_z l' k
  end.
Definition is_nonempty_l {A} (l : list A) : bool := match l with [] => false | _ => true end.

(* ceil(n/d) for d > 0 and half-even rounding of n/d, as Python's math.ceil / round on Fractions *)
Definition ceil_div (n d : Z) : Z := - ((- n) / d).
Definition round_he (n d : Z) : Z :=
  let q := n / d in let r := n mod d in
  if 2 * r <? d then q else if d <? 2 * r then q + 1 else if Z.even q then q else q + 1.
Lemma round_he_nonneg n d : 0 <= n -> 0 < d -> 0 <= round_he n d.
Proof.
  intros. unfold round_he. assert (0 <= n / d) by (apply Z.div_pos; lia).
  destruct (2 * (n mod d) <? d); [lia|]. destruct (d <? 2 * (n mod d)); [lia|]. destruct (Z.even (n / d)); lia.
Qed.

(* indices of the false entries of a boolean list; used by the correspondence case files *)
Fixpoint bad_indices_from (i : Z) (l : list bool) : list Z :=
  match l with
  | [] => []
  | true :: l' => bad_indices_from (i + 1) l'
  | false :: l' => i :: bad_indices_from (i + 1) l'
  end.
Definition check_all (l : list bool) : Z * list Z :=
  (Z.of_nat (length l), bad_indices_from 0 l).

Fixpoint iter_n {A} (n : nat) (f : A -> A) (x : A) : A :=
  match n with O => x | S k => f (iter_n k f x) end.

Lemma Forall_firstn {A} (P : A -> Prop) n l : Forall P l -> Forall P (firstn n l).
Proof. intros H. rewrite <- (firstn_skipn n l) in H. apply Forall_app in H. tauto. Qed.
Lemma Forall_skipn {A} (P : A -> Prop) n l : Forall P l -> Forall P (skipn n l).
Proof. intros H. rewrite <- (firstn_skipn n l) in H. apply Forall_app in H. tauto. Qed.
Lemma Forall2_In_r {A B} (R : A -> B -> Prop) l l' y : Forall2 R l l' -> In y l' -> exists x, In x l /\ R x y.
Proof.
  induction 1 as [|a b l l' Hab _ IH]; intros Hy; [destruct Hy|].
  destruct Hy as [<-|Hy]; [exists a; split; [left; reflexivity | exact Hab]|].
  destruct (IH Hy) as (x & Hx & Hr). exists x. split; [right; exact Hx | exact Hr].
Qed.
Lemma nodup_snoc {A} (l : list A) x : NoDup l -> ~ In x l -> NoDup (l ++ [x]).
Proof.
  induction l as [|y l IH]; cbn [app]; intros Hn Hx; [constructor; [intros []|constructor]|].
  apply NoDup_cons_iff in Hn as [Hy Hn]. constructor.
  - rewrite in_app_iff. intros [H|[H|[]]]; [contradiction | subst; apply Hx; left; reflexivity].
  - apply IH; [exact Hn | intros H; apply Hx; right; exact H].
Qed.
Lemma flat_map_flat_map {A B C} (f : A -> list B) (g : B -> list C) l :
  flat_map g (flat_map f l) = flat_map (fun x => flat_map g (f x)) l.
Proof. induction l as [|x l IH]; [reflexivity|]. cbn [flat_map]. rewrite flat_map_app, IH. reflexivity. Qed.
Lemma flat_map_ext_in {A B} (f g : A -> list B) l : (forall x, In x l -> f x = g x) -> flat_map f l = flat_map g l.
Proof. intros H. rewrite !flat_map_concat_map, (map_ext_in _ _ _ H). reflexivity. Qed.
