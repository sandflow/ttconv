(* Semantic domain of the Python numeric expressions that ttconv/time_code.py uses on its exact path, and of the few
   integer operations of ttconv/scc/word.py.  The generated models coq/Gen/TimeCodeSrc.v (harness/pytrans.py) and
   coq/Gen/SccWordSrc.v (harness/pytrans_scc.py) are written over these operations only.

   Values: exact rationals in lowest terms (Qc of the standard library: a Q together with a proof that it is
   reduced; equality is Leibniz equality, Qc_is_canon, and everything computes by vm_compute).  Python's int is
   the subset with denominator 1, fractions.Fraction is the whole type; bool, str and objects are separate
   Gallina types of the generated file.

   What is NOT modelled (trusted base, said again in the evidence of ./check C12):
   * binary64: `int / int` and `float(int)` are floats in CPython; here they are the exact quotient / the
     identity (py_truediv, py_float).  The results agree after floor()/int() for operands below 2^53/216000
     (DESIGN.md section 5 C12); the places where the source relies on this are listed by the translator.
   * ZeroDivisionError: x / 0 = 0, x % 0 = x here (as in Z); no divisor is 0 for a frame rate >= 9/1001.
   * unbounded recursion, memory.                                                                        *)
From Coq Require Import QArith Qcanon Qround Qreduction.
From TT Require Import Base.Prelude.
Local Open Scope Z_scope.

Definition num := Qc.
Definition inj_frac (a b : Z) : num := Q2Qc (a # Z.to_pos b).      (* Fraction(a, b) for b > 0 *)
Definition inj (a : Z) : num := inj_frac a 1.                       (* the int a *)
Definition num_n (x : num) : Z := Qnum (this x).                    (* numerator of the reduced form *)
Definition num_d (x : num) : Z := Zpos (Qden (this x)).             (* denominator of the reduced form *)

Definition py_add (x y : num) : num := Qcplus x y.
Definition py_sub (x y : num) : num := Qcminus x y.
Definition py_mul (x y : num) : num := Qcmult x y.
Definition py_neg (x : num) : num := Qcopp x.
Definition py_truediv (x y : num) : num := Qcdiv x y.               (* `/` *)
Definition floor_z (x : num) : Z := Qfloor (this x).
Definition ceil_z (x : num) : Z := Qceiling (this x).
Definition py_floor (x : num) : num := inj (floor_z x).             (* math.floor *)
Definition py_ceil (x : num) : num := inj (ceil_z x).               (* math.ceil *)
(* round(x): Fraction.__round__ without ndigits = divmod of the reduced numerator by the denominator, ties to even *)
Definition py_round (x : num) : num := inj (round_he (num_n x) (num_d x)).
(* int(x): truncation towards zero *)
Definition py_int (x : num) : num := inj (if num_n x <? 0 then ceil_z x else floor_z x).
Definition py_floordiv (x y : num) : num := py_floor (py_truediv x y).            (* `//` *)
Definition py_mod (x y : num) : num := py_sub x (py_mul y (py_floordiv x y)).     (* `%`: sign of the divisor *)
(* round(x, nd) for nd >= 0: Fraction(round(x * 10**nd), 10**nd) *)
Definition py_round_nd (x : num) (nd : Z) : num :=
  py_truediv (py_round (py_mul x (inj (10 ^ nd)))) (inj (10 ^ nd)).
Definition py_float (x : num) : num := x.                           (* float(int): exact below 2^53, see above *)
Definition py_fraction2 (a b : num) : num := py_truediv a b.        (* Fraction(a, b) *)
Definition py_numerator (x : num) : num := inj (num_n x).
Definition py_denominator (x : num) : num := inj (num_d x).

(* ints only: x & y; value.to_bytes(2, byteorder='big') as the pair (high, low) for 0 <= value < 65536; chr; `a or b` on Optional values *)
Definition py_and (x y : num) : num := inj (Z.land (floor_z x) (floor_z y)).
Definition py_to_bytes2 (x : num) : num * num := (inj (floor_z x / 256), inj (floor_z x mod 256)).
Definition py_chr (x : num) : text := [floor_z x].
Definition py_or_else {A} (a b : option A) : option A := match a with Some _ => a | None => b end.

Definition py_lt (x y : num) : bool := match Qcompare (this x) (this y) with Lt => true | _ => false end.
Definition py_le (x y : num) : bool := match Qcompare (this x) (this y) with Gt => false | _ => true end.
Definition py_gt (x y : num) : bool := py_lt y x.
Definition py_ge (x y : num) : bool := py_le y x.
Definition py_eq (x y : num) : bool := Qeq_bool (this x) (this y).
Definition py_ne (x y : num) : bool := negb (py_eq x y).

Inductive exn := ValueError | TypeError | RuntimeError | KeyError | IndexError.
Inductive outcome (A : Type) : Type :=
| Ok (a : A)                    (* returned a *)
| Raise (e : exn)               (* an explicit `raise` statement was reached *)
| Unsupported (why : text).     (* the path leaves the exact model (float arithmetic) *)
Arguments Ok {A} a.  Arguments Raise {A} e.  Arguments Unsupported {A} why.
Definition bind {A B} (o : outcome A) (k : A -> outcome B) : outcome B :=
  match o with Ok a => k a | Raise e => Raise e | Unsupported w => Unsupported w end.
(* an argument annotated Union[float, Fraction] / tested by isinstance(x, (int, Fraction)) *)
Inductive pyarg := Exact (x : num) | Inexact.

(* text: f'{x:0w}' on ints, str.join, + *)
Fixpoint dec_fuel (fuel : nat) (n : Z) (acc : text) : text :=
  match fuel with
  | O => acc
  | S k => if n <? 10 then (48 + n) :: acc else dec_fuel k (n / 10) ((48 + n mod 10) :: acc)
  end.
Definition dec_nat (n : Z) : text := dec_fuel (S (Z.to_nat (Z.log2 n))) n [].     (* decimal digits of n >= 0 *)
Fixpoint zeros (k : nat) : text := match k with O => [] | S k' => 48 :: zeros k' end.
Definition zero_pad (w : Z) (t : text) : text := zeros (Z.to_nat (w - Z.of_nat (length t))) ++ t.
(* format(n, '0w') / '0wd' for an int n *)
Definition py_fmt0 (w : Z) (x : num) : text :=
  let n := floor_z x in if n <? 0 then 45 :: zero_pad (w - 1) (dec_nat (- n)) else zero_pad w (dec_nat n).
Fixpoint py_join (sep : text) (l : list text) : text :=
  match l with [] => [] | [a] => a | a :: l' => a ++ sep ++ py_join sep l' end.

(* reduction lemmas: each operation on inj / inj_frac arguments, as Z arithmetic *)
Lemma this_inj_frac a b : 0 < b -> (this (inj_frac a b) == a # Z.to_pos b)%Q.
Proof. intros _. unfold inj_frac. cbn [this Q2Qc]. apply Qred_correct. Qed.

Lemma num_eq (x y : num) : (this x == this y)%Q -> x = y.
Proof. apply Qc_is_canon. Qed.

Lemma frac_Qeq a b c d : 0 < b -> 0 < d -> ((a # Z.to_pos b) == (c # Z.to_pos d))%Q <-> a * d = c * b.
Proof. intros Hb Hd. unfold Qeq. cbn [Qnum Qden]. rewrite !Z2Pos.id by assumption. reflexivity. Qed.

Lemma inj_frac_eq a b c d : 0 < b -> 0 < d -> a * d = c * b -> inj_frac a b = inj_frac c d.
Proof.
  intros Hb Hd H. apply num_eq. rewrite !this_inj_frac by assumption. apply frac_Qeq; assumption.
Qed.
Lemma inj_frac_inv a b c d : 0 < b -> 0 < d -> inj_frac a b = inj_frac c d -> a * d = c * b.
Proof.
  intros Hb Hd H. apply (frac_Qeq a b c d Hb Hd). rewrite <- !this_inj_frac by assumption. rewrite H. reflexivity.
Qed.
Lemma inj_inj a b : inj a = inj b -> a = b.
Proof. intros H. apply inj_frac_inv in H; lia. Qed.
Lemma inj_frac_1 a : inj_frac a 1 = inj a.  Proof. reflexivity. Qed.
Lemma inj_frac_scale k a b : 0 < k -> 0 < b -> inj_frac (k * a) (k * b) = inj_frac a b.
Proof. intros. apply inj_frac_eq; nia. Qed.
Lemma inj_frac_int a b : 0 < b -> inj_frac (a * b) b = inj a.
Proof. intros. apply inj_frac_eq; lia. Qed.
Lemma inj_if (c : bool) a b : (if c then inj a else inj b) = inj (if c then a else b).
Proof. destruct c; reflexivity. Qed.

(* every value is some inj_frac *)
Lemma num_as_frac (x : num) : x = inj_frac (num_n x) (num_d x) /\ 0 < num_d x /\ Z.gcd (num_n x) (num_d x) = 1.
Proof.
  unfold num_n, num_d. split; [|split]; [|reflexivity|apply Qred_identity2, canon].
  apply num_eq. rewrite this_inj_frac by reflexivity. rewrite Pos2Z.id. destruct (this x); reflexivity.
Qed.

(* to an equation in Z between cross products *)
Ltac qc_frac := intros; apply num_eq;
  unfold py_add, py_sub, py_mul, py_neg, py_truediv, Qcminus, Qcdiv, Qcplus, Qcmult, Qcopp, Qcinv; cbn [this Q2Qc];
  rewrite ?Qred_correct, ?this_inj_frac by (try assumption; lia);
  unfold Qeq, Qplus, Qopp, Qmult, Qinv; cbn [Qnum Qden]; rewrite ?Pos2Z.inj_mul, ?Z2Pos.id by (try assumption; nia).

Lemma py_add_frac a b c d : 0 < b -> 0 < d -> py_add (inj_frac a b) (inj_frac c d) = inj_frac (a * d + c * b) (b * d).
Proof. qc_frac. ring. Qed.
Lemma py_neg_frac a b : 0 < b -> py_neg (inj_frac a b) = inj_frac (- a) b.
Proof. qc_frac. reflexivity. Qed.
Lemma py_sub_frac a b c d : 0 < b -> 0 < d -> py_sub (inj_frac a b) (inj_frac c d) = inj_frac (a * d - c * b) (b * d).
Proof. qc_frac. ring. Qed.
Lemma py_mul_frac a b c d : 0 < b -> 0 < d -> py_mul (inj_frac a b) (inj_frac c d) = inj_frac (a * c) (b * d).
Proof. qc_frac. ring. Qed.
Lemma py_truediv_frac a b c d : 0 < b -> 0 < d -> 0 < c ->
  py_truediv (inj_frac a b) (inj_frac c d) = inj_frac (a * d) (b * c).
Proof. destruct c; try lia. qc_frac. reflexivity. Qed.
Lemma py_truediv_zero x : py_truediv x (inj 0) = inj 0.
Proof. unfold inj. qc_frac. ring. Qed.

(* the forms with an int are the Fraction forms at denominator 1 *)
Ltac at_frac lem := intros; unfold inj; rewrite lem by lia; apply inj_frac_eq; nia.

Lemma py_add_int a b : py_add (inj a) (inj b) = inj (a + b).
Proof. at_frac py_add_frac. Qed.
Lemma py_sub_int a b : py_sub (inj a) (inj b) = inj (a - b).
Proof. at_frac py_sub_frac. Qed.
Lemma py_mul_int a b : py_mul (inj a) (inj b) = inj (a * b).
Proof. at_frac py_mul_frac. Qed.
Lemma py_neg_int a : py_neg (inj a) = inj (- a).
Proof. apply py_neg_frac. lia. Qed.
Lemma py_truediv_int a b : 0 < b -> py_truediv (inj a) (inj b) = inj_frac a b.
Proof. at_frac py_truediv_frac. Qed.
Lemma py_mul_int_frac k a b : 0 < b -> py_mul (inj k) (inj_frac a b) = inj_frac (k * a) b.
Proof. at_frac py_mul_frac. Qed.
Lemma py_mul_frac_int k a b : 0 < b -> py_mul (inj_frac a b) (inj k) = inj_frac (a * k) b.
Proof. at_frac py_mul_frac. Qed.
Lemma py_add_int_frac k a b : 0 < b -> py_add (inj k) (inj_frac a b) = inj_frac (k * b + a) b.
Proof. at_frac py_add_frac. Qed.
Lemma py_add_frac_int k a b : 0 < b -> py_add (inj_frac a b) (inj k) = inj_frac (a + k * b) b.
Proof. at_frac py_add_frac. Qed.
Lemma py_sub_int_frac k a b : 0 < b -> py_sub (inj k) (inj_frac a b) = inj_frac (k * b - a) b.
Proof. at_frac py_sub_frac. Qed.
Lemma py_sub_frac_int k a b : 0 < b -> py_sub (inj_frac a b) (inj k) = inj_frac (a - k * b) b.
Proof. at_frac py_sub_frac. Qed.
Lemma py_truediv_frac_int k a b : 0 < b -> 0 < k -> py_truediv (inj_frac a b) (inj k) = inj_frac a (b * k).
Proof. at_frac py_truediv_frac. Qed.
Lemma py_truediv_int_frac k a b : 0 < b -> 0 < a -> py_truediv (inj k) (inj_frac a b) = inj_frac (k * b) a.
Proof. at_frac py_truediv_frac. Qed.

Lemma floor_z_frac a b : 0 < b -> floor_z (inj_frac a b) = a / b.
Proof.
  intros. unfold floor_z. rewrite (Qfloor_comp _ _ (this_inj_frac a b H)). unfold Qfloor. rewrite Z2Pos.id by assumption. reflexivity.
Qed.
Lemma ceil_z_frac a b : 0 < b -> ceil_z (inj_frac a b) = ceil_div a b.
Proof.
  intros. unfold ceil_z. rewrite (Qceiling_comp _ _ (this_inj_frac a b H)). unfold Qceiling, Qfloor, Qopp, ceil_div.
  cbn [Qnum Qden]. rewrite Z2Pos.id by assumption. reflexivity.
Qed.
Lemma py_floor_frac a b : 0 < b -> py_floor (inj_frac a b) = inj (a / b).
Proof. intros. unfold py_floor. rewrite floor_z_frac by assumption. reflexivity. Qed.
Lemma py_ceil_frac a b : 0 < b -> py_ceil (inj_frac a b) = inj (ceil_div a b).
Proof. intros. unfold py_ceil. rewrite ceil_z_frac by assumption. reflexivity. Qed.
Lemma py_floor_int a : py_floor (inj a) = inj a.
Proof. unfold inj at 1. rewrite py_floor_frac by lia. rewrite Z.div_1_r. reflexivity. Qed.
Lemma py_ceil_int a : py_ceil (inj a) = inj a.
Proof. unfold inj at 1. rewrite py_ceil_frac by lia. unfold ceil_div. rewrite Z.div_1_r. f_equal. lia. Qed.
(* floor(a / b) on ints is Z division; also for b = 0 under the conventions above *)
Lemma py_floor_truediv_int a b : 0 <= b -> py_floor (py_truediv (inj a) (inj b)) = inj (a / b).
Proof.
  intros Hb. destruct (Z.eq_dec b 0) as [->|].
  - rewrite py_truediv_zero, py_floor_int. f_equal. symmetry. apply Zdiv_0_r.
  - rewrite py_truediv_int, py_floor_frac by lia. reflexivity.
Qed.

Lemma round_he_scale k n d : 0 < k -> 0 < d -> round_he (k * n) (k * d) = round_he n d.
Proof.
  intros Hk Hd. unfold round_he. rewrite Z.div_mul_cancel_l, Z.mul_mod_distr_l by lia.
  set (r := n mod d). set (q := n / d).
  replace (2 * (k * r) <? k * d) with (2 * r <? d) by (destruct (2 * r <? d) eqn:E; symmetry; nia).
  replace (k * d <? 2 * (k * r)) with (d <? 2 * r) by (destruct (d <? 2 * r) eqn:E; symmetry; nia).
  reflexivity.
Qed.
Lemma round_he_cross a b c d : 0 < b -> 0 < d -> a * d = c * b -> round_he a b = round_he c d.
Proof.
  intros Hb Hd H. rewrite <- (round_he_scale d a b), <- (round_he_scale b c d) by assumption.
  f_equal; lia.
Qed.
Lemma round_he_int k d : 0 < d -> round_he (k * d) d = k.
Proof. intros. unfold round_he. rewrite Z.div_mul, Z.mod_mul by lia. replace (2 * 0 <? d) with true by lia. reflexivity. Qed.

Lemma py_round_frac a b : 0 < b -> py_round (inj_frac a b) = inj (round_he a b).
Proof.
  intros Hb. unfold py_round. f_equal.
  destruct (num_as_frac (inj_frac a b)) as (E & Hd & _).
  apply round_he_cross; try assumption. apply inj_frac_inv; try assumption. symmetry. exact E.
Qed.
Lemma py_round_int a : py_round (inj a) = inj a.
Proof. unfold inj at 1. rewrite py_round_frac by lia. f_equal. replace a with (a * 1) at 1 by lia. apply round_he_int. lia. Qed.

Lemma num_n_sign a b : 0 < b -> (num_n (inj_frac a b) <? 0) = (a <? 0).
Proof.
  intros Hb. destruct (num_as_frac (inj_frac a b)) as (E & Hd & _).
  symmetry in E. apply inj_frac_inv in E; try assumption.
  destruct (num_n (inj_frac a b) <? 0) eqn:E1; destruct (a <? 0) eqn:E2; try reflexivity; nia.
Qed.
Lemma py_int_frac a b : 0 < b -> py_int (inj_frac a b) = inj (if a <? 0 then ceil_div a b else a / b).
Proof. intros. unfold py_int. rewrite num_n_sign, ceil_z_frac, floor_z_frac by assumption. reflexivity. Qed.
Lemma py_int_frac_nonneg a b : 0 < b -> 0 <= a -> py_int (inj_frac a b) = inj (a / b).
Proof. intros. rewrite py_int_frac by assumption. replace (a <? 0) with false by lia. reflexivity. Qed.
Lemma py_int_int a : py_int (inj a) = inj a.
Proof.
  unfold inj at 1. rewrite py_int_frac by lia. unfold ceil_div. rewrite !Z.div_1_r. destruct (a <? 0); f_equal; lia.
Qed.

Lemma py_floordiv_int a b : 0 <= b -> py_floordiv (inj a) (inj b) = inj (a / b).
Proof. apply py_floor_truediv_int. Qed.
Lemma py_mod_int a b : 0 <= b -> py_mod (inj a) (inj b) = inj (a mod b).
Proof.
  intros. unfold py_mod. rewrite py_floordiv_int, py_mul_int, py_sub_int by lia. f_equal.
  destruct (Z.eq_dec b 0) as [->|]; [rewrite Zmod_0_r; lia|]. rewrite Z.mod_eq by lia. reflexivity.
Qed.
Lemma py_mod_frac a b c d : 0 < b -> 0 < d -> 0 < c ->
  py_mod (inj_frac a b) (inj_frac c d) = inj_frac ((a * d) mod (b * c)) (b * d).
Proof.
  intros. unfold py_mod, py_floordiv. rewrite py_truediv_frac, py_floor_frac by (try assumption; nia).
  unfold inj. rewrite py_mul_frac, py_sub_frac by (try assumption; nia). apply inj_frac_eq; [nia | nia |].
  rewrite (Z.mod_eq (a * d) (b * c)) by nia. ring.
Qed.
Lemma py_mod_frac_int a b k : 0 < b -> 0 < k -> py_mod (inj_frac a b) (inj k) = inj_frac (a mod (b * k)) b.
Proof. intros. unfold inj. rewrite py_mod_frac by lia. apply inj_frac_eq; [nia | nia |]. rewrite !Z.mul_1_r. ring. Qed.

Lemma py_round_nd_frac a b nd : 0 < b -> 0 <= nd ->
  py_round_nd (inj_frac a b) nd = inj_frac (round_he (a * 10 ^ nd) b) (10 ^ nd).
Proof.
  intros Hb Hn. assert (0 < 10 ^ nd) by (apply Z.pow_pos_nonneg; lia).
  unfold py_round_nd. rewrite py_mul_frac_int, py_round_frac, py_truediv_int by assumption. reflexivity.
Qed.
(* a fraction in lowest terms is stored as written *)
Lemma this_inj_frac_lowest a b : 0 < b -> Z.gcd a b = 1 -> this (inj_frac a b) = (a # Z.to_pos b)%Q.
Proof. intros Hb Hg. apply Qred_identity. cbn [Qnum Qden]. rewrite Z2Pos.id by assumption. exact Hg. Qed.
Lemma py_numerator_frac a b : 0 < b -> Z.gcd a b = 1 -> py_numerator (inj_frac a b) = inj a.
Proof. intros Hb Hg. unfold py_numerator, num_n. rewrite this_inj_frac_lowest by assumption. reflexivity. Qed.
Lemma py_denominator_frac a b : 0 < b -> Z.gcd a b = 1 -> py_denominator (inj_frac a b) = inj b.
Proof.
  intros Hb Hg. unfold py_denominator, num_d. rewrite this_inj_frac_lowest by assumption.
  cbn [Qden]. rewrite Z2Pos.id by assumption. reflexivity.
Qed.
Lemma py_denominator_int a : py_denominator (inj a) = inj 1.
Proof. unfold inj at 1. apply py_denominator_frac; [lia|]. apply Z.gcd_1_r. Qed.

Lemma compare_frac a b c d : 0 < b -> 0 < d ->
  Qcompare (this (inj_frac a b)) (this (inj_frac c d)) = (a * d ?= c * b).
Proof.
  intros Hb Hd. rewrite (Qcompare_comp _ _ (this_inj_frac a b Hb) _ _ (this_inj_frac c d Hd)).
  unfold Qcompare. cbn [Qnum Qden]. rewrite !Z2Pos.id by assumption. reflexivity.
Qed.
Lemma py_lt_frac a b c d : 0 < b -> 0 < d -> py_lt (inj_frac a b) (inj_frac c d) = (a * d <? c * b).
Proof. intros. unfold py_lt. rewrite compare_frac by assumption. unfold Z.ltb. reflexivity. Qed.
Lemma py_le_frac a b c d : 0 < b -> 0 < d -> py_le (inj_frac a b) (inj_frac c d) = (a * d <=? c * b).
Proof. intros. unfold py_le. rewrite compare_frac by assumption. unfold Z.leb. destruct (a * d ?= c * b); reflexivity. Qed.
Lemma py_eq_frac a b c d : 0 < b -> 0 < d -> py_eq (inj_frac a b) (inj_frac c d) = (a * d =? c * b).
Proof.
  intros Hb Hd. unfold py_eq. apply eq_true_iff_eq.
  rewrite Qeq_bool_iff, Z.eqb_eq, !this_inj_frac by assumption. apply frac_Qeq; assumption.
Qed.
Lemma py_lt_int a b : py_lt (inj a) (inj b) = (a <? b).
Proof. unfold inj. rewrite py_lt_frac, !Z.mul_1_r by lia. reflexivity. Qed.
Lemma py_le_int a b : py_le (inj a) (inj b) = (a <=? b).
Proof. unfold inj. rewrite py_le_frac, !Z.mul_1_r by lia. reflexivity. Qed.
Lemma py_eq_int a b : py_eq (inj a) (inj b) = (a =? b).
Proof. unfold inj. rewrite py_eq_frac, !Z.mul_1_r by lia. reflexivity. Qed.
Lemma py_lt_frac_int a b k : 0 < b -> py_lt (inj_frac a b) (inj k) = (a <? k * b).
Proof. intros. unfold inj. rewrite py_lt_frac, Z.mul_1_r by lia. reflexivity. Qed.

Lemma floor_z_int a : floor_z (inj a) = a.
Proof. unfold inj. rewrite floor_z_frac by lia. apply Z.div_1_r. Qed.
Lemma dec_fuel_enough f1 : forall f2 n acc, 0 <= n < 10 ^ Z.of_nat (S f1) -> n < 10 ^ Z.of_nat (S f2) ->
  dec_fuel (S f1) n acc = dec_fuel (S f2) n acc.
Proof.
  induction f1 as [|f1 IH]; intros f2 n acc H1 H2; cbn [dec_fuel]; destruct (n <? 10) eqn:E; try reflexivity.
  - change (10 ^ Z.of_nat 1) with 10 in H1. lia.
  - destruct f2 as [|f2]; [change (10 ^ Z.of_nat 1) with 10 in H2; lia|].
    rewrite !Nat2Z.inj_succ, !Z.pow_succ_r in H1, H2 by lia.
    apply IH; rewrite ?Nat2Z.inj_succ, ?Z.pow_succ_r by lia.
    + split; [apply Z.div_pos; lia|]. apply Z.div_lt_upper_bound; lia.
    + apply Z.div_lt_upper_bound; lia.
Qed.
Lemma dec_nat_fuel n f : 0 <= n < 10 ^ Z.of_nat (S f) -> dec_nat n = dec_fuel (S f) n [].
Proof.
  intros H. unfold dec_nat. apply dec_fuel_enough; [|lia].
  split; [lia|]. destruct (Z.eq_dec n 0) as [->|]; [apply Z.pow_pos_nonneg; lia|].
  rewrite Nat2Z.inj_succ, Z2Nat.id by apply Z.log2_nonneg.
  apply Z.lt_le_trans with (2 ^ Z.succ (Z.log2 n)); [apply Z.log2_spec; lia|].
  apply Z.pow_le_mono_l. lia.
Qed.

Lemma py_and_int a b : py_and (inj a) (inj b) = inj (Z.land a b).
Proof. unfold py_and. rewrite !floor_z_int. reflexivity. Qed.
Lemma py_to_bytes2_int a : py_to_bytes2 (inj a) = (inj (a / 256), inj (a mod 256)).
Proof. unfold py_to_bytes2. rewrite !floor_z_int. reflexivity. Qed.

(* `autorewrite with pynum` rewrites the operations on inj / inj_frac arguments to Z arithmetic;
   pn_side discharges the side conditions: denominators and divisors built from positive numbers by *, ceil, round *)
Lemma ceil_div_pos n d : 0 < n -> 0 < d -> 0 < ceil_div n d.
Proof. intros. unfold ceil_div. assert ((- n) / d < 0) by (apply Z.div_lt_upper_bound; lia). lia. Qed.

Ltac pn_side :=
  first [ assumption | lia | apply ceil_div_pos; pn_side | apply Z.lt_le_incl; apply ceil_div_pos; pn_side
        | apply round_he_nonneg; pn_side
        | apply Z.mul_pos_pos; pn_side | apply Z.mul_nonneg_nonneg; pn_side ].

#[export] Hint Rewrite py_add_int py_sub_int py_mul_int py_neg_int py_floor_int py_ceil_int py_round_int py_int_int
  py_lt_int py_le_int py_eq_int inj_if : pynum.
#[export] Hint Rewrite py_floor_truediv_int py_mod_int py_mul_int_frac py_mul_frac_int py_add_int_frac py_add_frac_int
  py_sub_int_frac py_sub_frac_int py_truediv_frac_int py_truediv_int_frac py_truediv_int py_mod_frac_int py_lt_frac_int
  py_floor_frac py_ceil_frac py_round_frac py_int_frac_nonneg py_round_nd_frac py_add_frac py_sub_frac py_mul_frac
  using pn_side : pynum.
