(* Recorded finding for C14 (id ruby-base-emptied-by-region): with the significant-times cache, a ruby base (rb, or an
   rb inside rbc) that has no region of its own and whose children all belong to OTHER regions than the one being
   rendered is kept childless by _clone_doc_with_one_region and then pruned by the region test of
   ISD._process_element ("no children and not associated with the selected region"); without the cache the same element
   has children, passes the test, loses them one by one and is kept (Rb/Rbc are always kept).  Consequences:
     (1) <ruby><rb><span region=r2/></rb><rt><span region=r1/><span region=r2/></rt></ruby>: ISD.from_model(doc, t)
         returns a snapshot, ISD.from_model(doc, t, sig_times) raises ValueError (Ruby.push_children);
     (2) the same inside <rbc>/<rtc>: both return a snapshot, region r1 of the cached one lacks the (empty) <rb>.
   Model/CloneTrigger.v `clone_empties_doc` is the executable trigger; the `_partial` theorems of Properties/C14.v hold
   for every document on which it does not fire.  If this file stops compiling the finding is stale. *)
From TT Require Import Model.Doc Gen.StyleTables Model.Isd Model.SigTimes Model.CloneTrigger Model.IsdCases Spec.RenderSpec Spec.DocWf.
Open Scope Z_scope.

Definition w_at (k : kind) (reg : option text) : attrs := mkAttrs k None None None reg [] [] false [] [].
Definition w_text (s : text) : elem := Elem (mkAttrs KText None None None None [] [] false [] s) [].
Definition w_span (reg : text) (s : text) : elem := Elem (w_at KSpan (Some reg)) [w_text s].
Definition w_r1 : text := [114; 49].
Definition w_r2 : text := [114; 50].
Definition w_region (rid : text) : elem := Elem (mkAttrs KRegion (Some rid) None None None [] [] false [] []) [].
Definition w_rb : elem := Elem (w_at KRb None) [w_span w_r2 [98]].
Definition w_rt : elem := Elem (w_at KRt None) [w_span w_r1 [97]; w_span w_r2 [97]].
Definition w_doc (ruby_children : list elem) : doc :=
  mkDoc [w_region w_r1; w_region w_r2]
        (Some (Elem (w_at KBody None) [Elem (w_at KDiv None) [Elem (w_at KP None) [Elem (w_at KRuby None) ruby_children]]]))
        [] 15 32 1080 1920 None None [].
Definition c14_witness1 : doc := w_doc [w_rb; w_rt].
Definition c14_witness2 : doc := w_doc [Elem (w_at KRbc None) [w_rb]; Elem (w_at KRtc None) [w_rt]].

(* (1) the cached path raises where the uncached path returns a snapshot *)
Theorem C14_cached_raises_refuted :
  exists d t ds rs c, doc_wf d = true /\ clone_empties_doc d = true /\ cached_docs d = Ok ds /\ isd d t = Ok rs /\ isd_cached d t = Err c.
Proof.
  exists c14_witness1, 0%Q. eexists. eexists. eexists.
  split; [vm_compute; reflexivity|]. split; [vm_compute; reflexivity|]. split; [vm_compute; reflexivity|].
  split; vm_compute; reflexivity.
Qed.

(* (2) both return a snapshot; they differ inside a region that paints *)
Theorem C14_cached_render_refuted :
  exists d t rs rs', doc_wf d = true /\ clone_empties_doc d = true /\ isd d t = Ok rs /\ isd_cached d t = Ok rs' /\
                     isd_close (render rs') (render rs) = false.
Proof.
  exists c14_witness2, 0%Q. eexists. eexists.
  split; [vm_compute; reflexivity|]. split; [vm_compute; reflexivity|]. split; [vm_compute; reflexivity|].
  split; [vm_compute; reflexivity|vm_compute; reflexivity].
Qed.
Print Assumptions C14_cached_raises_refuted.  Print Assumptions C14_cached_render_refuted.
