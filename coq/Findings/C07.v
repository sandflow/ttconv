(* Recorded findings for C07 (findings_proposed/C07.txt): the full-strength statements are false of the faithful model.
   Witness documents are those of harness/witnesses_c07.py (re-run against the implementation on every check); every
   refutation is decided by vm_compute on the model.  If this file stops compiling a finding is stale (reported as such). *)
From TT Require Import Model.Doc Gen.StyleTables Model.Isd Model.SigTimes Model.TimeCode Model.IsdFilters Gen.CueTables Model.CueWriter.
From TT Require Import Model.CueTriggers Model.CueCases Spec.IsdSpec Spec.CueSpec Spec.CueSettings.
Open Scope Z_scope.

(* <p begin="1s" end="2s">first</p> <p begin="3s" end="3.0003s">x</p> *)
Definition w_collapsed : doc := (mkDoc [(Elem (mkAttrs KRegion (Some [114;48]) None None None [] [] false [] []) [])] (Some (Elem (mkAttrs KBody None None None None [] [] false [] []) [(Elem (mkAttrs KDiv None None None (Some [114;48]) [] [] false [] []) [(Elem (mkAttrs KP None (Some (Qmake 1 1)) (Some (Qmake 2 1)) None [] [] false [] []) [(Elem (mkAttrs KSpan None None None None [] [] false [] []) [(Elem (mkAttrs KText None None None None [] [] false [] [102;105;114;115;116]) [])])]); (Elem (mkAttrs KP None (Some (Qmake 3 1)) (Some (Qmake 30003 10000)) None [] [] false [] []) [(Elem (mkAttrs KSpan None None None None [] [] false [] []) [(Elem (mkAttrs KText None None None None [] [] false [] [120]) [])])])])])) [] 15 32 1080 1920 None None []).

(* xml:space="preserve": a <br/> "  " <br/> b *)
Definition w_blankline : doc := (mkDoc [(Elem (mkAttrs KRegion (Some [114;48]) None None None [] [] false [] []) [])] (Some (Elem (mkAttrs KBody None None None None [] [] false [] []) [(Elem (mkAttrs KDiv None None None (Some [114;48]) [] [] false [] []) [(Elem (mkAttrs KP None (Some (Qmake 1 1)) (Some (Qmake 2 1)) None [] [] true [] []) [(Elem (mkAttrs KSpan None None None None [] [] true [] []) [(Elem (mkAttrs KText None None None None [] [] false [] [97]) [])]); (Elem (mkAttrs KBr None None None None [] [] true [] []) []); (Elem (mkAttrs KSpan None None None None [] [] true [] []) [(Elem (mkAttrs KText None None None None [] [] false [] [32;32]) [])]); (Elem (mkAttrs KBr None None None None [] [] true [] []) []); (Elem (mkAttrs KSpan None None None None [] [] true [] []) [(Elem (mkAttrs KText None None None None [] [] false [] [98]) [])])])])])) [] 15 32 1080 1920 None None []).

(* xml:space="preserve": a <br/> "\r\nb" *)
Definition w_crlf : doc := (mkDoc [(Elem (mkAttrs KRegion (Some [114;48]) None None None [] [] false [] []) [])] (Some (Elem (mkAttrs KBody None None None None [] [] false [] []) [(Elem (mkAttrs KDiv None None None (Some [114;48]) [] [] false [] []) [(Elem (mkAttrs KP None (Some (Qmake 1 1)) (Some (Qmake 2 1)) None [] [] true [] []) [(Elem (mkAttrs KSpan None None None None [] [] true [] []) [(Elem (mkAttrs KText None None None None [] [] false [] [97]) [])]); (Elem (mkAttrs KBr None None None None [] [] true [] []) []); (Elem (mkAttrs KSpan None None None None [] [] true [] []) [(Elem (mkAttrs KText None None None None [] [] false [] [13;10;98]) [])])])])])) [] 15 32 1080 1920 None None []).

(* a --&gt; b *)
Definition w_arrow : doc := (mkDoc [(Elem (mkAttrs KRegion (Some [114;48]) None None None [] [] false [] []) [])] (Some (Elem (mkAttrs KBody None None None None [] [] false [] []) [(Elem (mkAttrs KDiv None None None (Some [114;48]) [] [] false [] []) [(Elem (mkAttrs KP None (Some (Qmake 1 1)) (Some (Qmake 2 1)) None [] [] false [] []) [(Elem (mkAttrs KSpan None None None None [] [] false [] []) [(Elem (mkAttrs KText None None None None [] [] false [] [97;32;45;45;62;32;98]) [])])])])])) [] 15 32 1080 1920 None None []).

(* <span tts:fontWeight="bold">B<span tts:fontWeight="normal">n</span></span> *)
Definition w_reset : doc := (mkDoc [(Elem (mkAttrs KRegion (Some [114;48]) None None None [] [] false [] []) [])] (Some (Elem (mkAttrs KBody None (Some (Qmake 1 1)) (Some (Qmake 2 1)) None [] [] false [] []) [(Elem (mkAttrs KDiv None None None (Some [114;48]) [] [] false [] []) [(Elem (mkAttrs KP None None None None [] [] false [] []) [(Elem (mkAttrs KSpan None None None None [(11, (VEnum 1))] [] false [] []) [(Elem (mkAttrs KText None None None None [] [] false [] [66]) []); (Elem (mkAttrs KSpan None None None None [(11, (VEnum 0))] [] false [] []) [(Elem (mkAttrs KText None None None None [] [] false [] [110]) [])])])])])])) [] 15 32 1080 1920 None None []).


(* two paragraphs, both tts:textAlign="center", in one region *)
Definition w_align : doc := (mkDoc [(Elem (mkAttrs KRegion (Some [114;48]) None None None [] [] false [] []) [])] (Some (Elem (mkAttrs KBody None (Some (Qmake 1 1)) (Some (Qmake 2 1)) None [] [] false [] []) [(Elem (mkAttrs KDiv None None None (Some [114;48]) [] [] false [] []) [(Elem (mkAttrs KP None None None None [(26, (VEnum 0))] [] false [] []) [(Elem (mkAttrs KSpan None None None None [] [] false [] []) [(Elem (mkAttrs KText None None None None [] [] false [] [111;110;101]) [])])]); (Elem (mkAttrs KP None None None None [(26, (VEnum 0))] [] false [] []) [(Elem (mkAttrs KSpan None None None None [] [] false [] []) [(Elem (mkAttrs KText None None None None [] [] false [] [116;119;111]) [])])])])])) [] 15 32 1080 1920 None None []).

Definition lp : vtt_config := mkVttConfig true false true.
Definition dflt : vtt_config := mkVttConfig false false true.

(* The snapshot sequence takes most of every evaluation below: it is evaluated once per witness, as a constant, and the writers and
   the specification run on that. *)
Definition snaps (d : doc) := match isd_sequence d with Ok seq => seq | Err _ => [] end.
Definition collapsed_seq := Eval vm_compute in snaps w_collapsed.
Lemma collapsed_seq_eq : isd_sequence w_collapsed = Ok collapsed_seq.
Proof. vm_compute. reflexivity. Qed.
Definition arrow_seq := Eval vm_compute in snaps w_arrow.
Lemma arrow_seq_eq : isd_sequence w_arrow = Ok arrow_seq.
Proof. vm_compute. reflexivity. Qed.
Definition crlf_seq := Eval vm_compute in snaps w_crlf.
Lemma crlf_seq_eq : isd_sequence w_crlf = Ok crlf_seq.
Proof. vm_compute. reflexivity. Qed.
Definition reset_seq := Eval vm_compute in snaps w_reset.
Lemma reset_seq_eq : isd_sequence w_reset = Ok reset_seq.
Proof. vm_compute. reflexivity. Qed.
Definition align_seq := Eval vm_compute in snaps w_align.
Lemma align_seq_eq : isd_sequence w_align = Ok align_seq.
Proof. vm_compute. reflexivity. Qed.

(* collapsed-interval-valueerror: C07_total_partial_srt / _vtt without the trig_collapsed hypothesis *)
Theorem C07_total_collapsed_refuted : exists d seq cs,
  isd_sequence d = Ok seq /\ srt_cues true seq = Ok cs /\ trig_collapsed cs = true /\
  srt_of_seq true (Ok seq) = Err errToString /\ vtt_of_seq dflt (Ok seq) = Err errToString.
Proof.
  exists w_collapsed, collapsed_seq. eexists. split; [exact collapsed_seq_eq|]. split; [vm_compute; reflexivity|].
  split; [vm_compute; reflexivity|]. split; vm_compute; reflexivity.
Qed.
(* arrow-in-payload *)
Theorem C07_wf_arrow_refuted : exists d o1 o2,
  srt_from_model d true = Ok o1 /\ srt_wf o1 = false /\ vtt_from_model d dflt = Ok o2 /\ vtt_wf o2 = false.
Proof. exists w_arrow. unfold srt_from_model, vtt_from_model. rewrite arrow_seq_eq. eexists. eexists. split; [vm_compute; reflexivity|]. split; [vm_compute; reflexivity|]. split; [vm_compute; reflexivity|vm_compute; reflexivity]. Qed.
(* blank-looking-line-in-payload: a line of preserved spaces (SubRip), LF CR LF (WebVTT and SubRip) *)
Theorem C07_wf_blank_line_refuted : exists d1 d2 o1 o2 o3,
  srt_from_model d1 true = Ok o1 /\ srt_wf o1 = false /\
  srt_from_model d2 true = Ok o2 /\ srt_wf o2 = false /\ vtt_from_model d2 dflt = Ok o3 /\ vtt_wf o3 = false.
Proof.
  exists w_blankline, w_crlf. unfold srt_from_model at 2, vtt_from_model. rewrite crlf_seq_eq. eexists. eexists. eexists. split; [vm_compute; reflexivity|]. split; [vm_compute; reflexivity|].
  split; [vm_compute; reflexivity|]. split; [vm_compute; reflexivity|]. split; [vm_compute; reflexivity|vm_compute; reflexivity].
Qed.
(* nested-span-resets-style: the character n is computed normal and written inside <b>...</b> *)
Theorem C07_runs_refuted : exists d seq o cs,
  isd_sequence d = Ok seq /\ srt_from_model d true = Ok o /\ srt_wf o = true /\ srt_parse o = Some cs /\
  runs_ok true false srt_cstyle srt_runs seq cs = false /\ trig_reset_style seq = true.
Proof.
  exists w_reset, reset_seq. unfold srt_from_model. rewrite reset_seq_eq. eexists. eexists. split; [reflexivity|]. split; [vm_compute; reflexivity|].
  split; [vm_compute; reflexivity|]. split; [vm_compute; reflexivity|]. split; vm_compute; reflexivity.
Qed.

(* align-lost-when-paragraphs-merged: the output is well formed, its cue settings are not the prescribed ones *)
Theorem C07_cue_settings_refuted : exists d seq o cs,
  isd_sequence d = Ok seq /\ vtt_from_model d (mkVttConfig false true true) = Ok o /\ vtt_wf o = true /\ vtt_parse o = Some cs /\
  settings_ok false true seq cs = false /\ trig_align_lost (mkVttConfig false true true) seq = true.
Proof.
  exists w_align, align_seq. unfold vtt_from_model. rewrite align_seq_eq. eexists. eexists. split; [reflexivity|]. split; [vm_compute; reflexivity|].
  split; [vm_compute; reflexivity|]. split; [vm_compute; reflexivity|]. split; vm_compute; reflexivity.
Qed.

Print Assumptions C07_cue_settings_refuted.
Print Assumptions C07_total_collapsed_refuted.  Print Assumptions C07_wf_arrow_refuted.
Print Assumptions C07_wf_blank_line_refuted.  Print Assumptions C07_runs_refuted.
