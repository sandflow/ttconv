(* Recorded findings for C06 (findings_proposed/C06.txt): the full-strength statements are false of the faithful model.
   Witness documents are those of harness/witnesses_c06.py (re-run against the implementation on every check); every
   refutation is decided by vm_compute on the model.  If this file stops compiling a finding is stale (reported as such). *)
From TT Require Import Model.Doc Gen.StyleTables Model.Isd Model.SigTimes Model.TimeCode Model.IsdFilters Gen.CueTables Model.CueWriter.
From TT Require Import Model.CueTriggers Spec.IsdSpec Spec.CueSpec Proofs.C06.Filters Proofs.C06.Inline Proofs.C06.Loop Proofs.C06.Text.
Open Scope Z_scope.

(* <p begin="1s" end="2s">first</p> <p begin="3s" end="3.0003s">x</p> *)
Definition w_collapsed : doc := (mkDoc [(Elem (mkAttrs KRegion (Some [114;48]) None None None [] [] false [] []) [])] (Some (Elem (mkAttrs KBody None None None None [] [] false [] []) [(Elem (mkAttrs KDiv None None None (Some [114;48]) [] [] false [] []) [(Elem (mkAttrs KP None (Some (Qmake 1 1)) (Some (Qmake 2 1)) None [] [] false [] []) [(Elem (mkAttrs KSpan None None None None [] [] false [] []) [(Elem (mkAttrs KText None None None None [] [] false [] [102;105;114;115;116]) [])])]); (Elem (mkAttrs KP None (Some (Qmake 3 1)) (Some (Qmake 30003 10000)) None [] [] false [] []) [(Elem (mkAttrs KSpan None None None None [] [] false [] []) [(Elem (mkAttrs KText None None None None [] [] false [] [120]) [])])])])])) [] 15 32 1080 1920 None None []).

(* xml:space="preserve": a <br/> "  " <br/> b *)
Definition w_blankline : doc := (mkDoc [(Elem (mkAttrs KRegion (Some [114;48]) None None None [] [] false [] []) [])] (Some (Elem (mkAttrs KBody None None None None [] [] false [] []) [(Elem (mkAttrs KDiv None None None (Some [114;48]) [] [] false [] []) [(Elem (mkAttrs KP None (Some (Qmake 1 1)) (Some (Qmake 2 1)) None [] [] true [] []) [(Elem (mkAttrs KSpan None None None None [] [] true [] []) [(Elem (mkAttrs KText None None None None [] [] false [] [97]) [])]); (Elem (mkAttrs KBr None None None None [] [] true [] []) []); (Elem (mkAttrs KSpan None None None None [] [] true [] []) [(Elem (mkAttrs KText None None None None [] [] false [] [32;32]) [])]); (Elem (mkAttrs KBr None None None None [] [] true [] []) []); (Elem (mkAttrs KSpan None None None None [] [] true [] []) [(Elem (mkAttrs KText None None None None [] [] false [] [98]) [])])])])])) [] 15 32 1080 1920 None None []).

(* a --&gt; b *)
Definition w_arrow : doc := (mkDoc [(Elem (mkAttrs KRegion (Some [114;48]) None None None [] [] false [] []) [])] (Some (Elem (mkAttrs KBody None None None None [] [] false [] []) [(Elem (mkAttrs KDiv None None None (Some [114;48]) [] [] false [] []) [(Elem (mkAttrs KP None (Some (Qmake 1 1)) (Some (Qmake 2 1)) None [] [] false [] []) [(Elem (mkAttrs KSpan None None None None [] [] false [] []) [(Elem (mkAttrs KText None None None None [] [] false [] [97;32;45;45;62;32;98]) [])])])])])) [] 15 32 1080 1920 None None []).


(* Both writers start from the snapshot sequence, which takes most of their evaluation: it is evaluated once, as a constant. *)
Definition collapsed_seq := Eval vm_compute in match isd_sequence w_collapsed with Ok seq => seq | Err _ => [] end.
Lemma collapsed_seq_eq : isd_sequence w_collapsed = Ok collapsed_seq.
Proof. vm_compute. reflexivity. Qed.

(* no-cues-when-writer-raises: the property prescribes two cues, the writer returns nothing *)
Theorem C06_no_cues_refuted : exists d ts,
  sig d = Ok ts /\ length (cue_spec false d ts) = 2%nat /\ srt_from_model d true = Err errToString /\
  vtt_from_model d (mkVttConfig false false true) = Err errToString.
Proof.
  exists w_collapsed. eexists. split; [vm_compute; reflexivity|]. split; [vm_compute; reflexivity|].
  unfold srt_from_model, vtt_from_model. rewrite collapsed_seq_eq. split; vm_compute; reflexivity.
Qed.

(* payload-not-recoverable: the cues a reader finds in the output are not the prescribed ones (here: the file does not even parse) *)
Theorem C06_payload_refuted : exists d1 d2 out1 out2,
  srt_from_model d1 true = Ok out1 /\ srt_parse out1 = None /\
  vtt_from_model d2 (mkVttConfig false false true) = Ok out2 /\ vtt_parse out2 = None.
Proof.
  exists w_blankline, w_arrow. eexists. eexists. split; [vm_compute; reflexivity|]. split; [vm_compute; reflexivity|].
  split; [vm_compute; reflexivity|vm_compute; reflexivity].
Qed.

Print Assumptions C06_no_cues_refuted.  Print Assumptions C06_payload_refuted.
