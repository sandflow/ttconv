(* Recorded findings for C09 (KNOWN_FINDINGS.txt).  One is left: df-23976 (it is C12's roundtrip-23976 in time_code.py,
   pinned by the tests).  tcp-attribute-error, mnr-sets-start-offset, sn-identity, cumulative-before-first,
   tf-strip-not-cut, iso6937-a4, comment-flag-ignored, blank-row-dropped, vp-zero-above-safe-area and tnb-zero-division
   were repaired and their refutations removed (their inputs are Examples of Properties/C09.v now).  Each theorem
   exhibits an input on which the faithful model of ttconv/stl (and, by the correspondence run, the code) departs from
   the specification; the matching trigger is in Model/StlTriggers.v and the `_partial` theorems in Properties/C09.v.
   If this file stops compiling a finding is stale, which the check reports as such (it is not a violation). *)
From Coq Require Import QArith.
From TT Require Import Base.Prelude Model.TimeCode Model.Iso6937 Model.StlTf Model.StlDatafile Model.StlTriggers.
From TT Require Import Spec.Smpte12M Spec.Ebu3264Spec.
From TT Require Import Proofs.C09.Tables Proofs.C09.TextField Proofs.C09.Times Proofs.C09.Datafile Proofs.C09.File.
Open Scope Z_scope.

(* df-23976: 00:01:00:00 at 24000/1001 is placed one frame early *)
Theorem C09_offset_23976_refuted : exists l, valid 24 0 l /\ ~ (offset_q r23976 l == time_of (mkFR 24000 1001 24 0) l)%Q.
Proof. exact offset23976_refuted. Qed.

(* ... and so is a whole file: the specification's domain contains a file (STL23.01, one subtitle at 00:01:00:00) whose
   document the reader returns does not match the presentation - C09_file_partial without its trigger hypothesis is false *)
Definition file_23976 : list Z :=
  put 3 [83; 84; 76; 50; 51; 46; 48; 49] witness_gsi ++
  [0; 1; 0; 255; 0; 0; 1; 0; 0; 0; 1; 1; 0; 20; 2; 0] ++ firstn 112 ([65] ++ repeat 143 112%nat).
Theorem C09_file_refuted : exists file cfg sc groups rows d,
  Forall is_byte file /\ spec_start (cf_start cfg) = Some sc /\
  presentation file sc (spec_rows (cf_rows cfg)) = Some (groups, rows) /\
  reader_model file cfg = Ok d /\ ~ doc_matches rows d groups.
Proof.
  exists file_23976, cfg0, StartNone.
  eexists. eexists. eexists. split; [|split; [reflexivity|split; [vm_compute; reflexivity|split; [vm_compute; reflexivity|]]]].
  - apply bytes_ok. vm_compute. reflexivity.
  - unfold doc_matches. cbn [d_divs d_regions]. intros H.
    inversion H as [|? ? ? ? Hd _]; subst. inversion Hd as [|? ? ? ? Hp _]; subst.
    destruct Hp as (_ & Hparts & _). vm_compute in Hparts. discriminate Hparts.
Qed.

Print Assumptions C09_offset_23976_refuted.  Print Assumptions C09_file_refuted.
